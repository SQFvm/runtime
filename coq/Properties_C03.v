(* C03 - variable scoping: dynamic lookup of locals, plain assignment, the binders of the current
   scope, what ends with a scope or an iteration, spawn, globals and the namespace selected by with-do.
   The longer proofs live in VM/C03Proofs.v, the vocabulary in VM/C03Defs.v.  The theorems are about the
   executable VM model (VM/VmDefs.v, VM/VmExec.v), which checks/C03.py runs against the real
   interpreter on every check (instruction listing, per-step trace, final observation).
   Frames are listed current (innermost) scope first; the statements hold for every frame stack of any depth,
   every machine state and every name. *)
From Coq Require Import String Ascii ZArith List Bool.
Import ListNotations.
From SqfVerif Require Import Gen.DiagCodes VM.VmDefs VM.VmExec VM.VmFacts VM.OpEffect VM.C04Defs VM.C04Proofs VM.C03Defs VM.C03Proofs.
Local Open Scope string_scope.
Local Open Scope list_scope.

(* ---- 1. Lookup.  context::get_variable returns the binding of the innermost frame that holds the
   lower-cased name, looking no further than a frame that does not let the search through; complete
   characterisation of both outcomes, and only the lower-cased form of the name matters. *)
Theorem C03_lookup_innermost : forall c n,
  (forall v, get_variable c n = Some v <->
     exists pre f post, c_frames c = pre ++ f :: post /\ Forall (passes (lower n)) pre /\
                        assoc (lower n) (f_vars f) = Some v) /\
  (get_variable c n = None <->
     Forall (passes (lower n)) (c_frames c) \/
     exists pre f post, c_frames c = pre ++ f :: post /\ Forall (passes (lower n)) pre /\
                        lacks (lower n) f /\ f_bubble f = false) /\
  (forall m, lower m = lower n -> get_variable c m = get_variable c n).
Proof. exact lookup_innermost. Qed.
Print Assumptions C03_lookup_innermost.

(* ---- 2. Plain assignment  _n = v  (ASSIGNTO, assign_to.h).  Either there was no value to assign and the
   context is untouched, or: the popped value goes to exactly one frame's map - the nearest frame that
   already holds the name, otherwise the current frame ([assigned]); every frame keeps its code, position,
   base, namespace, behaviours, scope name (only f_vars of that one frame differs, and only at that key);
   the operand stack below the popped value, the other fields of the context, all namespaces, all other
   contexts are unchanged; the next read of the name yields the value (when no frame blocks the search),
   reads of other names are unaffected. *)
Theorem C03_assign_updates_nearest_else_current : forall n r c r' c',
  is_local n = true -> exec_instr (IAssign n) r c = Ok (r', c') ->
  same_store r r' /\
  ((pop_value c = None /\ c' = c) \/
   exists v, c_values c = v :: c_values c' /\
     assigned (lower n) v (c_frames c) (c_frames c') /\
     c' = set_frames (set_values c (c_values c')) (c_frames c') /\
     Forall2 (fun g g' => g' = set_vars g (f_vars g')) (c_frames c) (c_frames c') /\
     (forall k', k' <> lower n ->
        Forall2 (fun g g' => assoc k' (f_vars g') = assoc k' (f_vars g)) (c_frames c) (c_frames c')) /\
     (Forall (fun g => f_bubble g = true) (c_frames c) -> get_variable c' n = Some v) /\
     (forall m, lower m <> lower n -> get_variable c' m = get_variable c m)).
Proof. exact assign_updates_nearest_else_current. Qed.
Print Assumptions C03_assign_updates_nearest_else_current.

(* ---- 3. The binders of the current scope.
   private _n = v (ASSIGNTOLOCAL): the current frame's map gets the value, whatever outer frames hold. *)
Theorem C03_assign_to_local_current_only : forall n r c r' c',
  exec_instr (IAssignLocal n) r c = Ok (r', c') ->
  same_store r r' /\
  (n = "" -> c_frames c' = c_frames c) /\
  (n <> "" ->
   (pop_value c = None /\ c' = c) \/
   exists v f rest, c_values c = v :: c_values c' /\ c_frames c = f :: rest /\
                    c_frames c' = set_vars f (assoc_set (lower n) v (f_vars f)) :: rest /\
                    c' = set_frames (set_values c (c_values c')) (c_frames c')).
Proof.
  intros n r c r' c' H. cbn [exec_instr] in H. destruct (String.eqb n "") eqn:En.
  - apply String.eqb_eq in En. subst n. inversion H; subst; clear H. split; [apply same_store_refl|].
    split; [|intros N; now elim N]. intros _.
    destruct (pop_value c) as [[v c1]|] eqn:P; [|reflexivity].
    apply pop_value_inv in P. destruct P as (vs & f & rest & _ & _ & _ & ->). reflexivity.
  - apply String.eqb_neq in En. destruct (pop_value c) as [[v c1]|] eqn:P.
    + inversion H; subst; clear H. apply pop_value_inv in P. destruct P as (vs & f & rest & EV & EF & _ & ->).
      split; [destruct v; auto using same_store_refl, same_store_logmsg|]. split; [intros; contradiction|]. intros _.
      right. exists v, f, rest. unfold set_top_var, upd_top. cbn. rewrite EF. cbn. repeat split; assumption.
    + inversion H; subst; clear H. split; [apply same_store_logmsg|]. split; [intros; contradiction|]. intros _. left. auto.
Qed.
Print Assumptions C03_assign_to_local_current_only.

(* private "n": only the current frame's map changes; a name it does not hold is bound to nil there (and
   then shadows every outer binding), a name it already holds KEEPS its value (value_scope::at). *)
Theorem C03_private_string_current_only : forall s r c r' c' x f rest,
  op_unary "private" (VStr s) r c = Ok (r', c', x) -> c_frames c = f :: rest ->
  r' = r /\ x = VNil /\
  exists vars, c_frames c' = set_vars f vars :: rest /\ declared [lower s] (f_vars f) vars /\
               c' = set_frames c (c_frames c') /\
               (lacks (lower s) f -> get_variable c' s = Some VNil) /\
               (forall v, assoc (lower s) (f_vars f) = Some v -> get_variable c' s = Some v).
Proof.
  intros s r c r' c' x f rest H E. apply op_private_string in H. destruct H as (-> & -> & ->). split; [reflexivity|]. split; [reflexivity|].
  destruct (declare_top_var_frames c s f rest E) as (vars & F & M & R). exists vars.
  assert (D : declared [lower s] (f_vars f) vars).
  { intros k. rewrite (M k). cbn. destruct (assoc k (f_vars f)); [reflexivity|]. destruct (String.eqb k (lower s)); reflexivity. }
  split; [exact F|]. split; [exact D|]. split; [exact R|].
  unfold get_variable. rewrite F. cbn. rewrite (M (lower s)), String.eqb_refl. split.
  - unfold lacks. intros ->. reflexivity.
  - intros v ->. reflexivity.
Qed.
Print Assumptions C03_private_string_current_only.

(* private ["a","b",..]: the same for every listed name *)
Theorem C03_private_array_current_only : forall l r c r' c' x f rest,
  op_unary "private" (VArr l) r c = Ok (r', c', x) -> c_frames c = f :: rest ->
  r' = r /\ x = VNil /\
  exists vars, c_frames c' = set_vars f vars :: rest /\ declared (names_of l) (f_vars f) vars /\
               c' = set_frames c (c_frames c').
Proof.
  intros l r c r' c' x f rest H E. apply op_private_array in H. destruct H as (-> & -> & _ & ->). split; [reflexivity|]. split; [reflexivity|].
  exact (fold_declare_frames l c f rest E).
Qed.
Print Assumptions C03_private_array_current_only.

(* ---- 4. End of a scope.  When the current frame completes (the frame-completion branch of execute_do:
   do_iter answers Continue and the frame's exit behaviour raised no error), the script's frames are
   exactly the frames that were below it - the same frames, with the same variable maps - and namespaces
   and the other scripts are untouched. *)
Theorem C03_pop_drops_exactly_own : forall r c f rest r',
  cur r = Some c -> c_frames c = f :: rest -> do_iter r = Ok (Continue r') ->
  (forall fr r1 c1, frame_next frame_fuel r c = Ok (fr, r1, c1) -> r_err r1 = false) ->
  exists c', cur r' = Some c' /\ c_frames c' = rest /\
             r_nss r' = r_nss r /\ r_active r' = r_active r /\
             (forall j, r_active r <> Some j -> nth_error (r_ctxs r') j = nth_error (r_ctxs r) j).
Proof.
  intros r c f rest r' C E H NoErr. apply do_iter_pass in H.
  (* of the answers of do_iter only the completion of the scope is a Continue without an error *)
  inversion H as [ | | | |c0 fr r1 c1 b r2 Hr N Er _ Eq|c0 r1 c1 Hr N _ _ Eq| | |c0 fr r1 c1 i r2 r3 c5 b r5 _ _ _ _ _ _ _ _ _ Eq| | ];
    [| |destruct b; discriminate]; destruct Hr as (_ & C0 & _); rewrite C in C0; injection C0 as <-;
    [rewrite (NoErr _ _ _ N) in Er; discriminate|].
  destruct (frame_next_effect _ _ _ _ _ _ _ _ N E) as ((Nss & Cx & Act) & f1 & E1 & _).
  eexists. split; [apply (cur_upd_cur r1 c); unfold cur; rewrite Cx, Act; exact C|].
  split; [exact (frames_complete_frame _ _ _ _ E1)|].
  split; [rewrite nss_upd_cur; exact Nss|]. split; [rewrite active_upd_cur; exact Act|].
  intros j Nj. unfold upd_cur. rewrite Act. destruct (r_active r) as [i|]; cbn; [|now rewrite Cx].
  rewrite Cx. apply nth_error_list_upd_other. congruence.
Qed.
Print Assumptions C03_pop_drops_exactly_own.

(* ---- 5. Iterations.  Whenever the exit behaviour of a loop scope makes the scope run again (count, select,
   apply, findIf, forEach, for, while - condition and body -, waitUntil), the scope's variable map is
   replaced by exactly the documented bindings of the NEW iteration (_x / _forEachIndex of the element at
   the advanced index, the for-variable advanced by the step, nothing for while/waitUntil): nothing bound
   during the previous iteration survives.  Frames below are untouched; namespaces and scripts too. *)
Theorem C03_loop_iteration_clears_scope : forall b r c br b' r' c' f rest,
  enact b r c = Ok (br, b', r', c') -> c_frames c = f :: rest ->
  same_store r r' /\ same_kind b b' /\
  if restarts br b
  then exists vars, c_frames c' = set_vars f vars :: rest /\ fresh_scope b' vars /\ for_advances b f vars
  else (c_frames c' = f :: rest \/ (c_frames c' = set_vars f [] :: rest /\ fresh_scope b' [])).
Proof. exact enact_effect. Qed.
Print Assumptions C03_loop_iteration_clears_scope.

(* ... and through frame::next (which may re-run empty bodies several times): only the current frame is
   touched, it keeps its namespace and base, and its scope name unless it starts over (a loop going round is a new scope, its name
   is empty again); its variables are the ones it had or a fresh iteration's bindings of the same loop. *)
Theorem C03_frame_next_touches_current_scope_only : forall fuel r c fr r1 c1 f rest,
  frame_next fuel r c = Ok (fr, r1, c1) -> c_frames c = f :: rest ->
  same_store r r1 /\
  exists f1, c_frames c1 = f1 :: rest /\ same_scope_id f f1 /\ vars_kept_or_fresh f f1.
Proof. exact frame_next_effect. Qed.
Print Assumptions C03_frame_next_touches_current_scope_only.

(* ---- 6. spawn.  The new script has one frame, in the default namespace, whose map is exactly _thisScript and
   _this: every other local name - whatever the starter's frames hold - is undefined there; the starter
   is unchanged. *)
Theorem C03_spawn_sees_no_locals : forall l body r c r' c' x,
  op_binary "spawn" l (VCode body) r c = Ok (r', c', x) ->
  c' = c /\ x = VScript (r_next_id r) /\ r_nss r' = r_nss r /\ r_active r' = r_active r /\
  exists nc f, r_ctxs r' = r_ctxs r ++ [nc] /\ c_frames nc = [f] /\ c_values nc = [] /\ c_id nc = r_next_id r /\
    f_vars f = [("_thisscript", VScript (r_next_id r)); ("_this", l)] /\ f_ns f = default_ns /\ f_code f = body /\
    (forall n, lower n <> "_thisscript" -> lower n <> "_this" -> get_variable nc n = None) /\
    get_variable nc "_this" = Some l.
Proof.
  intros l body r c r' c' x.
  cbn. intros H; inversion H; subst; clear H. repeat split.
  eexists; eexists. repeat split.
  intros n N1 N2. unfold get_variable. cbn.
  apply String.eqb_neq in N1. apply String.eqb_neq in N2. now rewrite N1, N2.
Qed.
Print Assumptions C03_spawn_sees_no_locals.

(* No instruction executed by one script changes a frame of another script: the stored frame stacks are
   the same afterwards, except that spawn appends the new script.  And namespace storage is written only by
   the assignment of a global name (into the current frame's namespace) and by setVariable. *)
Theorem C03_scripts_isolated_and_namespace_writers : forall i r c r' c',
  exec_instr i r c = Ok (r', c') ->
  (r_nss r' = r_nss r \/
   (exists n v f rest, i = IAssign n /\ is_local n = false /\ c_frames c = f :: rest /\
                       r_nss r' = r_nss (ns_set r (f_ns f) n v)) \/
   (exists n s name y, i = IBinary n /\ lower n = "setvariable" /\ r_nss r' = r_nss (ns_set r s name y))) /\
  (ctx_frames r' = ctx_frames r \/
   exists n nc f l, i = IBinary n /\ lower n = "spawn" /\ r_ctxs r' = r_ctxs r ++ [nc] /\ c_frames nc = [f] /\
                    f_ns f = default_ns /\ f_vars f = [("_thisscript", VScript (r_next_id r)); ("_this", l)]).
Proof. exact exec_instr_store. Qed.
Print Assumptions C03_scripts_isolated_and_namespace_writers.

(* ---- 7. Globals.  Only the lower-cased form of a global's name matters, for reading, writing and the
   GETVARIABLE instruction, which reads the namespace of the current frame. *)
Theorem C03_globals_case_insensitive : forall r ns n m, lower n = lower m ->
  ns_get r ns n = ns_get r ns m /\ (forall v, ns_set r ns n v = ns_set r ns m v) /\
  (forall c f rest, is_local n = false -> is_local m = false -> c_frames c = f :: rest ->
     exec_instr (IGet n) r c = exec_instr (IGet m) r c).
Proof. exact globals_case_insensitive. Qed.
Print Assumptions C03_globals_case_insensitive.

Theorem C03_get_global_reads_current_namespace : forall n r c f rest,
  is_local n = false -> c_frames c = f :: rest ->
  exec_instr (IGet n) r c =
  match ns_get r (f_ns f) n with
  | Some v => Ok (r, push_value c v)
  | None => Ok (logmsg r d_VariableNotFound, push_value c VNil) end.
Proof. exact exec_get_global. Qed.
Print Assumptions C03_get_global_reads_current_namespace.

(* ns setVariable [name, x]: afterwards getVariable (both forms) on that namespace and a plain read of the
   name in a scope running in that namespace give x, for any spelling of the name; every other name and
   namespace reads as before; no script's frames change. *)
Theorem C03_get_set_variable_same_storage : forall s name name' x r c r1 c1 y,
  op_binary "setvariable" (VNs s) (VArr [VStr name; x]) r c = Ok (r1, c1, y) -> lower name' = lower name ->
  op_binary "getvariable" (VNs s) (VStr name') r1 c1 = Ok (r1, c1, x) /\
  (forall d, op_binary "getvariable" (VNs s) (VArr [VStr name'; d]) r1 c1 = Ok (r1, c1, x)) /\
  (forall f rest, c_frames c1 = f :: rest -> f_ns f = s -> is_local name' = false ->
     exec_instr (IGet name') r1 c1 = Ok (r1, push_value c1 x)) /\
  (forall s' m, s' <> s \/ lower m <> lower name -> ns_get r1 s' m = ns_get r s' m) /\
  r_ctxs r1 = r_ctxs r /\ c1 = c.
Proof. exact get_set_variable_same_storage. Qed.
Print Assumptions C03_get_set_variable_same_storage.

(* g = v  for a global name: written into the namespace of the current frame; getVariable on that namespace
   and a plain read in any scope running in it give v back, for any spelling; nothing else is written. *)
Theorem C03_assign_global_same_storage : forall n r c r' c' v c1 f rest,
  is_local n = false -> n <> "" -> pop_value c = Some (v, c1) -> c_frames c = f :: rest ->
  exec_instr (IAssign n) r c = Ok (r', c') ->
  c' = c1 /\ r_nss r' = r_nss (ns_set r (f_ns f) n v) /\ r_ctxs r' = r_ctxs r /\
  (forall m, lower m = lower n ->
     op_binary "getvariable" (VNs (f_ns f)) (VStr m) r' c' = Ok (r', c', v) /\
     (forall g rs, c_frames c' = g :: rs -> f_ns g = f_ns f -> is_local m = false ->
        exec_instr (IGet m) r' c' = Ok (r', push_value c' v))) /\
  (forall s' m, s' <> f_ns f \/ lower m <> lower n -> ns_get r' s' m = ns_get r s' m).
Proof.
  intros n r c r' c' v c1 f rest L N P E H. destruct (exec_assign_global _ _ _ _ _ L N H) as [(P0 & _)|(v0 & f0 & rest0 & P1 & E1 & Fr & Nss & Cx & G)];
    [congruence|].
  rewrite P in P1. inversion P1; subst v0 c'. rewrite E in E1. inversion E1; subst f0 rest0.
  split; [reflexivity|]. split; [exact Nss|]. split; [exact Cx|].
  assert (Q : forall s' m, ns_get r' s' m = ns_get (ns_set r (f_ns f) n v) s' m).
  { intros. unfold ns_get. now rewrite Nss. }
  split.
  - intros m Em. assert (G' : ns_get r' (f_ns f) m = Some v) by (rewrite (ns_get_case _ _ _ _ Em); exact G).
    split; [rewrite op_getvariable_string, G'; reflexivity|].
    intros g rs Eg Ens Lm. rewrite (exec_get_global _ _ _ _ _ Lm Eg), Ens, G'. reflexivity.
  - intros s' m D. rewrite Q. now apply ns_get_set_other.
Qed.
Print Assumptions C03_assign_global_same_storage.

(* ---- 8. The namespace selected by with-do.  ns_of lists the namespaces of a script's scopes, current first.
   Executing ANY instruction either leaves that list alone, or pushes a scope that inherits the namespace of
   the current scope, or drops scopes from the top - or the instruction is  (with s) do {..}  and the new
   scope runs in s.  So the list evolves exactly like the stack of "selected namespace" of the nested
   with-do blocks, and by theorem 7 reads and writes of globals use its head: the namespace chosen by the
   innermost dynamically enclosing with-do (C03_spawn_sees_no_locals: a spawned script starts again in the default
   namespace; C03_frame_next_touches_current_scope_only and C03_pop_drops_exactly_own: loop iterations and scope ends
   never change the namespace of a scope that stays).
   This mirrors the code AFTER the repair "code run inside with-do left the selected namespace": before it,
   call/if/loops/... pushed their scope with the default namespace, i.e. the second alternative read
   ns_of c' = default_ns :: ns_of c, and  with uiNamespace do { call { g = 5 } }  wrote missionNamespace. *)
Theorem C03_with_do_selects_namespace : forall i r c r' c',
  exec_instr i r c = Ok (r', c') ->
  ns_step c c' \/
  exists n s body vs, i = IBinary n /\ lower n = "do" /\ c_values c = VCode body :: VWith s :: vs /\
                      ns_of c' = s :: ns_of c.
Proof. exact exec_instr_ns. Qed.
Print Assumptions C03_with_do_selects_namespace.

(* ... and for a whole pass of the execute_do loop (do_iter: frame::next with its exit behaviours, scope
   completion, the instruction, error handling with the frames it abandons): the script's namespace stack
   afterwards is the old one, the old one with a scope inheriting the current namespace pushed, a suffix of
   it - or the pass executed  (with s) do {..}  and pushed s.  The namespace of a scope that stays never
   changes, whatever the program does. *)
Theorem C03_with_do_selects_namespace_every_pass : forall r c it,
  cur r = Some c -> do_iter r = Ok it ->
  exists c', cur (iter_rt it) = Some c' /\ (ns_step c c' \/ with_do_pass c c').
Proof. exact do_iter_ns. Qed.
Print Assumptions C03_with_do_selects_namespace_every_pass.

(* ================================================================ the hypotheses are satisfiable *)
Definition ex_rt : rt := create_rt [] 0 0 (100 * 100) 150.
(* three scopes: the current one runs in uiNamespace and holds _b, both outer ones hold _a; one operand *)
Definition ex_frames : list frame :=
  [mk_frame "uiNamespace" [] None None [("_b", VNum 1)];
   mk_frame default_ns [] None None [("_a", VNum 7)];
   mk_frame default_ns [] None None [("_a", VNum 9)]].
Definition ex_ctx : context := set_values (set_frames (new_context 0 false) ex_frames) [VNum 5].

Example ex_lookup : get_variable ex_ctx "_A" = Some (VNum 7) /\ get_variable ex_ctx "_B" = Some (VNum 1) /\
                    get_variable ex_ctx "_zz" = None.
Proof. repeat split. Qed.

Example ex_assign_nearest :
  match exec_instr (IAssign "_A") ex_rt ex_ctx with
  | Ok (_, c') => Some (map f_vars (c_frames c'), c_values c')
  | _ => None end = Some ([[("_b", VNum 1)]; [("_a", VNum 5)]; [("_a", VNum 9)]], []).
Proof. reflexivity. Qed.

Example ex_assign_creates_in_current :
  match exec_instr (IAssign "_New") ex_rt ex_ctx with
  | Ok (_, c') => Some (map f_vars (c_frames c'))
  | _ => None end = Some [[("_b", VNum 1); ("_new", VNum 5)]; [("_a", VNum 7)]; [("_a", VNum 9)]].
Proof. reflexivity. Qed.

Example ex_assign_to_local_shadows :
  match exec_instr (IAssignLocal "_A") ex_rt ex_ctx with
  | Ok (_, c') => Some (map f_vars (c_frames c'), get_variable c' "_a")
  | _ => None end = Some ([[("_b", VNum 1); ("_a", VNum 5)]; [("_a", VNum 7)]; [("_a", VNum 9)]], Some (VNum 5)).
Proof. reflexivity. Qed.

Example ex_private_shadows_and_keeps :
  match op_unary "private" (VArr [VStr "_A"; VStr "_B"]) ex_rt ex_ctx with
  | Ok (_, c', _) => Some (map f_vars (c_frames c'), get_variable c' "_a")
  | _ => None end = Some ([[("_b", VNum 1); ("_a", VNil)]; [("_a", VNum 7)]; [("_a", VNum 9)]], Some VNil).
Proof. reflexivity. Qed.

(* a forEach scope that bound _tmp during the first iteration restarts with _forEachIndex / _x only *)
Definition ex_loop_ctx : context :=
  set_frames (new_context 0 false)
    [mk_frame default_ns [] (Some (BForEach [VNum 10; VNum 11] 0)) None
       [("_x", VNum 10); ("_foreachindex", VNum 0); ("_tmp", VNum 3)];
     mk_frame default_ns [] None None [("_a", VNum 7)]].
Example ex_iteration_restart :
  match enact (BForEach [VNum 10; VNum 11] 0) ex_rt ex_loop_ctx with
  | Ok (br, b', _, c') => Some (restarts br (BForEach [VNum 10; VNum 11] 0), b', map f_vars (c_frames c'))
  | _ => None end
  = Some (true, BForEach [VNum 10; VNum 11] 1, [[("_foreachindex", VNum 1); ("_x", VNum 11)]; [("_a", VNum 7)]]).
Proof. reflexivity. Qed.

(* a machine whose current scope has run to its end: the pass completes it (no exit behaviour, no error) *)
Definition ex_pop_rt : rt := set_state (set_active (set_ctxs ex_rt [ex_ctx]) (Some 0)) StRunning.
Example ex_pop_hypotheses :
  cur ex_pop_rt = Some ex_ctx /\
  match frame_next frame_fuel ex_pop_rt ex_ctx with Ok (_, r1, _) => r_err r1 | _ => true end = false /\
  match do_iter ex_pop_rt with
  | Ok (Continue r') => option_map (fun c => map f_vars (c_frames c)) (cur r')
  | _ => None end = Some [[("_a", VNum 7)]; [("_a", VNum 9)]].
Proof. split; [reflexivity|]. split; vm_compute; reflexivity. Qed.

(* with-do pushes the selected namespace, call inherits the current one, spawn starts from the default one *)
Example ex_with_do_pushes_selected :
  match exec_instr (IBinary "do") ex_rt (set_values ex_ctx [VCode []; VWith "parsingNamespace"]) with
  | Ok (_, c') => Some (ns_of c')
  | _ => None end = Some ["parsingNamespace"; "uiNamespace"; default_ns; default_ns].
Proof. reflexivity. Qed.
Example ex_call_inherits :
  match exec_instr (IUnary "call") ex_rt (set_values ex_ctx [VCode []]) with
  | Ok (_, c') => Some (ns_of c')
  | _ => None end = Some ["uiNamespace"; "uiNamespace"; default_ns; default_ns].
Proof. reflexivity. Qed.
Example ex_spawn_fresh :
  match op_binary "spawn" (VNum 3) (VCode []) ex_rt ex_ctx with
  | Ok (r', _, _) => Some (map (fun c => (map f_vars (c_frames c), ns_of c, get_variable c "_a")) (r_ctxs r'))
  | _ => None end = Some [([[("_thisscript", VScript 0); ("_this", VNum 3)]], [default_ns], None)].
Proof. reflexivity. Qed.

Example ex_setvariable_getvariable :
  match op_binary "setvariable" (VNs "uiNamespace") (VArr [VStr "Gv"; VNum 4]) ex_rt ex_ctx with
  | Ok (r1, c1, _) =>
      match op_binary "getvariable" (VNs "uiNamespace") (VArr [VStr "gV"; VNum (-1)]) r1 c1 with
      | Ok (_, _, v) => Some (v, ns_get r1 "missionNamespace" "gv")
      | _ => None end
  | _ => None end = Some (VNum 4, None).
Proof. reflexivity. Qed.

(* a whole program through compiler, scheduler and the machine: assignment in a callee reaches the caller's
   private variable, the callee's own binding is gone afterwards, the call inside with-do writes uiNamespace,
   globals are found under any spelling, the spawned script does not see _a *)
Definition ex_prog : list stmt :=
  [SLocal "_a" (ENum 1);
   SExpr (EUnary "call" (ECode [SAssign "_A" (ENum 2); SLocal "_b" (ENum 3)]));
   SExpr (EUnary "diag_log" (EArr [EVar "_a"; EUnary "isNil" (EStr "_b")]));
   SExpr (EBinary "do" (EUnary "with" (ENular "uiNamespace")) (ECode [SExpr (EUnary "call" (ECode [SAssign "Gv" (ENum 5)]))]));
   SExpr (EBinary "spawn" (EArr []) (ECode [SExpr (EUnary "diag_log" (EArr [EUnary "isNil" (EStr "_a")]))]));
   SExpr (EUnary "diag_log" (EArr [EBinary "getVariable" (ENular "uiNamespace") (EStr "gV"); EUnary "isNil" (EStr "gv")]))].
Example ex_program_run :
  run_final (load ex_rt (compile_block ex_prog)) =
  "-1:0:3:60019,M<[2,true]>,3:60019,M<[5,true]>,3:60095,M<VALUE nil>,3:60019,M<[true]>,3:60095,M<VALUE nil>,".
Proof. vm_compute. reflexivity. Qed.

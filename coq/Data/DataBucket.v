(* C07: a bucketed unique-key table (what std::unordered_map is: an entry lives in the bucket
   of its key's hash, a search looks at that bucket only) behaves as the reference dictionary
   (an association list searched with the key equality) whenever equal keys hash equally.
   Generic in keys, values, hash and bucket-index function; instantiated with trees, teq and
   vhash in Properties_C07.v. *)
From Coq Require Import ZArith List Bool Arith Lia.
Import ListNotations.

Section Bucket.
  Variables K V : Type.
  Variable keq : K -> K -> bool.        (* value::operator== on keys *)
  Variable khash : K -> Z.
  Variable bidx : Z -> nat -> nat.      (* hash -> bucket, for a table of n buckets *)
  Variable good : K -> Prop.            (* the keys the laws are known for (well-formed values) *)
  Hypothesis keq_sym : forall a b, good a -> good b -> keq a b = keq b a.
  Hypothesis keq_trans : forall a b c, keq a b = true -> keq b c = true -> keq a c = true.
  Hypothesis hash_ok : forall a b, good a -> good b -> keq a b = true -> khash a = khash b.
  Hypothesis bidx_lt : forall h n, 0 < n -> bidx h n < n.

  Notation entry := (K * V)%type.

  Definition dfind (es : list entry) (q : K) : option entry := find (fun e => keq q (fst e)) es.
  Fixpoint dset (es : list entry) (k : K) (v : V) : list entry :=
    match es with
    | [] => [(k, v)]
    | e :: es' => if keq k (fst e) then (fst e, v) :: es' else e :: dset es' k v
    end.
  Fixpoint ddel (es : list entry) (k : K) : list entry :=
    match es with
    | [] => []
    | e :: es' => if keq k (fst e) then es' else e :: ddel es' k
    end.
  Definition dget (es : list entry) (q : K) : option V := option_map snd (dfind es q).

  Definition goods (es : list entry) : Prop := Forall (fun e => good (fst e)) es.
  (* unique keys *)
  Fixpoint dist (es : list entry) : Prop :=
    match es with [] => True | e :: es' => (forall e', In e' es' -> keq (fst e) (fst e') = false) /\ dist es' end.

  Lemma keq_class q k x : good q -> good k -> good x -> keq q k = true -> keq q x = keq k x.
  Proof.
    intros Gq Gk Gx E. destruct (keq k x) eqn:E1.
    - eapply keq_trans; eauto.
    - destruct (keq q x) eqn:E2; auto. rewrite keq_sym in E by auto. rewrite (keq_trans _ _ _ E E2) in E1. discriminate.
  Qed.

  Lemma goods_dset es k v : goods es -> good k -> goods (dset es k v).
  Proof.
    intros G Gk. induction G as [|e es Ge G IH]; cbn; [constructor; auto; constructor|].
    destruct (keq k (fst e)); constructor; auto.
  Qed.
  Lemma goods_ddel es k : goods es -> goods (ddel es k).
  Proof. intros G. induction G as [|e es Ge G IH]; cbn; [constructor|]. destruct (keq k (fst e)); auto. constructor; auto. Qed.

  Lemma dget_dset es k v q : goods es -> good k -> good q ->
    dget (dset es k v) q = if keq q k then Some v else dget es q.
  Proof.
    intros G Gk Gq. unfold dget, dfind. induction G as [|e es Ge G IH]; cbn.
    - destruct (keq q k); reflexivity.
    - destruct (keq k (fst e)) eqn:Ek; cbn.
      + destruct (keq q k) eqn:Eq.
        * rewrite (keq_class q k (fst e)); auto. rewrite Ek. reflexivity.
        * destruct (keq q (fst e)) eqn:Eqe; auto.
          (* q ~ e and k ~ e would give q ~ k *)
          exfalso. rewrite (keq_sym k (fst e)) in Ek by auto. rewrite (keq_trans _ _ _ Eqe Ek) in Eq. discriminate.
      + destruct (keq q (fst e)) eqn:Eqe; cbn.
        * destruct (keq q k) eqn:Eq; auto.
          exfalso. rewrite (keq_class q k (fst e)) in Eqe; auto. congruence.
        * exact IH.
  Qed.

  Lemma dfind_none_all es q : dfind es q = None <-> forall e, In e es -> keq q (fst e) = false.
  Proof.
    unfold dfind. split.
    - intros H e He. eapply find_none in H; eauto.
    - intros H. induction es as [|e es IH]; cbn; auto. rewrite (H e (or_introl eq_refl)). apply IH. intros; apply H; right; auto.
  Qed.

  Lemma dset_keys es k v e : In e (dset es k v) -> fst e = k \/ exists e0, In e0 es /\ fst e = fst e0.
  Proof.
    induction es as [|x es IH]; cbn.
    - intros [<-|[]]; auto.
    - destruct (keq k (fst x)).
      + intros [E|H]; right; [exists x; split; [left; auto|subst; auto]|exists e; split; [right; auto|auto]].
      + intros [E|H]; [right; exists x; split; [left; auto|subst; auto]|].
        destruct (IH H) as [?|(e0 & ? & ?)]; auto. right. exists e0. split; [right; auto|auto].
  Qed.

  Lemma dist_dset es k v : goods es -> good k -> dist es -> dist (dset es k v).
  Proof.
    intros G Gk. induction G as [|e es Ge G IH]; intros D; cbn; [split; [intros ? []|exact I]|].
    destruct D as [D1 D2]. destruct (keq k (fst e)) eqn:Ek; cbn.
    - split; auto.
    - split; [|apply IH; auto]. intros e' He'.
      destruct (dset_keys _ _ _ _ He') as [X|(e0 & X1 & X2)]; [|rewrite X2; apply D1; auto].
      rewrite X. rewrite keq_sym; auto.
  Qed.
  Lemma ddel_sub es k e : In e (ddel es k) -> In e es.
  Proof. induction es as [|x es IH]; cbn; [tauto|]. destruct (keq k (fst x)); cbn; intuition. Qed.
  Lemma dist_ddel es k : dist es -> dist (ddel es k).
  Proof.
    induction es as [|e es IH]; cbn; auto. intros [D1 D2]. destruct (keq k (fst e)); auto. cbn. split; auto.
    intros e' He'. apply D1. eapply ddel_sub; eauto.
  Qed.

  Lemma dget_ddel es k q : goods es -> good k -> good q -> dist es ->
    dget (ddel es k) q = if keq q k then None else dget es q.
  Proof.
    intros G Gk Gq. unfold dget, dfind. induction G as [|e es Ge G IH]; intros D; cbn.
    - destruct (keq q k); reflexivity.
    - destruct D as [D1 D2]. destruct (keq k (fst e)) eqn:Ek; cbn.
      + destruct (keq q k) eqn:Eq.
        * (* nothing else matches q: keys are unique *)
          assert (N: find (fun e0 => keq q (fst e0)) es = None).
          { apply dfind_none_all. intros e' He'. rewrite (keq_class q k (fst e')); auto.
            - destruct (keq k (fst e')) eqn:E'; auto. exfalso.
              assert (H: keq (fst e) (fst e') = true).
              { eapply keq_trans; [|exact E']. rewrite keq_sym; auto. }
              rewrite D1 in H; auto. discriminate.
            - eapply Forall_forall in G; eauto. }
          rewrite N. reflexivity.
        * destruct (keq q (fst e)) eqn:Eqe; auto.
          exfalso. rewrite (keq_sym k (fst e)) in Ek by auto. rewrite (keq_trans _ _ _ Eqe Ek) in Eq. discriminate.
      + destruct (keq q (fst e)) eqn:Eqe; cbn.
        * destruct (keq q k) eqn:Eq; auto.
          exfalso. rewrite (keq_class q k (fst e)) in Eqe; auto. congruence.
        * apply IH; auto.
  Qed.

  Lemma length_dset es k v : length (dset es k v) = if dfind es k then length es else S (length es).
  Proof.
    unfold dfind. induction es as [|e es IH]; cbn; auto. destruct (keq k (fst e)); cbn; auto.
    rewrite IH. destruct (find _ es); auto.
  Qed.
  Lemma length_ddel es k : length (ddel es k) = if dfind es k then pred (length es) else length es.
  Proof.
    unfold dfind. induction es as [|e es IH]; cbn; auto. destruct (keq k (fst e)); cbn; auto.
    rewrite IH. destruct (find _ es) eqn:F; auto. destruct es; cbn in *; [discriminate|auto].
  Qed.

  Definition table := list (list entry).
  Inductive bres (A : Type) := BOk (a : A) | BOut.    (* BOut: a bucket index outside the table (never, see below) *)
  Arguments BOk {A} a. Arguments BOut {A}.

  Definition slot (t : table) (k : K) : nat := bidx (khash k) (length t).
  Definition bget (t : table) (q : K) : bres (option V) :=
    match nth_error t (slot t q) with Some b => BOk (dget b q) | None => BOut end.
  Fixpoint set_bucket (t : table) (i : nat) (b : list entry) : table :=
    match t, i with
    | [], _ => []
    | _ :: t', O => b :: t'
    | x :: t', S i' => x :: set_bucket t' i' b
    end.
  Definition bset (t : table) (k : K) (v : V) : bres table :=
    match nth_error t (slot t k) with Some b => BOk (set_bucket t (slot t k) (dset b k v)) | None => BOut end.
  Definition bdel (t : table) (k : K) : bres table :=
    match nth_error t (slot t k) with Some b => BOk (set_bucket t (slot t k) (ddel b k)) | None => BOut end.
  Definition bcount (t : table) : nat := length (concat t).

  (* every entry sits in the bucket of its key's hash; keys unique per bucket *)
  Definition tinv (t : table) : Prop :=
    0 < length t /\
    forall i b, nth_error t i = Some b -> goods b /\ dist b /\ forall e, In e b -> slot t (fst e) = i.

  Lemma length_set_bucket t i b : length (set_bucket t i b) = length t.
  Proof. revert i; induction t; destruct i; cbn; auto. Qed.
  Lemma nth_set_bucket_eq t i b : i < length t -> nth_error (set_bucket t i b) i = Some b.
  Proof. revert i; induction t; destruct i; cbn; intros; try lia; auto. apply IHt; lia. Qed.
  Lemma nth_set_bucket_neq t i j b : i <> j -> nth_error (set_bucket t i b) j = nth_error t j.
  Proof. revert i j; induction t; destruct i, j; cbn; intros; try congruence; auto. Qed.

  Lemma slot_lt t k : 0 < length t -> slot t k < length t.
  Proof. intros; apply bidx_lt; auto. Qed.

  Lemma slot_bucket t k : tinv t -> exists b, nth_error t (slot t k) = Some b.
  Proof.
    intros [L _]. destruct (nth_error t (slot t k)) eqn:E; eauto.
    apply nth_error_None in E. pose proof (slot_lt t k L). lia.
  Qed.
  Lemma bget_ok t q : tinv t -> exists r, bget t q = BOk r.
  Proof. intros T. unfold bget. destruct (slot_bucket t q T) as [b ->]. eauto. Qed.

  Lemma ddel_keys es k e : In e (ddel es k) -> fst e = k \/ exists e0, In e0 es /\ fst e = fst e0.
  Proof. intros H. right. exists e. split; [eapply ddel_sub; eauto | reflexivity]. Qed.

  (* set and deleteAt both rewrite the bucket of the key and nothing else *)
  Definition bupd (f : list entry -> list entry) (t : table) (k : K) : bres table :=
    match nth_error t (slot t k) with Some b => BOk (set_bucket t (slot t k) (f b)) | None => BOut end.

  Lemma tinv_bupd f t k t' : tinv t ->
    (forall b, goods b -> dist b -> goods (f b) /\ dist (f b) /\
               forall e, In e (f b) -> fst e = k \/ exists e0, In e0 b /\ fst e = fst e0) ->
    bupd f t k = BOk t' -> tinv t'.
  Proof.
    intros [L I] Hf E. unfold bupd in E. destruct (nth_error t (slot t k)) as [b|] eqn:Eb; [|discriminate].
    inversion E; subst t'. clear E. split; [rewrite length_set_bucket; auto|].
    intros i b' Eb'. unfold slot. rewrite length_set_bucket. fold (slot t).
    destruct (Nat.eq_dec (slot t k) i) as [<-|Hne].
    - rewrite nth_set_bucket_eq in Eb' by (apply slot_lt; auto). inversion Eb'; subst b'.
      destruct (I _ _ Eb) as (G & D & S). destruct (Hf b G D) as (G' & D' & Keys). split; [exact G'|]. split; [exact D'|].
      intros e He. change (slot t (fst e) = slot t k). destruct (Keys e He) as [->|(e0 & H0 & ->)]; auto.
    - rewrite nth_set_bucket_neq in Eb' by auto. exact (I _ _ Eb').
  Qed.

  Lemma tinv_bset t k v t' : tinv t -> good k -> bset t k v = BOk t' -> tinv t'.
  Proof.
    intros T Gk. apply (tinv_bupd (fun b => dset b k v)); [exact T|]. intros b G D.
    split; [apply goods_dset; auto|]. split; [apply dist_dset; auto | apply dset_keys].
  Qed.
  Lemma tinv_bdel t k t' : tinv t -> bdel t k = BOk t' -> tinv t'.
  Proof.
    intros T. apply (tinv_bupd (fun b => ddel b k)); [exact T|]. intros b G D.
    split; [apply goods_ddel; auto|]. split; [apply dist_ddel; auto | apply ddel_keys].
  Qed.

  (* an equal key can only be in the bucket of the query: this is where hash_ok is used *)
  Lemma other_bucket_no_match t i b q : tinv t -> good q -> nth_error t i = Some b -> slot t q <> i ->
    dget b q = None.
  Proof.
    intros [L I] Gq Eb Hne. destruct (I _ _ Eb) as (G & D & S).
    unfold dget. replace (dfind b q) with (@None entry); auto. symmetry. apply dfind_none_all.
    intros e He. destruct (keq q (fst e)) eqn:E; auto. exfalso. apply Hne. rewrite <- (S e He).
    unfold slot. rewrite (hash_ok q (fst e)); auto. eapply Forall_forall in G; eauto.
  Qed.

  (* a lookup after an update: in the bucket of the key by the dictionary law x, in every other bucket unchanged *)
  Lemma bget_bupd f x t k t' q : tinv t -> good k -> good q ->
    (forall b, goods b -> dist b -> dget (f b) q = if keq q k then x else dget b q) ->
    bupd f t k = BOk t' -> forall r, bget t q = BOk r -> bget t' q = BOk (if keq q k then x else r).
  Proof.
    intros T Gk Gq Hf E r R. pose proof T as [L I]. unfold bupd in E.
    destruct (nth_error t (slot t k)) as [b|] eqn:Eb; [|discriminate]. inversion E; subst t'. clear E.
    unfold bget in *. unfold slot in *. rewrite length_set_bucket. fold (slot t q) in *. fold (slot t k) in *.
    destruct (nth_error t (slot t q)) as [bq|] eqn:Eq; [|discriminate]. inversion R; subst r. clear R.
    destruct (I _ _ Eb) as (G & D & S).
    destruct (Nat.eq_dec (slot t k) (slot t q)) as [Hs|Hne].
    - rewrite Hs in *. rewrite nth_set_bucket_eq by (apply slot_lt; auto). rewrite Eq in Eb. inversion Eb; subst bq.
      rewrite Hf; auto.
    - rewrite nth_set_bucket_neq by auto. rewrite Eq.
      destruct (keq q k) eqn:E; auto. exfalso. apply Hne. unfold slot. rewrite (hash_ok q k); auto.
  Qed.

  Lemma bget_bset t k v t' q : tinv t -> good k -> good q -> bset t k v = BOk t' ->
    forall r, bget t q = BOk r -> bget t' q = BOk (if keq q k then Some v else r).
  Proof. intros T Gk Gq. apply (bget_bupd (fun b => dset b k v)); auto. intros b G _. apply dget_dset; auto. Qed.
  Lemma bget_bdel t k t' q : tinv t -> good k -> good q -> bdel t k = BOk t' ->
    forall r, bget t q = BOk r -> bget t' q = BOk (if keq q k then None else r).
  Proof. intros T Gk Gq. apply (bget_bupd (fun b => ddel b k)); auto. intros b G D. apply dget_ddel; auto. Qed.

  Lemma concat_set_bucket_len t i b b0 : nth_error t i = Some b0 ->
    length (concat (set_bucket t i b)) + length b0 = length (concat t) + length b.
  Proof.
    revert i; induction t as [|x t IH]; destruct i; cbn; intros E; try discriminate.
    - inversion E; subst. rewrite !app_length. lia.
    - specialize (IH _ E). rewrite !app_length. lia.
  Qed.

  Inductive hop := HSet (k : K) (v : V) | HDel (k : K).
  Definition hgood (o : hop) : Prop := match o with HSet k _ => good k | HDel k => good k end.

  Definition dstep (es : list entry) (o : hop) : list entry :=
    match o with HSet k v => dset es k v | HDel k => ddel es k end.
  Definition bstep (t : table) (o : hop) : bres table :=
    match o with HSet k v => bset t k v | HDel k => bdel t k end.
  Fixpoint drun (es : list entry) (os : list hop) : list entry :=
    match os with [] => es | o :: os' => drun (dstep es o) os' end.
  Fixpoint brun (t : table) (os : list hop) : bres table :=
    match os with [] => BOk t | o :: os' => match bstep t o with BOk t' => brun t' os' | BOut => BOut end end.

  Definition represents (t : table) (es : list entry) : Prop :=
    tinv t /\ goods es /\ dist es /\ bcount t = length es /\
    forall q, good q -> bget t q = BOk (dget es q).

  Lemma represents_empty n : 0 < n -> represents (repeat [] n) [].
  Proof.
    intros Hn. split; [split|].
    - rewrite repeat_length; auto.
    - intros i b E. apply nth_error_In, repeat_spec in E. subst. split; [constructor|]. split; [exact I|]. intros ? [].
    - split; [constructor|]. split; [exact I|]. split.
      + unfold bcount. induction n as [|n IH]; cbn; auto. destruct n; cbn; auto. apply IH. lia.
      + intros q _. unfold bget. destruct (nth_error (repeat [] n) (slot (repeat [] n) q)) eqn:E.
        * apply nth_error_In, repeat_spec in E. subst. reflexivity.
        * apply nth_error_None in E. pose proof (slot_lt (repeat [] n) q). rewrite repeat_length in *. lia.
  Qed.

  Lemma found_agree t es k : represents t es -> good k ->
    forall b, nth_error t (slot t k) = Some b -> (if dfind b k then true else false) = (if dfind es k then true else false).
  Proof.
    intros (T & G & D & C & L) Gk b Eb. specialize (L k Gk). unfold bget in L. rewrite Eb in L. inversion L as [X].
    unfold dget in X. destruct (dfind b k), (dfind es k); cbn in X; try discriminate; auto.
  Qed.

  Lemma represents_step t es o : represents t es -> hgood o ->
    exists t', bstep t o = BOk t' /\ represents t' (dstep es o).
  Proof.
    intros R Go. pose proof R as (T & G & D & C & L). pose proof T as [Lt I].
    destruct o as [k v|k]; cbn in *.
    - destruct (slot_bucket t k T) as [b Eb].
      assert (E: bset t k v = BOk (set_bucket t (slot t k) (dset b k v))) by (unfold bset; rewrite Eb; auto).
      eexists; split; [exact E|].
      split; [eapply tinv_bset; eauto|]. split; [apply goods_dset; auto|]. split; [apply dist_dset; auto|]. split.
      + unfold bcount. pose proof (concat_set_bucket_len t (slot t k) (dset b k v) b Eb) as Hc.
        rewrite !length_dset in *. pose proof (found_agree t es k R Go b Eb) as FA.
        unfold bcount in C. destruct (dfind b k), (dfind es k); cbn in FA; try discriminate; lia.
      + intros q Gq. rewrite (bget_bset t k v _ q T Go Gq E _ (L q Gq)). rewrite dget_dset; auto.
    - destruct (slot_bucket t k T) as [b Eb].
      assert (E: bdel t k = BOk (set_bucket t (slot t k) (ddel b k))) by (unfold bdel; rewrite Eb; auto).
      eexists; split; [exact E|].
      split; [eapply tinv_bdel; eauto|]. split; [apply goods_ddel; auto|]. split; [apply dist_ddel; auto|]. split.
      + unfold bcount. pose proof (concat_set_bucket_len t (slot t k) (ddel b k) b Eb) as Hc.
        rewrite !length_ddel in *. pose proof (found_agree t es k R Go b Eb) as FA.
        unfold bcount in C.
        assert (Lb: dfind b k <> None -> 0 < length b).
        { unfold dfind. destruct b; cbn; [congruence|lia]. }
        assert (Le: dfind es k <> None -> 0 < length es).
        { unfold dfind. destruct es; cbn; [congruence|lia]. }
        destruct (dfind b k) eqn:F1, (dfind es k) eqn:F2; cbn in FA; try discriminate; try lia.
        specialize (Lb ltac:(discriminate)). specialize (Le ltac:(discriminate)). lia.
      + intros q Gq. rewrite (bget_bdel t k _ q T Go Gq E _ (L q Gq)). rewrite dget_ddel; auto.
  Qed.

  (* for EVERY history: the bucketed table never leaves its index range and its observable
     content (get / in for every key, count) is that of the reference dictionary *)
  Theorem hashmap_refines_dict : forall os t es, represents t es -> Forall hgood os ->
    exists t', brun t os = BOk t' /\ represents t' (drun es os).
  Proof.
    induction os as [|o os IH]; intros t es R F; cbn; [eauto|].
    inversion F as [|? ? Go Fo]; subst.
    destruct (represents_step t es o R Go) as (t1 & E1 & R1). rewrite E1. apply IH; auto.
  Qed.
End Bucket.
Print Assumptions hashmap_refines_dict.

(* C07/C08: which form of outcome (DataStep.yields) every operation ends in (`step_yields`), hence the invariant
   (`step_good`) and the frame property of the operations - an operation changes at most the one
   container it works on in place and otherwise only adds new cells.  From it: results of
   + - select keys copy are independent of later changes of their operands (and, in DataProofs.v,
   a HashMap entry survives any change of the array that was used as its key, a copy of a HashMap
   is independent of the original). *)
From Coq Require Import ZArith List ListDec Arith Lia Bool.
From SqfVerif Require Import Data.DataDefs Data.DataGraph Data.DataHeap Data.DataSort Data.DataStep.
Import ListNotations.

(* the container an operation modifies in place *)
Definition tgt_of (st : state) (t : opnd) : option nat :=
  match eval_opnd st t with Some (_, VRef a) => Some a | _ => None end.
Definition target_of (st : state) (o : op) : option nat :=
  match o with
  | OpSet t _ _ | OpPushBack t _ | OpPushBackUnique t _ | OpAppend t _ | OpDeleteAt t _
  | OpDeleteRange t _ _ | OpResize t _ | OpReverse t | OpSort t _ => tgt_of st t
  | OpMapSet m _ _ | OpMapDeleteAt m _ => tgt_of st m
  | _ => None
  end.

Definition Frame (h0 : list cell) (tgt : option nat) (o : outcome) : Prop :=
  length h0 <= length (st_heap (o_state o)) /\
  forall a, a < length h0 -> tgt <> Some a -> nth_error (st_heap (o_state o)) a = nth_error h0 a.

Lemma frame_here s st ds r tgt : Frame (st_heap st) tgt (mk s st ds r).
Proof. split; cbn; auto. Qed.
Lemma frame_upd s st a c ds r : Frame (st_heap st) (Some a) (mk s (upd st a c) ds r).
Proof.
  split; cbn; [rewrite length_set_nth; auto|]. intros b Hb Hne. apply nth_error_set_nth_neq. congruence.
Qed.
Lemma frame_ext h0 h1 tgt o : (exists e, h1 = h0 ++ e) -> Frame h1 tgt o -> Frame h0 tgt o.
Proof.
  intros [e ->] [L F]. rewrite app_length in L. split; [lia|].
  intros a Ha Hne. rewrite F; auto; [|rewrite app_length; lia]. apply nth_error_app1; auto.
Qed.
Lemma frame_invalid st0 st tgt : (exists e, st_heap st = st_heap st0 ++ e) -> Frame (st_heap st0) tgt (invalid st0) /\ True.
Proof. intros _. split; auto. apply frame_here. Qed.

Lemma frame_commit_arr d st a l' lfail okres : Frame (st_heap st) (Some a) (commit_arr d st a l' lfail okres).
Proof.
  unfold commit_arr. destruct (rec_test d (st_heap (upd st a (CArr l'))) a) as [[|]|];
    [apply frame_upd|apply frame_upd|apply frame_here].
Qed.
Lemma frame_commit_map d st a es' es : Frame (st_heap st) (Some a) (commit_map d st a es' es).
Proof.
  unfold commit_map. destruct (d_hset_untested d); [apply frame_upd|].
  destruct (rec_test d (st_heap (upd st a (CMap es'))) a) as [[|]|];
    [apply frame_upd|apply frame_upd|apply frame_here].
Qed.

Lemma frame_assign h0 st0 dst o tgt : st_heap st0 = h0 -> Frame h0 tgt o -> Frame h0 tgt (assign_result st0 dst o).
Proof.
  intros E F. unfold assign_result. destruct (o_status o); auto.
  destruct (existsb is_error (o_diags o)); [subst; apply frame_here|].
  destruct (setvar (o_state o) dst (o_result o)) as [st'|] eqn:Es; [|subst; apply frame_here].
  unfold setvar in Es. destruct (Nat.ltb dst (length (st_vars (o_state o)))); [|discriminate].
  inversion Es; subst st'. exact F.
Qed.

Theorem yields_frame d st tgt rv o : yields d st tgt rv o -> Frame (st_heap st) tgt o.
Proof.
  assert (X: forall st1, after st st1 -> exists e, st_heap st1 = st_heap st ++ e) by (intros st1 (_ & G & _); apply G).
  intros Y. destruct Y as [rv s ds _ | st1 s ds r A _ _ | st1 a c c' ds r A -> _ _ _ _ _ _
                           | st1 a l l' lfail okres A -> _ _ _ _ | st1 a es es' A -> _ _ | st1 dst ds r A _ _
                           | st1 dst ds r A _ _ _].
  - apply frame_here.
  - eapply frame_ext; [exact (X _ A) | apply frame_here].
  - eapply frame_ext; [exact (X _ A) | apply frame_upd].
  - eapply frame_ext; [exact (X _ A) | apply frame_commit_arr].
  - eapply frame_ext; [exact (X _ A) | apply frame_commit_map].
  - apply frame_assign; [reflexivity|]. eapply frame_ext; [exact (X _ A) | apply frame_here].
  - apply frame_assign; [reflexivity|]. eapply frame_ext; [exact (X _ A) | apply frame_here].
Qed.

Lemma tgt_of_eq st t st1 a : eval_opnd st t = Some (st1, VRef a) -> tgt_of st t = Some a.
Proof. intros E. unfold tgt_of. rewrite E. reflexivity. Qed.

#[local] Hint Resolve tgt_of_eq vnum_noref vnil_noref : core.

(* diagnostics written out in the model: none of them is DArrayRecursion *)
Ltac norec := cbn; intuition discriminate.

(* operations whose result is a new container assigned to dst *)
Definition fresh_op (o : op) (dst : nat) : Prop :=
  match o with
  | OpCopy d _ | OpConcat d _ _ | OpMinus d _ _ | OpSelRange d _ _ _ | OpNewMap d | OpMapFromArray d _ | OpKeys d _ => d = dst
  | _ => False
  end.
Definition result_of (o : op) : option nat :=
  match o with
  | OpCopy d _ | OpConcat d _ _ | OpMinus d _ _ | OpSelRange d _ _ _ | OpNewMap d | OpMapFromArray d _ | OpKeys d _ => Some d
  | _ => None
  end.
Lemma fresh_op_result o dst : fresh_op o dst -> result_of o = Some dst.
Proof. destruct o; cbn; intros H; try contradiction; congruence. Qed.

(* the one case analysis over the operations: which form each of them ends in *)
Theorem step_yields : forall d st o, Inv st -> yields d st (target_of st o) (result_of o) (step d st o).
Proof.
  intros d st o Hi. destruct o; cbn [step target_of result_of].
  - (* set *)
    apply with2_yields; auto. intros st1 st2 tv xv Et A2 Vt Vx.
    apply on_arr; [exact A2|]. intros a l -> Ea' Wl.
    destruct (Z.ltb (trunc_half idx) 0); [apply y_diag; [exact A2 | norec]|].
    eapply y_commit_arr; [exact A2 | eauto | exact Ea' | | intros ->; reflexivity | auto].
    apply vwf_put; auto. destruct (Z.leb (zlen l) (trunc_half idx)); auto. apply vwf_resize; auto.
  - (* pushBack *)
    apply with2_yields; auto. intros st1 st2 tv xv Et A2 Vt Vx.
    apply on_arr; [exact A2|]. intros a l -> Ea' Wl.
    eapply y_commit_arr; [exact A2 | eauto | exact Ea' | apply Forall_app; auto | reflexivity | auto].
  - (* pushBackUnique *)
    apply with2_yields; auto. intros st1 st2 tv xv Et A2 Vt Vx.
    apply on_arr; [exact A2|]. intros a l -> Ea' Wl.
    apply of_res_yields. intros [i|] _; [apply y_pure; [exact A2 | exact I | norec]|].
    eapply y_commit_arr; [exact A2 | eauto | exact Ea' | apply Forall_app; auto | reflexivity | auto].
  - (* append: without the test when d says so *)
    apply with2_yields; auto. intros st1 st2 tv xv Et A2 Vt Vx.
    apply on_arr; [exact A2|]. intros a l -> Ea' Wl.
    apply on_arr; [exact A2|]. intros b r ? ? Wr.
    assert (F: Forall (vwf (st_heap st2)) (l ++ r)) by (apply Forall_app; auto).
    destruct (d_append_untested d) eqn:Ed.
    + eapply y_write; [exact A2 | eauto | exact Ea' | exact I | exact F | intros ->; discriminate Ed | exact I | norec].
    + eapply y_commit_arr; [exact A2 | eauto | exact Ea' | exact F | reflexivity | auto].
  - (* deleteAt *)
    apply with1_yields; auto. intros st1 tv Et A1 Vt.
    apply on_arr; [exact A1|]. intros a l -> Ea' Wl.
    destruct (Z.leb (zlen l) (trunc_half idx)); [apply y_diag; [exact A1 | norec]|].
    destruct (Z.ltb (trunc_half idx) 0) eqn:Eneg; [apply y_diag; [exact A1 | norec]|].
    destruct (znth l (trunc_half idx)) as [v|] eqn:Ez; [|apply y_back; discriminate].
    eapply y_shrink; [exact A1 | eauto | exact Ea' | apply sub_vals_cut | | norec].
    unfold znth in Ez. rewrite Eneg in Ez. eapply Forall_forall in Wl; [exact Wl | eapply nth_error_In; eauto].
  - (* deleteRange: the tests on from and to, then one cut *)
    apply with1_yields; auto. intros st1 tv Et A1 Vt.
    apply on_arr; [exact A1|]. intros a l -> Ea' Wl.
    destruct (Z.ltb (round_half to) (round_half from));
      (destruct (Z.ltb (round_half from) 0); [apply y_diag; [exact A1 | norec]|]);
      destruct (Z.leb (zlen l) _); destruct (Z.ltb _ (round_half from));
      try (eapply y_shrink; [exact A1 | eauto | exact Ea' | apply sub_vals_cut | exact I | norec]);
      (destruct (d_delrange_unchecked d); [apply y_back; discriminate | apply y_diag; [exact A1 | norec]]).
  - (* resize *)
    apply with1_yields; auto. intros st1 tv Et A1 Vt.
    apply on_arr; [exact A1|]. intros a l -> Ea' Wl.
    destruct (Z.ltb n 0); [|eapply y_shrink; [exact A1 | eauto | exact Ea' | apply sub_vals_resize | exact I | norec]].
    destruct ((n <? -1)%Z || negb (d_resize_unchecked d));
      [destruct (d_resize_unchecked d); [apply y_back; discriminate | apply y_diag; [exact A1 | norec]]|].
    eapply y_shrink; [exact A1 | eauto | exact Ea' | intros x [] | exact I | norec].
  - (* reverse *)
    apply with1_yields; auto. intros st1 tv Et A1 Vt.
    apply on_arr; [exact A1|]. intros a l -> Ea' Wl.
    eapply y_shrink; [exact A1 | eauto | exact Ea' | apply sub_vals_rev | exact I | norec].
  - (* sort: the same elements in another order *)
    apply with1_yields; auto. intros st1 tv Et A1 Vt.
    apply on_arr; [exact A1|]. intros a l -> Ea' Wl.
    destruct (Nat.leb (length l) 1); [apply y_diag; [exact A1 | norec]|].
    destruct (sortable_nums l); [eapply y_shrink; [exact A1 | eauto | exact Ea' | apply sub_vals_sort | exact I | norec]|].
    destruct (sortable_strs l); [eapply y_shrink; [exact A1 | eauto | exact Ea' | apply sub_vals_sort | exact I | norec]|].
    apply of_res_yields. intros [l'|ds|] Er; [| |apply y_invalid].
    + destruct (sort_table_inv _ _ _ _ Er) as (r0 & tl & row0 & rows & types & _ & _ & _ & _ & _ & _ & _ & ->).
      eapply y_shrink; [exact A1 | eauto | exact Ea' | apply sub_vals_sort | exact I | norec].
    + apply y_diag; [exact A1|]. intros H. destruct (proj2 (sort_table_refused_diags _ _ _ _ Er) _ H); discriminate.
  - (* assign *)
    apply with1_yields; auto. intros st1 v Et A1 Vv. apply y_assign; auto.
  - (* copy *)
    apply with1_yields; auto. intros st1 v Et A1 Vv.
    destruct (arr_of st1 v) as [[a l]|] eqn:Ea.
    + apply of_res_yields. intros [h' a'] Ec.
      destruct (copy_deep_gext3 _ _ _ _ _ (proj1 (proj1 (proj1 A1))) Ec) as (Gc & Ia & La).
      apply y_fresh; [exact (after_grow _ _ _ A1 Gc) | apply is_arr_cont; exact Ia | | norec].
      pose proof (gext_len _ _ (proj1 (proj2 A1))). cbn. lia.
    + apply on_map; [exact A1|]. intros a es ? ? Wm.
      apply alloc_assign_yields; auto; discriminate.
  - (* concat *)
    apply with2_yields; auto. intros st1 st2 v w Et A2 Vv Vw.
    apply on_arr; [exact A2|]. intros a l ? ? Wl.
    apply on_arr; [exact A2|]. intros b r ? ? Wr.
    apply alloc_assign_yields; auto; [apply Forall_app; auto | discriminate].
  - (* minus: elements of the left operand *)
    apply with2_yields; auto. intros st1 st2 v w Et A2 Vv Vw.
    apply on_arr; [exact A2|]. intros a l ? ? Wl.
    destruct (arr_of st2 w) as [[b r]|] eqn:Eb; [|apply y_invalid].
    apply of_res_yields. intros marks Em. apply alloc_assign_yields; auto; [|discriminate].
    apply Forall_forall. intros z Hz. apply in_map_iff in Hz. destruct Hz as (m & <- & Hm). apply filter_In in Hm.
    destruct (res_map_In _ _ _ _ Em (proj1 Hm)) as (q & Hq & Eg).
    destruct (find_index (st_heap st2) r q); try discriminate. injection Eg as <-.
    eapply Forall_forall in Wl; [exact Wl | exact Hq].
  - (* select range *)
    apply with1_yields; auto. intros st1 v Et A1 Vv.
    apply on_arr; [exact A1|]. intros a l ? ? Wl.
    assert (Emp: forall ds, ~ In DArrayRecursion ds -> yields d st None (Some dst)
                   (let '(st2, res) := alloc st1 (CArr []) in assign_result st dst (mk Done st2 ds res))).
    { intros ds N. apply alloc_assign_yields; auto; [constructor | discriminate]. }
    destruct (Z.ltb (round_half start) 0); [apply Emp; norec|].
    destruct (Z.ltb (zlen l) (round_half start)); [apply Emp; norec|].
    destruct (Z.ltb (round_half len) 0); [apply Emp; norec|].
    apply alloc_assign_yields; auto; [|discriminate]. apply Forall_firstn_my, Forall_skipn_my, Wl.
  - (* createHashMap *)
    apply alloc_assign_yields; auto; [apply after_refl; exact Hi | constructor | discriminate].
  - (* createHashMapFromArray *)
    apply with1_yields; auto. intros st1 v Et A1 Vv.
    apply on_arr; [exact A1|]. intros a l ? ? Wl.
    apply of_res_yields. intros [[[n es] ds]|] Er; [|apply y_invalid]. cbn [fst snd].
    destruct (mfa_go_ok st1 (proj1 A1) _ _ _ _ _ _ _ Wl (Forall_nil _) (@in_nil _ _) Er) as [Wes Nds].
    pose proof (key_cells_gext _ n (proj1 (proj1 (proj1 A1)))) as Gk.
    apply alloc_assign_yields; [exact (after_grow _ _ _ A1 Gk) | | discriminate | exact Nds].
    eapply Forall_mono_kinds; [apply gext_kinds; exact Gk | exact Wes].
  - (* keys *)
    apply with1_yields; auto. intros st1 v Et A1 Vv.
    destruct (map_of st1 v) as [[a es]|] eqn:Em; [|apply y_invalid].
    destruct (negb (distinct_prints _)); [apply y_invalid|].
    destruct (thaw_list (st_heap st1) _) as [h2 ks] eqn:Ef.
    destruct (thaw_list_gext _ _ _ _ (proj1 (proj1 (proj1 A1))) Ef) as [G2 V2].
    apply alloc_assign_yields; [exact (after_grow _ _ _ A1 G2) | exact V2 | discriminate | norec].
  - (* get, assigned *)
    apply with2_yields; auto. intros st1 st2 mv kv Et A2 Vm Vk.
    apply on_map; [exact A2|]. intros a es ? ? Wm.
    apply of_res_yields. intros kt _. destruct (dict_find es kt) as [e|] eqn:Ef; [|apply y_invalid].
    destruct (vnil (snd e)); [apply y_invalid|]. apply y_assign; [exact A2 | exact (dict_find_vwf _ _ _ _ Wm Ef) | norec].
  - (* isEqualTo *)
    apply with2_yields; auto. intros st1 st2 v w Et A2 Vv Vw. apply of_res_yields. intros b _. apply y_pure; [exact A2 | exact I | norec].
  - (* == *)
    apply with2_yields; auto. intros st1 st2 v w Et A2 Vv Vw.
    destruct v, w; try apply y_invalid; (apply y_pure; [exact A2 | exact I | norec]).
  - (* find *)
    apply with2_yields; auto. intros st1 st2 v w Et A2 Vv Vw.
    destruct (arr_of st2 v) as [[a l]|]; [|apply y_invalid]. apply of_res_yields. intros r _.
    apply y_pure; [exact A2 | destruct r; exact I | norec].
  - (* in *)
    apply with2_yields; auto. intros st1 st2 v w Et A2 Vv Vw.
    destruct (arr_of st2 w) as [[a l]|].
    + apply of_res_yields. intros r _. apply y_pure; [exact A2 | exact I | norec].
    + destruct (map_of st2 w) as [[a es]|]; [|apply y_invalid]. apply of_res_yields. intros kt _. apply y_pure; [exact A2 | exact I | norec].
  - (* count *)
    apply with1_yields; auto. intros st1 v Et A1 Vv.
    destruct (arr_of st1 v) as [[a l]|]; [apply y_pure; [exact A1 | exact I | norec]|].
    destruct (map_of st1 v) as [[a es]|]; [|apply y_invalid]. apply y_pure; [exact A1 | exact I | norec].
  - (* get *)
    apply with2_yields; auto. intros st1 st2 mv kv Et A2 Vm Vk.
    apply on_map; [exact A2|]. intros a es ? ? Wm.
    apply of_res_yields. intros kt _. apply y_pure; [exact A2 | | norec].
    destruct (dict_find es kt) as [e|] eqn:Ef; [exact (dict_find_vwf _ _ _ _ Wm Ef) | exact I].
  - (* HashMap set: the key object is a new cell, then the tested insertion *)
    apply with2_yields; auto. intros st1 st2 mv kv Et A2 Vm Vk.
    destruct (eval_opnd st2 x) as [[st3 xv]|] eqn:Ex; [|apply y_invalid]. destruct (after_eval _ _ _ _ _ A2 Ex) as [A3 Vx].
    apply on_map; [exact A3|]. intros a es -> Em' Wm.
    apply of_res_yields. intros kt _. destruct (negb (key_ok kt)); [apply y_invalid|]. unfold alloc.
    pose proof (gext_alloc_key _ (proj1 (proj1 (proj1 A3)))) as Gk.
    eapply y_commit_map; [exact (after_grow _ _ _ A3 Gk) | eauto | | ].
    + cbn. rewrite nth_error_app1; [exact Em' | apply nth_error_Some; congruence].
    + apply dict_set_vwf; [eapply Forall_mono_kinds; [apply gext_kinds; exact Gk | exact Wm] |].
      eapply vwf_mono; [apply gext_kinds; exact Gk | exact Vx].
  - (* HashMap deleteAt *)
    apply with2_yields; auto. intros st1 st2 mv kv Et A2 Vm Vk.
    apply on_map; [exact A2|]. intros a es -> Em' Wm.
    apply of_res_yields. intros kt _. destruct (dict_find es kt) as [e|] eqn:Ef; [|apply y_diag; [exact A2 | norec]].
    eapply y_write; [exact A2 | eauto | exact Em' | exact I | apply dict_del_vwf; exact Wm | | exact (dict_find_vwf _ _ _ _ Wm Ef) | norec].
    intros _. apply map_snd_refs_incl. intros e0 H0. exists e0. split; [eapply dict_del_sub; eauto | reflexivity].
Qed.

Theorem step_good : forall st o, Inv st -> Good (step repaired st o).
Proof. intros st o Hi. exact (yields_good st _ _ _ Hi (step_yields repaired st o Hi)). Qed.
Print Assumptions step_good.

Theorem step_frame : forall d st o, Inv st -> Frame (st_heap st) (target_of st o) (step d st o).
Proof. intros d st o Hi. exact (yields_frame d st _ _ _ (step_yields d st o Hi)). Qed.
Print Assumptions step_frame.

(* no operation of the history works in place on the container at address a *)
Fixpoint untouched (d : defects) (a : nat) (st : state) (os : list op) : Prop :=
  match os with
  | [] => True
  | o :: os' => target_of st o <> Some a /\
                match o_status (step d st o) with
                | Done => untouched d a (o_state (step d st o)) os'
                | Invalid => untouched d a st os'
                | _ => True
                end
  end.

Theorem run_frame : forall os st a, Inv st -> a < length (st_heap st) -> untouched repaired a st os ->
  nth_error (st_heap (run repaired st os)) a = nth_error (st_heap st) a.
Proof.
  induction os as [|o os IH]; intros st a Hi Ha U; cbn; auto.
  destruct U as [Ht U]. pose proof (step_frame repaired st o Hi) as [L F]. pose proof (step_good st o Hi) as [G _].
  destruct (o_status (step repaired st o)); auto.
  rewrite IH; auto. lia.
Qed.

Lemma assign_done st0 dst o st' : o_status (assign_result st0 dst o) = Done -> o_state (assign_result st0 dst o) = st' ->
  o_status o = Done /\ st_heap st' = st_heap (o_state o) /\ nth_error (st_vars st') dst = Some (o_result o).
Proof.
  unfold assign_result. destruct (o_status o) eqn:Es; try (intros H; rewrite Es in H; discriminate).
  destruct (existsb is_error (o_diags o)); [cbn; discriminate|].
  destruct (setvar (o_state o) dst (o_result o)) as [s|] eqn:E; [|cbn; discriminate].
  cbn. intros _ <-. unfold setvar in E. destruct (Nat.ltb dst (length (st_vars (o_state o)))) eqn:El; [|discriminate].
  inversion E; subst s. cbn. split; auto. split; auto. apply Nat.ltb_lt in El.
  apply nth_error_set_nth_eq; auto.
Qed.

Lemma ext_len (h h' : list cell) : (exists e, h' = h ++ e) -> length h <= length h'.
Proof. intros [e ->]. rewrite app_length. lia. Qed.

Theorem fresh_result : forall st o dst, Inv st -> fresh_op o dst -> o_status (step repaired st o) = Done ->
  exists r, nth_error (st_vars (o_state (step repaired st o))) dst = Some (VRef r) /\
            length (st_heap st) <= r /\ r < length (st_heap (o_state (step repaired st o))).
Proof.
  intros st o dst Hi Fo S. pose proof (step_yields repaired st o Hi) as Y.
  assert (T: target_of st o = None) by (destruct o; cbn in Fo; try contradiction; reflexivity).
  rewrite T, (fresh_op_result _ _ Fo) in Y. revert S.
  inversion Y as [rv s ds Ns | | st1 a | st1 a | st1 a | | st1 dst' ds r A C L N]; subst; try discriminate.
  - cbn. intros S. destruct (Ns S).
  - intros S. destruct (assign_done _ _ _ _ S eq_refl) as (_ & Hh & Hv). cbn [o_state o_result mk] in Hh, Hv.
    exists r. rewrite Hh. split; [exact Hv|]. split; [exact L | apply cont_lt; exact C].
Qed.

(* results of +x, x + y, x - y, x select [..], keys m, createHashMap(FromArray) are containers
   that did not exist before, and no later history that does not work in place on the result
   itself changes them - whatever it does to the operands *)
Theorem fresh_results_independent : forall st o dst, Inv st -> fresh_op o dst ->
  o_status (step repaired st o) = Done ->
  let st' := o_state (step repaired st o) in
  exists r, nth_error (st_vars st') dst = Some (VRef r) /\ length (st_heap st) <= r /\
            forall os, untouched repaired r st' os ->
                       nth_error (st_heap (run repaired st' os)) r = nth_error (st_heap st') r.
Proof.
  intros st o dst Hi Fo S st'. destruct (fresh_result st o dst Hi Fo S) as (r & Hv & Hl & Hr).
  exists r. split; auto. split; auto. intros os U. apply run_frame; auto. apply step_good; auto.
Qed.
Print Assumptions fresh_results_independent.

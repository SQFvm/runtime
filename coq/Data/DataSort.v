(* C08: sort of a table (DataDefs.sort_table) - the comparator of ops_generic.cpp:776-814 on rows of one
   shape is a strict weak ordering, the insertion sort of the model returns a sorted permutation, and on
   a table whose rows are pairwise ordered (or the same object) that sorted permutation is the only one:
   whatever algorithm std::sort uses, it returns this content. *)
From Coq Require Import ZArith List Arith Lia Bool Permutation Sorted.
From SqfVerif Require Import Data.DataDefs Data.DataGraph Data.DataHeap.
Import ListNotations.

Section InsSort.
  Context {A : Type}.
  Variable le : A -> A -> bool.
  Variable D : A -> Prop.                      (* the elements the order is known on *)
  Hypothesis le_total : forall x y, D x -> D y -> le x y = false -> le y x = true.
  Hypothesis le_trans : forall x y z, D x -> D y -> D z -> le x y = true -> le y z = true -> le x z = true.

  Lemma ins_by_perm x l : Permutation (ins_by le x l) (x :: l).
  Proof.
    induction l as [|y l IH]; cbn; [apply Permutation_refl|]. destruct (le x y); [apply Permutation_refl|].
    eapply Permutation_trans; [apply perm_skip; exact IH|apply perm_swap].
  Qed.
  Lemma sort_by_perm l : Permutation (sort_by le l) l.
  Proof.
    unfold sort_by. induction l as [|x l IH]; cbn; [constructor|].
    eapply Permutation_trans; [apply ins_by_perm|]. constructor. exact IH.
  Qed.

  Lemma ins_by_sorted x l : D x -> Forall D l ->
    StronglySorted (fun a b => le a b = true) l -> StronglySorted (fun a b => le a b = true) (ins_by le x l).
  Proof.
    intros Dx F S. induction S as [|y l S IH Hy]; cbn; [repeat constructor|].
    inversion F as [|? ? Dy Fl]; subst.
    destruct (le x y) eqn:E.
    - constructor; [constructor; auto|]. constructor; auto.
      apply Forall_forall. intros z Hz. pose proof (proj1 (Forall_forall _ _) Hy z Hz) as Hyz.
      eapply le_trans; [| | |exact E|exact Hyz]; auto. eapply Forall_forall in Fl; eauto.
    - constructor; [apply IH; auto|].
      apply Forall_forall. intros z Hz. apply In_ins_by in Hz. destruct Hz as [->|Hz].
      + apply le_total; auto.
      + eapply Forall_forall in Hy; eauto.
  Qed.
  Lemma sort_by_sorted l : Forall D l -> StronglySorted (fun a b => le a b = true) (sort_by le l).
  Proof.
    unfold sort_by. induction l as [|x l IH]; intros F; cbn; [constructor|].
    inversion F as [|? ? Dx Fl]; subst. apply ins_by_sorted; [exact Dx| |apply IH; exact Fl].
    apply Forall_forall. intros y Hy. apply (proj1 (In_sort_by le l y)) in Hy.
    exact (proj1 (Forall_forall _ _) Fl y Hy).
  Qed.
End InsSort.

Lemma sorted_perm_unique {A} (lt : A -> A -> bool) : forall l1 l2 : list A,
  Permutation l1 l2 ->
  StronglySorted (fun a b => lt b a = false) l1 -> StronglySorted (fun a b => lt b a = false) l2 ->
  (forall x y, In x l1 -> In y l1 -> lt x y = false -> lt y x = false -> x = y) ->
  l1 = l2.
Proof.
  induction l1 as [|x1 t1 IH]; intros l2 P S1 S2 U.
  - apply Permutation_nil in P. auto.
  - destruct l2 as [|x2 t2]; [apply Permutation_sym, Permutation_nil in P; discriminate|].
    inversion S1 as [|? ? S1' H1]; subst. inversion S2 as [|? ? S2' H2]; subst.
    assert (E: x1 = x2).
    { assert (I2: In x2 (x1 :: t1)) by (eapply Permutation_in; [apply Permutation_sym; exact P|left; auto]).
      assert (I1: In x1 (x2 :: t2)) by (eapply Permutation_in; [exact P|left; auto]).
      destruct I2 as [?|I2]; auto. destruct I1 as [?|I1]; auto.
      apply U; [left; auto|right; auto| |].
      - eapply Forall_forall in H2; eauto.
      - eapply Forall_forall in H1; eauto. }
    subst x2. f_equal. apply IH; auto.
    + eapply Permutation_cons_inv; eauto.
    + intros x y Hx Hy. apply U; right; auto.
Qed.

Lemma pairwise_spec {A} (R : A -> A -> bool) (l : list A) : (forall x y, R x y = R y x) -> pairwise R l = true ->
  forall x y, In x l -> In y l -> x = y \/ R x y = true.
Proof.
  intros Sy. induction l as [|z l IH]; intros P x y Hx Hy; [contradiction|].
  cbn in P. apply andb_prop in P. destruct P as [Pz Pl]. rewrite forallb_forall in Pz.
  destruct Hx as [->|Hx], Hy as [->|Hy]; auto.
  - right. rewrite Sy. auto.
Qed.

Lemma lex_le_total : forall a b, lex_le a b = false -> lex_le b a = true.
Proof.
  induction a as [|x a IH]; destruct b as [|y b]; cbn; intros H; try discriminate; auto.
  destruct (Z.ltb_spec x y); [discriminate|]. destruct (Z.ltb_spec y x); [reflexivity|]. auto.
Qed.
Lemma lex_le_trans : forall a b c, lex_le a b = true -> lex_le b c = true -> lex_le a c = true.
Proof.
  induction a as [|x a IH]; destruct b as [|y b], c as [|z c]; cbn; intros H1 H2; try discriminate; auto.
  destruct (Z.ltb_spec x y), (Z.ltb_spec y z), (Z.ltb_spec x z); try reflexivity; try lia;
    destruct (Z.ltb_spec y x), (Z.ltb_spec z y), (Z.ltb_spec z x); try discriminate; try lia; eauto.
Qed.

(* a strict weak ordering, as a pair of boolean facts *)
Definition asym {A} (lt : A -> A -> bool) : Prop := forall a b, lt a b = true -> lt b a = false.
Definition ntrans {A} (lt : A -> A -> bool) : Prop := forall a b c, lt a b = false -> lt b c = false -> lt a c = false.

Lemma str_lt_asym : asym str_lt.
Proof. intros a b. unfold str_lt. destruct (lex_le b a) eqn:E; [discriminate|]. intros _. rewrite (lex_le_total _ _ E). reflexivity. Qed.
Lemma str_lt_ntrans : ntrans str_lt.
Proof.
  intros a b c. unfold str_lt. destruct (lex_le b a) eqn:E1; [|discriminate]. destruct (lex_le c b) eqn:E2; [|discriminate].
  intros _ _. rewrite (lex_le_trans _ _ _ E2 E1). reflexivity.
Qed.
Lemma sc_lt_spec a b : sc_lt a b = true <->
  (fst (sc_rank a) < fst (sc_rank b) \/ (fst (sc_rank a) = fst (sc_rank b) /\ snd (sc_rank a) < snd (sc_rank b)))%Z.
Proof. unfold sc_lt. rewrite orb_true_iff, andb_true_iff, !Z.ltb_lt, Z.eqb_eq. reflexivity. Qed.
Lemma sc_lt_asym : asym sc_lt.
Proof. intros a b H. apply not_true_iff_false. rewrite sc_lt_spec in *. lia. Qed.
Lemma sc_lt_ntrans : ntrans sc_lt.
Proof.
  intros a b c H1 H2. apply not_true_iff_false in H1, H2. apply not_true_iff_false. rewrite sc_lt_spec in *. lia.
Qed.

Section C3.
  Context {A : Type}.
  Variable lt : A -> A -> bool.
  Hypothesis As : asym lt.
  Hypothesis Nt : ntrans lt.
  Definition c3 (a b : A) : comparison := if lt a b then Lt else if lt b a then Gt else Eq.

  Lemma lt_irrefl a : lt a a = false.
  Proof. destruct (lt a a) eqn:E; auto. pose proof (As _ _ E). congruence. Qed.
  Lemma lt_trans a b c : lt a b = true -> lt b c = true -> lt a c = true.
  Proof.
    intros H1 H2. destruct (lt a c) eqn:E; auto.
    pose proof (Nt _ _ _ E (As _ _ H2)). congruence.
  Qed.
  Lemma c3_refl a : c3 a a = Eq.
  Proof. unfold c3. rewrite lt_irrefl. reflexivity. Qed.
  Lemma c3_opp a b : c3 b a = CompOpp (c3 a b).
  Proof.
    unfold c3. destruct (lt a b) eqn:E1, (lt b a) eqn:E2; cbn; auto. pose proof (As _ _ E1). congruence.
  Qed.
  (* the composition table: Eq is neutral, Lt.Lt = Lt, Gt.Gt = Gt *)
  Lemma c3_trans a b c : match c3 a b, c3 b c with
                         | Eq, x => c3 a c = x
                         | x, Eq => c3 a c = x
                         | Lt, Lt => c3 a c = Lt
                         | Gt, Gt => c3 a c = Gt
                         | _, _ => True
                         end.
  Proof.
    unfold c3.
    destruct (lt a b) eqn:Eab, (lt b a) eqn:Eba, (lt b c) eqn:Ebc, (lt c b) eqn:Ecb;
      try (pose proof (As _ _ Eab); congruence); try (pose proof (As _ _ Ebc); congruence); auto.
    - rewrite (lt_trans _ _ _ Eab Ebc). reflexivity.
    - (* a < b, b ~ c *)
      destruct (lt a c) eqn:Eac; auto. pose proof (Nt _ _ _ Eac Ecb). congruence.
    - (* b < a, c < b *)
      rewrite (lt_trans _ _ _ Ecb Eba). destruct (lt a c) eqn:Eac; auto.
      pose proof (As _ _ Eac). pose proof (lt_trans _ _ _ Ecb Eba). congruence.
    - (* b < a, b ~ c *)
      destruct (lt a c) eqn:Eac.
      + pose proof (Nt _ _ _ Ebc (As _ _ Eac)). congruence.
      + destruct (lt c a) eqn:Eca; auto. pose proof (Nt _ _ _ Ebc Eca). congruence.
    - (* a ~ b, b < c *)
      destruct (lt a c) eqn:Eac; auto. pose proof (Nt _ _ _ Eba Eac). congruence.
    - (* a ~ b, c < b *)
      destruct (lt a c) eqn:Eac.
      + pose proof (Nt _ _ _ (As _ _ Eac) Eab). congruence.
      + destruct (lt c a) eqn:Eca; auto. pose proof (Nt _ _ _ Eca Eab). congruence.
    - (* a ~ b ~ c *)
      rewrite (Nt _ _ _ Eab Ebc), (Nt _ _ _ Ecb Eba). reflexivity.
  Qed.
End C3.

Inductive skind := HStr | HNum | HSkip.
Definition kind_of (k : skey) : skind := match k with KStr _ => HStr | KNum _ => HNum | KSkip => HSkip end.
Definition shape (r : list skey) : list skind := map kind_of r.

Definition k3t (x y : skey) : comparison :=
  match x, y with
  | KStr s, KStr t => c3 str_lt s t
  | KNum s, KNum t => c3 sc_lt s t
  | _, _ => Eq
  end.
Lemma k3_same x y : kind_of x = kind_of y -> k3 x y = Some (k3t x y).
Proof. destruct x, y; cbn; intros H; try discriminate; reflexivity. Qed.
Lemma k3t_refl x : k3t x x = Eq.
Proof. destruct x; cbn; auto; apply c3_refl; [apply str_lt_asym|apply sc_lt_asym]. Qed.
Lemma k3t_opp x y : k3t y x = CompOpp (k3t x y).
Proof.
  destruct x, y; cbn; auto; apply c3_opp; [apply str_lt_asym|apply sc_lt_asym].
Qed.
Lemma k3t_trans x y z : kind_of x = kind_of y -> kind_of y = kind_of z ->
  match k3t x y, k3t y z with
  | Eq, c => k3t x z = c
  | c, Eq => k3t x z = c
  | Lt, Lt => k3t x z = Lt
  | Gt, Gt => k3t x z = Gt
  | _, _ => True
  end.
Proof.
  destruct x, y, z; cbn; intros H1 H2; try discriminate; auto.
  - apply c3_trans; [apply str_lt_asym|apply str_lt_ntrans].
  - apply c3_trans; [apply sc_lt_asym|apply sc_lt_ntrans].
Qed.

Lemma row_lt_defined asc : forall a b, shape a = shape b -> exists r, row_lt asc a b = Some r.
Proof.
  induction a as [|x a IH]; destruct b as [|y b]; cbn; intros H; try discriminate; eauto.
  injection H as Hk Hs. rewrite (k3_same _ _ Hk). destruct (k3t x y); eauto.
Qed.
Lemma row_lt_irrefl asc : forall a, row_lt asc a a = Some false.
Proof. induction a as [|x a IH]; cbn; auto. rewrite (k3_same x x eq_refl), k3t_refl. exact IH. Qed.
Lemma row_lt_asym asc : forall a b, shape a = shape b -> row_lt asc a b = Some true -> row_lt asc b a = Some false.
Proof.
  induction a as [|x a IH]; destruct b as [|y b]; cbn; intros H; try discriminate.
  injection H as Hk Hs. rewrite (k3_same _ _ Hk), (k3_same y x (eq_sym Hk)), (k3t_opp x y).
  destruct (k3t x y); cbn; auto; destruct asc; cbn; intros E; try discriminate; auto.
Qed.
Lemma row_lt_ntrans asc : forall a b c, shape a = shape b -> shape b = shape c ->
  row_lt asc a b = Some false -> row_lt asc b c = Some false -> row_lt asc a c = Some false.
Proof.
  induction a as [|x a IH]; destruct b as [|y b], c as [|z c]; cbn; intros H1 H2; try discriminate; auto.
  injection H1 as Hk1 Hs1. injection H2 as Hk2 Hs2.
  rewrite (k3_same _ _ Hk1), (k3_same _ _ Hk2), (k3_same x z (eq_trans Hk1 Hk2)).
  pose proof (k3t_trans x y z Hk1 Hk2) as T.
  destruct (k3t x y), (k3t y z); try rewrite T; destruct asc; cbn; intros E1 E2; try discriminate; eauto.
Qed.

Definition row_res (h : list cell) (v : value) : res (list value) := match row_of h v with Some r => Ok r | None => UB end.
Definition all_defined (h : list cell) (asc : bool) (l : list value) : bool :=
  forallb (fun x => forallb (fun y => match vrow_lt h asc x y with Some _ => true | None => false end) l) l.
Definition pair_ordered (h : list cell) (asc : bool) (x y : value) : bool := vrow_ltb h asc x y || vrow_ltb h asc y x || veqb x y.
Definition table_le (h : list cell) (asc : bool) (x y : value) : bool := negb (vrow_ltb h asc y x).

Lemma sort_table_inv h asc l l' : sort_table h asc l = Ok (TSorted l') ->
  exists r0 tl row0 rows types,
    l = VRef r0 :: tl /\ nth_error h r0 = Some (CArr row0) /\
    res_map (row_res h) l = Ok rows /\ res_map (vtag_of h) row0 = Ok types /\ check_rows h types rows = Ok [] /\
    all_defined h asc l = true /\ pairwise (pair_ordered h asc) l = true /\ l' = sort_by (table_le h asc) l.
Proof.
  unfold sort_table. destruct l as [|[| | | | |r0] tl]; try discriminate.
  destruct (nth_error h r0) as [[row0| |]|] eqn:E0; try discriminate.
  destruct (res_map (vtag_of h) (VRef r0 :: tl)) as [tags| |]; try discriminate. cbn [rbind].
  match goal with |- (if ?c then _ else _) = _ -> _ => destruct c; [discriminate|] end.
  fold (row_res h). destruct (res_map (row_res h) (VRef r0 :: tl)) as [rows| |] eqn:Er; try discriminate. cbn [rbind].
  destruct (res_map (vtag_of h) row0) as [types| |] eqn:Et; try discriminate. cbn [rbind].
  destruct (check_rows h types rows) as [[|d ds]| |] eqn:Ec; try discriminate. cbn [rbind].
  fold (all_defined h asc (VRef r0 :: tl)). destruct (all_defined h asc (VRef r0 :: tl)) eqn:Ed; [|discriminate]. cbn [negb].
  fold (pair_ordered h asc). destruct (pairwise (pair_ordered h asc) (VRef r0 :: tl)) eqn:Ep; [|discriminate]. cbn [negb].
  intros H. inversion H. exists r0, tl, row0, rows, types. repeat split; auto.
Qed.

Lemma check_rows_diags h types : forall rows out, check_rows h types rows = Ok out ->
  forall d, In d out -> d = DExpectedArrayTypeMissmatch \/ d = DExpectedArraySizeMissmatch.
Proof.
  induction rows as [|r rows IH]; cbn; intros out E.
  - inversion E; subst. intros d [].
  - unfold check_row in E at 1. destruct (negb (Nat.eqb (length r) (length types))).
    + cbn in E. inversion E; subst. intros d [<-|[]]. auto.
    + destruct (res_map (vtag_of h) r) as [tags| |]; try discriminate. cbn [rbind] in E.
      destruct (repeat DExpectedArrayTypeMissmatch _) as [|x xs] eqn:Er; [apply IH; auto|].
      inversion E; subst. intros d Hd. rewrite <- Er in Hd. apply repeat_spec in Hd. auto.
Qed.

Lemma sort_table_refused_diags h asc l ds : sort_table h asc l = Ok (TRefused ds) ->
  ds <> [] /\ forall d, In d ds -> d = DExpectedArrayTypeMissmatch \/ d = DExpectedArraySizeMissmatch.
Proof.
  unfold sort_table. destruct l as [|[| | | | |r0] tl]; try discriminate.
  destruct (nth_error h r0) as [[row0| |]|] eqn:E0; try discriminate.
  destruct (res_map (vtag_of h) (VRef r0 :: tl)) as [tags| |]; try discriminate. cbn [rbind].
  destruct (length (filter (fun g => negb (tag_eqb g GArr)) tags)) as [|k]; cbn [Nat.eqb negb].
  2:{ intros [= <-]. split; [discriminate|]. intros d [<-|Hd]; [auto | apply repeat_spec in Hd; auto]. }
  destruct (res_map _ (VRef r0 :: tl)) as [rows| |] eqn:Er; try discriminate. cbn [rbind].
  destruct (res_map (vtag_of h) row0) as [types| |] eqn:Et; try discriminate. cbn [rbind].
  destruct (check_rows h types rows) as [[|d0 ds0]| |] eqn:Ec; try discriminate; cbn [rbind].
  { destruct (negb _); [discriminate|]. destruct (negb _); discriminate. }
  intros [= <-]. split; [discriminate | exact (check_rows_diags _ _ _ _ Ec)].
Qed.

Definition kind_of_tag (g : vtag) : skind := match g with GStr => HStr | GNum => HNum | _ => HSkip end.
Lemma vtag_kind h v g : vtag_of h v = Ok g -> kind_of (skey_of v) = kind_of_tag g.
Proof.
  destruct v; cbn; intros H; try (inversion H; subst; reflexivity).
  destruct (nth_error h a) as [[| |]|]; inversion H; subst; reflexivity.
Qed.
Lemma res_map_vtag_shape h : forall row tags, res_map (vtag_of h) row = Ok tags -> shape (map skey_of row) = map kind_of_tag tags.
Proof.
  induction row as [|v row IH]; cbn; intros tags H; [inversion H; reflexivity|].
  destruct (vtag_of h v) as [g| |] eqn:Eg; try discriminate.
  destruct (res_map (vtag_of h) row) as [gs| |]; try discriminate. inversion H; subst. cbn.
  f_equal; [eapply vtag_kind; eauto|apply IH; auto].
Qed.
Lemma combine_all_eq : forall tags types : list vtag, length tags = length types ->
  filter (fun p => negb (tag_eqb (fst p) (snd p))) (combine tags types) = [] -> tags = types.
Proof.
  induction tags as [|g tags IH]; destruct types as [|t types]; cbn; intros L F; try discriminate; auto.
  destruct (tag_eqb g t) eqn:E; cbn in F; [|discriminate]. f_equal; [destruct g, t; cbn in E; congruence|].
  apply IH; auto.
Qed.
Lemma res_map_length {A B} (g : A -> res B) : forall l ys, res_map g l = Ok ys -> length ys = length l.
Proof.
  induction l as [|x l IH]; cbn; intros ys H; [inversion H; reflexivity|].
  destruct (g x); try discriminate. destruct (res_map g l) as [zs| |]; try discriminate. inversion H; subst. cbn. f_equal. auto.
Qed.
Lemma check_row_ok h types row : check_row h types row = Ok [] -> shape (map skey_of row) = map kind_of_tag types.
Proof.
  unfold check_row. destruct (Nat.eqb (length row) (length types)) eqn:L; cbn [negb]; [|discriminate].
  apply Nat.eqb_eq in L.
  destruct (res_map (vtag_of h) row) as [tags| |] eqn:Et; try discriminate. cbn [rbind]. intros H.
  assert (F: filter (fun p => negb (tag_eqb (fst p) (snd p))) (combine tags types) = []).
  { destruct (filter _ _); auto. cbn in H. discriminate. }
  rewrite (res_map_vtag_shape _ _ _ Et). f_equal. apply combine_all_eq; auto.
  rewrite (res_map_length _ _ _ Et). auto.
Qed.
Lemma check_rows_ok h types : forall rows, check_rows h types rows = Ok [] ->
  Forall (fun row => shape (map skey_of row) = map kind_of_tag types) rows.
Proof.
  induction rows as [|r rows IH]; cbn; intros H; [constructor|].
  destruct (check_row h types r) as [[|d ds]| |] eqn:Ec; try discriminate; cbn [rbind] in H.
  constructor; [eapply check_row_ok; eauto|auto].
Qed.
Lemma res_map_rows h : forall l rows, res_map (row_res h) l = Ok rows ->
  forall v, In v l -> exists row, row_of h v = Some row /\ In row rows.
Proof.
  induction l as [|x l IH]; cbn; intros rows H v Hv; [contradiction|].
  unfold row_res at 1 in H. destruct (row_of h x) as [rx|] eqn:Ex; try discriminate.
  destruct (res_map (row_res h) l) as [rs| |]; try discriminate. inversion H; subst.
  destruct Hv as [->|Hv]; [exists rx; split; auto; left; auto|].
  destruct (IH rs eq_refl v Hv) as (row & E & Hin). exists row. split; auto. right; auto.
Qed.

Definition Shaped (h : list cell) (S : list skind) (v : value) : Prop :=
  exists row, row_of h v = Some row /\ shape (map skey_of row) = S.

Lemma sort_table_shaped h asc l l' : sort_table h asc l = Ok (TSorted l') -> exists S, Forall (Shaped h S) l.
Proof.
  intros H. destruct (sort_table_inv _ _ _ _ H) as (r0 & tl & row0 & rows & types & El & E0 & Er & Et & Ec & _).
  exists (map kind_of_tag types). apply Forall_forall. intros v Hv.
  destruct (res_map_rows _ _ _ Er v Hv) as (row & E & Hin). exists row. split; auto.
  pose proof (check_rows_ok _ _ _ Ec) as F. eapply Forall_forall in F; eauto.
Qed.

Lemma vrow_lt_defined h asc S x y : Shaped h S x -> Shaped h S y -> exists b, vrow_lt h asc x y = Some b.
Proof.
  intros (rx & Ex & Sx) (ry & Ey & Sy). unfold vrow_lt. rewrite Ex, Ey. apply row_lt_defined. congruence.
Qed.
Lemma vrow_ltb_asym h asc S x y : Shaped h S x -> Shaped h S y -> vrow_ltb h asc x y = true -> vrow_ltb h asc y x = false.
Proof.
  intros (rx & Ex & Sx) (ry & Ey & Sy). unfold vrow_ltb, vrow_lt. rewrite Ex, Ey.
  destruct (row_lt asc (map skey_of rx) (map skey_of ry)) as [[|]|] eqn:E; try discriminate. intros _.
  rewrite (row_lt_asym asc _ _ (eq_trans Sx (eq_sym Sy)) E). reflexivity.
Qed.
Lemma vrow_ltb_ntrans h asc S x y z : Shaped h S x -> Shaped h S y -> Shaped h S z ->
  vrow_ltb h asc x y = false -> vrow_ltb h asc y z = false -> vrow_ltb h asc x z = false.
Proof.
  intros (rx & Ex & Sx) (ry & Ey & Sy) (rz & Ez & Sz). unfold vrow_ltb, vrow_lt. rewrite Ex, Ey, Ez.
  destruct (row_lt_defined asc (map skey_of rx) (map skey_of ry)) as [b1 E1]; [congruence|].
  destruct (row_lt_defined asc (map skey_of ry) (map skey_of rz)) as [b2 E2]; [congruence|].
  rewrite E1, E2. destruct b1, b2; try discriminate. intros _ _.
  rewrite (row_lt_ntrans asc _ _ _ (eq_trans Sx (eq_sym Sy)) (eq_trans Sy (eq_sym Sz)) E1 E2). reflexivity.
Qed.

Theorem sort_table_sorted_perm h asc l l' : sort_table h asc l = Ok (TSorted l') ->
  Permutation l l' /\ StronglySorted (fun a b => vrow_ltb h asc b a = false) l'.
Proof.
  intros H. destruct (sort_table_shaped _ _ _ _ H) as [S F].
  destruct (sort_table_inv _ _ _ _ H) as (r0 & tl & row0 & rows & types & El & E0 & Er & Et & Ec & Ed & Ep & ->).
  split; [apply Permutation_sym, sort_by_perm|].
  assert (SS: StronglySorted (fun a b => table_le h asc a b = true) (sort_by (table_le h asc) l)).
  { apply (sort_by_sorted (table_le h asc) (Shaped h S)); auto.
    - intros x y Dx Dy. unfold table_le. destruct (vrow_ltb h asc y x) eqn:E; [|discriminate]. intros _.
      rewrite (vrow_ltb_asym _ _ _ _ _ Dy Dx E). reflexivity.
    - intros x y z Dx Dy Dz. unfold table_le.
      destruct (vrow_ltb h asc y x) eqn:E1; [discriminate|]. destruct (vrow_ltb h asc z y) eqn:E2; [discriminate|]. intros _ _.
      rewrite (vrow_ltb_ntrans _ _ _ _ _ _ Dz Dy Dx E2 E1). reflexivity. }
  clear -SS. induction SS as [|a t SS' IH Ha]; constructor; auto.
  eapply Forall_impl; [|exact Ha]. unfold table_le. intros b Hb. destruct (vrow_ltb h asc b a); [discriminate|reflexivity].
Qed.

Lemma veqb_eq x y : veqb x y = true -> x = y.
Proof. destruct x, y; cbn; try discriminate. intros H. apply Nat.eqb_eq in H. congruence. Qed.

(* every sorted permutation of the table is the model's: the answer does not depend on the algorithm of std::sort *)
Theorem sort_table_unique h asc l l' : sort_table h asc l = Ok (TSorted l') ->
  forall l2, Permutation l l2 -> StronglySorted (fun a b => vrow_ltb h asc b a = false) l2 -> l2 = l'.
Proof.
  intros H l2 P2 S2. destruct (sort_table_sorted_perm _ _ _ _ H) as [P1 S1].
  destruct (sort_table_inv _ _ _ _ H) as (r0 & tl & row0 & rows & types & El & E0 & Er & Et & Ec & Ed & Ep & _).
  symmetry. apply (sorted_perm_unique (vrow_ltb h asc)); auto.
  - eapply Permutation_trans; [apply Permutation_sym; exact P1|exact P2].
  - intros x y Hx Hy L1 L2.
    assert (Ix: In x l) by (eapply Permutation_in; [apply Permutation_sym; exact P1|exact Hx]).
    assert (Iy: In y l) by (eapply Permutation_in; [apply Permutation_sym; exact P1|exact Hy]).
    destruct (pairwise_spec (pair_ordered h asc) l) with (x := x) (y := y) as [?|R]; auto.
    + intros a b. unfold pair_ordered. rewrite (orb_comm (vrow_ltb h asc a b)). f_equal.
      destruct a, b; cbn; auto. apply Nat.eqb_sym.
    + unfold pair_ordered in R. rewrite L1, L2 in R. cbn in R. apply veqb_eq; auto.
Qed.

Lemma vwf_vtag h v : vwf h v -> exists g, vtag_of h v = Ok g.
Proof.
  destruct v; cbn; eauto. unfold cont. destruct (nth_error h a) as [[| |]|]; try discriminate; eauto.
Qed.
Lemma res_map_vtag_ok h l : Forall (vwf h) l -> exists tags, res_map (vtag_of h) l = Ok tags.
Proof. intros F. apply res_map_ok. intros x Hx. apply vwf_vtag. eapply Forall_forall in F; eauto. Qed.

Lemma res_map_tags_arr h : forall l tags, res_map (vtag_of h) l = Ok tags ->
  filter (fun g => negb (tag_eqb g GArr)) tags = [] -> exists rows, res_map (row_res h) l = Ok rows.
Proof.
  induction l as [|v l IH]; cbn; intros tags H F; [eauto|].
  destruct (vtag_of h v) as [g| |] eqn:Eg; try discriminate.
  destruct (res_map (vtag_of h) l) as [gs| |] eqn:Egs; try discriminate. inversion H; subst. cbn in F.
  destruct (tag_eqb g GArr) eqn:Ea; cbn in F; [|discriminate].
  destruct (IH gs eq_refl F) as [rows ->].
  assert (exists r, row_res h v = Ok r) as [r ->]; [|eauto].
  destruct g; try discriminate. unfold row_res, row_of. destruct v; cbn in Eg; try discriminate.
  destruct (nth_error h a) as [[| |]|]; try discriminate; eauto.
Qed.

Lemma res_map_rows_wf h : hwf h -> forall l rows, res_map (row_res h) l = Ok rows -> Forall (Forall (vwf h)) rows.
Proof.
  intros W. induction l as [|v l IH]; cbn; intros rows H; [inversion H; constructor|].
  unfold row_res at 1 in H. destruct (row_of h v) as [rv|] eqn:Ev; try discriminate.
  destruct (res_map (row_res h) l) as [rs| |]; try discriminate. inversion H; subst. constructor; auto.
  unfold row_of in Ev. destruct v; try discriminate. destruct (nth_error h a) as [[x| |]|] eqn:Ea; try discriminate.
  inversion Ev; subst. exact (hwf_nth _ _ _ W Ea).
Qed.
Lemma check_rows_defined h types : forall rows, Forall (Forall (vwf h)) rows -> exists ds, check_rows h types rows = Ok ds.
Proof.
  induction rows as [|r rows IH]; cbn; intros F; [eauto|]. inversion F as [|? ? Fr Frs]; subst.
  unfold check_row. destruct (negb (Nat.eqb (length r) (length types))); cbn [rbind]; [eauto|].
  destruct (res_map_vtag_ok h r Fr) as [tags ->]. cbn [rbind].
  destruct (repeat DExpectedArrayTypeMissmatch _); eauto.
Qed.

(* on a well-formed heap sort_table never runs into a dangling reference, and after the type checks the
   comparator never reads out of a row or out of a value of another type *)
Theorem sort_table_defined h asc l : hwf h -> Forall (vwf h) l -> exists r, sort_table h asc l = Ok r.
Proof.
  intros W F. unfold sort_table. destruct l as [|[| | | | |r0] tl]; eauto.
  inversion F as [|? ? F0 Ftl]; subst. cbn in F0. unfold cont in F0.
  destruct (nth_error h r0) as [[row0| |]|] eqn:E0; try discriminate; eauto.
  destruct (res_map_vtag_ok h _ F) as [tags Etags]. rewrite Etags. cbn [rbind].
  destruct (filter (fun g => negb (tag_eqb g GArr)) tags) as [|b bs] eqn:Eb; cbn [length Nat.eqb negb]; eauto.
  destruct (res_map_tags_arr _ _ _ Etags Eb) as [rows Er]. fold (row_res h). rewrite Er. cbn [rbind].
  destruct (res_map_vtag_ok h row0 (hwf_nth _ _ _ W E0)) as [types Et]. rewrite Et. cbn [rbind].
  destruct (check_rows_defined h types rows (res_map_rows_wf _ W _ _ Er)) as [ds Ec]. rewrite Ec. cbn [rbind].
  destruct ds as [|d ds]; eauto.
  fold (all_defined h asc (VRef r0 :: tl)).
  assert (Ed: all_defined h asc (VRef r0 :: tl) = true).
  { unfold all_defined. apply forallb_forall. intros x Hx. apply forallb_forall. intros y Hy.
    pose proof (check_rows_ok _ _ _ Ec) as Fs.
    destruct (res_map_rows _ _ _ Er x Hx) as (rx & Ex & Ix). destruct (res_map_rows _ _ _ Er y Hy) as (ry & Ey & Iy).
    destruct (vrow_lt_defined h asc (map kind_of_tag types) x y) as [b ->]; auto.
    - exists rx. split; auto. eapply Forall_forall in Fs; eauto.
    - exists ry. split; auto. eapply Forall_forall in Fs; eauto. }
  rewrite Ed. cbn [negb]. destruct (negb _); eauto.
Qed.

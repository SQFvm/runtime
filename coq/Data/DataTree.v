(* C07, value level: isEqualTo / == on trees (tdeq, teq of DataDefs.v) form a partial
   equivalence that is reflexive on values without nil, == differs from isEqualTo by string
   case only, equal values hash equally (with the two hash repairs), and they do not with
   the unrepaired hashes. *)
From Coq Require Import ZArith List Bool Arith Lia Permutation.
From SqfVerif Require Import Data.DataDefs.
Import ListNotations.
Local Open Scope Z_scope.

Section TreeInd.
  Variable P : tree -> Prop.
  Hypothesis Hnil : P TNil.
  Hypothesis Hnum : forall s, P (TNum s).
  Hypothesis Hbool : forall b, P (TBool b).
  Hypothesis Hstr : forall s, P (TStr s).
  Hypothesis Hcode : forall c, P (TCode c).
  Hypothesis Harr : forall l, Forall P l -> P (TArr l).
  Hypothesis Hmap : forall es, Forall (fun e => P (fst e) /\ P (snd e)) es -> P (TMap es).
  Fixpoint tree_ind' (t : tree) : P t :=
    match t with
    | TNil => Hnil | TNum s => Hnum s | TBool b => Hbool b | TStr s => Hstr s | TCode c => Hcode c
    | TArr l => Harr l ((fix go (l : list tree) : Forall P l :=
                           match l with [] => Forall_nil _ | x :: l' => Forall_cons _ (tree_ind' x) (go l') end) l)
    | TMap es => Hmap es ((fix go (es : list (tree * tree)) : Forall (fun e => P (fst e) /\ P (snd e)) es :=
                             match es with
                             | [] => Forall_nil _
                             | e :: es' => Forall_cons _ (conj (tree_ind' (fst e)) (tree_ind' (snd e))) (go es')
                             end) es)
    end.
End TreeInd.

(* fzero and feq match on the literal SHalf 0, that is on the Z inside: the leaf lemmas split these matches *)
Ltac case_z := repeat match goal with
                       | |- context [match ?v with Z0 => _ | Zpos _ => _ | Zneg _ => _ end] => destruct v
                       | H : context [match ?v with Z0 => _ | Zpos _ => _ | Zneg _ => _ end] |- _ => destruct v
                       end.
Lemma feq_sym a b : feq a b = feq b a.
Proof. destruct a, b; cbn; auto; try apply Z.eqb_sym; case_z; reflexivity. Qed.
Lemma fzero_feq a b : fzero a = true -> fzero b = true -> feq a b = true.
Proof. destruct a, b; cbn; try discriminate; auto; case_z; cbn; try discriminate; auto. Qed.
Lemma feq_fzero a b : feq a b = true -> fzero a = fzero b.
Proof.
  destruct a, b; cbn; try discriminate; auto; try (intros H; apply Z.eqb_eq in H; subst; reflexivity);
    case_z; cbn; auto; discriminate.
Qed.
Lemma feq_trans a b c : feq a b = true -> feq b c = true -> feq a c = true.
Proof.
  intros H1 H2. pose proof (feq_fzero _ _ H1) as Z1. pose proof (feq_fzero _ _ H2) as Z2.
  destruct (fzero a) eqn:Za.
  - apply fzero_feq; congruence.
  - destruct a, b, c; cbn in *; try discriminate; auto;
      try (apply Z.eqb_eq in H1; apply Z.eqb_eq in H2; apply Z.eqb_eq; congruence);
      case_z; cbn in *; try discriminate; auto.
Qed.
Lemma feq_refl a : feq a a = true.
Proof. destruct a; cbn; auto; apply Z.eqb_refl. Qed.

Lemma streq_eq a b : streq a b = true <-> a = b.
Proof.
  revert b; induction a as [|x a IH]; destruct b as [|y b]; cbn; try (split; congruence).
  rewrite andb_true_iff, Z.eqb_eq, IH. split; [intros [-> ->]; auto|intros H; inversion H; auto].
Qed.
Lemma streq_refl a : streq a a = true. Proof. apply streq_eq; auto. Qed.
Lemma streq_sym a b : streq a b = streq b a.
Proof. destruct (streq a b) eqn:E; [apply streq_eq in E; subst; symmetry; apply streq_refl|].
  destruct (streq b a) eqn:E'; auto. apply streq_eq in E'; subst. rewrite streq_refl in E. discriminate. Qed.
Lemma streq_trans a b c : streq a b = true -> streq b c = true -> streq a c = true.
Proof. rewrite !streq_eq. congruence. Qed.
Lemma streq_ci_sym a b : streq_ci a b = streq_ci b a. Proof. apply streq_sym. Qed.
Lemma streq_ci_trans a b c : streq_ci a b = true -> streq_ci b c = true -> streq_ci a c = true.
Proof. apply streq_trans. Qed.

Lemma ieq_sym a b : ieq a b = ieq b a.
Proof. destruct a, b; cbn; auto; [apply feq_sym|apply streq_sym|rewrite Z.eqb_sym, streq_sym; auto]. Qed.
Lemma ieq_trans a b c : ieq a b = true -> ieq b c = true -> ieq a c = true.
Proof.
  destruct a, b, c; cbn; try discriminate; [apply feq_trans|apply streq_trans|].
  rewrite !andb_true_iff, !Z.eqb_eq. intros [-> H1] [-> H2]. split; auto. eapply streq_trans; eauto.
Qed.
Lemma ieq_refl a : ieq a a = true.
Proof. destruct a; cbn; [apply feq_refl|apply streq_refl|rewrite Z.eqb_refl, streq_refl; auto]. Qed.

Section Forall2b.
  Context {A : Type}.
  Variable f : A -> A -> bool.
  Lemma forall2b_sym_on l1 l2 : (forall x y, In x l1 -> f x y = f y x) -> forall2b f l1 l2 = forall2b f l2 l1.
  Proof.
    revert l2; induction l1 as [|x l1 IH]; destruct l2 as [|y l2]; cbn; auto. intros H.
    rewrite H by auto. rewrite IH; auto.
  Qed.
  Lemma forall2b_trans_on l1 l2 l3 : (forall x y z, In x l1 -> f x y = true -> f y z = true -> f x z = true) ->
    forall2b f l1 l2 = true -> forall2b f l2 l3 = true -> forall2b f l1 l3 = true.
  Proof.
    revert l2 l3; induction l1 as [|x l1 IH]; destruct l2 as [|y l2], l3 as [|z l3]; cbn; auto; try discriminate.
    intros H. rewrite !andb_true_iff. intros [A1 A2] [B1 B2]. split; [eapply H; eauto|eapply IH; eauto].
  Qed.
  Lemma forall2b_refl_on l : (forall x, In x l -> f x x = true) -> forall2b f l l = true.
  Proof. induction l as [|x l IH]; cbn; auto. intros H. rewrite H by auto. rewrite IH; auto. Qed.
  Lemma forall2b_Forall2 l1 l2 : forall2b f l1 l2 = true <-> Forall2 (fun x y => f x y = true) l1 l2.
  Proof.
    revert l2; induction l1 as [|x l1 IH]; destruct l2 as [|y l2]; cbn; split; intros H; try discriminate; auto;
      try (inversion H; fail).
    - apply andb_true_iff in H. destruct H. constructor; auto. apply IH; auto.
    - inversion H; subst. apply andb_true_iff. split; auto. apply IH; auto.
  Qed.
End Forall2b.

Lemma ceq_sym a b : ceq a b = ceq b a.
Proof. apply forall2b_sym_on. intros; apply ieq_sym. Qed.
Lemma ceq_trans a b c : ceq a b = true -> ceq b c = true -> ceq a c = true.
Proof. apply forall2b_trans_on. intros; eapply ieq_trans; eauto. Qed.
Lemma ceq_refl a : ceq a a = true.
Proof. apply forall2b_refl_on. intros; apply ieq_refl. Qed.

Section Matching.
  Context {A B : Type}.
  Variable R : A -> B -> bool.
  Variable Q : B -> Prop.
  (* no two elements of the list can be matched with the same (Q-)partner *)
  Fixpoint incompat (l : list A) : Prop :=
    match l with
    | [] => True
    | x :: l' => (forall x' y, In x' l' -> Q y -> R x y = true -> R x' y = true -> False) /\ incompat l'
    end.

  Lemma match_perm : forall l1 l2, length l1 = length l2 -> (forall y, In y l2 -> Q y) ->
    (forall x, In x l1 -> exists y, In y l2 /\ R x y = true) -> incompat l1 ->
    exists l2', Permutation l2 l2' /\ Forall2 (fun x y => R x y = true) l1 l2'.
  Proof.
    induction l1 as [|x l1 IH]; intros l2 L HQ H I.
    - destruct l2; [|discriminate]. exists []. split; constructor.
    - destruct (H x (or_introl eq_refl)) as (y0 & Hy0 & Rxy).
      pose proof (HQ _ Hy0) as Qy0.
      apply in_split in Hy0. destruct Hy0 as (p & q & ->).
      destruct I as [I1 I2].
      destruct (IH (p ++ q)) as (l2' & P & F).
      + rewrite app_length in *. cbn in L. lia.
      + intros y Hy. apply HQ. apply in_app_or in Hy. apply in_or_app. destruct Hy; [left|right; right]; auto.
      + intros x' Hx'. destruct (H x' (or_intror Hx')) as (y' & Hy' & Rx'y').
        exists y'. split; auto. apply in_app_or in Hy'. apply in_or_app.
        destruct Hy' as [?|[<-|?]]; auto. exfalso. eapply I1; eauto.
      + exact I2.
      + exists (y0 :: l2'). split; [|constructor; auto].
        eapply Permutation_trans; [apply Permutation_sym, Permutation_middle|]. constructor. exact P.
  Qed.

  Lemma Forall2_find_l l1 l2 y : Forall2 (fun x y => R x y = true) l1 l2 -> In y l2 -> exists x, In x l1 /\ R x y = true.
  Proof.
    induction 1 as [|x y0 l1 l2 Rxy F IHF]; intros Hy; [contradiction|]. destruct Hy as [<-|Hy].
    - exists x. split; [left; auto|auto].
    - destruct (IHF Hy) as (x' & Hx' & Rx'). exists x'. split; [right; auto|auto].
  Qed.
End Matching.

(* entry e of this against entry e' of other, as in tdeq (TMap) *)
Definition pair_eq (e e' : tree * tree) : bool :=
  (if tnil (fst e) then tnil (fst e') else negb (tnil (fst e')) && tdeq false (fst e) (fst e')) &&
  (if tnil (snd e) then tnil (snd e') else negb (tnil (snd e')) && tdeq false (snd e) (snd e')).
Definition slot_eq (inv : bool) (x y : tree) : bool := negb (tnil x) && negb (tnil y) && tdeq inv x y.

Lemma tdeq_arr inv l1 l2 : tdeq inv (TArr l1) (TArr l2) = forall2b (slot_eq inv) l1 l2.
Proof. reflexivity. Qed.
Lemma tdeq_map inv e1 e2 : tdeq inv (TMap e1) (TMap e2) =
  Nat.eqb (length e1) (length e2) && forallb (fun e => existsb (pair_eq e) e2) e1.
Proof. reflexivity. Qed.

Lemma teq_alt a b : teq a b = (if tnil a then tnil b else negb (tnil b) && tdeq false a b).
Proof. reflexivity. Qed.
Lemma pair_eq_teq e e' : pair_eq e e' = teq (fst e) (fst e') && teq (snd e) (snd e').
Proof. reflexivity. Qed.

Definition trans_at (a : tree) : Prop := forall inv b c, tdeq inv a b = true -> tdeq inv b c = true -> tdeq inv a c = true.

Lemma teq_trans_at a : trans_at a -> forall b c, teq a b = true -> teq b c = true -> teq a c = true.
Proof.
  intros T b c. rewrite !teq_alt. destruct (tnil a) eqn:Na, (tnil b) eqn:Nb, (tnil c) eqn:Nc; cbn; auto; try discriminate.
  apply T.
Qed.

(* transitive on ALL values (a NaN or a nil only ever makes a comparison false) *)
Lemma tdeq_trans_all : forall a, trans_at a.
Proof.
  induction a using tree_ind'; intros inv u w; try (destruct u, w; cbn; try discriminate; auto; fail).
  - destruct u, w; cbn; try discriminate. apply feq_trans.
  - destruct u, w; cbn; try discriminate. destruct b, b0, b1; cbn; auto.
  - destruct u, w; cbn; try discriminate. destruct inv; [apply streq_ci_trans|apply streq_trans].
  - destruct u, w; cbn; try discriminate. apply ceq_trans.
  - destruct u, w; try (cbn; discriminate). rewrite !tdeq_arr. apply forall2b_trans_on.
    intros x y z Hx. unfold slot_eq. rewrite !andb_true_iff. intros [[X1 X2] X3] [[Y1 Y2] Y3].
    split; [split; auto|]. eapply Forall_forall in H; [|exact Hx]. eauto.
  - destruct u, w; try (cbn; discriminate). rewrite !tdeq_map, !andb_true_iff, !Nat.eqb_eq, !forallb_forall.
    intros [L1 F1] [L2 F2]. split; [congruence|]. intros e He.
    specialize (F1 e He). apply existsb_exists in F1. destruct F1 as (e' & He' & P1).
    specialize (F2 e' He'). apply existsb_exists in F2. destruct F2 as (e'' & He'' & P2).
    apply existsb_exists. exists e''. split; auto.
    eapply Forall_forall in H; [|exact He]. destruct H as [Tk Tv].
    rewrite pair_eq_teq in *. apply andb_true_iff in P1, P2. apply andb_true_iff.
    split; [eapply teq_trans_at; [exact Tk|apply P1|apply P2]|eapply teq_trans_at; [exact Tv|apply P1|apply P2]].
Qed.

Theorem tdeq_trans inv a b c : tdeq inv a b = true -> tdeq inv b c = true -> tdeq inv a c = true.
Proof. apply tdeq_trans_all. Qed.
Theorem teq_trans a b c : teq a b = true -> teq b c = true -> teq a c = true.
Proof. apply teq_trans_at, tdeq_trans_all. Qed.

Lemma wf_tree_map es : wf_tree (TMap es) = true ->
  keys_distinct (map fst es) = true /\ forall e, In e es -> wf_tree (fst e) = true /\ wf_tree (snd e) = true.
Proof.
  cbn. rewrite andb_true_iff, forallb_forall. intros [K F]. split; auto.
  intros e He. specialize (F e He). apply andb_true_iff in F. exact F.
Qed.
Lemma wf_tree_arr l : wf_tree (TArr l) = true -> forall x, In x l -> wf_tree x = true.
Proof. cbn. rewrite forallb_forall. auto. Qed.

Definition wfe (e : tree * tree) : Prop := wf_tree (fst e) = true /\ wf_tree (snd e) = true.

(* the unique-key invariant gives the incompatibility needed for matching *)
Lemma keys_distinct_incompat (Q : tree * tree -> Prop) es :
  (forall e y, In e es -> Q y -> teq (fst e) (fst y) = teq (fst y) (fst e)) ->
  keys_distinct (map fst es) = true -> incompat pair_eq Q es.
Proof.
  induction es as [|e es IH]; intros S K; cbn; auto. cbn in K. apply andb_true_iff in K. destruct K as [K1 K2].
  split; [|apply IH; auto; intros; apply S; auto; right; auto].
  intros e' y He' Qy R1 R2. rewrite pair_eq_teq in R1, R2. apply andb_true_iff in R1, R2.
  destruct R1 as [R1 _], R2 as [R2 _].
  assert (S': teq (fst y) (fst e') = true) by (rewrite <- (S e' y (or_intror He') Qy); exact R2).
  pose proof (teq_trans _ _ _ R1 S') as T.
  apply negb_true_iff in K1. assert (X: existsb (fun k' => teq (fst e) k') (map fst es) = true).
  { apply existsb_exists. exists (fst e'). split; [apply in_map; auto|exact T]. }
  congruence.
Qed.

(* one direction of the HashMap comparison implies the other *)
Lemma map_dir (Q : tree * tree -> Prop) (l1 l2 : list (tree * tree)) : length l1 = length l2 ->
  (forall y, In y l2 -> Q y) ->
  (forall e e', In e l1 -> In e' l2 -> pair_eq e e' = pair_eq e' e) ->
  incompat pair_eq Q l1 ->
  forallb (fun e => existsb (pair_eq e) l2) l1 = true ->
  forallb (fun e => existsb (pair_eq e) l1) l2 = true.
Proof.
  intros Ll HQ Sy Inc F. rewrite forallb_forall in F.
  destruct (match_perm pair_eq Q l1 l2 Ll HQ) as (l2' & P & F2); auto.
  { intros x Hx. specialize (F x Hx). apply existsb_exists in F. exact F. }
  apply forallb_forall. intros y Hy. apply existsb_exists.
  assert (Hy': In y l2') by (eapply Permutation_in; eauto).
  destruct (Forall2_find_l _ _ _ _ F2 Hy') as (x & Hx & Rx). exists x. split; auto. rewrite <- Sy; auto.
Qed.

(* symmetry; for HashMaps it rests on the unique-key invariant of the container (wf_tree) *)
Theorem tdeq_sym : forall a, wf_tree a = true -> forall inv b, wf_tree b = true -> tdeq inv a b = tdeq inv b a.
Proof.
  induction a using tree_ind'; intros Wa inv u Wb; try (destruct u; reflexivity).
  - destruct u; cbn; auto. apply feq_sym.
  - destruct u; cbn; auto. destruct b, b0; reflexivity.
  - destruct u; cbn; auto. destruct inv; [apply streq_ci_sym|apply streq_sym].
  - destruct u; cbn; auto. apply ceq_sym.
  - destruct u; try reflexivity. rewrite !tdeq_arr.
    pose proof (wf_tree_arr _ Wa) as Wl. pose proof (wf_tree_arr _ Wb) as Wl0.
    clear Wa Wb. revert l0 Wl0. induction l as [|x l IHl]; intros [|y l0] Wl0; cbn; auto.
    inversion H as [|? ? Hx Hl]; subst.
    rewrite IHl; auto; [|intros; apply Wl; right; auto|intros; apply Wl0; right; auto].
    f_equal. unfold slot_eq. rewrite (Hx (Wl x (or_introl eq_refl)) inv y (Wl0 y (or_introl eq_refl))).
    destruct (tnil x), (tnil y); reflexivity.
  - destruct u; try reflexivity.
    destruct (wf_tree_map _ Wa) as [Ka Fa]. destruct (wf_tree_map _ Wb) as [Kb Fb].
    assert (TS: forall e y, In e es -> wfe y -> teq (fst e) (fst y) = teq (fst y) (fst e)).
    { intros e y He [Wk' _]. eapply Forall_forall in H; [|exact He]. destruct H as [Sk _]. destruct (Fa e He) as [Wk _].
      rewrite !teq_alt. rewrite (Sk Wk false (fst y) Wk'). destruct (tnil (fst e)), (tnil (fst y)); reflexivity. }
    assert (PS: forall e e', In e es -> In e' es0 -> pair_eq e e' = pair_eq e' e).
    { intros e e' He He'. eapply Forall_forall in H; [|exact He]. destruct H as [Sk Sv].
      destruct (Fa e He) as [Wk Wv]. destruct (Fb e' He') as [Wk' Wv'].
      unfold pair_eq. rewrite (Sk Wk false (fst e') Wk'), (Sv Wv false (snd e') Wv').
      destruct (tnil (fst e)), (tnil (fst e')), (tnil (snd e)), (tnil (snd e')); reflexivity. }
    rewrite !tdeq_map. rewrite (Nat.eqb_sym (length es0)).
    destruct (Nat.eqb (length es) (length es0)) eqn:L; [|reflexivity]. apply Nat.eqb_eq in L. cbn.
    destruct (forallb (fun e => existsb (pair_eq e) es0) es) eqn:F1.
    + symmetry. apply (map_dir wfe es es0 L);
        [intros y Hy; exact (Fb y Hy)|exact PS|apply keys_distinct_incompat; auto|exact F1].
    + destruct (forallb (fun e => existsb (pair_eq e) es) es0) eqn:F2; auto.
      exfalso. assert (X: forallb (fun e => existsb (pair_eq e) es0) es = true); [|congruence].
      apply (map_dir (fun y => In y es) es0 es (eq_sym L));
        [intros y Hy; exact Hy|intros e e' He He'; symmetry; apply PS; auto| |exact F2].
      apply keys_distinct_incompat; auto. intros e y He Hy. symmetry. apply TS; auto. exact (Fb e He).
Qed.

Theorem teq_sym a b : wf_tree a = true -> wf_tree b = true -> teq a b = teq b a.
Proof.
  intros Wa Wb. rewrite !teq_alt. rewrite (tdeq_sym a Wa false b Wb). destruct (tnil a), (tnil b); reflexivity.
Qed.

(* reflexive on values without nil (in this model a NaN compared with ITSELF - the same
   object - is equal, data.h:75; two different NaN objects are not) *)
Fixpoint nil_free_t (t : tree) : bool :=
  match t with
  | TNil => false
  | TArr l => forallb nil_free_t l
  | TMap es => forallb (fun e => nil_free_t (fst e) && nil_free_t (snd e)) es
  | _ => true
  end.
Lemma nil_nan_free_nil_free t : nil_nan_free t = true -> nil_free_t t = true.
Proof.
  induction t using tree_ind'; cbn; auto.
  - rewrite !forallb_forall. intros F x Hx. eapply Forall_forall in H; [|exact Hx]. auto.
  - rewrite !forallb_forall. intros F e He. eapply Forall_forall in H; [|exact He]. destruct H as [Hk Hv].
    specialize (F e He). apply andb_true_iff in F. destruct F. rewrite Hk, Hv; auto.
Qed.
Lemma nil_free_not_nil t : nil_free_t t = true -> tnil t = false.
Proof. destruct t; cbn; auto; discriminate. Qed.

Theorem tdeq_refl_nil_free : forall t inv, nil_free_t t = true -> tdeq inv t t = true.
Proof.
  induction t using tree_ind'; intros inv N; cbn in N; try discriminate; cbn [tdeq].
  - apply feq_refl.
  - destruct b; reflexivity.
  - destruct inv; [apply streq_refl|apply streq_refl].
  - apply ceq_refl.
  - rewrite forallb_forall in N. apply forall2b_refl_on. intros x Hx. eapply Forall_forall in H; [|exact Hx].
    rewrite (nil_free_not_nil _ (N x Hx)). cbn. apply H; auto.
  - rewrite Nat.eqb_refl. cbn. rewrite forallb_forall in N. apply forallb_forall. intros e He.
    apply existsb_exists. exists e. split; auto. eapply Forall_forall in H; [|exact He]. destruct H as [Hk Hv].
    specialize (N e He). apply andb_true_iff in N. destruct N as [Nk Nv].
    rewrite (nil_free_not_nil _ Nk), (nil_free_not_nil _ Nv). cbn. rewrite Hk, Hv; auto.
Qed.

Theorem tdeq_refl : forall t inv, nil_nan_free t = true -> tdeq inv t t = true.
Proof. intros. apply tdeq_refl_nil_free, nil_nan_free_nil_free; auto. Qed.

(* == against isEqualTo: only the case of strings *)
Theorem eq_vs_iseq : forall a b, eqeq_defined a b = true ->
  t_eqeq a b = t_iseq (tree_lower a) (tree_lower b) /\
  (t_eqeq a b = t_iseq a b \/ exists x y, a = TStr x /\ b = TStr y).
Proof.
  intros a b D. destruct a, b; cbn in D; try discriminate; cbn; split; auto.
  right. eauto.
Qed.
(* on strings == is isEqualTo of the lower-cased strings; on the other types they coincide *)
Theorem eqeq_is_iseq_modulo_case : forall x y, t_eqeq (TStr x) (TStr y) = t_iseq (TStr (map lower x)) (TStr (map lower y)).
Proof. reflexivity. Qed.
Lemma lower_idem c : lower (lower c) = lower c.
Proof.
  unfold lower. destruct ((65 <=? c) && (c <=? 90)) eqn:E.
  - apply andb_true_iff in E. destruct E as [E1 E2]. apply Z.leb_le in E1, E2.
    destruct ((65 <=? c + 32) && (c + 32 <=? 90)) eqn:E'; auto.
    apply andb_true_iff in E'. destruct E' as [_ E']. apply Z.leb_le in E'. lia.
  - rewrite E. reflexivity.
Qed.

Section HashLaws.
  Variable hnum : scalar -> Z.
  Variable hbool : bool -> Z.
  Variable hstr : list Z -> Z.
  Variable hop : Z -> list Z -> Z.
  Variable mix : Z -> Z -> Z.
  Variable seed : Z.
  (* libstdc++: std::hash<float> maps +0 and -0 to one value; checked on the implementation by the harness *)
  Hypothesis hnum_feq : forall a b, feq a b = true -> hnum a = hnum b.

  Definition hd_repaired : hash_defects := {| d_code_hash_text := false; d_map_hash_ordered := false |}.
  Definition hd_as_is : hash_defects := {| d_code_hash_text := true; d_map_hash_ordered := true |}.
  Notation HH := (vhash hd_repaired hnum hbool hstr hop mix seed).

  Lemma ihash_ieq i j : ieq i j = true -> ihash hnum hstr hop i = ihash hnum hstr hop j.
  Proof.
    destruct i, j; cbn; try discriminate; [apply hnum_feq|intros E; apply streq_eq in E; subst; auto|].
    rewrite andb_true_iff, Z.eqb_eq, streq_eq. intros [-> ->]. auto.
  Qed.

  Lemma Forall2_imp {A B} (P Q : A -> B -> Prop) l1 l2 : (forall x y, P x y -> Q x y) -> Forall2 P l1 l2 -> Forall2 Q l1 l2.
  Proof. intros I. induction 1; constructor; auto. Qed.

  Lemma fold_mix_eq {A} (g : A -> Z) l1 l2 : Forall2 (fun x y => g x = g y) l1 l2 ->
    forall s, fold_left (fun acc x => mix acc (g x)) l1 s = fold_left (fun acc x => mix acc (g x)) l2 s.
  Proof. induction 1 as [|x y l1 l2 E F IH]; intros s; cbn; auto. rewrite E. apply IH. Qed.

  Lemma fold_add_perm {A} (g : A -> Z) l1 l2 : Permutation l1 l2 ->
    forall s, fold_left (fun acc x => acc + g x) l1 s = fold_left (fun acc x => acc + g x) l2 s.
  Proof.
    induction 1 as [|x l1 l2 P IH|x y l|l1 l2 l3 P1 IH1 P2 IH2]; intros s; cbn; auto.
    - f_equal. lia.
    - rewrite IH1. apply IH2.
  Qed.
  Lemma fold_add_eq {A} (g : A -> Z) l1 l2 : Forall2 (fun x y => g x = g y) l1 l2 ->
    forall s, fold_left (fun acc x => acc + g x) l1 s = fold_left (fun acc x => acc + g x) l2 s.
  Proof. induction 1 as [|x y l1 l2 E F IH]; intros s; cbn; auto. rewrite E. apply IH. Qed.

  Lemma teq_hash_at a : (forall b, wf_tree b = true -> tdeq false a b = true -> HH a = HH b) ->
    forall b, wf_tree b = true -> teq a b = true -> HH a = HH b.
  Proof.
    intros IH b Wb. rewrite teq_alt. destruct (tnil a) eqn:Na.
    - destruct a; try discriminate. destruct b; cbn; try discriminate. auto.
    - rewrite andb_true_iff. intros [_ E]. apply IH; auto.
  Qed.

  (* values that compare equal hash equally (instruction-wise code hash, order-independent HashMap hash) *)
  Theorem tdeq_hash : forall a, wf_tree a = true -> forall b, wf_tree b = true -> tdeq false a b = true -> HH a = HH b.
  Proof.
    induction a using tree_ind'; intros Wa u Wb E; destruct u; cbn in E; try discriminate; cbn [vhash hd_repaired d_code_hash_text d_map_hash_ordered].
    - apply hnum_feq; auto.
    - destruct b, b0; cbn in E; try discriminate; auto.
    - apply streq_eq in E. subst; auto.
    - apply (fold_mix_eq (ihash hnum hstr hop)). apply forall2b_Forall2 in E.
      eapply Forall2_imp; [|exact E]. intros i j. apply ihash_ieq.
    - change (tdeq false (TArr l) (TArr l0) = true) in E. rewrite tdeq_arr in E. apply forall2b_Forall2 in E.
      apply (fold_mix_eq HH).
      pose proof (wf_tree_arr _ Wa) as Wl. pose proof (wf_tree_arr _ Wb) as Wl0. clear Wa Wb.
      revert H Wl Wl0. induction E as [|x y l l0 Exy F IHF]; intros IHl Wl Wl0; constructor.
      + inversion IHl as [|? ? Hx _]; subst. unfold slot_eq in Exy. apply andb_true_iff in Exy. destruct Exy as [_ Exy].
        apply Hx; auto; [apply Wl|apply Wl0]; left; auto.
      + inversion IHl; subst. apply IHF; auto; intros; [apply Wl|apply Wl0]; right; auto.
    - change (tdeq false (TMap es) (TMap es0) = true) in E. rewrite tdeq_map in E. apply andb_true_iff in E.
      destruct E as [L F]. apply Nat.eqb_eq in L.
      destruct (wf_tree_map _ Wa) as [Ka Fa]. destruct (wf_tree_map _ Wb) as [Kb Fb].
      assert (TS: forall e y, In e es -> wfe y -> teq (fst e) (fst y) = teq (fst y) (fst e)).
      { intros e y He [Wk' _]. destruct (Fa e He) as [Wk _]. apply teq_sym; auto. }
      rewrite forallb_forall in F.
      destruct (match_perm pair_eq wfe es es0 L (fun y Hy => Fb y Hy)) as (es0' & P & F2).
      { intros x Hx. specialize (F x Hx). apply existsb_exists in F. exact F. }
      { apply keys_distinct_incompat; auto. }
      set (g := fun e : tree * tree => mix (mix seed (HH (fst e))) (HH (snd e))).
      change (fold_left (fun acc e => acc + g e) es seed = fold_left (fun acc e => acc + g e) es0 seed).
      rewrite (fold_add_perm g es0 es0' P). apply fold_add_eq.
      assert (W0': forall y, In y es0' -> wfe y).
      { intros y Hy. apply Fb. eapply Permutation_in; [apply Permutation_sym; exact P|exact Hy]. }
      clear P F L Ka Kb TS Wa Wb Fb. revert H Fa W0'. induction F2 as [|x y l1 l2 Rxy F2 IHF]; intros IHl Fa W0'; constructor.
      + inversion IHl as [|? ? [Hk Hv] _]; subst. rewrite pair_eq_teq in Rxy. apply andb_true_iff in Rxy.
        destruct Rxy as [Rk Rv]. destruct (Fa x (or_introl eq_refl)) as [Wk Wv]. destruct (W0' y (or_introl eq_refl)) as [Wk' Wv'].
        unfold g. f_equal; [f_equal|].
        * apply (teq_hash_at (fst x)); auto.
        * apply (teq_hash_at (snd x)); auto.
      + inversion IHl; subst. apply IHF; auto; intros; [apply Fa|apply W0']; right; auto.
  Qed.

  Theorem teq_hash : forall a b, wf_tree a = true -> wf_tree b = true -> teq a b = true -> HH a = HH b.
  Proof. intros a b Wa Wb. apply teq_hash_at; auto. intros; apply tdeq_hash; auto. Qed.
End HashLaws.

(* ... and with the hashes as they are in the source they do not: { 0 } / { -0 }, and two equal
   HashMaps that iterate in different orders *)
Definition w_hnum (s : scalar) : Z := match s with SHalf t => t | SNegZero => 0 | SNaN _ => 7 | SPInf => 9 | SNInf => 11 end.
Lemma w_hnum_feq a b : feq a b = true -> w_hnum a = w_hnum b.
Proof.
  destruct a, b; cbn; try discriminate; auto; try (intros E; apply Z.eqb_eq in E; auto; fail);
    case_z; cbn; auto; discriminate.
Qed.
Definition w_hstr (s : list Z) : Z := Z.of_nat (length s).
Definition w_mix (a x : Z) : Z := 2 * a + x.

Theorem code_hash_refuted : exists a b, tdeq false a b = true /\
  vhash hd_as_is w_hnum (fun _ => 0) w_hstr (fun _ _ => 0) w_mix 1 a <>
  vhash hd_as_is w_hnum (fun _ => 0) w_hstr (fun _ _ => 0) w_mix 1 b.
Proof.
  exists (TCode [IPushNum (SHalf 0)]), (TCode [IPushNum SNegZero]). split; [reflexivity|]. vm_compute. discriminate.
Qed.
Theorem map_hash_order_refuted : exists a b, wf_tree a = true /\ wf_tree b = true /\ tdeq false a b = true /\
  vhash hd_as_is w_hnum (fun _ => 0) w_hstr (fun _ _ => 0) w_mix 1 a <>
  vhash hd_as_is w_hnum (fun _ => 0) w_hstr (fun _ _ => 0) w_mix 1 b.
Proof.
  exists (TMap [(TNum (SHalf 2), TNum (SHalf 4)); (TNum (SHalf 6), TNum (SHalf 8))]),
         (TMap [(TNum (SHalf 6), TNum (SHalf 8)); (TNum (SHalf 2), TNum (SHalf 4))]).
  split; [reflexivity|]. split; [reflexivity|]. split; [reflexivity|]. vm_compute. discriminate.
Qed.

Print Assumptions tdeq_sym.
Print Assumptions tdeq_trans.
Print Assumptions tdeq_refl.
Print Assumptions tdeq_hash.

(* C08: `table sort flag` on the heap - the table keeps its cell, the references to the row cells are
   permuted (no copies), nothing else changes; so every name of the table and every name of a row
   observes the result. *)
From Coq Require Import ZArith List Arith Lia Bool Permutation Sorted.
From SqfVerif Require Import Data.DataDefs Data.DataGraph Data.DataHeap Data.DataSort Data.DataStep.
Import ListNotations.

Lemma StronglySorted_impl_In {A} (R R' : A -> A -> Prop) (l : list A) :
  (forall x y, In x l -> In y l -> R x y -> R' x y) -> StronglySorted R l -> StronglySorted R' l.
Proof.
  intros H S. induction S as [|a t S IH Ha]; constructor.
  - apply IH. intros x y Hx Hy. apply H; right; auto.
  - apply Forall_forall. intros y Hy. apply H; [left; auto|right; auto|]. eapply Forall_forall in Ha; eauto.
Qed.

Lemma table_not_own_row st a l : Inv st -> nth_error (st_heap st) a = Some (CArr l) -> ~ In (VRef a) l.
Proof.
  intros [_ Ac] E Hin. apply (Ac a). constructor. unfold edge, succs. rewrite E. apply In_refs. exact Hin.
Qed.

Lemma row_of_set_nth h a c v : (forall r, v = VRef r -> r <> a) -> row_of (set_nth h a c) v = row_of h v.
Proof.
  intros H. destruct v; cbn; auto. rewrite nth_error_set_nth_neq; auto. intros ->. eapply H; eauto.
Qed.
Lemma vrow_ltb_set_nth h a c asc x y : (forall r, x = VRef r -> r <> a) -> (forall r, y = VRef r -> r <> a) ->
  vrow_ltb (set_nth h a c) asc x y = vrow_ltb h asc x y.
Proof. intros Hx Hy. unfold vrow_ltb, vrow_lt. rewrite !row_of_set_nth; auto. Qed.

Lemma sort_step_table d st n asc a l r : nth_error (st_vars st) n = Some (VRef a) -> nth_error (st_heap st) a = Some (CArr l) ->
  1 < length l -> sort_table (st_heap st) asc l = Ok r -> r <> TOutside ->
  step d st (OpSort (OVar n) asc) =
    match r with
    | TSorted l' => mk Done (upd st a (CArr l')) [] VNil
    | TRefused ds => mk Done st ds VNil
    | TOutside => invalid st
    end.
Proof.
  intros En Ea Hlen Hs Hr. cbn [step]. unfold with1. cbn [eval_opnd]. rewrite En. unfold arr_of. rewrite Ea.
  destruct (Nat.leb (length l) 1) eqn:L; [apply Nat.leb_le in L; lia|].
  assert (El: exists r0 tl, l = VRef r0 :: tl).
  { unfold sort_table in Hs. destruct l as [|[| | | | |r0] tl]; try (injection Hs as <-; contradiction); eauto. }
  destruct El as (r0 & tl & ->). change (sortable_nums (VRef r0 :: tl)) with false. change (sortable_strs (VRef r0 :: tl)) with false.
  rewrite Hs. reflexivity.
Qed.

Theorem sort_table_step : forall d st n asc a l l',
  Inv st -> nth_error (st_vars st) n = Some (VRef a) -> nth_error (st_heap st) a = Some (CArr l) -> 1 < length l ->
  sort_table (st_heap st) asc l = Ok (TSorted l') ->
  let o := step d st (OpSort (OVar n) asc) in
  let h' := st_heap (o_state o) in
  (* the operator ran, without diagnostics, and no variable was rebound *)
  o_status o = Done /\ o_diags o = [] /\ st_vars (o_state o) = st_vars st /\
  (* the heap is still well formed and acyclic, no cell was added *)
  Inv (o_state o) /\ length h' = length (st_heap st) /\
  (* the table is the same cell; every other cell is as it was *)
  nth_error h' a = Some (CArr l') /\
  (forall b, b <> a -> nth_error h' b = nth_error (st_heap st) b) /\
  (* its content: the old element values - references to the row cells - in another order, sorted by the comparator,
     and the only such arrangement *)
  Permutation l l' /\
  StronglySorted (fun x y => vrow_ltb h' asc y x = false) l' /\
  (forall l2, Permutation l l2 -> StronglySorted (fun x y => vrow_ltb h' asc y x = false) l2 -> l2 = l') /\
  (* a name of a row still refers to a cell that is an element of the table, and that cell is as it was *)
  (forall r, In (VRef r) l -> r <> a /\ In (VRef r) l' /\ nth_error h' r = nth_error (st_heap st) r).
Proof.
  intros d st n asc a l l' Hi En Ea Hlen Hs o h'.
  assert (Eo: o = mk Done (upd st a (CArr l')) [] VNil) by (apply (sort_step_table d st n asc a l _ En Ea Hlen Hs); discriminate).
  assert (Eh: h' = set_nth (st_heap st) a (CArr l')) by (unfold h'; rewrite Eo; reflexivity).
  destruct (sort_table_sorted_perm _ _ _ _ Hs) as [P S].
  pose proof (table_not_own_row _ _ _ Hi Ea) as Na.
  assert (La: a < length (st_heap st)) by (apply nth_error_Some; congruence).
  assert (Nr: forall x, In x l -> forall r, x = VRef r -> r <> a).
  { intros x Hx r -> ->. apply Na; auto. }
  assert (Nr': forall x, In x l' -> forall r, x = VRef r -> r <> a).
  { intros x Hx. apply Nr. eapply Permutation_in; [apply Permutation_sym; exact P|exact Hx]. }
  rewrite Eo. cbn [o_status o_diags o_state mk upd st_vars st_heap]. fold (upd st a (CArr l')).
  split; [reflexivity|]. split; [reflexivity|]. split; [reflexivity|].
  split.
  { eapply Inv_upd_shrink; [exact Hi|exact Ea|exact I| |].
    - cbn. pose proof (hwf_nth _ _ _ (proj1 (proj1 Hi)) Ea) as W. cbn in W.
      apply Forall_forall. intros x Hx. eapply Forall_forall in W; [exact W|].
      eapply Permutation_in; [apply Permutation_sym; exact P|exact Hx].
    - cbn. intros b Hb. apply In_refs in Hb. apply In_refs.
      eapply Permutation_in; [apply Permutation_sym; exact P|exact Hb]. }
  rewrite Eh. split; [apply length_set_nth|]. split; [apply nth_error_set_nth_eq; auto|].
  split; [intros b Hb; apply nth_error_set_nth_neq; auto|]. split; [exact P|].
  split.
  { eapply StronglySorted_impl_In; [|exact S]. cbn beta. intros x y Hx Hy R.
    rewrite vrow_ltb_set_nth; [exact R|apply Nr'; assumption|apply Nr'; assumption]. }
  split.
  { intros l2 P2 S2. eapply sort_table_unique; eauto.
    eapply StronglySorted_impl_In; [|exact S2]. cbn beta. intros x y Hx Hy R.
    assert (I2: forall z, In z l2 -> In z l) by (intros z Hz; eapply Permutation_in; [apply Permutation_sym; exact P2|exact Hz]).
    rewrite vrow_ltb_set_nth in R; [exact R|apply Nr; auto|apply Nr; auto]. }
  intros r Hr. split; [eapply Nr; eauto|]. split; [eapply Permutation_in; eauto|].
  apply nth_error_set_nth_neq. intros E. eapply Nr; eauto.
Qed.

(* when the type checks of ops_generic.cpp:753-767 refuse the table nothing changes at all *)
Theorem sort_table_refused_step : forall d st n asc a l ds,
  nth_error (st_vars st) n = Some (VRef a) -> nth_error (st_heap st) a = Some (CArr l) -> 1 < length l ->
  sort_table (st_heap st) asc l = Ok (TRefused ds) ->
  step d st (OpSort (OVar n) asc) = mk Done st ds VNil /\ ds <> [] /\
  forall x, In x ds -> x = DExpectedArrayTypeMissmatch \/ x = DExpectedArraySizeMissmatch.
Proof.
  intros d st n asc a l ds En Ea Hlen Hs. destruct (sort_table_refused_diags _ _ _ _ Hs) as [N D].
  split; [apply (sort_step_table d st n asc a l _ En Ea Hlen Hs); discriminate | exact (conj N D)].
Qed.

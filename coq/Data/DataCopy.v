(* C08: +array is deep - every array that the copy reaches through arrays is a new cell, so no
   later change of an array that existed before the copy can show in it.  (A HashMap inside the
   array is shared by the copy: d_array::copy_deep copies arrays only.) *)
From Coq Require Import ZArith List ListDec Arith Lia Bool.
From SqfVerif Require Import Data.DataDefs Data.DataGraph Data.DataHeap Data.DataStep Data.DataTerm Data.DataFrame.
Import ListNotations.

Lemma is_arr_lt h r : is_arr h r = true -> r < length h.
Proof. intros H. apply cont_lt, is_arr_cont; auto. Qed.

Lemma new_closed_reach n h : new_closed n h -> forall a b, reach (succs_arr h) a b -> n <= a -> n <= b.
Proof.
  intros P a b R. induction R as [a b He|a m b He Hr IH]; intros Ha.
  - unfold edge, succs_arr in He. destruct (nth_error h a) as [[l| |]|] eqn:E; try contradiction.
    apply filter_In in He. destruct He as [Hin Ia]. eapply P; eauto.
  - apply IH. unfold edge, succs_arr in He. destruct (nth_error h a) as [[l| |]|] eqn:E; try contradiction.
    apply filter_In in He. destruct He as [Hin Ia]. eapply P; eauto.
Qed.

(* +x on an array: the copy and every array it reaches through arrays are cells that did not
   exist before (so no operand, alias or slot of the old heap refers to them), and no history
   that does not work in place on one of these cells themselves changes any of them *)
Theorem copy_is_deep : forall st n a dst, Inv st ->
  nth_error (st_vars st) n = Some (VRef a) -> is_arr (st_heap st) a = true ->
  o_status (step repaired st (OpCopy dst (OVar n))) = Done ->
  let st' := o_state (step repaired st (OpCopy dst (OVar n))) in
  exists r, nth_error (st_vars st') dst = Some (VRef r) /\ length (st_heap st) <= r /\
    (forall b, reach (succs_arr (st_heap st')) r b -> length (st_heap st) <= b) /\
    forall os, (forall b, (b = r \/ reach (succs_arr (st_heap st')) r b) -> untouched repaired b st' os) ->
      forall b, (b = r \/ reach (succs_arr (st_heap st')) r b) -> b < length (st_heap st') ->
                nth_error (st_heap (run repaired st' os)) b = nth_error (st_heap st') b.
Proof.
  intros st n a dst Hi V Ia S st'.
  destruct (fresh_results_independent st (OpCopy dst (OVar n)) dst Hi eq_refl S) as (r & Hv & Hl & _).
  pose proof (step_good st (OpCopy dst (OVar n)) Hi) as [G' _]. fold st' in G', Hv.
  assert (P: new_closed (length (st_heap st)) (st_heap st')).
  { subst st'. revert S. cbn [step]. unfold with1. cbn [eval_opnd]. rewrite V.
    unfold arr_of. cbn [st_heap]. unfold is_arr in Ia. destruct (nth_error (st_heap st) a) as [[l| |]|] eqn:Ea; try discriminate.
    destruct (copy_deep (fuel_of (st_heap st)) (st_heap st) a) as [[h' a']| |] eqn:Ec; cbn [of_res]; try (intros S0; cbn in S0; discriminate S0).
    intros S. destruct (assign_done _ _ _ _ S eq_refl) as (_ & Hh & _). cbn [o_state mk st_heap] in Hh. rewrite Hh.
    eapply copy_deep_spec; eauto. apply Hi. }
  exists r. split; auto. split; auto. split.
  - intros b R. eapply new_closed_reach; eauto.
  - intros os U b Hb Lb. apply run_frame; auto.
Qed.
Print Assumptions copy_is_deep.

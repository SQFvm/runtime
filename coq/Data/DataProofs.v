(* C07 / C08: the operator layer - refused insertions, index rules, the defects of the unrepaired code as
   refutations with witnesses, HashMap keys captured by value, copies of a HashMap independent. *)
From Coq Require Import ZArith List ListDec Arith Lia Bool.
From SqfVerif Require Import Data.DataDefs Data.DataGraph Data.DataHeap Data.DataSort Data.DataStep Data.DataTerm Data.DataFrame.
Import ListNotations.
Local Open Scope Z_scope.

Lemma set_nth_same {A} (l : list A) n x : nth_error l n = Some x -> set_nth l n x = l.
Proof. revert n; induction l; destruct n; cbn; intros H; try discriminate; [inversion H; auto|f_equal; auto]. Qed.

Lemma upd_same st a c : nth_error (st_heap st) a = Some c -> upd st a c = st.
Proof. intros E. unfold upd. rewrite set_nth_same by auto. destruct st; reflexivity. Qed.

Definition same_old (st st' : state) : Prop :=
  st_vars st' = st_vars st /\ forall a, (a < length (st_heap st))%nat -> nth_error (st_heap st') a = nth_error (st_heap st) a.

Lemma same_old_refl st : same_old st st. Proof. split; auto. Qed.
Lemma same_old_ext st st1 : st_vars st1 = st_vars st -> (exists e, st_heap st1 = st_heap st ++ e) -> same_old st st1.
Proof. intros V [e E]. split; auto. intros a Ha. rewrite E. apply nth_error_app1; auto. Qed.

Lemma commit_arr_refused st a l l' okres : nth_error (st_heap st) a = Some (CArr l) ->
  In DArrayRecursion (o_diags (commit_arr repaired st a l' l okres)) ->
  o_state (commit_arr repaired st a l' l okres) = st.
Proof.
  intros E. unfold commit_arr. destruct (rec_test repaired (st_heap (upd st a (CArr l'))) a) as [[|]|]; cbn; try tauto.
  intros _. apply upd_same; auto.
Qed.
Lemma commit_map_refused st a es es' : nth_error (st_heap st) a = Some (CMap es) ->
  In DArrayRecursion (o_diags (commit_map repaired st a es' es)) ->
  o_state (commit_map repaired st a es' es) = st.
Proof.
  intros E. unfold commit_map. cbn [d_hset_untested repaired].
  destruct (rec_test repaired (st_heap (upd st a (CMap es'))) a) as [[|]|]; cbn; try tauto.
  intros _. apply upd_same; auto.
Qed.

Lemma no_rec_in ds : ~ In DArrayRecursion ds -> In DArrayRecursion ds -> False. Proof. tauto. Qed.

Lemma assign_no_rec st0 dst o : ~ In DArrayRecursion (o_diags o) -> ~ In DArrayRecursion (o_diags (assign_result st0 dst o)).
Proof.
  intros H. unfold assign_result. destruct (o_status o); auto.
  destruct (existsb is_error (o_diags o)); [cbn; tauto|].
  destruct (setvar (o_state o) dst (o_result o)); cbn; auto.
Qed.

(* DArrayRecursion is reported by the refused commits only, and they put the old content back *)
Theorem yields_refused st tgt rv o : yields repaired st tgt rv o ->
  In DArrayRecursion (o_diags o) -> same_old st (o_state o).
Proof.
  assert (X: forall st1, after st st1 -> same_old st st1).
  { intros st1 (_ & G & V). apply same_old_ext; [exact V | apply G]. }
  intros Y. destruct Y as [rv s ds _ | st1 s ds r _ _ N | st1 a c c' ds r _ _ _ _ _ _ _ N
                           | st1 a l l' lfail okres A _ E _ L _ | st1 a es es' A _ E _ | st1 dst ds r _ _ N
                           | st1 dst ds r _ _ _ N]; cbn [o_diags o_state mk].
  - intros _. apply same_old_refl.
  - intros H. destruct (N H).
  - intros H. destruct (N H).
  - rewrite (L eq_refl). intros H. rewrite (commit_arr_refused _ _ _ _ _ E H). exact (X _ A).
  - intros H. rewrite (commit_map_refused _ _ _ _ E H). exact (X _ A).
  - intros H. exfalso. revert H. apply assign_no_rec. exact N.
  - intros H. exfalso. revert H. apply assign_no_rec. exact N.
Qed.

Theorem refused_insert_unchanged : forall st o, Inv st ->
  In DArrayRecursion (o_diags (step repaired st o)) -> same_old st (o_state (step repaired st o)).
Proof. intros st o Hi. exact (yields_refused st _ _ _ (step_yields repaired st o Hi)). Qed.
Print Assumptions refused_insert_unchanged.

Lemma zlen_nonneg {A} (l : list A) : 0 <= zlen l. Proof. unfold zlen. lia. Qed.

Lemma firstn_exact {A} (a b : list A) n : n = length a -> firstn n (a ++ b) = a.
Proof. intros ->. induction a; cbn; [destruct b; auto|f_equal; auto]. Qed.
Lemma skipn_exact {A} (a b : list A) n : n = length a -> skipn n (a ++ b) = b.
Proof. intros ->. induction a; cbn; auto. Qed.
Lemma repeat_snoc {A} (x : A) k : repeat x (S k) = repeat x k ++ [x].
Proof. induction k; cbn; auto. cbn in IHk. rewrite IHk at 1. reflexivity. Qed.

(* set beyond the end: the array grows, the new slots in between are nil *)
Theorem set_grows_with_nils : forall l i v, zlen l <= i ->
  put (resize_list l (i + 1)) i v = l ++ repeat VNil (Z.to_nat (i - zlen l)) ++ [v].
Proof.
  intros l i v H. pose proof (zlen_nonneg l) as Hl. unfold put, resize_list, zfirstn, zskipn.
  destruct (Z.leb_spec (i + 1) (zlen l)); [lia|].
  replace (Z.to_nat (i + 1 - zlen l)) with (S (Z.to_nat (i - zlen l))) by lia.
  rewrite repeat_snoc. set (A := l ++ repeat VNil (Z.to_nat (i - zlen l))).
  assert (Hlen: length A = Z.to_nat i).
  { unfold A. rewrite app_length, repeat_length. unfold zlen in *. lia. }
  replace (l ++ repeat VNil (Z.to_nat (i - zlen l)) ++ [VNil]) with (A ++ [VNil]) by (unfold A; rewrite app_assoc; auto).
  rewrite firstn_exact by lia.
  replace (Z.to_nat (i + 1)) with (length (A ++ [VNil])) by (rewrite app_length; cbn; lia).
  rewrite skipn_all. unfold A. rewrite <- app_assoc. reflexivity.
Qed.

(* set inside the array: the length stays, slot i holds the value *)
Theorem set_inside : forall l i v, 0 <= i < zlen l ->
  length (put l i v) = length l /\ znth (put l i v) i = Some v.
Proof.
  intros l i v H. unfold put, zfirstn, zskipn, znth, zlen in *.
  assert (Hf: length (firstn (Z.to_nat i) l) = Z.to_nat i) by (rewrite firstn_length; lia).
  split.
  - rewrite !app_length, Hf, skipn_length. cbn. lia.
  - destruct (Z.ltb_spec i 0); [lia|]. rewrite nth_error_app2 by lia. rewrite Hf, Nat.sub_diag. reflexivity.
Qed.

Lemma var_array st n a l : nth_error (st_vars st) n = Some (VRef a) -> nth_error (st_heap st) a = Some (CArr l) ->
  eval_opnd st (OVar n) = Some (st, VRef a) /\ arr_of st (VRef a) = Some (a, l).
Proof. intros V E. cbn. rewrite V. unfold arr_of. rewrite E. auto. Qed.

(* a negative index is rejected with an error and nothing changes *)
Theorem set_negative_rejected_unchanged : forall d st n a l idx m v,
  nth_error (st_vars st) n = Some (VRef a) -> nth_error (st_heap st) a = Some (CArr l) ->
  eval_opnd st (OVar m) = Some (st, v) -> trunc_half idx < 0 ->
  step d st (OpSet (OVar n) idx (OVar m)) = mk Done st [DNegativeIndex] VNil.
Proof.
  intros d st n a l idx m v V E X H. destruct (var_array _ _ _ _ V E) as [E1 E2].
  cbn [step]. unfold with2, with1. rewrite E1, X, E2. destruct (Z.ltb_spec (trunc_half idx) 0); [reflexivity|lia].
Qed.

(* deleteAt inside: exactly that element goes, it is the result *)
Theorem deleteAt_inside : forall d st n a l idx,
  nth_error (st_vars st) n = Some (VRef a) -> nth_error (st_heap st) a = Some (CArr l) ->
  0 <= trunc_half idx < zlen l ->
  exists v, znth l (trunc_half idx) = Some v /\
    step d st (OpDeleteAt (OVar n) idx) =
      mk Done (upd st a (CArr (zfirstn (trunc_half idx) l ++ zskipn (trunc_half idx + 1) l))) [] v.
Proof.
  intros d st n a l idx V E H. destruct (var_array _ _ _ _ V E) as [E1 E2].
  cbn [step]. unfold with1. rewrite E1, E2.
  destruct (Z.leb_spec (zlen l) (trunc_half idx)); [lia|]. destruct (Z.ltb_spec (trunc_half idx) 0); [lia|].
  unfold znth. destruct (Z.ltb_spec (trunc_half idx) 0); [lia|].
  destruct (nth_error l (Z.to_nat (trunc_half idx))) as [v|] eqn:En; [eauto|].
  apply nth_error_None in En. unfold zlen in *. lia.
Qed.

Local Close Scope Z_scope.

Definition st_one : state := {| st_heap := [CArr [VNum (SHalf 2)]]; st_vars := [VRef 0] |}.
Lemma st_one_inv : Inv st_one.
Proof.
  split; [split|]; cbn.
  - repeat constructor.
  - repeat constructor.
  - intros a C. inversion C as [? ? He|? ? ? He _]; unfold edge, succs in He; destruct a as [|[|a]]; cbn in He; contradiction.
Qed.

Definition st_map : state := {| st_heap := [CMap []]; st_vars := [VRef 0] |}.
Lemma st_map_inv : Inv st_map.
Proof.
  split; [split|]; cbn.
  - repeat constructor.
  - repeat constructor.
  - intros a C. inversion C as [? ? He|? ? ? He _]; unfold edge, succs in He; destruct a as [|[|a]]; cbn in He; contradiction.
Qed.

(* _a pushBack _m where _m holds _a: the unrepaired test does not look into HashMaps *)
Definition st_am : state := {| st_heap := [CArr []; CKey; CMap [(TNum (SHalf 2), 1, VRef 0)]]; st_vars := [VRef 0; VRef 2] |}.
Lemma st_am_inv : Inv st_am.
Proof.
  split; [split|]; cbn.
  - repeat constructor.
  - repeat constructor.
  - intros a C.
    assert (R: forall x y, reach (succs (st_heap st_am)) x y -> x = 2 /\ y = 0).
    { induction 1 as [x y He|x m y He Hr IH]; unfold edge, succs in He; destruct x as [|[|[|x]]]; cbn in He; try contradiction;
        try (destruct x; cbn in He; contradiction).
      - destruct He as [<-|[]]; auto.
      - destruct He as [<-|[]]. destruct IH; discriminate. }
    destruct (R _ _ C) as [-> E]. discriminate.
Qed.
Theorem acyclic_preserved_refuted_via_map : exists st o, Inv st /\
  o_status (step as_is st o) = Done /\ o_diags (step as_is st o) = [] /\
  ~ HAcyclic (st_heap (o_state (step as_is st o))).
Proof.
  exists st_am, (OpPushBack (OVar 0) (OVar 1)). split; [apply st_am_inv|]. split; [reflexivity|]. split; [reflexivity|].
  intros A. apply (A 0). apply (reach_step _ 0 2 0); [|constructor]; unfold edge; cbn; auto.
Qed.

(* the repaired code keeps the heap well formed and acyclic, operation by operation (along a history: DataTerm.run_inv) *)
Theorem acyclic_preserved : forall st o, Inv st -> Inv (o_state (step repaired st o)).
Proof. intros st o Hi. apply step_good; auto. Qed.
Print Assumptions set_grows_with_nils.
Print Assumptions acyclic_preserved_refuted_via_map.

(* after  m set [k, x]  the map cell holds the entry under the key's value at that moment, and
   every later history that does not work on the map itself - whatever it does to the array
   that was used as key - leaves the cell, hence the entry, exactly as it is *)
Theorem keys_captured_by_value : forall st m k x, Inv st ->
  o_status (step repaired st (OpMapSet m k x)) = Done -> o_diags (step repaired st (OpMapSet m k x)) = [] ->
  let st' := o_state (step repaired st (OpMapSet m k x)) in
  exists a s1 s2 s3 kv xv kt es,
    eval_opnd st m = Some (s1, VRef a) /\ eval_opnd s1 k = Some (s2, kv) /\ eval_opnd s2 x = Some (s3, xv) /\
    key_of s3 kv = Ok kt /\ nth_error (st_heap s3) a = Some (CMap es) /\
    nth_error (st_heap st') a = Some (CMap (dict_set es kt (length (st_heap s3)) xv)) /\
    forall os, untouched repaired a st' os ->
      nth_error (st_heap (run repaired st' os)) a = Some (CMap (dict_set es kt (length (st_heap s3)) xv)).
Proof.
  intros st m k x Hi. pose proof (step_good st (OpMapSet m k x) Hi) as [G' _]. revert G'.
  cbn [step]. unfold with2, with1.
  destruct (eval_opnd st m) as [[s1 mv]|] eqn:E1; [|cbn; discriminate].
  destruct (eval_opnd s1 k) as [[s2 kv]|] eqn:E2; [|cbn; discriminate].
  destruct (eval_opnd s2 x) as [[s3 xv]|] eqn:E3; [|cbn; discriminate].
  destruct (map_of s3 mv) as [[a es]|] eqn:Em; [|cbn; discriminate]. apply map_of_nth in Em. destruct Em as [-> Em].
  destruct (key_of s3 kv) as [kt| |] eqn:Ek; cbn [of_res]; try (cbn; discriminate).
  destruct (negb (key_ok kt)); [cbn; discriminate|].
  unfold alloc, commit_map. cbn [d_hset_untested repaired].
  set (s4 := {| st_heap := st_heap s3 ++ [CKey]; st_vars := st_vars s3 |}).
  assert (La: a < length (st_heap s3)) by (apply nth_error_Some; congruence).
  destruct (rec_test repaired (st_heap (upd s4 a (CMap (dict_set es kt (length (st_heap s3)) xv)))) a) as [[|]|];
    cbn [o_status o_diags o_state mk]; try discriminate.
  intros G' _ _.
  assert (Ec: nth_error (st_heap (upd s4 a (CMap (dict_set es kt (length (st_heap s3)) xv)))) a =
              Some (CMap (dict_set es kt (length (st_heap s3)) xv))).
  { cbn. apply nth_error_set_nth_eq. rewrite app_length. lia. }
  exists a, s1, s2, s3, kv, xv, kt, es. repeat (split; auto).
  intros os U. rewrite run_frame; auto. cbn. rewrite length_set_nth, app_length. lia.
Qed.

(* the entry is found under every key that compares equal to the captured key value *)
Lemma dict_find_after_set es k ka v q :
  (forall e, In e es -> teq q (ekey e) = teq k (ekey e)) -> teq q k = true ->
  exists e, dict_find (dict_set es k ka v) q = Some e /\ snd e = v.
Proof.
  intros C Q. unfold dict_find. induction es as [|e es IH]; cbn.
  - unfold ekey. cbn. rewrite Q. eauto.
  - destruct (teq k (ekey e)) eqn:Ek; cbn.
    + unfold ekey in *. cbn. rewrite (C e (or_introl eq_refl)), Ek. eauto.
    + rewrite (C e (or_introl eq_refl)), Ek. apply IH. intros; apply C; right; auto.
Qed.

(* a copy of a HashMap is a new cell with the same entries; what is done to one of the two
   later does not change the other *)
Theorem copy_independent : forall st n a es dst, Inv st ->
  nth_error (st_vars st) n = Some (VRef a) -> nth_error (st_heap st) a = Some (CMap es) ->
  o_status (step repaired st (OpCopy dst (OVar n))) = Done ->
  let st' := o_state (step repaired st (OpCopy dst (OVar n))) in
  exists r, nth_error (st_vars st') dst = Some (VRef r) /\ r <> a /\
            nth_error (st_heap st') r = Some (CMap es) /\ nth_error (st_heap st') a = Some (CMap es) /\
            (forall os, untouched repaired r st' os -> nth_error (st_heap (run repaired st' os)) r = Some (CMap es)) /\
            (forall os, untouched repaired a st' os -> nth_error (st_heap (run repaired st' os)) a = Some (CMap es)).
Proof.
  intros st n a es dst Hi V E S st'.
  destruct (fresh_results_independent st (OpCopy dst (OVar n)) dst Hi eq_refl S) as (r & Hv & Hl & Hf).
  pose proof (step_good st (OpCopy dst (OVar n)) Hi) as [G' _].
  assert (La: a < length (st_heap st)) by (apply nth_error_Some; congruence).
  (* the content of the new cell *)
  assert (C: nth_error (st_heap st') r = Some (CMap es) /\ nth_error (st_heap st') a = Some (CMap es) /\ r < length (st_heap st')).
  { subst st'. revert S Hv. cbn [step]. unfold with1. cbn [eval_opnd]. rewrite V.
    unfold arr_of, map_of. cbn [st_heap]. rewrite E. unfold alloc. intros S Hv.
    destruct (assign_done _ _ _ _ S eq_refl) as (_ & Hh & Hv'). cbn [o_state o_result mk st_heap] in Hh, Hv'.
    rewrite Hv' in Hv. inversion Hv; subst r. rewrite Hh. split; [|split].
    - rewrite nth_error_app2 by lia. rewrite Nat.sub_diag. reflexivity.
    - rewrite nth_error_app1; auto.
    - rewrite app_length. cbn. lia. }
  destruct C as (Cr & Ca & Lr).
  exists r. split; auto. split; [lia|]. split; auto. split; auto. split.
  - intros os U. rewrite Hf; auto.
  - intros os U. rewrite run_frame; auto. pose proof (step_frame repaired st (OpCopy dst (OVar n)) Hi) as [L _]. fold st' in L. lia.
Qed.
Print Assumptions keys_captured_by_value.
Print Assumptions copy_independent.

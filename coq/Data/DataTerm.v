(* C08: on a well-formed acyclic heap the recursion test says yes and printing, comparing
   and deep-copying end within |heap|+2 levels of fuel. *)
From Coq Require Import ZArith List ListDec Arith Lia Bool.
From SqfVerif Require Import Data.DataDefs Data.DataGraph Data.DataHeap Data.DataStep Data.DataFrame.
Import ListNotations.

Lemma acyclic_test_yes h a : HAcyclic h -> rt (succs h) (fuel_of h) [] a = Some true.
Proof. intros A. unfold fuel_of. apply rt_acyclic_yes; auto. intros r Hr. apply succs_out; auto. Qed.

Theorem print_terminates : forall st v, Inv st -> vwf (st_heap st) v -> exists t, observe st v = Ok t.
Proof.
  intros st v [[W _] A] V. unfold observe. destruct v; try (apply freeze_leaf; intros; discriminate).
  eapply rt_yes_freeze; eauto. apply acyclic_test_yes; auto.
Qed.

Theorem compare_terminates : forall st v w, Inv st -> vwf (st_heap st) v -> vwf (st_heap st) w ->
  exists b, veq (fuel_of (st_heap st)) (st_heap st) v w = Ok b.
Proof.
  intros st v w [[W _] A] V V'. unfold veq. destruct (vnil v); eauto. destruct (vnil w); eauto.
  destruct v; try (apply deq_leaf_l; intros; discriminate).
  eapply rt_yes_deq; eauto. apply acyclic_test_yes; auto.
Qed.

Theorem copy_terminates : forall st a, Inv st -> is_arr (st_heap st) a = true ->
  exists r, copy_deep (fuel_of (st_heap st)) (st_heap st) a = Ok r.
Proof.
  intros st a [[W _] A] Ia. eapply rt_yes_copy; eauto; [apply acyclic_test_yes; auto|apply gext_refl; auto].
Qed.

Lemma init_inv n : Inv (init_state n).
Proof.
  split; [split|]; cbn.
  - constructor.
  - apply Forall_forall. intros x H. apply repeat_spec in H. subst. exact I.
  - intros a C. inversion C as [? ? He|? ? ? He _]; unfold edge, succs in He; destruct a; cbn in He; contradiction.
Qed.

Lemma run_inv : forall os st, Inv st -> Inv (run repaired st os).
Proof.
  induction os as [|o os IH]; intros st Hi; cbn; auto.
  pose proof (step_good st o Hi) as [G _].
  destruct (o_status (step repaired st o)); auto.
Qed.

(* after any history of the repaired model every value prints: the walk neither runs out of fuel nor meets a
   dangling reference *)
Theorem history_safe : forall n os v, let st := run repaired (init_state n) os in
  vwf (st_heap st) v -> exists t, observe st v = Ok t.
Proof. intros n os v st V. apply print_terminates; auto. apply run_inv, init_inv. Qed.

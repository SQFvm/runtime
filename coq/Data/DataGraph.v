(* Graph core of C08: the path-based recursion test of d_array (rt, DataDefs.v), over an
   arbitrary successor function K: what a yes and a no say about cycles (Bad is what the test
   decides), that n - |path| + 2 levels of fuel always suffice, and how acyclicity survives a
   change of the successors of one node (used for acyclic_preserved). *)
From Coq Require Import List ListDec Arith Lia Bool.
From SqfVerif Require Import Data.DataDefs.
Import ListNotations.

Lemma memb_In x l : memb x l = true <-> In x l.
Proof. induction l; cbn; [intuition discriminate|]. destruct (Nat.eqb_spec x a); subst; intuition. Qed.
Lemma memb_false x l : memb x l = false <-> ~ In x l.
Proof. rewrite <- memb_In. destruct (memb x l); intuition congruence. Qed.

Section Graph.
  Variable K : nat -> list nat.

  Definition edge (a b : nat) : Prop := In b (K a).

  (* one or more edges *)
  Inductive reach : nat -> nat -> Prop :=
  | reach_one a b : edge a b -> reach a b
  | reach_step a m b : edge a m -> reach m b -> reach a b.

  Lemma reach_trans a b c : reach a b -> reach b c -> reach a c.
  Proof. induction 1; intros; [eapply reach_step; eauto|eapply reach_step; eauto]. Qed.
  Lemma reach_snoc a b c : reach a b -> edge b c -> reach a c.
  Proof. intros. eapply reach_trans; eauto. constructor; auto. Qed.

  Definition Acyclic : Prop := forall a, ~ reach a a.

  Inductive Bad : list nat -> nat -> Prop :=
  | bad_here vis x r : edge x r -> In r vis -> Bad vis x
  | bad_deep vis x r : edge x r -> Bad (r :: vis) r -> Bad vis x.

  Lemma rt_true_children : forall f vis x, rt K (S f) vis x = Some true ->
    forall r, In r (K x) -> memb r vis = false /\ rt K f (r :: vis) r = Some true.
  Proof.
    intros f vis x H. cbn [rt] in H. revert H. generalize (K x) as ks.
    induction ks as [|r ks IHk]; intros H; [intros ? []|].
    destruct (memb r vis) eqn:M; [discriminate|].
    destruct (rt K f (r :: vis) r) as [[|]|] eqn:E; try discriminate.
    intros r' [<-|Hin]; auto.
  Qed.

  Lemma rt_children_true : forall f vis x,
    (forall r, In r (K x) -> memb r vis = false /\ rt K f (r :: vis) r = Some true) ->
    rt K (S f) vis x = Some true.
  Proof.
    intros f vis x H. cbn [rt]. revert H. generalize (K x) as ks.
    induction ks as [|r ks IHk]; intros H; [reflexivity|].
    destruct (H r (or_introl eq_refl)) as [M E]. rewrite M, E. apply IHk. intros; apply H; right; auto.
  Qed.

  Lemma rt_false_bad : forall f vis x, rt K f vis x = Some false -> Bad vis x.
  Proof.
    induction f as [|f IH]; intros vis x H; [discriminate|]. cbn [rt] in H.
    assert (G: forall ks, (forall r, In r ks -> edge x r) ->
       (fix go (ks0 : list nat) : option bool :=
          match ks0 with
          | [] => Some true
          | r :: ks' => if memb r vis then Some false
                        else match rt K f (r :: vis) r with Some true => go ks' | o => o end
          end) ks = Some false -> Bad vis x).
    { induction ks as [|r ks IHk]; intros Hk Hgo; [discriminate|].
      destruct (memb r vis) eqn:M.
      - apply memb_In in M. eapply bad_here; [apply Hk; left; reflexivity|exact M].
      - destruct (rt K f (r :: vis) r) as [[|]|] eqn:E; try discriminate.
        + apply IHk; auto. intros; apply Hk; right; auto.
        + eapply bad_deep; [apply Hk; left; reflexivity|]. eapply IH; eauto. }
    apply (G (K x)); auto.
  Qed.

  Lemma rt_true_not_bad : forall f vis x, rt K f vis x = Some true -> ~ Bad vis x.
  Proof.
    induction f as [|f IH]; intros vis x H; [discriminate|].
    pose proof (rt_true_children _ _ _ H) as G.
    intros B. inversion B as [? ? r He Hv|? ? r He Hb]; subst; destruct (G r He) as [M E].
    - apply memb_In in Hv. congruence.
    - eapply IH; eauto.
  Qed.

  Lemma reach_vis_bad : forall a b, reach a b -> forall vis, In b vis -> Bad vis a.
  Proof.
    induction 1 as [a b He|a m b He Hr IH]; intros vis Hin.
    - eapply bad_here; eauto.
    - eapply bad_deep; [exact He|]. apply IH. right; exact Hin.
  Qed.

  Lemma cycle_bad : forall x, reach x x -> forall vis, Bad vis x.
  Proof.
    intros x H vis. inversion H as [a b He|a m b He Hr]; subst.
    - (* self loop *) eapply bad_deep; [exact He|]. eapply bad_here; [exact He|left; reflexivity].
    - eapply bad_deep; [exact He|].
      (* from m we reach x, and x -> m again: m is on the path *)
      eapply reach_vis_bad; [eapply reach_snoc; [exact Hr|exact He]|left; reflexivity].
  Qed.

  Theorem rt_true_no_cycle : forall f x, rt K f [] x = Some true -> ~ reach x x.
  Proof. intros f x H C. eapply rt_true_not_bad; [exact H|]. apply cycle_bad; auto. Qed.

  Lemma bad_mono : forall vis x, Bad vis x -> forall vis', incl vis vis' -> Bad vis' x.
  Proof.
    induction 1 as [vis x r He Hin|vis x r He Hb IH]; intros vis' Hi.
    - eapply bad_here; eauto.
    - eapply bad_deep; [exact He|]. apply IH. intros z [<-|Hz]; [left; auto|right; auto].
  Qed.
  Lemma reach_cycle_bad : forall x y, reach x y -> reach y y -> forall vis, Bad vis x.
  Proof.
    induction 1 as [a b He|a m b He Hr IH]; intros C vis.
    - eapply bad_deep; [exact He|]. apply cycle_bad; auto.
    - eapply bad_deep; [exact He|]. apply IH; auto.
  Qed.
  Theorem rt_true_sound : forall f x, rt K f [] x = Some true ->
    ~ reach x x /\ forall y, reach x y -> ~ reach y y.
  Proof.
    intros f x H. split; [eapply rt_true_no_cycle; eauto|].
    intros y R C. eapply rt_true_not_bad; [exact H|]. eapply reach_cycle_bad; eauto.
  Qed.

  Lemma bad_cycle : forall vis x, Bad vis x ->
    (exists r, reach r r) \/ (exists r, reach x r /\ In r vis).
  Proof.
    induction 1 as [vis x r He Hin|vis x r He Hb IH].
    - right. exists r. split; [constructor; auto|auto].
    - destruct IH as [C|(r' & R & [<-|Hin])].
      + left; auto.
      + left. exists r. exact R.
      + right. exists r'. split; [eapply reach_step; eauto|auto].
  Qed.

  Theorem rt_acyclic_true : forall f x, Acyclic -> rt K f [] x <> Some false.
  Proof.
    intros f x A H. apply rt_false_bad in H. destruct (bad_cycle _ _ H) as [(r & C)|(r & _ & [])].
    exact (A r C).
  Qed.

  (* fuel: the path grows by a fresh node at every level; nodes >= n have no successors *)
  Variable n : nat.
  Hypothesis K_out : forall r, n <= r -> K r = [].

  Lemma rt_fuel : forall f vis x, NoDup vis -> (forall r, In r vis -> r < n) ->
    n - length vis + 1 < f -> rt K f vis x <> None.
  Proof.
    induction f as [|f IH]; intros vis x ND Hb Hf; [lia|]. cbn [rt].
    generalize (K x) as ks. induction ks as [|r ks IHk]; [discriminate|].
    destruct (memb r vis) eqn:M; [discriminate|].
    destruct (Nat.lt_ge_cases r n) as [Hr|Hr].
    - assert (Hlen: length vis < n).
      { assert (N1: NoDup (r :: vis)) by (constructor; auto; intros Hin; apply memb_In in Hin; congruence).
        assert (I1: incl (r :: vis) (seq 0 n)).
        { intros z [<-|Hz]; apply in_seq; [lia|]. specialize (Hb _ Hz). lia. }
        pose proof (NoDup_incl_length N1 I1) as L. rewrite seq_length in L. cbn in L. lia. }
      assert (E: rt K f (r :: vis) r <> None).
      { apply IH.
        - constructor; auto. intros Hin. apply memb_In in Hin. congruence.
        - intros z [<-|Hz]; auto.
        - cbn [length]. lia. }
      destruct (rt K f (r :: vis) r) as [[|]|]; try discriminate; [exact IHk|congruence].
    - assert (E: rt K f (r :: vis) r = Some true).
      { destruct f; [lia|]. cbn [rt]. rewrite (K_out r Hr). reflexivity. }
      rewrite E. exact IHk.
  Qed.

  Corollary rt_acyclic_yes : forall x, Acyclic -> rt K (S (S n)) [] x = Some true.
  Proof.
    intros x A. pose proof (rt_fuel (S (S n)) [] x) as F.
    assert (N: rt K (S (S n)) [] x <> None).
    { apply F; [constructor|intros ? []|cbn; lia]. }
    pose proof (rt_acyclic_true (S (S n)) x A).
    destruct (rt K (S (S n)) [] x) as [[|]|]; congruence.
  Qed.
End Graph.

Section Surgery.
  Variables K K' : nat -> list nat.
  Variable x : nat.
  Hypothesis same : forall a, a <> x -> K' a = K a.

  Lemma reach_split : forall a b, reach K' a b ->
    reach K a b \/ ((a = x \/ reach K' a x) /\ reach K' x b).
  Proof.
    induction 1 as [a b He|a m b He Hr IH].
    - destruct (Nat.eq_dec a x) as [->|Hne].
      + right. split; [left; reflexivity|constructor; auto].
      + left. constructor. unfold edge in *. rewrite <- same; auto.
    - destruct (Nat.eq_dec a x) as [->|Hne].
      + right. split; [left; reflexivity|eapply reach_step; eauto].
      + assert (E: edge K a m) by (unfold edge in *; rewrite <- same; auto).
        destruct IH as [L|[[->|R] R2]].
        * left. eapply reach_step; eauto.
        * right. split; [right; constructor; auto|auto].
        * right. split; [right; eapply reach_step; eauto|auto].
  Qed.

  Lemma cycle_split : forall y, reach K' y y -> reach K y y \/ reach K' x x.
  Proof.
    intros y C. destruct (reach_split _ _ C) as [L|[[->|R] R2]]; auto.
    right. eapply reach_trans; eauto.
  Qed.

  Theorem acyclic_surgery : Acyclic K -> ~ reach K' x x -> Acyclic K'.
  Proof. intros A N y C. destruct (cycle_split _ C) as [L|L]; [exact (A y L)|exact (N L)]. Qed.
End Surgery.

Lemma reach_mono (K K' : nat -> list nat) : (forall a, incl (K' a) (K a)) ->
  forall a b, reach K' a b -> reach K a b.
Proof.
  intros H a b R. induction R as [a b He|a m b He Hr IH].
  - constructor. apply H; auto.
  - eapply reach_step; [apply H; exact He|exact IH].
Qed.

Lemma acyclic_mono (K K' : nat -> list nat) : (forall a, incl (K' a) (K a)) -> Acyclic K -> Acyclic K'.
Proof. intros H A a C. apply (A a). eapply reach_mono; eauto. Qed.

Lemma acyclic_extend (K K' : nat -> list nat) (n : nat) :
  (forall a, a < n -> K' a = K a) ->
  (forall a b, a < n -> In b (K a) -> b < n) ->
  (forall a b, n <= a -> In b (K' a) -> b < a) ->
  Acyclic K -> Acyclic K'.
Proof.
  intros Hold Hclosed Hdown A.
  assert (R1: forall a b, reach K' a b -> a < n -> b < n /\ reach K a b).
  { induction 1 as [a b He|a m b He Hr IH]; intros Ha.
    - unfold edge in He. rewrite Hold in He by auto. split; [eapply Hclosed; eauto|constructor; auto].
    - unfold edge in He. rewrite Hold in He by auto.
      destruct (IH (Hclosed _ _ Ha He)) as [Hb R]. split; auto. eapply reach_step; eauto. }
  assert (R2: forall a b, reach K' a b -> n <= a -> b < a).
  { induction 1 as [a b He|a m b He Hr IH]; intros Ha.
    - eapply Hdown; eauto.
    - pose proof (Hdown _ _ Ha He) as Hm.
      destruct (Nat.lt_ge_cases m n) as [Hlt|Hge].
      + destruct (R1 _ _ Hr Hlt) as [Hb _]. lia.
      + specialize (IH Hge). lia. }
  intros a C. destruct (Nat.lt_ge_cases a n) as [Hlt|Hge].
  - destruct (R1 _ _ C Hlt) as [_ R]. exact (A a R).
  - specialize (R2 _ _ C Hge). lia.
Qed.

Print Assumptions rt_true_sound.
Print Assumptions rt_fuel.
Print Assumptions acyclic_surgery.
Print Assumptions acyclic_extend.

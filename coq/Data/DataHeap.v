(* Heap layer of C08: well-formed heaps, the walks (print / compare / copy) terminate when the
   recursion test says yes, hence on every acyclic heap within |heap|+2 levels of fuel. *)
From Coq Require Import ZArith List ListDec Arith Lia Bool.
From SqfVerif Require Import Data.DataDefs Data.DataGraph.
Import ListNotations.

Lemma length_set_nth {A} (l : list A) n x : length (set_nth l n x) = length l.
Proof. revert n; induction l; destruct n; cbn; auto. Qed.
Lemma nth_error_set_nth_eq {A} (l : list A) n x : n < length l -> nth_error (set_nth l n x) n = Some x.
Proof. revert n; induction l; destruct n; cbn; intros; try lia; auto. apply IHl; lia. Qed.
Lemma nth_error_set_nth_neq {A} (l : list A) n m x : n <> m -> nth_error (set_nth l n x) m = nth_error l m.
Proof. revert n m; induction l; destruct n, m; cbn; intros; try congruence; auto. Qed.
Lemma set_nth_out {A} (l : list A) n x : length l <= n -> set_nth l n x = l.
Proof. revert n; induction l; destruct n; cbn; intros; try lia; auto. f_equal. apply IHl. lia. Qed.

Lemma In_refs a l : In a (refs l) <-> In (VRef a) l.
Proof.
  unfold refs. rewrite in_flat_map. split.
  - intros (v & Hv & Hin). destruct v; cbn in Hin; try contradiction. destruct Hin as [<-|[]]. exact Hv.
  - intros H. exists (VRef a). split; auto. left; auto.
Qed.
Lemma refs_app l1 l2 : refs (l1 ++ l2) = refs l1 ++ refs l2.
Proof. unfold refs. apply flat_map_app. Qed.

Definition cont (h : list cell) (a : nat) : bool :=
  match nth_error h a with Some (CArr _) => true | Some (CMap _) => true | _ => false end.
Definition vwf (h : list cell) (v : value) : Prop := match v with VRef a => cont h a = true | _ => True end.
Definition cwf (h : list cell) (c : cell) : Prop :=
  match c with
  | CArr l => Forall (vwf h) l
  | CMap es => Forall (fun e => vwf h (snd e)) es
  | CKey => True
  end.
Definition hwf (h : list cell) : Prop := Forall (cwf h) h.
Definition swf (st : state) : Prop := hwf (st_heap st) /\ Forall (vwf (st_heap st)) (st_vars st).
Definition HAcyclic (h : list cell) : Prop := Acyclic (succs h).
Definition Inv (st : state) : Prop := swf st /\ HAcyclic (st_heap st).

Lemma cont_lt h a : cont h a = true -> a < length h.
Proof. unfold cont. destruct (nth_error h a) eqn:E; [|discriminate]. intros _. apply nth_error_Some. congruence. Qed.

Definition kinds_le (h h' : list cell) : Prop := forall a, cont h a = true -> cont h' a = true.
Lemma vwf_mono h h' v : kinds_le h h' -> vwf h v -> vwf h' v.
Proof. destruct v; cbn; auto. Qed.
Lemma cwf_mono h h' c : kinds_le h h' -> cwf h c -> cwf h' c.
Proof.
  intros K. destruct c; cbn; auto; intros F; (eapply Forall_impl; [|exact F]); cbn; intros; eapply vwf_mono; eauto.
Qed.
Lemma kinds_le_app h ext : kinds_le h (h ++ ext).
Proof.
  intros a H. unfold cont in *. rewrite nth_error_app1; auto.
  apply nth_error_Some. destruct (nth_error h a); congruence.
Qed.
Lemma kinds_le_refl h : kinds_le h h. Proof. intros a; auto. Qed.
Lemma kinds_le_trans h1 h2 h3 : kinds_le h1 h2 -> kinds_le h2 h3 -> kinds_le h1 h3.
Proof. intros A B a H. auto. Qed.

Definition same_kind (c c' : cell) : Prop :=
  match c, c' with CArr _, CArr _ => True | CMap _, CMap _ => True | CKey, CKey => True | _, _ => False end.
Lemma cont_set_nth h a c c' b : nth_error h a = Some c -> same_kind c c' -> cont (set_nth h a c') b = cont h b.
Proof.
  intros E S. unfold cont. destruct (Nat.eq_dec a b) as [<-|Hne].
  - rewrite nth_error_set_nth_eq by (apply nth_error_Some; congruence). rewrite E.
    destruct c, c'; cbn in S; try contradiction; reflexivity.
  - rewrite nth_error_set_nth_neq by auto. reflexivity.
Qed.
Lemma kinds_le_set_nth h a c c' : nth_error h a = Some c -> same_kind c c' -> kinds_le h (set_nth h a c').
Proof. intros E S b H. erewrite cont_set_nth; eauto. Qed.

Lemma hwf_nth h a c : hwf h -> nth_error h a = Some c -> cwf h c.
Proof. intros H E. eapply Forall_forall in H; [exact H|]. eapply nth_error_In; eauto. Qed.

Lemma hwf_app h ext : hwf h -> Forall (cwf (h ++ ext)) ext -> hwf (h ++ ext).
Proof.
  intros H E. unfold hwf. apply Forall_app. split; auto.
  eapply Forall_impl; [|exact H]. intros c. apply cwf_mono. apply kinds_le_app.
Qed.

Lemma Forall_set_nth {A} (P : A -> Prop) l n x : Forall P l -> P x -> Forall P (set_nth l n x).
Proof. intros F Px. revert n. induction F; destruct n; cbn; auto. Qed.

Lemma hwf_set_nth h a c c' : hwf h -> nth_error h a = Some c -> same_kind c c' -> cwf h c' -> hwf (set_nth h a c').
Proof.
  intros H E S C. unfold hwf.
  assert (K: kinds_le h (set_nth h a c')) by (eapply kinds_le_set_nth; eauto).
  apply Forall_set_nth.
  - eapply Forall_impl; [|exact H]. intros x. apply cwf_mono; auto.
  - eapply cwf_mono; eauto.
Qed.

Lemma succs_out h a : length h <= a -> succs h a = [].
Proof. intros H. unfold succs. rewrite (proj2 (nth_error_None h a)); auto. Qed.
Lemma succs_app_old h ext a : a < length h -> succs (h ++ ext) a = succs h a.
Proof. intros H. unfold succs. rewrite nth_error_app1; auto. Qed.
Lemma succs_set_nth_neq h a c b : a <> b -> succs (set_nth h a c) b = succs h b.
Proof. intros H. unfold succs. rewrite nth_error_set_nth_neq; auto. Qed.
Definition cell_refs (c : cell) : list nat :=
  match c with CArr l => refs l | CMap es => refs (map snd es) | CKey => [] end.
Lemma succs_nth h a c : nth_error h a = Some c -> succs h a = cell_refs c.
Proof. intros E. unfold succs. rewrite E. destruct c; reflexivity. Qed.
Lemma succs_set_nth_eq h a c : a < length h -> succs (set_nth h a c) a = cell_refs c.
Proof. intros H. apply succs_nth. apply nth_error_set_nth_eq; auto. Qed.

Lemma cwf_refs h c b : cwf h c -> In b (cell_refs c) -> cont h b = true.
Proof.
  destruct c; cbn; intros F Hin; try contradiction.
  - apply In_refs in Hin. eapply Forall_forall in F; [|exact Hin]. exact F.
  - apply In_refs in Hin. apply in_map_iff in Hin. destruct Hin as (e & He & Hin).
    eapply Forall_forall in F; [|exact Hin]. cbn in F. rewrite He in F. exact F.
Qed.
Lemma succs_cont h a b : hwf h -> In b (succs h a) -> cont h b = true.
Proof.
  intros H Hin. unfold succs in Hin. destruct (nth_error h a) as [c|] eqn:E; [|contradiction].
  eapply cwf_refs; [eapply hwf_nth; eauto|]. destruct c; auto.
Qed.
Lemma succs_lt h a b : hwf h -> In b (succs h a) -> b < length h.
Proof. intros. eapply cont_lt, succs_cont; eauto. Qed.

Lemma res_map_ok {A B} (g : A -> res B) l : (forall x, In x l -> exists y, g x = Ok y) -> exists ys, res_map g l = Ok ys.
Proof.
  induction l as [|x l IH]; intros H; cbn; [eauto|].
  destruct (H x (or_introl eq_refl)) as [y ->]. destruct IH as [ys ->]; [intros; apply H; right; auto|]. eauto.
Qed.

Lemma res_map_In {A B} (g : A -> res B) l ys y : res_map g l = Ok ys -> In y ys -> exists x, In x l /\ g x = Ok y.
Proof.
  revert ys. induction l as [|x l IH]; cbn; intros ys H Hy; [inversion H; subst; destruct Hy|].
  destruct (g x) as [y0| |] eqn:E; try discriminate. destruct (res_map g l) as [ys0| |]; try discriminate.
  inversion H; subst. destruct Hy as [<-|Hy]; [eauto|]. destruct (IH ys0 eq_refl Hy) as (x' & Hx & Ex). eauto.
Qed.

Lemma freeze_leaf f h v : (forall a, v <> VRef a) -> exists t, freeze f h v = Ok t.
Proof. destruct f, v; cbn; intros H; eauto; exfalso; eapply H; reflexivity. Qed.

Theorem rt_yes_freeze : forall f h vis a, hwf h -> cont h a = true ->
  rt (succs h) f vis a = Some true -> exists t, freeze f h (VRef a) = Ok t.
Proof.
  induction f as [|f IH]; intros h vis a W C R; [discriminate|].
  pose proof (rt_true_children _ _ _ _ R) as G.
  cbn [freeze]. unfold cont in C. destruct (nth_error h a) as [c|] eqn:E; [|discriminate].
  assert (Hs: succs h a = cell_refs c) by (apply succs_nth; auto).
  pose proof (hwf_nth _ _ _ W E) as Wc.
  assert (V: forall v, vwf h v -> (forall r, v = VRef r -> In r (succs h a)) -> exists t, freeze f h v = Ok t).
  { intros v Wv Hin. destruct v; try (apply freeze_leaf; intros; discriminate).
    destruct (G a0 (Hin _ eq_refl)) as [_ Rr]. eapply IH; eauto. }
  destruct c as [l|es|]; [| |discriminate].
  - destruct (res_map_ok (freeze f h) l) as [ts ->]; [|cbn; eauto].
    intros v Hv. apply V.
    + cbn in Wc. eapply Forall_forall in Wc; eauto.
    + intros r ->. rewrite Hs. cbn. apply In_refs. auto.
  - destruct (res_map_ok (fun e => rbind (freeze f h (snd e)) (fun t => Ok (ekey e, t))) es) as [ts ->]; [|cbn; eauto].
    intros e He. destruct (V (snd e)) as [t ->]; [| |cbn; eauto].
    + cbn in Wc. eapply Forall_forall in Wc; [|exact He]. exact Wc.
    + intros r Hr. rewrite Hs. cbn. apply In_refs. rewrite <- Hr. apply in_map. auto.
Qed.

(* lock-step comparison: termination follows from the test on the left value alone *)
Lemma res_all_ok {A} (g : A -> res bool) l : (forall x, In x l -> exists b, g x = Ok b) -> exists b, res_all g l = Ok b.
Proof.
  induction l as [|x l IH]; intros H; cbn; [eauto|].
  destruct (H x (or_introl eq_refl)) as [[|] ->]; [apply IH; intros; apply H; right; auto|eauto].
Qed.
Lemma res_any_ok {A} (g : A -> res bool) l : (forall x, In x l -> exists b, g x = Ok b) -> exists b, res_any g l = Ok b.
Proof.
  induction l as [|x l IH]; intros H; cbn; [eauto|].
  destruct (H x (or_introl eq_refl)) as [[|] ->]; [eauto|apply IH; intros; apply H; right; auto].
Qed.

Lemma deq_leaf_l f h v w : (forall a, v <> VRef a) -> exists b, deq f h v w = Ok b.
Proof. destruct f, v, w; cbn; intros H; eauto; exfalso; eapply H; reflexivity. Qed.

Theorem rt_yes_deq : forall f h vis p w, hwf h -> cont h p = true -> vwf h w ->
  rt (succs h) f vis p = Some true -> exists b, deq f h (VRef p) w = Ok b.
Proof.
  induction f as [|f IH]; intros h vis p w W C Ww R; [discriminate|].
  pose proof (rt_true_children _ _ _ _ R) as G.
  destruct w as [| | | | |q]; try (cbn; eauto; fail).
  cbn [deq]. cbn in Ww. unfold cont in C, Ww.
  destruct (nth_error h p) as [c|] eqn:E; [|discriminate].
  destruct (nth_error h q) as [c'|] eqn:E'; [|discriminate].
  assert (Hs: succs h p = cell_refs c) by (apply succs_nth; auto).
  pose proof (hwf_nth _ _ _ W E) as Wc. pose proof (hwf_nth _ _ _ W E') as Wc'.
  assert (V: forall v w, vwf h v -> vwf h w -> (forall r, v = VRef r -> In r (succs h p)) -> exists b, deq f h v w = Ok b).
  { intros v w0 Wv Ww0 Hin. destruct v; try (apply deq_leaf_l; intros; discriminate).
    destruct (G a (Hin _ eq_refl)) as [_ Rr]. eapply IH; eauto. }
  destruct c as [l1|e1|]; [| |discriminate]; destruct c' as [l2|e2|]; try discriminate; eauto.
  - destruct (Nat.eqb p q); eauto.
    destruct (negb (Nat.eqb (length l1) (length l2))); eauto.
    apply res_all_ok. intros [x y] Hxy. cbn [fst snd].
    destruct (vnil x || vnil y); eauto.
    apply V.
    + cbn in Wc. eapply Forall_forall in Wc; [exact Wc|]. eapply in_combine_l; eauto.
    + cbn in Wc'. eapply Forall_forall in Wc'; [exact Wc'|]. eapply in_combine_r; eauto.
    + intros r ->. rewrite Hs. cbn. apply In_refs. eapply in_combine_l; eauto.
  - destruct (Nat.eqb p q); eauto.
    destruct (negb (Nat.eqb (length e1) (length e2))); eauto.
    apply res_all_ok. intros e He. apply res_any_ok. intros e' He'.
    destruct (Nat.eqb (eid e) (eid e') || teq (ekey e) (ekey e')); eauto.
    destruct (vnil (snd e)); eauto. destruct (vnil (snd e')); eauto.
    apply V.
    + cbn in Wc. eapply Forall_forall in Wc; [|exact He]. exact Wc.
    + cbn in Wc'. eapply Forall_forall in Wc'; [|exact He']. exact Wc'.
    + intros r Hr. rewrite Hs. cbn. apply In_refs. rewrite <- Hr. apply in_map; auto.
Qed.

Definition gext (h h' : list cell) : Prop :=
  (exists ext, h' = h ++ ext) /\ hwf h' /\
  (forall b c, length h <= b -> nth_error h' b = Some c -> forall r, In r (cell_refs c) -> r < b).

Lemma gext_refl h : hwf h -> gext h h.
Proof.
  intros W. split; [exists []; rewrite app_nil_r; auto|]. split; auto.
  intros b c Hb E. assert (b < length h) by (apply nth_error_Some; congruence). lia.
Qed.
Lemma gext_len h h' : gext h h' -> length h <= length h'.
Proof. intros [[ext ->] _]. rewrite app_length. lia. Qed.
Lemma gext_old h h' a : gext h h' -> a < length h -> nth_error h' a = nth_error h a.
Proof. intros [[ext ->] _] H. apply nth_error_app1; auto. Qed.
Lemma gext_kinds h h' : gext h h' -> kinds_le h h'.
Proof. intros [[ext ->] _]. apply kinds_le_app. Qed.
Lemma gext_trans h1 h2 h3 : gext h1 h2 -> gext h2 h3 -> gext h1 h3.
Proof.
  intros G1 G2. pose proof (gext_len _ _ G1) as L1.
  destruct G1 as [[e1 ->] [W2 D1]]. destruct G2 as [[e2 ->] [W3 D2]].
  split; [exists (e1 ++ e2); rewrite app_assoc; auto|]. split; auto.
  intros b c Hb E. destruct (Nat.lt_ge_cases b (length (h1 ++ e1))) as [Hlt|Hge].
  - rewrite nth_error_app1 in E by auto. eapply D1; eauto.
  - eapply D2; eauto.
Qed.
Lemma gext_alloc h c : hwf h -> cwf h c -> gext h (h ++ [c]).
Proof.
  intros W C. split; [eexists; eauto|]. split.
  - apply hwf_app; auto. constructor; auto. eapply cwf_mono; [apply kinds_le_app|exact C].
  - intros b c' Hb E r Hin.
    assert (b < length (h ++ [c])) by (apply nth_error_Some; congruence).
    rewrite app_length in H. cbn in H. assert (b = length h) by lia. subst b.
    rewrite nth_error_app2 in E by lia. rewrite Nat.sub_diag in E. cbn in E. inversion E; subst c'.
    eapply cont_lt, cwf_refs; eauto.
Qed.

Lemma gext_acyclic h h' : hwf h -> gext h h' -> HAcyclic h -> HAcyclic h'.
Proof.
  intros W G A. unfold HAcyclic in *. eapply (acyclic_extend (succs h) (succs h') (length h)); eauto.
  - intros a Ha. unfold succs. erewrite gext_old; eauto.
  - intros a b Ha Hin. eapply succs_lt; eauto.
  - intros a b Ha Hin. destruct G as [_ [W' D]]. unfold succs in Hin.
    destruct (nth_error h' a) as [c|] eqn:E; [|contradiction].
    eapply D; eauto.
Qed.

Lemma is_arr_cont h a : is_arr h a = true -> cont h a = true.
Proof. unfold is_arr, cont. destruct (nth_error h a) as [[| |]|]; auto. Qed.

Definition new_closed (n : nat) (h : list cell) : Prop :=
  forall b c, n <= b -> nth_error h b = Some c -> forall r, In r (cell_refs c) -> is_arr h r = true -> n <= r.

Lemma is_arr_old h ext r : r < length h -> is_arr (h ++ ext) r = is_arr h r.
Proof. intros H. unfold is_arr. rewrite nth_error_app1; auto. Qed.
Lemma new_closed_gext n h1 h2 : hwf h1 -> new_closed n h1 -> gext h1 h2 -> new_closed (length h1) h2 -> n <= length h1 ->
  new_closed n h2.
Proof.
  intros W P G P2 L b c Hb E r Hr Ia.
  destruct (Nat.lt_ge_cases b (length h1)) as [Hlt|Hge].
  - rewrite (gext_old _ _ _ G Hlt) in E.
    assert (Rl: r < length h1) by (eapply cont_lt, cwf_refs; [eapply hwf_nth; eauto|exact Hr]).
    destruct G as [[ext ->] _]. rewrite is_arr_old in Ia by auto. eapply P; eauto.
  - specialize (P2 b c Hge E r Hr Ia). lia.
Qed.

Lemma new_closed_alloc n h vs : hwf h -> new_closed n h ->
  (forall r, In (VRef r) vs -> is_arr h r = true -> n <= r) -> Forall (vwf h) vs ->
  new_closed n (h ++ [CArr vs]).
Proof.
  intros W P Hv Fv b c Hb E r Hr Ia.
  destruct (Nat.lt_ge_cases b (length h)) as [Hlt|Hge].
  - rewrite nth_error_app1 in E by auto.
    assert (Rl: r < length h) by (eapply cont_lt, cwf_refs; [eapply hwf_nth; eauto|exact Hr]).
    rewrite is_arr_old in Ia by auto. eapply P; eauto.
  - assert (b = length h).
    { assert (b < length (h ++ [CArr vs])) by (apply nth_error_Some; congruence). rewrite app_length in H. cbn in H. lia. }
    subst b. rewrite nth_error_app2 in E by lia. rewrite Nat.sub_diag in E. cbn in E. inversion E; subst c. cbn in Hr.
    apply In_refs in Hr.
    assert (Rl: r < length h).
    { eapply Forall_forall in Fv; eauto. cbn in Fv. apply cont_lt; auto. }
    rewrite is_arr_old in Ia by auto. apply Hv; auto.
Qed.

Lemma copy_deep_spec : forall f h a h' a', hwf h -> copy_deep f h a = Ok (h', a') ->
  gext h h' /\ is_arr h' a' = true /\ length h <= a' /\ new_closed (length h) h'.
Proof.
  induction f as [|f IH]; intros h a h' a' W E; [discriminate|].
  cbn [copy_deep] in E. destruct (nth_error h a) as [[l| |]|] eqn:Ea; try discriminate.
  pose proof (hwf_nth _ _ _ W Ea) as Wl. cbn in Wl.
  set (g := fun (h : list cell) (x : value) =>
              match x with
              | VRef b => match nth_error h b with
                          | Some (CArr _) => rbind (copy_deep f h b) (fun r => Ok (fst r, VRef (snd r)))
                          | Some (CMap _) => Ok (h, x)
                          | Some CKey => UB
                          | None => UB
                          end
              | _ => Ok (h, x)
              end) in E.
  assert (S: forall xs h1 h2 vs, hwf h1 -> gext h h1 -> new_closed (length h) h1 -> Forall (vwf h1) xs ->
             res_mapS g h1 xs = Ok (h2, vs) ->
             gext h1 h2 /\ new_closed (length h) h2 /\ Forall (vwf h2) vs /\
             (forall r, In (VRef r) vs -> is_arr h2 r = true -> length h <= r)).
  { induction xs as [|x xs IHx]; intros h1 h2 vs W1 G1 P1 F R; cbn in R.
    - inversion R; subst. split; [apply gext_refl; auto|]. split; auto. split; [constructor|]. intros r [].
    - destruct (g h1 x) as [[h1' y]| |] eqn:Eg; try discriminate.
      destruct (res_mapS g h1' xs) as [[h2' ys]| |] eqn:Er; try discriminate. inversion R; subst h2' vs.
      inversion F as [|? ? Fx Fl]; subst.
      assert (X: gext h1 h1' /\ new_closed (length h) h1' /\ vwf h1' y /\ (forall r, y = VRef r -> is_arr h1' r = true -> length h <= r)).
      { unfold g in Eg. destruct x; try (inversion Eg; subst; split; [apply gext_refl; auto|]; split; auto; split; [exact I|]; intros; discriminate).
        destruct (nth_error h1 a0) as [[| |]|] eqn:E0; try discriminate.
        - destruct (copy_deep f h1 a0) as [[hh aa]| |] eqn:Ec; try discriminate. cbn in Eg. inversion Eg; subst h1' y.
          destruct (IH _ _ _ _ W1 Ec) as (Gc & Ia & La & Pc).
          split; auto. split; [|split; [cbn; apply is_arr_cont; auto|]].
          + eapply new_closed_gext; eauto. apply gext_len; auto.
          + intros r Hr _. inversion Hr; subst. pose proof (gext_len _ _ G1). lia.
        - inversion Eg; subst. split; [apply gext_refl; auto|]. split; auto. split; auto.
          intros r Hr Ia. inversion Hr; subst. unfold is_arr in Ia. rewrite E0 in Ia. discriminate. }
      destruct X as (Gx & Px & Vy & Ny).
      destruct (IHx h1' h2 ys) as (G2 & P2 & Vs & Ns); auto.
      { apply Gx. }
      { eapply gext_trans; eauto. }
      { eapply Forall_impl; [|exact Fl]. intros v. apply vwf_mono. apply gext_kinds; auto. }
      split; [eapply gext_trans; eauto|]. split; auto. split.
      + constructor; auto. eapply vwf_mono; [apply gext_kinds; exact G2|exact Vy].
      + intros r [Hr|Hr] Ia; [|apply Ns; auto]. subst y.
        apply Ny; auto. cbn in Vy. destruct G2 as [[ext ->] _]. rewrite is_arr_old in Ia; auto. apply cont_lt; auto. }
  destruct (res_mapS g h l) as [[h1 vs]| |] eqn:Er; try discriminate. cbn in E. inversion E; subst h' a'.
  assert (P0: new_closed (length h) h).
  { intros b c Hb Eb. assert (b < length h) by (apply nth_error_Some; congruence). lia. }
  destruct (S l h h1 vs W (gext_refl _ W) P0 Wl Er) as (G1 & P1 & Vs & Ns).
  split; [eapply gext_trans; [exact G1|]; apply gext_alloc; [apply G1|exact Vs]|].
  split; [unfold is_arr; rewrite nth_error_app2 by lia; rewrite Nat.sub_diag; reflexivity|].
  split; [apply gext_len; auto|]. apply new_closed_alloc; auto. apply G1.
Qed.

Lemma copy_deep_gext3 : forall f h a h' a', hwf h -> copy_deep f h a = Ok (h', a') ->
  gext h h' /\ is_arr h' a' = true /\ length h <= a'.
Proof. intros f h a h' a' W E. destruct (copy_deep_spec _ _ _ _ _ W E) as (A & B & C & _). auto. Qed.
Lemma copy_deep_gext : forall f h a h' a', hwf h -> copy_deep f h a = Ok (h', a') ->
  gext h h' /\ is_arr h' a' = true.
Proof. intros. destruct (copy_deep_gext3 _ _ _ _ _ H H0) as (A & B & _). auto. Qed.

Theorem rt_yes_copy : forall f h0 vis a, hwf h0 -> rt (succs h0) f vis a = Some true -> is_arr h0 a = true ->
  forall h, gext h0 h -> exists r, copy_deep f h a = Ok r.
Proof.
  induction f as [|f IH]; intros h0 vis a W R Ia h G; [discriminate|].
  pose proof (rt_true_children _ _ _ _ R) as Ch.
  cbn [copy_deep]. assert (La: a < length h0) by (apply cont_lt, is_arr_cont; auto).
  rewrite (gext_old _ _ _ G La). unfold is_arr in Ia.
  destruct (nth_error h0 a) as [[l| |]|] eqn:Ea; try discriminate.
  pose proof (hwf_nth _ _ _ W Ea) as Wl. cbn in Wl.
  assert (Hs: succs h0 a = refs l) by (rewrite (succs_nth _ _ _ Ea); reflexivity).
  match goal with |- exists r, rbind (res_mapS ?g0 h l) _ = _ => set (g := g0) end.
  assert (S: forall xs h1, gext h0 h1 -> Forall (vwf h0) xs -> (forall b, In (VRef b) xs -> In b (succs h0 a)) ->
             exists r, res_mapS g h1 xs = Ok r).
  { induction xs as [|x xs IHl]; intros h1 G1 F Hin; cbn; [eauto|].
    inversion F as [|? ? Fx Fl]; subst.
    assert (Gx: exists h1' y, g h1 x = Ok (h1', y) /\ gext h0 h1').
    { unfold g. destruct x; try (do 2 eexists; split; [reflexivity|exact G1]).
      cbn in Fx. assert (Lb: a0 < length h0) by (apply cont_lt; auto).
      rewrite (gext_old _ _ _ G1 Lb). unfold cont in Fx.
      destruct (nth_error h0 a0) as [[| |]|] eqn:E0; try discriminate.
      - destruct (Ch a0 (Hin _ (or_introl eq_refl))) as [_ Rb].
        destruct (IH h0 (a0 :: vis) a0 W Rb) with (h := h1) as [[hh aa] Ec]; auto.
        { unfold is_arr. rewrite E0. reflexivity. }
        rewrite Ec. cbn. do 2 eexists; split; [reflexivity|].
        eapply gext_trans; [exact G1|]. eapply copy_deep_gext; [apply G1|exact Ec].
      - do 2 eexists; split; [reflexivity|exact G1]. }
    destruct Gx as (h1' & y & -> & G1').
    destruct (IHl h1' G1' Fl) as [[h2 ys] ->]; [intros; apply Hin; right; auto|]. eauto. }
  destruct (S l h G Wl) as [r ->]; [intros b Hb; rewrite Hs; apply In_refs; auto|]. cbn. eauto.
Qed.

Lemma dict_set_vwf h es k ka v : Forall (fun e : tree * nat * value => vwf h (snd e)) es -> vwf h v ->
  Forall (fun e : tree * nat * value => vwf h (snd e)) (dict_set es k ka v).
Proof.
  intros F V. induction F as [|e es Fe Fes IH]; cbn; [constructor; auto|].
  destruct (teq k (ekey e)); constructor; auto.
Qed.
Lemma dict_del_vwf h es k : Forall (fun e : tree * nat * value => vwf h (snd e)) es ->
  Forall (fun e : tree * nat * value => vwf h (snd e)) (dict_del es k).
Proof. intros F. induction F as [|e es Fe Fes IH]; cbn; [constructor|]. destruct (teq k (ekey e)); auto. Qed.

Lemma dict_find_vwf h es q e : Forall (fun e : tree * nat * value => vwf h (snd e)) es -> dict_find es q = Some e -> vwf h (snd e).
Proof. intros F E. apply find_some in E. eapply Forall_forall in F; [exact F | apply E]. Qed.

Lemma Forall_mono_kinds h h' (es : list (tree * nat * value)) : kinds_le h h' ->
  Forall (fun e => vwf h (snd e)) es -> Forall (fun e => vwf h' (snd e)) es.
Proof. intros K F. eapply Forall_impl; [|exact F]. cbn. intros e. apply vwf_mono; auto. Qed.

Lemma gext_alloc_key h : hwf h -> gext h (h ++ [CKey]).
Proof. intros W. apply gext_alloc; auto. exact I. Qed.

Lemma thaw_gext : forall t h h' v, hwf h -> thaw h t = (h', v) -> gext h h' /\ vwf h' v.
Proof.
  fix IH 1. intros t h h' v W E. destruct t; cbn [thaw] in E;
    try (inversion E; subst; split; [apply gext_refl; auto|exact I]).
  - (* array *)
    match type of E with (let '(h1, vs) := ?go h l in _) = _ => set (go0 := go) in E end.
    assert (S: forall xs h0 h1 vs, hwf h0 -> go0 h0 xs = (h1, vs) -> gext h0 h1 /\ Forall (vwf h1) vs).
    { induction xs as [|x xs IHl]; intros h0 h1 vs W0 R; cbn in R.
      - inversion R; subst. split; [apply gext_refl; auto|constructor].
      - destruct (thaw h0 x) as [ha va] eqn:Ex. destruct (go0 ha xs) as [hb vb] eqn:Er. inversion R; subst h1 vs.
        destruct (IH x h0 ha va W0 Ex) as [Ga Va].
        destruct (IHl ha hb vb (proj1 (proj2 Ga)) Er) as [Gb Vb].
        split; [eapply gext_trans; eauto|]. constructor; auto. eapply vwf_mono; [apply gext_kinds; exact Gb|exact Va]. }
    destruct (go0 h l) as [h1 vs] eqn:Er. inversion E; subst h' v.
    destruct (S l h h1 vs W Er) as [G1 Vs]. split.
    + eapply gext_trans; [exact G1|]. apply gext_alloc; [apply G1|exact Vs].
    + cbn. unfold cont. rewrite nth_error_app2 by lia. rewrite Nat.sub_diag. reflexivity.
  - (* map *)
    match type of E with (let '(h1, es') := ?go h es [] in _) = _ => set (go0 := go) in E end.
    assert (S: forall xs h0 acc h1 es', hwf h0 -> Forall (fun e : tree * nat * value => vwf h0 (snd e)) acc ->
               go0 h0 xs acc = (h1, es') -> gext h0 h1 /\ Forall (fun e : tree * nat * value => vwf h1 (snd e)) es').
    { induction xs as [|x xs IHl]; intros h0 acc h1 es' W0 Fa R; cbn in R.
      - inversion R; subst. split; [apply gext_refl; auto|exact Fa].
      - destruct (thaw h0 (snd x)) as [ha va] eqn:Ex.
        destruct (IH (snd x) h0 ha va W0 Ex) as [Ga Va].
        assert (Gk: gext ha (ha ++ [CKey])) by (apply gext_alloc_key; apply Ga).
        destruct (IHl (ha ++ [CKey]) (dict_set acc (fst x) (length ha) va) h1 es') as [Gb Vb]; auto.
        { apply Gk. }
        { apply dict_set_vwf.
          - eapply Forall_mono_kinds; [|exact Fa]. eapply kinds_le_trans; apply gext_kinds; eauto.
          - eapply vwf_mono; [apply gext_kinds; exact Gk|exact Va]. }
        split; auto. eapply gext_trans; [exact Ga|]. eapply gext_trans; eauto. }
    destruct (go0 h es []) as [h1 es'] eqn:Er. inversion E; subst h' v.
    destruct (S es h [] h1 es' W (Forall_nil _) Er) as [G1 Vs]. split.
    + eapply gext_trans; [exact G1|]. apply gext_alloc; [apply G1|exact Vs].
    + cbn. unfold cont. rewrite nth_error_app2 by lia. rewrite Nat.sub_diag. reflexivity.
Qed.

Lemma thaw_list_gext : forall ks h h' vs, hwf h -> thaw_list h ks = (h', vs) -> gext h h' /\ Forall (vwf h') vs.
Proof.
  induction ks as [|k ks IH]; intros h h' vs W R; cbn in R.
  - inversion R; subst. split; [apply gext_refl; auto|constructor].
  - destruct (thaw h k) as [h1 v] eqn:Et. destruct (thaw_gext _ _ _ _ W Et) as [G1 V1].
    destruct (thaw_list h1 ks) as [h2 vs2] eqn:Er. inversion R; subst h' vs.
    destruct (IH h1 h2 vs2 (proj1 (proj2 G1)) Er) as [G2 V2].
    split; [eapply gext_trans; eauto|]. constructor; auto. eapply vwf_mono; [apply gext_kinds; exact G2|exact V1].
Qed.

Definition sub_vals (l' l : list value) : Prop := forall x, In x l' -> In x l \/ x = VNil.

Lemma sub_vals_refs l' l : sub_vals l' l -> incl (refs l') (refs l).
Proof. intros S a H. apply In_refs in H. apply In_refs. destruct (S _ H) as [?|?]; [auto|discriminate]. Qed.
Lemma sub_vals_vwf h l' l : sub_vals l' l -> Forall (vwf h) l -> Forall (vwf h) l'.
Proof.
  intros S F. apply Forall_forall. intros x Hx. destruct (S _ Hx) as [Hin| ->]; [|exact I].
  eapply Forall_forall in F; eauto.
Qed.
Lemma sub_vals_refl l : sub_vals l l. Proof. intros x; auto. Qed.
Lemma In_firstn_my {A} n (l : list A) x : In x (firstn n l) -> In x l.
Proof. revert n; induction l; destruct n; cbn; intros H; try contradiction. destruct H; [left|right]; eauto. Qed.
Lemma In_skipn_my {A} n (l : list A) x : In x (skipn n l) -> In x l.
Proof. revert n; induction l; destruct n; cbn; intros H; try contradiction; auto. right; eauto. Qed.
Lemma sub_vals_cut l n m : sub_vals (firstn n l ++ skipn m l) l.
Proof. intros x H. apply in_app_or in H. left. destruct H; [eapply In_firstn_my|eapply In_skipn_my]; eauto. Qed.
Lemma sub_vals_resize l n : sub_vals (resize_list l n) l.
Proof.
  intros x H. unfold resize_list in H. destruct (Z.leb n (zlen l)).
  - left. eapply In_firstn_my; eauto.
  - apply in_app_or in H. destruct H as [?|H]; [left; auto|right]. apply repeat_spec in H. auto.
Qed.
Lemma In_ins_by {A} (le : A -> A -> bool) x y l : In y (ins_by le x l) <-> y = x \/ In y l.
Proof.
  induction l as [|z l IH]; cbn; [intuition|]. destruct (le x z); cbn; [intuition|]. rewrite IH. intuition.
Qed.
Lemma In_sort_by {A} (le : A -> A -> bool) l y : In y (sort_by le l) <-> In y l.
Proof.
  unfold sort_by. induction l as [|x l IH]; cbn; [intuition|]. rewrite In_ins_by, IH. intuition.
Qed.

Lemma sub_vals_rev l : sub_vals (rev l) l.
Proof. intros x H. left. apply in_rev; auto. Qed.
Lemma sub_vals_sort le l : sub_vals (sort_by le l) l.
Proof. intros x H. left. apply In_sort_by in H; auto. Qed.

Definition Good (o : outcome) : Prop := Inv (o_state o) /\ vwf (st_heap (o_state o)) (o_result o).

Lemma Inv_gext st h' : Inv st -> gext (st_heap st) h' -> Inv {| st_heap := h'; st_vars := st_vars st |}.
Proof.
  intros [[W V] A] G. split; [split|]; cbn.
  - apply G.
  - eapply Forall_impl; [|exact V]. intros v. apply vwf_mono. apply gext_kinds; auto.
  - eapply gext_acyclic; eauto.
Qed.

Lemma swf_upd st a c c' : swf st -> nth_error (st_heap st) a = Some c -> same_kind c c' -> cwf (st_heap st) c' -> swf (upd st a c').
Proof.
  intros [W V] E S C. split; cbn.
  - eapply hwf_set_nth; eauto.
  - eapply Forall_impl; [|exact V]. intros v. apply vwf_mono. eapply kinds_le_set_nth; eauto.
Qed.

Lemma Inv_upd_shrink st a c c' : Inv st -> nth_error (st_heap st) a = Some c -> same_kind c c' ->
  cwf (st_heap st) c' -> incl (cell_refs c') (cell_refs c) -> Inv (upd st a c').
Proof.
  intros [S A] E K C I. split; [eapply swf_upd; eauto|]. cbn. unfold HAcyclic in *.
  eapply acyclic_mono; [|exact A]. intros b. destruct (Nat.eq_dec a b) as [<-|Hne].
  - rewrite succs_set_nth_eq by (apply nth_error_Some; congruence). rewrite (succs_nth _ _ _ E). exact I.
  - rewrite succs_set_nth_neq by auto. apply incl_refl.
Qed.

Lemma Inv_upd_tested st a c c' : Inv st -> nth_error (st_heap st) a = Some c -> same_kind c c' ->
  cwf (st_heap st) c' ->
  rec_test repaired (st_heap (upd st a c')) a = Some true -> Inv (upd st a c').
Proof.
  intros [S A] E K C T. split; [eapply swf_upd; eauto|]. cbn. unfold HAcyclic in *.
  unfold rec_test in T. cbn [d_rt_arrays_only repaired upd st_heap] in T.
  eapply (acyclic_surgery (succs (st_heap st)) _ a); eauto.
  - intros b Hne. apply succs_set_nth_neq. auto.
  - eapply rt_true_no_cycle. exact T.
Qed.

Lemma commit_arr_good st a l l' lfail okres : Inv st -> nth_error (st_heap st) a = Some (CArr l) ->
  Forall (vwf (st_heap st)) l' -> sub_vals lfail l -> (forall b, okres <> VRef b) ->
  Good (commit_arr repaired st a l' lfail okres).
Proof.
  intros Hi E F S R. unfold commit_arr.
  destruct (rec_test repaired (st_heap (upd st a (CArr l'))) a) as [[|]|] eqn:T; unfold Good; cbn [o_state o_result mk].
  - split; [eapply Inv_upd_tested; [exact Hi|exact E|exact I|exact F|exact T]|].
    destruct okres; try exact I. exfalso; eapply R; eauto.
  - split; [|exact I]. eapply Inv_upd_shrink; [exact Hi|exact E|exact I| |].
    + cbn. eapply sub_vals_vwf; eauto. exact (hwf_nth _ _ _ (proj1 (proj1 Hi)) E).
    + cbn. apply sub_vals_refs; auto.
  - split; [exact Hi|exact I].
Qed.

Lemma map_snd_refs_incl (es' es : list (tree * nat * value)) :
  (forall e, In e es' -> exists e0, In e0 es /\ snd e0 = snd e) -> incl (refs (map snd es')) (refs (map snd es)).
Proof.
  intros H a Ha. apply In_refs in Ha. apply In_refs. apply in_map_iff in Ha. destruct Ha as (e & He & Hin).
  destruct (H e Hin) as (e0 & Hin0 & Hs). apply in_map_iff. exists e0. split; [congruence|auto].
Qed.
Lemma dict_del_sub es k : forall e, In e (dict_del es k) -> In e es.
Proof. induction es as [|x es IH]; cbn; [tauto|]. destruct (teq k (ekey x)); cbn; intuition. Qed.

Lemma commit_map_good st a es es' : Inv st -> nth_error (st_heap st) a = Some (CMap es) ->
  Forall (fun e : tree * nat * value => vwf (st_heap st) (snd e)) es' ->
  Good (commit_map repaired st a es' es).
Proof.
  intros Hi E F. unfold commit_map. cbn [d_hset_untested repaired].
  destruct (rec_test repaired (st_heap (upd st a (CMap es'))) a) as [[|]|] eqn:T; unfold Good; cbn [o_state o_result mk].
  - split; [eapply Inv_upd_tested; [exact Hi|exact E|exact I|exact F|exact T]|exact I].
  - split; [|exact I]. eapply Inv_upd_shrink; [exact Hi|exact E|exact I| |].
    + exact (hwf_nth _ _ _ (proj1 (proj1 Hi)) E).
    + apply incl_refl.
  - split; [exact Hi|exact I].
Qed.

Lemma alloc_good st c : Inv st -> cwf (st_heap st) c -> (c <> CKey) ->
  Inv (fst (alloc st c)) /\ vwf (st_heap (fst (alloc st c))) (snd (alloc st c)) /\
  gext (st_heap st) (st_heap (fst (alloc st c))).
Proof.
  intros Hi C N. unfold alloc. cbn [fst snd st_heap].
  assert (G: gext (st_heap st) (st_heap st ++ [c])) by (apply gext_alloc; [apply Hi|auto]).
  split; [apply (Inv_gext st _ Hi G)|]. split; auto.
  cbn. unfold cont. rewrite nth_error_app2 by lia. rewrite Nat.sub_diag. cbn. destruct c; auto; congruence.
Qed.

Lemma setvar_good st n v st' : Inv st -> vwf (st_heap st) v -> setvar st n v = Some st' -> Inv st'.
Proof.
  intros [[W V] A] Vv E. unfold setvar in E. destruct (Nat.ltb n (length (st_vars st))); [|discriminate].
  inversion E; subst. split; [split|]; cbn; auto. apply Forall_set_nth; auto.
Qed.

Lemma arr_of_nth st v a l : arr_of st v = Some (a, l) -> v = VRef a /\ nth_error (st_heap st) a = Some (CArr l).
Proof.
  unfold arr_of. destruct v; try discriminate. destruct (nth_error (st_heap st) a0) as [[| |]|] eqn:E; try discriminate.
  intros H; inversion H; subst; auto.
Qed.
Lemma map_of_nth st v a es : map_of st v = Some (a, es) -> v = VRef a /\ nth_error (st_heap st) a = Some (CMap es).
Proof.
  unfold map_of. destruct v; try discriminate. destruct (nth_error (st_heap st) a0) as [[| |]|] eqn:E; try discriminate.
  intros H; inversion H; subst; auto.
Qed.

Lemma eval_opnd_good st x st1 v : Inv st -> eval_opnd st x = Some (st1, v) ->
  Inv st1 /\ vwf (st_heap st1) v /\ gext (st_heap st) (st_heap st1) /\ st_vars st1 = st_vars st.
Proof.
  intros Hi E. destruct x; cbn in E.
  - destruct (nth_error (st_vars st) n) as [w|] eqn:En; [|discriminate].
    assert (Vw: vwf (st_heap st) w).
    { destruct Hi as [[_ V] _]. eapply Forall_forall in V; [exact V|]. eapply nth_error_In; eauto. }
    destruct w; inversion E; subst; (split; [exact Hi|]); (split; [exact Vw|]); (split; [apply gext_refl; apply Hi|reflexivity]).
  - destruct (thaw (st_heap st) t) as [h w] eqn:Et.
    destruct (vnil w || negb (lit_ok t)); [discriminate|]. inversion E; subst.
    destruct (thaw_gext _ _ _ _ (proj1 (proj1 Hi)) Et) as [G Vw].
    split; [apply Inv_gext; auto|]. auto.
  - destruct (nth_error (st_vars st) n) as [[| | | | |a]|] eqn:En; try discriminate.
    destruct (nth_error (st_heap st) a) as [[l| |]|] eqn:Ea; try discriminate.
    destruct (znth l i) as [w|] eqn:Ez; [|discriminate].
    assert (Vw: vwf (st_heap st) w).
    { pose proof (hwf_nth _ _ _ (proj1 (proj1 Hi)) Ea) as Wl. cbn in Wl.
      eapply Forall_forall in Wl; [exact Wl|]. unfold znth in Ez. destruct (Z.ltb i 0); [discriminate|].
      eapply nth_error_In; eauto. }
    destruct w; inversion E; subst; (split; [exact Hi|]); (split; [exact Vw|]); (split; [apply gext_refl; apply Hi|reflexivity]).
  - destruct (nth_error (st_vars st) n) as [w|] eqn:En; [|discriminate].
    assert (Vw: vwf (st_heap st) w).
    { destruct Hi as [[_ V] _]. eapply Forall_forall in V; [exact V|]. eapply nth_error_In; eauto. }
    assert (G: gext (st_heap st) (st_heap st ++ [CArr [w]])).
    { apply gext_alloc; [apply Hi|]. cbn. constructor; auto. }
    assert (R: Inv {| st_heap := st_heap st ++ [CArr [w]]; st_vars := st_vars st |} /\
               vwf (st_heap st ++ [CArr [w]]) (VRef (length (st_heap st)))).
    { split; [apply (Inv_gext st _ Hi G)|]. cbn. unfold cont. rewrite nth_error_app2 by lia. rewrite Nat.sub_diag. reflexivity. }
    destruct w; inversion E; subst; (split; [apply R|]); (split; [apply R|]); (split; [exact G|reflexivity]).
Qed.

(* C08: what one operation of the model can do to a state.  Every `step` ends in one of seven forms (`yields`): the
   state is handed back, or the operands are evaluated (new cells only) and then nothing more happens, one cell is
   overwritten in place, an array / a HashMap insertion is committed under the recursion test, an existing value or a
   container made by the operation is assigned to a variable.  What holds of the seven forms holds of every operation:
   here, that the repaired model keeps the heap well formed and acyclic (`yields_good`); the case analysis over the
   operations is done once, in DataFrame.v (`step_yields`). *)
From Coq Require Import ZArith List ListDec Arith Lia Bool.
From SqfVerif Require Import Data.DataDefs Data.DataGraph Data.DataHeap Data.DataSort.
Import ListNotations.

Lemma mk_good s st ds r : Inv st -> vwf (st_heap st) r -> Good (mk s st ds r).
Proof. intros; split; auto. Qed.
Lemma invalid_good st : Inv st -> Good (invalid st).
Proof. intros; apply mk_good; auto. exact I. Qed.
#[local] Hint Resolve invalid_good : core.

Lemma assign_result_good st0 dst o : Inv st0 -> Good o -> Good (assign_result st0 dst o).
Proof.
  intros H0 [Ho Vo]. unfold assign_result. destruct (o_status o) eqn:Es; try (split; auto; fail).
  destruct (existsb is_error (o_diags o)); auto.
  destruct (setvar (o_state o) dst (o_result o)) as [st'|] eqn:E; auto.
  apply mk_good; [eapply setvar_good; eauto|exact I].
Qed.

Lemma Forall_firstn_my {A} (P : A -> Prop) n l : Forall P l -> Forall P (firstn n l).
Proof. intros F. apply Forall_forall. intros x H. eapply Forall_forall in F; eauto. eapply In_firstn_my; eauto. Qed.
Lemma Forall_skipn_my {A} (P : A -> Prop) n l : Forall P l -> Forall P (skipn n l).
Proof. intros F. apply Forall_forall. intros x H. eapply Forall_forall in F; eauto. eapply In_skipn_my; eauto. Qed.

Lemma vwf_resize h l n : Forall (vwf h) l -> Forall (vwf h) (resize_list l n).
Proof. intros F. eapply sub_vals_vwf; [apply sub_vals_resize|exact F]. Qed.
Lemma vwf_put h l i v : Forall (vwf h) l -> vwf h v -> Forall (vwf h) (put l i v).
Proof.
  intros F V. unfold put, zfirstn, zskipn. apply Forall_app. split; [apply Forall_firstn_my; auto|].
  constructor; auto. apply Forall_skipn_my; auto.
Qed.
Lemma vnum_noref z b : vnum z <> VRef b. Proof. discriminate. Qed.
Lemma vnil_noref b : VNil <> VRef b. Proof. discriminate. Qed.
#[local] Hint Resolve vnum_noref vnil_noref : core.

Lemma cell_wf st a c : Inv st -> nth_error (st_heap st) a = Some c -> cwf (st_heap st) c.
Proof. intros Hi E. exact (hwf_nth _ _ _ (proj1 (proj1 Hi)) E). Qed.

Lemma vwf_upd_same st a c c' v : nth_error (st_heap st) a = Some c -> same_kind c c' ->
  vwf (st_heap st) v -> vwf (st_heap (upd st a c')) v.
Proof. intros E S V. eapply vwf_mono; [eapply kinds_le_set_nth; eauto|exact V]. Qed.

Lemma key_cells_gext h n : hwf h -> gext h (h ++ repeat CKey n).
Proof.
  intros W. induction n as [|n IH]; cbn; [rewrite app_nil_r; apply gext_refl; auto|].
  replace (CKey :: repeat CKey n) with (repeat CKey n ++ [CKey]).
  - rewrite app_assoc. eapply gext_trans; [exact IH|]. apply gext_alloc_key. apply IH.
  - clear. induction n; cbn; auto. rewrite IHn. reflexivity.
Qed.

Lemma arr_cell st v a l : Inv st -> arr_of st v = Some (a, l) ->
  v = VRef a /\ nth_error (st_heap st) a = Some (CArr l) /\ Forall (vwf (st_heap st)) l.
Proof. intros Hi E. apply arr_of_nth in E. destruct E as [-> E]. repeat split; auto. exact (cell_wf _ _ _ Hi E). Qed.
Lemma map_cell st v a es : Inv st -> map_of st v = Some (a, es) ->
  v = VRef a /\ nth_error (st_heap st) a = Some (CMap es) /\ Forall (fun e : tree * nat * value => vwf (st_heap st) (snd e)) es.
Proof. intros Hi E. apply map_of_nth in E. destruct E as [-> E]. repeat split; auto. exact (cell_wf _ _ _ Hi E). Qed.

Lemma mfa_go_ok st : Inv st -> forall xs n0 es0 ds0 n1 es1 ds1, Forall (vwf (st_heap st)) xs ->
  Forall (fun e : tree * nat * value => vwf (st_heap st) (snd e)) es0 -> ~ In DArrayRecursion ds0 ->
  mfa_go st xs n0 es0 ds0 = Ok (Some (n1, es1, ds1)) ->
  Forall (fun e : tree * nat * value => vwf (st_heap st) (snd e)) es1 /\ ~ In DArrayRecursion ds1.
Proof.
  intros Hi. induction xs as [|q xs IH]; intros n0 es0 ds0 n1 es1 ds1 F F0 N R; cbn [mfa_go] in R.
  - inversion R; subst; auto.
  - inversion F as [|? ? _ Fxs]; subst.
    assert (N': forall x, x <> DArrayRecursion -> ~ In DArrayRecursion (ds0 ++ [x])).
    { intros x Hx Hin. apply in_app_or in Hin. destruct Hin as [?|[?|[]]]; [tauto|congruence]. }
    destruct (arr_of st q) as [[b [|k [|y [|z rest]]]]|] eqn:Eb; try (eapply IH; [| |apply N'|exact R]; auto; discriminate).
    destruct (key_of st k) as [kt| |]; try discriminate. destruct (key_ok kt); [|discriminate].
    eapply IH; [exact Fxs| |exact N|exact R]. apply dict_set_vwf; [exact F0|].
    destruct (arr_cell _ _ _ _ Hi Eb) as (_ & _ & Wb). inversion Wb as [|? ? _ Wb']; subst. inversion Wb'; subst; auto.
Qed.

(* st1 is st once operands are evaluated: new cells only, the variables as they were *)
Definition after (st st1 : state) : Prop :=
  Inv st1 /\ gext (st_heap st) (st_heap st1) /\ st_vars st1 = st_vars st.

Lemma after_refl st : Inv st -> after st st.
Proof. intros Hi. split; [exact Hi|]. split; [apply gext_refl; apply Hi | reflexivity]. Qed.

Lemma after_grow st st1 h' : after st st1 -> gext (st_heap st1) h' -> after st {| st_heap := h'; st_vars := st_vars st1 |}.
Proof.
  intros (I1 & G1 & V1) G. split; [apply Inv_gext; auto|]. split; [eapply gext_trans; eauto | exact V1].
Qed.

Lemma after_eval st st1 x st2 v : after st st1 -> eval_opnd st1 x = Some (st2, v) -> after st st2 /\ vwf (st_heap st2) v.
Proof.
  intros (I1 & G1 & V1) E. destruct (eval_opnd_good _ _ _ _ I1 E) as (I2 & V & G2 & V2).
  split; [|exact V]. split; [exact I2|]. split; [eapply gext_trans; eauto | congruence].
Qed.

Lemma after_alloc st st1 c : after st st1 -> cwf (st_heap st1) c -> c <> CKey ->
  after st (fst (alloc st1 c)) /\ vwf (st_heap (fst (alloc st1 c))) (snd (alloc st1 c)).
Proof.
  intros A C N. destruct (alloc_good st1 c (proj1 A) C N) as (_ & V & G).
  split; [exact (after_grow _ _ _ A G) | exact V].
Qed.

(* tgt: the container the operation works on in place; rv: the variable that receives a container made by the
   operation.  The side conditions are what the proofs about single forms need: new content is well formed; a cell
   overwritten without the test refers to no more than before (repaired code); a refused insertion puts the old
   content back (repaired code); only the commits report DArrayRecursion. *)
Inductive yields (d : defects) (st : state) (tgt : option nat) : option nat -> outcome -> Prop :=
| y_back rv s ds : s <> Done -> yields d st tgt rv (mk s st ds VNil)
| y_pure st1 s ds r : after st st1 -> vwf (st_heap st1) r -> ~ In DArrayRecursion ds ->
    yields d st tgt None (mk s st1 ds r)
| y_write st1 a c c' ds r : after st st1 -> tgt = Some a -> nth_error (st_heap st1) a = Some c -> same_kind c c' ->
    cwf (st_heap st1) c' -> (d = repaired -> incl (cell_refs c') (cell_refs c)) ->
    vwf (st_heap st1) r -> ~ In DArrayRecursion ds ->
    yields d st tgt None (mk Done (upd st1 a c') ds r)
| y_commit_arr st1 a l l' lfail okres : after st st1 -> tgt = Some a -> nth_error (st_heap st1) a = Some (CArr l) ->
    Forall (vwf (st_heap st1)) l' -> (d = repaired -> lfail = l) -> (forall b, okres <> VRef b) ->
    yields d st tgt None (commit_arr d st1 a l' lfail okres)
| y_commit_map st1 a es es' : after st st1 -> tgt = Some a -> nth_error (st_heap st1) a = Some (CMap es) ->
    Forall (fun e : tree * nat * value => vwf (st_heap st1) (snd e)) es' ->
    yields d st tgt None (commit_map d st1 a es' es)
| y_assign st1 dst ds r : after st st1 -> vwf (st_heap st1) r -> ~ In DArrayRecursion ds ->
    yields d st tgt None (assign_result st dst (mk Done st1 ds r))
| y_fresh st1 dst ds r : after st st1 -> cont (st_heap st1) r = true -> length (st_heap st) <= r -> ~ In DArrayRecursion ds ->
    yields d st tgt (Some dst) (assign_result st dst (mk Done st1 ds (VRef r))).

Lemma y_diag d st tgt st1 s ds : after st st1 -> ~ In DArrayRecursion ds -> yields d st tgt None (mk s st1 ds VNil).
Proof. intros A N. apply y_pure; [exact A | exact I | exact N]. Qed.

Lemma y_shrink d st tgt st1 a l l' ds r : after st st1 -> tgt = Some a -> nth_error (st_heap st1) a = Some (CArr l) ->
  sub_vals l' l -> vwf (st_heap st1) r -> ~ In DArrayRecursion ds -> yields d st tgt None (mk Done (upd st1 a (CArr l')) ds r).
Proof.
  intros A T E S V N. eapply y_write; eauto; [exact I | | intros _; apply sub_vals_refs, S].
  eapply sub_vals_vwf; [exact S | exact (cell_wf _ _ _ (proj1 A) E)].
Qed.

Lemma y_invalid d st tgt rv : yields d st tgt rv (invalid st).
Proof. apply y_back. discriminate. Qed.

Lemma with1_yields d st tgt rv x k : Inv st ->
  (forall st1 v, eval_opnd st x = Some (st1, v) -> after st st1 -> vwf (st_heap st1) v -> yields d st tgt rv (k st1 v)) ->
  yields d st tgt rv (with1 st x k).
Proof.
  intros Hi H. unfold with1. destruct (eval_opnd st x) as [[st1 v]|] eqn:E; [|apply y_invalid].
  destruct (after_eval st st x st1 v (after_refl st Hi) E). auto.
Qed.
Lemma with2_yields d st tgt rv x y k : Inv st ->
  (forall st1 st2 v w, eval_opnd st x = Some (st1, v) -> after st st2 -> vwf (st_heap st2) v -> vwf (st_heap st2) w ->
                       yields d st tgt rv (k st2 v w)) ->
  yields d st tgt rv (with2 st x y k).
Proof.
  intros Hi H. unfold with2. apply with1_yields; [exact Hi|]. intros st1 v E A1 V.
  destruct (eval_opnd st1 y) as [[st2 w]|] eqn:E2; [|apply y_invalid].
  destruct (after_eval st st1 y st2 w A1 E2) as [A2 W]. apply (H st1); auto.
  destruct (eval_opnd_good _ _ _ _ (proj1 A1) E2) as (_ & _ & G & _). eapply vwf_mono; [apply gext_kinds, G | exact V].
Qed.
Lemma on_arr d st tgt rv st1 v (k : nat -> list value -> outcome) : after st st1 ->
  (forall a l, v = VRef a -> nth_error (st_heap st1) a = Some (CArr l) -> Forall (vwf (st_heap st1)) l -> yields d st tgt rv (k a l)) ->
  yields d st tgt rv (match arr_of st1 v with Some (a, l) => k a l | None => invalid st end).
Proof.
  intros A H. destruct (arr_of st1 v) as [[a l]|] eqn:E; [|apply y_invalid].
  destruct (arr_cell _ _ _ _ (proj1 A) E) as (V & E' & W). auto.
Qed.
Lemma on_map d st tgt rv st1 v (k : nat -> list (tree * nat * value) -> outcome) : after st st1 ->
  (forall a es, v = VRef a -> nth_error (st_heap st1) a = Some (CMap es) ->
                Forall (fun e : tree * nat * value => vwf (st_heap st1) (snd e)) es -> yields d st tgt rv (k a es)) ->
  yields d st tgt rv (match map_of st1 v with Some (a, es) => k a es | None => invalid st end).
Proof.
  intros A H. destruct (map_of st1 v) as [[a es]|] eqn:E; [|apply y_invalid].
  destruct (map_cell _ _ _ _ (proj1 A) E) as (V & E' & W). auto.
Qed.

Lemma of_res_yields {A} d st tgt rv (r : res A) k :
  (forall a, r = Ok a -> yields d st tgt rv (k a)) -> yields d st tgt rv (of_res st r k).
Proof. intros H. destruct r; cbn; [auto | apply y_back; discriminate | apply y_back; discriminate]. Qed.

Lemma alloc_assign_yields d st tgt st1 dst c ds : after st st1 -> cwf (st_heap st1) c -> c <> CKey -> ~ In DArrayRecursion ds ->
  yields d st tgt (Some dst) (let '(st2, res) := alloc st1 c in assign_result st dst (mk Done st2 ds res)).
Proof.
  intros A C N D. destruct (after_alloc st st1 c A C N) as [A2 V]. apply y_fresh; auto.
  exact (gext_len _ _ (proj1 (proj2 A))).
Qed.

Theorem yields_good st tgt rv o : Inv st -> yields repaired st tgt rv o -> Good o.
Proof.
  intros Hi Y. destruct Y as [rv s ds _ | st1 s ds r A V _ | st1 a c c' ds r A _ E K C R V _
                              | st1 a l l' lfail okres A _ E F L R | st1 a es es' A _ E F | st1 dst ds r A V _
                              | st1 dst ds r A V _ _].
  - apply mk_good; [exact Hi | exact I].
  - apply mk_good; [apply A | exact V].
  - apply mk_good; [|eapply vwf_upd_same; eauto]. eapply Inv_upd_shrink; eauto. apply A.
  - eapply commit_arr_good; eauto; [apply A|]. rewrite (L eq_refl). apply sub_vals_refl.
  - eapply commit_map_good; eauto. apply A.
  - apply assign_result_good; [exact Hi|]. apply mk_good; [apply A | exact V].
  - apply assign_result_good; [exact Hi|]. apply mk_good; [apply A | exact V].
Qed.

(* C07: the comparison the operators run on the heap (deq / veq of DataDefs.v, with the pointer
   short-cut of data::equals) is the comparison of the resolved values (tdeq / teq, for which
   the laws are proved in DataTree.v) - on values without nil and without HashMaps inside. *)
From Coq Require Import ZArith List Bool Arith Lia.
From SqfVerif Require Import Data.DataDefs Data.DataTree.
Import ListNotations.

Fixpoint map_free (t : tree) : bool :=
  match t with
  | TArr l => forallb map_free l
  | TMap _ => false
  | _ => true
  end.

Lemma res_map_inv {A B} (g : A -> res B) l ys : res_map g l = Ok ys -> Forall2 (fun x y => g x = Ok y) l ys.
Proof.
  revert ys; induction l as [|x l IH]; intros ys H; cbn in H.
  - inversion H; constructor.
  - destruct (g x) as [y| |] eqn:E; try discriminate. destruct (res_map g l) as [ys'| |] eqn:E'; try discriminate.
    inversion H; subst. constructor; auto.
Qed.

Lemma Forall2_len {A B} (P : A -> B -> Prop) l1 l2 : Forall2 P l1 l2 -> length l1 = length l2.
Proof. induction 1; cbn; auto. Qed.

Lemma freeze_vnil f h v t : freeze f h v = Ok t -> tnil t = vnil v.
Proof.
  destruct v; destruct f; cbn; intros H; try (inversion H; reflexivity); try discriminate.
  destruct (nth_error h a) as [[l|es|]|]; try discriminate.
  - destruct (res_map (freeze f h) l); cbn in H; inversion H; reflexivity.
  - destruct (res_map _ es); cbn in H; inversion H; reflexivity.
Qed.

Lemma freeze_ref_inv f h p t : freeze f h (VRef p) = Ok t ->
  exists f0, f = S f0 /\
    ((exists l ts, nth_error h p = Some (CArr l) /\ res_map (freeze f0 h) l = Ok ts /\ t = TArr ts) \/
     (exists es es', nth_error h p = Some (CMap es) /\ t = TMap es')).
Proof.
  destruct f as [|f0]; cbn; [discriminate|]. intros H. exists f0. split; auto.
  destruct (nth_error h p) as [[l|es|]|]; try discriminate.
  - left. destruct (res_map (freeze f0 h) l) as [ts| |] eqn:E; cbn in H; try discriminate. inversion H. eauto.
  - right. destruct (res_map _ es) as [ts| |] eqn:E; cbn in H; try discriminate. inversion H. eauto.
Qed.

(* the same fuel is not needed: freezing is deterministic in the fuel *)
Lemma freeze_mono : forall f h v t, freeze f h v = Ok t -> forall f', f <= f' -> freeze f' h v = Ok t.
Proof.
  induction f as [|f IH]; intros h v t H f' L.
  - destruct v; cbn in H; try discriminate; destruct f'; cbn; auto.
  - destruct v; try (destruct f'; cbn in *; auto; fail).
    destruct f' as [|f']; [lia|]. cbn [freeze] in *.
    destruct (nth_error h a) as [[l|es|]|]; try discriminate.
    + destruct (res_map (freeze f h) l) as [ts| |] eqn:E; cbn in H; try discriminate. inversion H; subst.
      assert (E': res_map (freeze f' h) l = Ok ts).
      { apply res_map_inv in E. clear H. induction E as [|x y l ts Exy F IHF]; cbn; auto.
        rewrite (IH _ _ _ Exy f') by lia. rewrite IHF. reflexivity. }
      rewrite E'. reflexivity.
    + destruct (res_map (fun e => rbind (freeze f h (snd e)) (fun t0 => Ok (ekey e, t0))) es) as [ts| |] eqn:E; cbn in H; try discriminate.
      inversion H; subst.
      assert (E': res_map (fun e => rbind (freeze f' h (snd e)) (fun t0 => Ok (ekey e, t0))) es = Ok ts).
      { apply res_map_inv in E. clear H. induction E as [|x y l ts Exy F IHF]; cbn; auto.
        destruct (freeze f h (snd x)) as [tx| |] eqn:Ex; cbn in Exy; try discriminate.
        rewrite (IH _ _ _ Ex f') by lia. cbn. inversion Exy; subst. rewrite IHF. reflexivity. }
      rewrite E'. reflexivity.
Qed.

Lemma freeze_fun f f' h v t t' : freeze f h v = Ok t -> freeze f' h v = Ok t' -> t = t'.
Proof.
  intros H H'. pose proof (freeze_mono _ _ _ _ H (max f f') (Nat.le_max_l _ _)).
  pose proof (freeze_mono _ _ _ _ H' (max f f') (Nat.le_max_r _ _)). congruence.
Qed.

(* unless both sides are containers the comparison looks at the two values only, whatever the fuel *)
Lemma deq_leaf g h a b r f f' ta tb : (forall p q, a = VRef p -> b = VRef q -> False) ->
  deq g h a b = Ok r -> freeze f h a = Ok ta -> freeze f' h b = Ok tb -> vnil a = false -> vnil b = false ->
  r = tdeq false ta tb.
Proof.
  intros N D Fa Fb Na Nb.
  destruct a as [| | | | |p]; try discriminate; destruct b as [| | | | |q]; try discriminate; destruct g;
    try (destruct f, f'; cbn in Fa, Fb; inversion Fa; inversion Fb; subst; cbn in D; inversion D; reflexivity);
    try (destruct (freeze_ref_inv _ _ _ _ Fb) as (f0 & -> & [(l & ts & E & _ & ->)|(es & es' & E & ->)]);
         destruct f; cbn in Fa; inversion Fa; subst; cbn in D; inversion D; reflexivity);
    try (destruct (freeze_ref_inv _ _ _ _ Fa) as (f0 & -> & [(l & ts & E & _ & ->)|(es & es' & E & ->)]);
         destruct f'; cbn in Fb; inversion Fb; subst; cbn in D; inversion D; reflexivity);
    destruct (N p q eq_refl eq_refl).
Qed.

Theorem deq_is_tdeq : forall g h a b r, deq g h a b = Ok r ->
  forall f f' ta tb, freeze f h a = Ok ta -> freeze f' h b = Ok tb ->
  nil_free_t ta = true -> map_free ta = true -> vnil a = false -> vnil b = false ->
  r = tdeq false ta tb.
Proof.
  induction g as [|g IH]; intros h a b r D f f' ta tb Fa Fb NF MF Na Nb;
    (destruct a as [| | | | |p]; [| | | | |destruct b as [| | | | |q]]; try (eapply deq_leaf; eauto; discriminate)).
  - (* no fuel: pointer-equal containers answer *)
    destruct (freeze_ref_inv _ _ _ _ Fa) as (f0 & -> & [(l & ts & E & R & ->)|(es & es' & E & ->)]); [|discriminate].
    destruct (freeze_ref_inv _ _ _ _ Fb) as (f1 & -> & [(l' & ts' & E' & R' & ->)|(es & es' & E' & ->)]).
    + cbn in D. rewrite E, E' in D. destruct (Nat.eqb_spec p q) as [->|Hne]; [|discriminate].
      inversion D; subst r. rewrite (freeze_fun _ _ _ _ _ _ Fa Fb). symmetry. apply tdeq_refl_nil_free.
      rewrite <- (freeze_fun _ _ _ _ _ _ Fa Fb). exact NF.
    + cbn in D. rewrite E, E' in D. inversion D. reflexivity.
  - destruct (freeze_ref_inv _ _ _ _ Fa) as (f0 & -> & [(l & ts & E & R & ->)|(es & es' & E & ->)]); [|discriminate].
    destruct (freeze_ref_inv _ _ _ _ Fb) as (f1 & -> & [(l' & ts' & E' & R' & ->)|(es & es' & E' & ->)]).
    2:{ cbn [deq] in D. rewrite E, E' in D. inversion D. reflexivity. }
    cbn [deq] in D. rewrite E, E' in D. destruct (Nat.eqb_spec p q) as [->|Hne].
    { inversion D; subst r. rewrite (freeze_fun _ _ _ _ _ _ Fa Fb). symmetry. apply tdeq_refl_nil_free.
      rewrite <- (freeze_fun _ _ _ _ _ _ Fa Fb). exact NF. }
    rewrite tdeq_arr. apply res_map_inv in R. apply res_map_inv in R'.
    assert (Lts: length ts = length l) by (symmetry; eapply Forall2_len; eauto).
    assert (Lts': length ts' = length l') by (symmetry; eapply Forall2_len; eauto).
    destruct (Nat.eqb_spec (length l) (length l')) as [Hl|Hl]; cbn [negb] in D.
    2:{ inversion D. symmetry. clear - Lts Lts' Hl.
        assert (length ts <> length ts') by congruence. clear - H. revert ts' H.
        induction ts as [|x ts IHt]; destruct ts' as [|y ts']; cbn; intros; try congruence; auto.
        rewrite IHt by (cbn in H; congruence). apply andb_false_r. }
    cbn in NF, MF. rewrite forallb_forall in NF, MF.
    clear E E' Fa Fb Hne Lts Lts'. revert l' ts' R' Hl D.
    induction R as [|x tx l ts Fx R IHR]; intros l' ts' R' Hl D; destruct R' as [|y ty l' ts' Fy R']; try discriminate.
    + cbn in D. inversion D. reflexivity.
    + cbn [combine res_all fst snd] in D. cbn [forall2b].
      unfold slot_eq at 1. rewrite (freeze_vnil _ _ _ _ Fx), (freeze_vnil _ _ _ _ Fy).
      assert (Nx: vnil x = false).
      { rewrite <- (freeze_vnil _ _ _ _ Fx). apply nil_free_not_nil. apply NF. left; auto. }
      rewrite Nx in *. cbn [negb orb andb] in *.
      destruct (vnil y) eqn:Ny; cbn [negb andb].
      * inversion D. reflexivity.
      * destruct (deq g h x y) as [[|]| |] eqn:Dxy; try discriminate.
        -- rewrite <- (IH _ _ _ _ Dxy _ _ _ _ Fx Fy (NF _ (or_introl eq_refl)) (MF _ (or_introl eq_refl)) Nx Ny). cbn.
           eapply IHR; [intros; apply MF; right; auto|intros; apply NF; right; auto|exact R'|cbn in Hl; lia|exact D].
        -- inversion D. rewrite <- (IH _ _ _ _ Dxy _ _ _ _ Fx Fy (NF _ (or_introl eq_refl)) (MF _ (or_introl eq_refl)) Nx Ny). reflexivity.
Qed.

(* value::operator== on the heap is teq of the resolved values *)
Theorem veq_is_teq : forall g h a b r, veq g h a b = Ok r ->
  forall f f' ta tb, freeze f h a = Ok ta -> freeze f' h b = Ok tb ->
  nil_free_t ta = true -> map_free ta = true -> r = teq ta tb.
Proof.
  intros g h a b r V f f' ta tb Fa Fb NF MF. unfold veq in V. rewrite teq_alt.
  rewrite (freeze_vnil _ _ _ _ Fa), (freeze_vnil _ _ _ _ Fb).
  assert (Na: vnil a = false) by (rewrite <- (freeze_vnil _ _ _ _ Fa); apply nil_free_not_nil; auto).
  rewrite Na in *. destruct (vnil b) eqn:Nb; [inversion V; reflexivity|]. cbn.
  eapply deq_is_tdeq; eauto.
Qed.
Print Assumptions veq_is_teq.

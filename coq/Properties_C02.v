(* C02 - control structures execute the statements SQF semantics prescribe.

   STATUS: PARTIAL.  The full statement wanted is the forward simulation (stated here only in words, no theorem of that name exists)
       forall p f tr v, run_ref f p = "OK:" tr v -> exists n, the VM model run on compile_block p yields tr and v
   between the reference semantics (VM/RefSem.v, the reading of the property text) and the mechanism model of the
   stack machine (VM/VmDefs.v, VM/VmExec.v).  It is NOT proved for the whole language.  What is proved, for all
   arguments / states / arrays:
     - the forward simulation for STRUCTURED PROGRAMS (VM/SimDefs.v, SimProofs.v, SimBlock.v, SimCtl.v, SimMach.v, SimCtlRuns.v): statements `e`,
       `x = e`, `private _x = e` whose expressions are literals, variables (also holding code), arrays, the pure unary
       and binary operators, `call {..}`, `x call {..}`, `if c then {..}`, `if c then {..} else {..}`, nested to any
       depth in operands, array elements, assignments and blocks (big-step relation xev / xblock).  For every
       derivation: the reference semantics computes that value and state (C02_ref_runs_structured_blocks), and the VM
       model, started anywhere in any code that contains the compiled block, in any state that Matches the
       reference state (scope chain = frame chain, namespaces), pushes the frames, runs exactly those instructions,
       completes each frame handing over exactly the block's value, and stops in a state that Matches the reference
       result (C02_vm_runs_structured_blocks, C02_vm_runs_structured_expressions) - unbounded in size and nesting;
       execute_do, the loop of runtime.cpp, follows that path slice by slice, and a whole structured program loaded
       as the root frame ends with result `empty`, no frame and exactly the program's value (C02_structured_program_runs).
       The statement `if c exitWith {..}` is covered too (VM/SimExit.v, C02_vm_runs_blocks_with_exit): a scope left
       that way ends with the handler's value, nothing after it runs, everything the scope still held is dropped.
       The loops over an array with a code body - forEach, count, apply, select, findIf - are covered as well
       (C02_vm_runs_loops, C02_ref_runs_loops): one scope per element, the loop frame reused and reset by the pass that
       goes round, the accumulator of each kind, findIf's early stop, exitWith in the body ending the whole loop.
       Lazy && / and / || / or with a code block on the right are constructors of the same relation (ZLazySkip, ZLazyEnter).
       The for loop (from / to / step, the loop variable read back from the frame) is covered too (C02_vm_runs_for,
       C02_ref_runs_for).  So is while {..} do {..} (C02_vm_runs_while, C02_ref_runs_while): the loop frame runs the
       condition's and the body's instructions in turn, in one scope that is emptied before each; exitWith in either
       ends the loop; premises: no cap on loop rounds, a boolean condition, non-empty condition and body that begin
       with a push or a variable read.  Blocks are stated to start at a statement boundary (Fresh: the scope's part of
       the operand stack is empty, or holds the nil the calling operator left there).  A whole program whose top-level
       statements are of that relation, loaded as the root frame, is run by execute_do to result `empty` with exactly
       its value (VM/SimProg.v, C02_program_runs, C02_program_ref), also when the root scope itself is left by exitWith
       (C02_program_runs_with_exit).
       The markers a program logs (diag_log) are part of the matched state, so the theorems also say in which order statements
       run (C02_program_trace); with ns do {..}, getVariable / setVariable, private "x" and more operators are constructors.
       try {..} catch {..} with throw is covered for throws at statement level through call / if-then(-else) / handlers that
       throw again (C02_vm_runs_throw, C02_ref_runs_throw; machine lemmas in VM/SimThrowOps.v).
       scopeName / breakOut are covered the same way (C02_vm_runs_breakout, C02_ref_runs_breakout; VM/SimBreakOps.v): scope names are
       part of the matched state, breakOut at statement level through call / if-then(-else) ends exactly the named scope.
       switch - case - default is covered too (C02_switch_body_vm, C02_switch_body_ref and the constructors ZSwitchVal, ZSwitchNone, ZSwitchRun): fall-through
       labels, first match wins, default; the case values are pure expressions.
       LEAVING A LOOP: the body of forEach / count / apply / select / findIf, the body of for, the condition and the body of while may be
       left by a throw that a try-catch outside the loop takes and by breakOut to a scope name outside the loop (relations zloopleave /
       zileave / zfleave / zwleave, constructors ZTLoop / ZKLoop: C02_vm_runs_loop_throw, C02_vm_runs_loop_breakout, C02_ref_runs_loop_exit
       and the per-loop theorems C02_vm_runs_loops_exit / _for_exit / _while_exit), and by breakOut to the name the scope of the round
       itself carries (ZIterBreak, ZForBreak, ZWhileBreakCond, ZWhileBreakBody, inside C02_vm_runs_loops / _for / _while).
       EARLY EXITS OUT OF THE CHOSEN BLOCK OF A SWITCH: exitWith (the switch yields the handler's value), breakOut to the name of the switch's own
       scope, a throw taken outside the switch, breakOut to a scope outside (ZSwitchExit, ZSwitchBreak, ZLSwitchThrow, ZLSwitchBreak:
       C02_vm_switch_exitwith, C02_vm_switch_own_breakout, C02_vm_switch_throw, C02_vm_switch_breakout and their reference sides).
       AN EXIT RAISED INSIDE AN OPERAND: breakOut in every operand position (the waiting operands are dropped with the regions pop_clearing
       clears: C02_vm_operand_breakout), a throw where nothing waits on the stack (C02_vm_operand_throw_partial), also in x = e / private _x = e.
       exitWith INSIDE AN OPERAND, in every position (the waiting operands die with the scope's part of the operand stack): zexexit,
       C02_vm_operand_exitwith, C02_ref_operand_exitwith, at the root C02_vm_operand_exitwith_root.
       NOT covered by the simulation: a throw raised while evaluated operands wait on the stack (right operand,
       later array elements), a throw past the last handler, breakOut to a name no scope carries, waitUntil, nil operands, a while loop
       with an empty body or a non-boolean condition - for these the
       per-construct theorems below and the program-level differential are the evidence;
     - the compiler emits the post-order of the source (code blocks, binary operators, arrays);
     - per-construct characterisations of the VM model: which block is entered, with which bindings, how often, and when a
       construct ends (lazy && / ||, if-then-else, exitWith, forEach, count, select, apply, findIf, for, while, switch with
       fall-through and default, call);
     - laws of the reference semantics itself (skipped right operands, untaken branches, block values, determinism).
   The end-to-end claim "implementation = reference semantics" is decided on every run by the program-level differential
   of checks/C02.py (trace of executed marker statements, value, outcome class) on thousands of generated programs that
   nest all constructs with early exits; the VM model is tied to the implementation by the step-level differential.
   Related kernel-checked results used by this property live in Properties_C03 (scoping), Properties_C04 (handlers, throw),
   Properties_C05 (one value per scope, regions). *)
From Coq Require Import String Ascii.
From Coq Require Import ZArith List Bool Lia.
From SqfVerif Require Import Gen.DiagCodes Gen.Overloads VM.VmDefs VM.VmExec VM.RefSem VM.C02Proofs VM.SimDefs VM.SimProofs VM.SimBlock VM.SimCtl VM.SimRun VM.SimThrowOps VM.SimBreakOps VM.SimSwitchOps VM.SimExit VM.SimCtlRuns VM.SimProg.
Import ListNotations.
Local Open Scope string_scope.
Local Open Scope list_scope.

(* ---- for the example derivations below.  What a reader would skip is disposed of by `operand`: everything that ENTERS NO BLOCK - a pure
   expression (relation pev: determined by the syntax), a code literal, `if c`, `try {..}`, `while {..}`, the for-from-to description, a
   skipped branch, diag_log / scopeName / private and the like over such operands, a statement or a block made of these - together
   with the side conditions (names, lower-casing, non-nil values, `leaf_first`).  Every constructor that enters, leaves or repeats a
   block - the point of each example - is applied by hand: `eapply C; operand` leaves exactly the blocks C speaks about.  The search
   follows the syntax of the expression; an equation is closed by evaluation only when its left side is known, so a side condition
   about a value that the rest of the derivation determines stays open until then: `all: operand` sweeps those up (`1: operand` after
   the operands of an array loop, for `leaf_first` of the body). *)
Create HintDb operand discriminated.
(* ZForSet with the equation last: it can be evaluated once the operands are known *)
Lemma for_set_rule : forall s n a b var fr to st x fr' to' st' s1 s2, zev s a (RFor var fr to st) s1 -> zev s1 b (RNum x) s2 ->
  for_set (lower n) fr to st x = Some (fr', to', st') -> zev s (EBinary n a b) (RFor var fr' to' st') s2.
Proof. intros. eapply ZForSet; eassumption. Qed.
#[local] Hint Constructors pev pevs pstmt pblock xevs xstmt zevs zstmt zprog : operand.
#[local] Hint Resolve XCode XIf XElse XThenSkip XBNil XBLast XBCons
  ZCode ZIf ZElse ZThenSkip ZExitSkip ZLazySkip ZForVar for_set_rule ZWhileVal ZDiag ZNsNular ZWithVal ZGetVar ZGetVarNone
  ZSetVar ZPrivate ZTryVal ZScopeName ZSwitchVal ZBNil ZBLast ZBCons | 0 : operand.
#[local] Hint Resolve XPure ZPure | 1 : operand.
#[local] Hint Resolve XVarL XVarG ZVarL ZVarG | 2 : operand.
#[local] Hint Extern 1 (?l = _) => tryif has_evar l then fail else reflexivity : operand.
#[local] Hint Extern 1 (_ <> _) => discriminate : operand.
#[local] Hint Extern 1 (nonnil _) => split; discriminate : operand.
#[local] Hint Extern 1 (kok _ _) => first [exact I|eexists; reflexivity|discriminate] : operand.
#[local] Hint Extern 1 (leaf_first ?b) => tryif is_evar b then fail else
  (eexists _, _; split; [reflexivity|]; first [left; eexists; reflexivity|right; eexists; reflexivity]) : operand.
(* the program a goal speaks about; a goal whose program is not known yet is left alone (the search would invent one) *)
Ltac program_of G :=
  lazymatch G with
  | pev _ _ ?e _ => e | pevs _ _ ?e _ => e | pstmt _ _ ?e _ _ => e | pblock _ _ ?e _ _ => e
  | xev _ ?e _ _ => e | xevs _ ?e _ _ => e | xstmt _ _ ?e _ _ => e | xblock _ _ ?e _ _ => e
  | zev _ ?e _ _ => e | zevs _ ?e _ _ => e | zstmt _ _ ?e _ _ => e | zblock _ _ ?e _ _ => e | zprog _ _ ?e _ _ => e
  | _ => constr:(tt) end.
Ltac operand :=
  lazymatch goal with |- ?G => let e := program_of G in tryif has_evar e then idtac else eauto 100 with operand nocore end.

(* a program loaded as the root frame of a running machine stands At the initial reference state (whatever the cap on loop rounds),
   and with no cap it is a machine state of the simulation (AtM): the premises of the program theorems on a concrete machine *)
Definition running (ml:nat) (code:list instr) : rt :=
  let r := load (create_rt [] 0 0 ml 150) code in
  rt_with r (r_ctxs r) (Some 0) StRunning false false true false [] [] (r_nss r) (r_clock r) (r_timestamp r) (r_next_id r).
Lemma running_At : forall ml code,
  let f := mk_frame default_ns code None None [] in
  At init_state RNone (running ml code) (push_frame (new_context 0 false) f) f [] [].
Proof.
  intros ml code f. split; [unfold Good; split; [reflexivity|cbn; auto 10]|]. split; [reflexivity|]. split.
  - split; [|reflexivity]. cbn. constructor; [|constructor]. split; [intros k; reflexivity|split; [reflexivity|split; reflexivity]].
  - split; [reflexivity|]. exists []. split; reflexivity.
Qed.
Lemma running_AtM : forall code,
  let f := mk_frame default_ns code None None [] in
  AtM init_state RNone (running 0 code) (push_frame (new_context 0 false) f) f [] [].
Proof.
  intros code f. destruct (running_At 0 code) as [G [F [M [B T]]]]. split; [|split; [exact B|exact T]].
  split; [exact G|]. split; [exact F|]. split; [exact M|]. split; [cbn; lia|reflexivity].
Qed.

Theorem C02_compile_code_is_block : forall b, compile_expr (ECode b) = [IPush (VCode (compile_block b))].
Proof. exact compile_code. Qed.
Print Assumptions C02_compile_code_is_block.
Theorem C02_compile_binary_postorder : forall n l r, compile_expr (EBinary n l r) = compile_expr l ++ compile_expr r ++ [IBinary (lower n)].
Proof. exact compile_binary. Qed.
Print Assumptions C02_compile_binary_postorder.

(* the right side of && / || is entered only when needed: no frame is pushed otherwise *)
Theorem C02_lazy_and_skips_rhs : forall r c body, op_binary "&&" (VBool false) (VCode body) r c = Ok (r, c, VBool false).
Proof. reflexivity. Qed.
Print Assumptions C02_lazy_and_skips_rhs.
Theorem C02_lazy_or_skips_rhs : forall r c body, op_binary "||" (VBool true) (VCode body) r c = Ok (r, c, VBool true).
Proof. reflexivity. Qed.
Print Assumptions C02_lazy_or_skips_rhs.
Theorem C02_lazy_and_enters_rhs : forall r c body, op_binary "&&" (VBool true) (VCode body) r c =
  Ok (r, push_frame c (mk_frame (cur_ns c) body None None []), VNil).
Proof. reflexivity. Qed.
Print Assumptions C02_lazy_and_enters_rhs.

Theorem C02_if_then_else_enters_exactly_one : forall r c b a e, op_binary "then" (VIf b) (VArr [VCode a; VCode e]) r c =
  Ok (r, push_frame c (mk_frame (cur_ns c) (if b then a else e) None None []), VNil).
Proof. reflexivity. Qed.
Print Assumptions C02_if_then_else_enters_exactly_one.
Theorem C02_if_false_runs_nothing : forall r c body, op_binary "then" (VIf false) (VCode body) r c = Ok (r, c, VNil).
Proof. reflexivity. Qed.
Print Assumptions C02_if_false_runs_nothing.

(* exitWith: the current scope is moved to its end and marked dead (its exit behaviour - e.g. a loop - will not
   run again), the handler block is entered on top of it *)
Theorem C02_exitwith_leaves_current_scope : forall r c body, op_binary "exitwith" (VIf true) (VCode body) r c =
  Ok (r, push_frame (upd_top c (fun f => set_die (set_pos f (S (length (f_code f)))) true)) (mk_frame (cur_ns c) body None None []), VNil).
Proof. reflexivity. Qed.
Print Assumptions C02_exitwith_leaves_current_scope.
(* a dead frame at its end completes without consulting its exit behaviour: an exitWith inside a loop body ends the loop *)
Theorem C02_exited_scope_does_not_iterate : forall fuel r c f rest, c_frames c = f :: rest -> at_end f = true -> f_die f = true ->
  frame_next (S fuel) r c = Ok (FDone, r, c).
Proof.
  intros fuel r c f rest E A D. cbn [frame_next]. rewrite E, A. destruct (f_exit f) as [b|].
  - rewrite A, D. cbn. rewrite <- E. destruct c; reflexivity.
  - rewrite <- E. destruct c; reflexivity.
Qed.
Print Assumptions C02_exited_scope_does_not_iterate.

(* forEach enters the body once per element: bindings of the first iteration ... *)
Theorem C02_foreach_first_binding : forall r c body x arr, op_binary "foreach" (VCode body) (VArr (x :: arr)) r c =
  Ok (r, push_frame c (mk_frame (cur_ns c) body (Some (BForEach (x :: arr) 0)) None [("_x", x); ("_foreachindex", VNum 0)]), VNil).
Proof. reflexivity. Qed.
Print Assumptions C02_foreach_first_binding.
(* ... and of every following one: after iteration idx the body restarts with _x = arr[idx+1], _forEachIndex = idx+1 and
   an empty region, or the loop ends after the last element *)
Theorem C02_foreach_next_binding : forall r c arr idx, S idx <> length arr ->
  enact (BForEach arr idx) r c = Ok (BrSeekStart, BForEach arr (S idx), r,
    restart_with c [("_foreachindex", VNum (Z.of_nat (S idx))); ("_x", nth_val arr (S idx))]).
Proof. intros r c arr idx. intros H. cbn [enact]. destruct (Nat.eqb_spec (S idx) (length arr)); [contradiction|reflexivity]. Qed.
Print Assumptions C02_foreach_next_binding.
Theorem C02_foreach_ends_after_last : forall r c arr idx, S idx = length arr ->
  enact (BForEach arr idx) r c = Ok (BrOk, BForEach arr (S idx), r, c).
Proof. intros r c arr idx. intros H. cbn [enact]. rewrite H, Nat.eqb_refl. reflexivity. Qed.
Print Assumptions C02_foreach_ends_after_last.
(* hence the body runs exactly (length arr) times: the index goes 0, 1, ..., length arr - 1 *)

Theorem C02_count_counts_true_results : forall r c arr idx cnt t c1, pop_value c = Some (VBool t, c1) -> S idx = length arr ->
  enact (BCount arr idx cnt) r c = Ok (BrOk, BCount arr (S idx) (if t then cnt + 1 else cnt)%Z, r,
                                       push_value c1 (VNum (if t then cnt + 1 else cnt)%Z)).
Proof. intros r c arr idx cnt t c1. intros P H. cbn [enact]. rewrite P, H, Nat.eqb_refl. reflexivity. Qed.
Print Assumptions C02_count_counts_true_results.
Theorem C02_select_keeps_true_elements : forall r c arr out idx t c1, pop_value c = Some (VBool t, c1) -> S idx <> length arr ->
  enact (BSelect arr out idx) r c = Ok (BrSeekStart, BSelect arr (if t then out ++ [nth_val arr idx] else out) (S idx), r,
                                        restart_with c1 [("_x", nth_val arr (S idx))]).
Proof. intros r c arr out idx t c1. intros P H. cbn [enact]. rewrite P. destruct (Nat.eqb_spec (S idx) (length arr)); [contradiction|reflexivity]. Qed.
Print Assumptions C02_select_keeps_true_elements.
Theorem C02_apply_collects_results : forall r c arr out idx v c1, pop_value c = Some (v, c1) -> S idx = length arr ->
  enact (BApply arr out idx) r c = Ok (BrOk, BApply arr (out ++ [v]) (S idx), r, push_value c1 (VArr (out ++ [v]))).
Proof. intros r c arr out idx v c1. intros P H. cbn [enact]. rewrite P, H, Nat.eqb_refl. reflexivity. Qed.
Print Assumptions C02_apply_collects_results.
Theorem C02_findif_first_true : forall r c arr idx c1, pop_value c = Some (VBool true, c1) ->
  enact (BFindIf arr idx) r c = Ok (BrOk, BFindIf arr idx, r, push_value c1 (VNum (Z.of_nat idx))).
Proof. intros r c arr idx c1. intros P. cbn [enact]. rewrite P. reflexivity. Qed.
Print Assumptions C02_findif_first_true.

Theorem C02_for_iteration_rule : forall r c f rest var to step x, c_frames c = f :: rest -> assoc (lower var) (f_vars f) = Some (VNum x) ->
  enact (BFor var to step) r c =
  if (if 0 <=? step then to <? x + step else x + step <? to)%Z then Ok (BrOk, BFor var to step, r, c)
  else Ok (BrSeekStart, BFor var to step, r, restart_with c [(lower var, VNum (x + step))]).
Proof. intros r c f rest var to step x. intros E A. cbn [enact]. rewrite E, A. reflexivity. Qed.
Print Assumptions C02_for_iteration_rule.
Theorem C02_while_ends_on_false : forall r c l cond body c1, pop_value c = Some (VBool false, c1) ->
  enact (BWhile l WCond cond body) r c = Ok (BrOk, BWhile l WCond cond body, r, c1).
Proof. intros r c l cond body c1. intros P. cbn [enact]. rewrite P. reflexivity. Qed.
Print Assumptions C02_while_ends_on_false.

Theorem C02_switch_first_match_wins : forall c r l body sv tgt nw, get_variable c "___switch" = Some (VSwitch sv tgt nw true) ->
  op_binary ":" (VSwitch l [] false false) (VCode body) r c = Ok (r, c, VNil).
Proof. intros c r l body sv tgt nw. intros G. cbn [op_binary]. cbv beta iota delta [String.eqb Ascii.eqb Bool.eqb]. cbn. rewrite G. destruct nw; reflexivity. Qed.
Print Assumptions C02_switch_first_match_wins.
(* `case x` arms the switch when x equals the switch value (and never disarms it: fall-through `case 1; case 2: {..}`) *)
Theorem C02_switch_case_arms_and_falls_through : forall c r v sv tgt nw hs, get_variable c "___switch" = Some (VSwitch sv tgt nw hs) ->
  op_unary "case" v r c = Ok (r, assign_local_var c "___switch" (VSwitch sv tgt (if veqb true v sv then true else nw) hs),
                              VSwitch sv tgt (if veqb true v sv then true else nw) hs).
Proof. intros c r v sv tgt nw hs. intros G. cbn [op_unary]. cbv beta iota delta [String.eqb Ascii.eqb Bool.eqb]. cbn. rewrite G. reflexivity. Qed.
Print Assumptions C02_switch_case_arms_and_falls_through.
Theorem C02_switch_default_only_without_match : forall c r body sv tgt nw, get_variable c "___switch" = Some (VSwitch sv tgt nw true) ->
  op_unary "default" (VCode body) r c = Ok (r, assign_local_var c "___switch" (VSwitch sv tgt nw true), VNil).
Proof. intros c r body sv tgt nw. intros G. cbn [op_unary]. cbv beta iota delta [String.eqb Ascii.eqb Bool.eqb]. cbn. rewrite G. reflexivity. Qed.
Print Assumptions C02_switch_default_only_without_match.
Theorem C02_switch_runs_exactly_one_block : forall r c f rest sv t ts nw hs, c_frames c = f :: rest ->
  assoc "___switch" (f_vars f) = Some (VSwitch sv (t :: ts) nw hs) ->
  enact (BSwitch false) r c = Ok (BrExchange (t :: ts), BSwitch true, r, c) /\
  enact (BSwitch true) r c = Ok (BrOk, BSwitch true, r, c).
Proof. intros. split; [eapply switch_runs_target; eauto|apply switch_runs_once]. Qed.
Print Assumptions C02_switch_runs_exactly_one_block.

(* the right side of a lazy && / || is not evaluated when the left side decides: state and trace unchanged *)
Theorem C02_ref_lazy_and_skips : forall f s b, eval (S (S (S f))) s (EBinary "&&" (EBool false) (ECode b)) = (ONormal (RBool false), s).
Proof. reflexivity. Qed.
Print Assumptions C02_ref_lazy_and_skips.
(* if (false) then {...} runs nothing and yields nil *)
Theorem C02_ref_if_false : forall f s b, eval (S (S (S (S f)))) s (EBinary "then" (EUnary "if" (EBool false)) (ECode b)) = (ONormal RNil, s).
Proof. reflexivity. Qed.
Print Assumptions C02_ref_if_false.

(* the reference semantics and the VM model agree on concrete programs (evaluated inside Coq): a nest of loops, a switch
   with fall-through, an early exit through two scopes *)
Definition ex_prog : list stmt :=
  [SLocal "_s" (ENum 0);
   SExpr (EBinary "forEach" (ECode [SExpr (EBinary "exitWith" (EUnary "if" (EBinary ">" (EVar "_x") (ENum 2))) (ECode [SExpr (EUnary "diag_log" (EStr "out"))]));
                                    SAssign "_s" (EBinary "+" (EVar "_s") (EVar "_x"))])
                    (EArr [ENum 1; ENum 2; ENum 3; ENum 4]));
   SExpr (EUnary "diag_log" (EVar "_s"));
   SExpr (EBinary "do" (EUnary "switch" (EVar "_s")) (ECode [SExpr (EUnary "case" (ENum 3)); SExpr (EBinary ":" (EUnary "case" (ENum 9)) (ECode [SExpr (ENum 77)]));
                                                             SExpr (EUnary "default" (ECode [SExpr (ENum 0)]))]))].
Example ex_ref_and_vm_agree :
  run_ref 200 ex_prog = "OK:M<out>,M<3>,V<77>" /\
  run_final (load (create_rt [] 0 0 (100 * 100) 150) (compile_block ex_prog)) = "-1:0:3:60019,M<out>,3:60019,M<3>,3:60095,M<VALUE 77>,".
Proof. split; vm_compute; reflexivity. Qed.

(* ---- simulation, expression fragment: one derivation pev loc glob e v yields both runs *)
Theorem C02_ref_evaluates_pure_expressions : forall loc glob e v, pev loc glob e v ->
  forall s f, renv_ok loc glob s -> esize e <= f -> eval f s e = (ONormal v, s).
Proof. intros loc glob e v H. exact (proj2 (proj1 (pure_ref loc glob) e v H)). Qed.
Print Assumptions C02_ref_evaluates_pure_expressions.
Theorem C02_vm_evaluates_pure_expressions : forall loc glob e v, pev loc glob e v ->
  forall r c f rest pre post,
    Good r c -> c_frames c = f :: rest -> f_code f = pre ++ compile_expr e ++ post -> f_pos f = length pre ->
    f_base f <= length (c_values c) -> env_ok loc glob r (f :: rest) (f_ns f) ->
    Steps r (upd_cur r (adv c f rest (length (compile_expr e)) [cv v])).
Proof. intros loc glob e v H r c f rest pre post G EF EC EP B ENV. exact (proj1 (proj1 (pure_sim loc glob) e v H r c f rest pre post G EF EC EP B ENV)). Qed.
Print Assumptions C02_vm_evaluates_pure_expressions.
(* the fragment is not empty: a nested expression over a local and a global variable *)
Example pure_fragment_inhabited :
  pev (fun k => if String.eqb k "_a" then Some (RNum 4) else None) (fun k => if String.eqb k "g" then Some (RArr [RNum 1]) else None)
      (EBinary "+" (EArr [EBinary "-" (EVar "_a") (ENum 1); EUnary "count" (EVar "g")]) (EArr [EBool true]))
      (RArr [RNum 3; RNum 1; RBool true]).
Proof. operand. Qed.

(* ---- simulation, straight-line blocks: statements `e`, `x = e`, `private _x = e` over that fragment.  The reference
   state (scope chain, namespaces) and the machine state (frame chain, namespaces) are related by Match; At bundles it
   with "execute_do keeps going" and "the value region of the running frame is the block's value so far". *)
Theorem C02_ref_runs_straight_line_blocks : forall s reg b reg' s', pblock s reg b reg' s' ->
  forall f, bsize b <= f -> eval_block f s b reg = (ONormal reg', s').
Proof. exact block_ref. Qed.
Print Assumptions C02_ref_runs_straight_line_blocks.
Theorem C02_vm_runs_straight_line_blocks : forall s reg b reg' s', pblock s reg b reg' s' ->
  forall r c f rest below pre post, At s reg r c f rest below -> Fresh c below ->
    f_code f = pre ++ compile_block b ++ post -> f_pos f = length pre ->
    exists r' c' f' rest', Steps r r' /\ At s' reg' r' c' f' rest' below /\
      moved f f' /\ f_pos f' = f_pos f + length (compile_block b) /\ Forall2 kept rest rest'.
Proof. exact block_vm. Qed.
Print Assumptions C02_vm_runs_straight_line_blocks.

(* the hypotheses are satisfiable: a loaded program in a running machine stands At the initial reference state, and a
   three-statement block with a private variable, a global and an array has a derivation *)
Definition ex_block : list stmt :=
  [SLocal "_a" (ENum 2); SAssign "b" (EArr [EVar "_a"; EBinary "+" (EVar "_a") (ENum 1)]); SExpr (EUnary "count" (EVar "b"))].
Definition ex_running : rt :=
  let r := load (create_rt [] 0 0 (100 * 100) 150) (compile_block ex_block) in
  rt_with r (r_ctxs r) (Some 0) StRunning false false true false [] [] (r_nss r) (r_clock r) (r_timestamp r) (r_next_id r).
Example straight_line_inhabited :
  (exists c f, At init_state RNone ex_running c f [] [] /\ f_code f = [] ++ compile_block ex_block ++ [] /\ f_pos f = length (@nil instr)) /\
  (exists s', pblock init_state RNone ex_block (RNum 2) s').
Proof.
  split.
  - eexists _, _. split; [exact (running_At (100 * 100) (compile_block ex_block))|]. split; [cbn [app]; rewrite app_nil_r|]; reflexivity.
  - eexists. unfold ex_block. operand.
Qed.

(* ---- simulation, structured programs: expressions that enter blocks - `call {..}`, `x call {..}`, `if c then {..}`,
   `if c then {..} else {..}`, code values held in variables - nested to any depth in operands, array elements,
   assignments and blocks (relation xev / xblock of VM/SimCtl.v).  The machine pushes the frame, runs the block,
   completes the frame, hands over exactly the block's value, and ends in a state that Matches the reference result. *)
Theorem C02_ref_runs_structured_blocks : forall s reg b reg' s', xblock s reg b reg' s' ->
  exists f0, forall f, f0 <= f -> eval_block f s b reg = (ONormal reg', s').
Proof. exact (proj2 (proj2 (proj2 ref_runs))). Qed.
Print Assumptions C02_ref_runs_structured_blocks.
Theorem C02_vm_runs_structured_blocks : forall s reg b reg' s', xblock s reg b reg' s' ->
  forall r c f rest below pre post, AtM s reg r c f rest below -> Fresh c below ->
    f_code f = pre ++ compile_block b ++ post -> f_pos f = length pre ->
    exists r' c' f' rest', Steps r r' /\ AtM s' reg' r' c' f' rest' below /\
      moved f f' /\ f_pos f' = f_pos f + length (compile_block b) /\ Forall2 kept rest rest'.
Proof. exact (proj2 (proj2 (proj2 vm_runs))). Qed.
Print Assumptions C02_vm_runs_structured_blocks.
Theorem C02_vm_runs_structured_expressions : forall s e v s', xev s e v s' ->
  forall r c f rest pre post, Mach s r c f rest ->
    f_code f = pre ++ compile_expr e ++ post -> f_pos f = length pre ->
    exists r' c' f' rest', Steps r r' /\ Mach s' r' c' f' rest' /\ c_values c' = cv v :: c_values c /\
      moved f f' /\ f_pos f' = f_pos f + length (compile_expr e) /\ Forall2 kept rest rest'.
Proof. exact (proj1 vm_runs). Qed.
Print Assumptions C02_vm_runs_structured_expressions.

Definition ex_ctl : list stmt :=
  [SLocal "_f" (ECode [SExpr (EBinary "+" (EVar "_this") (ENum 1))]);
   SAssign "r" (EBinary "call" (ENum 2) (EVar "_f"));
   SExpr (EBinary "then" (EUnary "if" (EBinary ">" (EVar "r") (ENum 2)))
                         (EBinary "else" (ECode [SAssign "r" (ENum 10); SExpr (EVar "r")]) (ECode [SExpr (ENum 0)])))].
Example structured_inhabited : exists reg s', xblock init_state RNone ex_ctl reg s' /\ reg = RNum 10.
Proof.
  eexists _, _. split. unfold ex_ctl.
  eapply XBCons; [operand|]. eapply XBCons.
  (* r = 2 call _f *)
  eapply XSAssign; operand. eapply XCallB; operand. all: operand.
  (* if (r > 2) then {..} else {..}: the first block *)
  eapply XBLast, XSExprV. eapply (XThenElse _ _ _ _ true); operand.
  reflexivity.
Qed.

(* ---- from the step relation to execute_do (the loop of runtime.cpp) and to whole programs *)
Theorem C02_execute_do_follows_the_simulation : forall r r2, Steps r r2 -> forall fuel n x r', execute_do fuel r n = Ok (x, r') ->
  (exists fuel2 n2, fuel2 <= fuel /\ n2 <= n /\ execute_do fuel2 r2 n2 = Ok (x, r')) \/
  (x = ROk /\ Steps r r' /\ Steps r' r2).
Proof. exact execute_do_follows. Qed.
Print Assumptions C02_execute_do_follows_the_simulation.
(* a structured program loaded as the root frame of a context: the machine reaches a state in which the context has no
   frame left and holds exactly the program's value (nothing when the last statement is an assignment), the namespaces
   are those of the reference result, and the next pass reports `empty`; every slice of execute_do started on the
   program either is the one that finishes it (result empty, that state) or stops on the way (result ok) *)
Theorem C02_structured_program_runs : forall s p reg s' r c f,
  xblock s RNone p reg s' ->
  AtM s RNone r c f [] [] -> f_code f = compile_block p -> f_pos f = 0 -> f_exit f = None ->
  exists rf cf,
    Steps r rf /\ cur rf = Some cf /\ c_frames cf = [] /\
    c_values cf = match reg with RNone => [] | v => [cv v] end /\
    world rf = (mnss (st_nss s'), st_trace s') /\
    do_iter rf = Ok (Return REmpty rf) /\
    forall fuel n x r', execute_do fuel r n = Ok (x, r') ->
      (x = REmpty /\ r' = rf) \/ (x = ROk /\ Steps r r' /\ Steps r' rf).
Proof. exact program_run. Qed.
Print Assumptions C02_structured_program_runs.
(* its premises on a concrete machine: the loaded example program in a running VM *)
Definition ex_running_ctl : rt :=
  let r := load (create_rt [] 0 0 0 150) (compile_block ex_ctl) in
  rt_with r (r_ctxs r) (Some 0) StRunning false false true false [] [] (r_nss r) (r_clock r) (r_timestamp r) (r_next_id r).
Example structured_program_premises :
  let c := push_frame (new_context 0 false) (mk_frame default_ns (compile_block ex_ctl) None None []) in
  let f := mk_frame default_ns (compile_block ex_ctl) None None [] in
  AtM init_state RNone ex_running_ctl c f [] [] /\ f_code f = compile_block ex_ctl /\ f_pos f = 0 /\ f_exit f = None.
Proof. split; [exact (running_AtM (compile_block ex_ctl))|repeat split]. Qed.

(* ---- simulation with exitWith: a block has an outcome (ran to its end / was left by `if c exitWith {..}`), the bodies of
   call / if-then / if-then-else may be left that way and handlers may nest (relation zev / zblock of VM/SimExit.v, which
   contains xev / xblock).  The machine marks the scope as finished, runs the handler as a new frame, completes it,
   completes the abandoned scope with the handler's value and drops whatever the scope still held. *)
Theorem C02_ref_runs_blocks_with_exit : forall s reg b out s', zblock s reg b out s' ->
  exists f0, forall f, f0 <= f -> eval_block f s b reg = (oc out, s').
Proof. exact (proj1 (proj2 (proj2 (proj2 ref_runs_z)))). Qed.
Print Assumptions C02_ref_runs_blocks_with_exit.
Theorem C02_vm_runs_blocks_with_exit : forall s reg b out s', zblock s reg b out s' ->
  forall r c f fc rest below pre, AtM s reg r c f (fc :: rest) below -> Fresh c below ->
    f_code f = pre ++ compile_block b -> f_pos f = length pre -> f_exit f = None -> f_base fc <= length below ->
    exists r' c' fc' rest', Steps r r' /\ Mach (pop_scope s') r' c' fc' rest' /\
      c_values c' = cv (val_of out) :: below /\ kept fc fc' /\ Forall2 kept rest rest'.
Proof. intros s reg b out s' H. exact (scope_ends_of_body _ _ _ _ _ (proj1 (proj2 (proj2 (proj2 vm_runs_z))) s reg b out s' H)). Qed.
Print Assumptions C02_vm_runs_blocks_with_exit.
Theorem C02_vm_runs_expressions_with_exit : forall s e v s', zev s e v s' ->
  forall r c f rest pre post, Mach s r c f rest ->
    f_code f = pre ++ compile_expr e ++ post -> f_pos f = length pre ->
    exists r' c' f' rest', Steps r r' /\ Mach s' r' c' f' rest' /\ c_values c' = cv v :: c_values c /\
      moved f f' /\ f_pos f' = f_pos f + length (compile_expr e) /\ Forall2 kept rest rest'.
Proof. exact (proj1 vm_runs_z). Qed.
Print Assumptions C02_vm_runs_expressions_with_exit.
(* a derivation that uses it: r = call { x = 1; if (x > 0) exitWith { x + 10 }; x = 99; 0 }  - the scope is left with 11,
   `x = 99` never runs *)
Definition ex_exit : expr :=
  EUnary "call" (ECode [SAssign "x" (ENum 1);
                        SExpr (EBinary "exitWith" (EUnary "if" (EBinary ">" (EVar "x") (ENum 0))) (ECode [SExpr (EBinary "+" (EVar "x") (ENum 10))]));
                        SAssign "x" (ENum 99); SExpr (ENum 0)]).
Example exit_inhabited : exists v s', zev init_state ex_exit v s' /\ v = RNum 11 /\ glob_of s' "x" = Some (RNum 1).
Proof.
  eexists _, _. split.
  eapply ZCallU; operand. eapply ZBCons; [operand|].
  (* the condition holds: the handler runs, `x = 99` does not *)
  eapply ZBExit; operand.
  split; reflexivity.
Qed.

(* ---- loops over an array with a code body (same file): forEach, count, apply, select, findIf.  One scope per element
   holding _x (and _forEachIndex), an accumulator per kind; the loop frame is reused, its variables and region are reset by
   the pass that goes round (which also executes the first instruction of the next round); the behaviour pops the body's
   value (a boolean for count / select / findIf, any value for apply); findIf stops at its first hit; exitWith in the body
   ends the whole loop with the handler's value.  ziter k s arr i body acc acc' s' = the rounds for the elements arr from
   index i on, with acc accumulated so far. *)
Theorem C02_ref_runs_loops : forall k s arr i body acc acc' s', ziter k s arr i body acc acc' s' ->
  exists f0, forall f, f0 <= f -> forall kk, length arr < kk ->
    iterate_f f kk s arr i body (kwith k) acc (kstep k) = (ONormal acc', s').
Proof. exact (proj1 (proj2 (proj2 (proj2 (proj2 ref_runs_z))))). Qed.
Print Assumptions C02_ref_runs_loops.
Theorem C02_vm_runs_loops : forall k s x rest0 i body acc acc' s', ziter k s (x :: rest0) i body acc acc' s' ->
  forall r c f fc frest below allarr b,
    AtM (enter s (kvars k i x)) (match i with O => RNil | _ => RNone end) r c f (fc :: frest) below -> Fresh c below ->
    f_code f = compile_block body -> f_pos f = 0 -> f_exit f = Some b -> kb k allarr i acc b -> f_die f = false ->
    skipn i allarr = x :: rest0 -> leaf_first body -> f_ns f = f_ns fc -> f_base fc <= length below ->
    exists r' c' fc' rest', Steps r r' /\ r' <> r /\ Mach s' r' c' fc' rest' /\ c_values c' = cv acc' :: below /\
      kept fc fc' /\ Forall2 kept frest rest'.
Proof. intros k s x rest0 i body acc acc' s' H. exact (proj1 (proj2 (proj2 (proj2 (proj2 vm_runs_z)))) k s (x :: rest0) i body acc acc' s' H). Qed.
Print Assumptions C02_vm_runs_loops.
(* derivations: s = 0; { s = s + _x; if (_x > 1) exitWith { s } } forEach [1, 2, 3]  - two rounds, the second leaves the loop
   with 3;  [1, 5, 2] findIf { _x > 3 }  - stops at index 1;  { _x > 1 } count [1, 2, 3] = 2 *)
Definition ex_foreach : expr :=
  EBinary "forEach" (ECode [SAssign "s" (EBinary "+" (EVar "s") (EVar "_x"));
                            SExpr (EBinary "exitWith" (EUnary "if" (EBinary ">" (EVar "_x") (ENum 1))) (ECode [SExpr (EVar "s")]))])
                    (EArr [ENum 1; ENum 2; ENum 3]).
Example foreach_inhabited : exists s0 v s', glob_of s0 "s" = Some (RNum 0) /\ zev s0 ex_foreach v s' /\ v = RNum 3 /\ glob_of s' "s" = Some (RNum 3).
Proof.
  exists (rns_set init_state default_ns "s" (RNum 0)). eexists _, _. split; [reflexivity|]. split.
  eapply (ZLoopCA _ _ _ _ _ _ _ KForEach); operand. 1: operand.
  (* first round: the condition of exitWith is false *)
  eapply ZIterCons; operand.
  (* second round: left by exitWith *)
  eapply ZIterExit. eapply ZBCons; [operand|]. eapply ZBExit; operand.
  split; reflexivity.
Qed.
Definition ex_findif : expr := EBinary "findIf" (EArr [ENum 1; ENum 5; ENum 2]) (ECode [SExpr (EBinary ">" (EVar "_x") (ENum 3))]).
Example findif_inhabited : exists v s', zev init_state ex_findif v s' /\ v = RNum 1.
Proof.
  eexists _, _. split.
  eapply (ZLoopAC _ _ _ _ _ _ _ KFindIf); operand. 1: operand.
  eapply ZIterCons; operand. eapply ZIterStop; operand.
  reflexivity.
Qed.
Definition ex_count : expr := EBinary "count" (ECode [SExpr (EBinary ">" (EVar "_x") (ENum 1))]) (EArr [ENum 1; ENum 2; ENum 3]).
Example count_inhabited : exists v s', zev init_state ex_count v s' /\ v = RNum 2.
Proof.
  eexists _, _. split.
  eapply (ZLoopCA _ _ _ _ _ _ _ KCount); operand. 1: operand.
  do 3 (eapply ZIterCons; operand). apply ZIterNil.
  reflexivity.
Qed.

(* ---- for "_i" from a to b step c do {..} (same file): one scope per round holding the loop variable, which the machine reads
   back from the frame when the body has run out (zfor var to st s x first body acc s' = the rounds from the value x on) *)
Theorem C02_ref_runs_for : forall var to st s x first body acc s', zfor var to st s x first body acc s' ->
  exists f0 k0, forall f, f0 <= f -> forall k, k0 <= k -> for_loop_f f var to st body k s x first = (ONormal acc, s').
Proof. exact (proj1 (proj2 (proj2 (proj2 (proj2 (proj2 ref_runs_z)))))). Qed.
Print Assumptions C02_ref_runs_for.
Theorem C02_vm_runs_for : forall var to st s x first body acc s', zfor var to st s x first body acc s' ->
  forall r c f fc frest below,
    AtM (enter s [(lower var, RNum x)]) (if first then RNil else RNone) r c f (fc :: frest) below -> Fresh c below ->
    f_code f = compile_block body -> f_pos f = 0 -> f_exit f = Some (BFor var to st) -> f_die f = false ->
    leaf_first body -> f_ns f = f_ns fc -> f_base fc <= length below ->
    exists r' c' fc' rest', Steps r r' /\ r' <> r /\ Mach s' r' c' fc' rest' /\ c_values c' = cv acc :: below /\
      kept fc fc' /\ Forall2 kept frest rest'.
Proof. exact (proj1 (proj2 (proj2 (proj2 (proj2 (proj2 vm_runs_z)))))). Qed.
Print Assumptions C02_vm_runs_for.
(* a derivation: t = 0; for "_i" from 1 to 3 do { t = t + _i }  leaves t = 6 *)
Definition ex_for : expr :=
  EBinary "do" (EBinary "to" (EBinary "from" (EUnary "for" (EStr "_i")) (ENum 1)) (ENum 3))
               (ECode [SAssign "t" (EBinary "+" (EVar "t") (EVar "_i"))]).
Example for_inhabited : exists s0 v s', glob_of s0 "t" = Some (RNum 0) /\ zev s0 ex_for v s' /\ glob_of s' "t" = Some (RNum 6).
Proof.
  exists (rns_set init_state default_ns "t" (RNum 0)). eexists _, _. split; [reflexivity|]. split.
  eapply ZForLoop; operand.
  do 2 (eapply ZForRound; operand). eapply ZForLast; operand.
  reflexivity.
Qed.

(* ---- while {..} do {..}: the loop frame runs the condition's and the body's instructions in turn (the behaviour exchanges them),
   in one scope that is emptied before each; the loop yields nil, or the value an exitWith in the condition or in the body
   leaves it with.  Premises: no cap on loop rounds (part of Mach), the condition yields a boolean, condition and body are
   not empty and begin with a push or a variable read (the pass of execute_do that exchanges the instructions also executes
   the first of the new ones). *)
Theorem C02_ref_runs_while : forall cond body s first v s', zwhile cond body s first v s' ->
  exists f0 k0, forall f, f0 <= f -> forall k, k0 <= k -> forall n, first = Nat.eqb n 0 ->
    while_loop_f f cond body k s n = (ONormal v, s').
Proof. exact (proj1 (proj2 (proj2 (proj2 (proj2 (proj2 (proj2 ref_runs_z))))))). Qed.
Print Assumptions C02_ref_runs_while.
Theorem C02_vm_runs_while : forall cond body s first v s', zwhile cond body s first v s' ->
  forall r c f fc frest below loops,
    AtM (enter s []) (if first then RNil else RNone) r c f (fc :: frest) below -> Fresh c below ->
    f_code f = compile_block cond -> f_pos f = 0 ->
    f_exit f = Some (BWhile loops WCond (compile_block cond) (compile_block body)) -> f_die f = false ->
    leaf_first cond -> leaf_first body -> f_ns f = f_ns fc -> f_base fc <= length below ->
    exists r' c' fc' rest', Steps r r' /\ r' <> r /\ Mach s' r' c' fc' rest' /\ c_values c' = cv v :: below /\
      kept fc fc' /\ Forall2 kept frest rest'.
Proof. exact (proj1 (proj2 (proj2 (proj2 (proj2 (proj2 (proj2 vm_runs_z))))))). Qed.
Print Assumptions C02_vm_runs_while.
(* a derivation: i = 0; while { i < 3 } do { i = i + 1 }  goes round three times, leaves i = 3 and yields nil *)
Definition ex_while : expr :=
  EBinary "do" (EUnary "while" (ECode [SExpr (EBinary "<" (EVar "i") (ENum 3))]))
               (ECode [SAssign "i" (EBinary "+" (EVar "i") (ENum 1))]).
Example while_inhabited : exists s0 s', glob_of s0 "i" = Some (RNum 0) /\ zev s0 ex_while RNil s' /\ glob_of s' "i" = Some (RNum 3).
Proof.
  exists (rns_set init_state default_ns "i" (RNum 0)). eexists. split; [reflexivity|]. split.
  eapply ZWhileLoop; operand.
  do 3 (eapply ZWhileRound; operand). eapply ZWhileStop; operand.
  reflexivity.
Qed.

(* ---- whole programs with loops: the top-level statements are statements of the relation above (expressions,
   assignments and private bindings over call, if-then-else, the array loops, for, while, lazy operators, with exitWith
   anywhere below the top level).  The reference semantics computes the program's value and final state; the VM model,
   with the compiled program as the root frame of a context, is run by execute_do slice by slice: the slice that finishes
   it returns `empty`, no frame is left, the context holds exactly the program's value, the namespaces are those of the
   reference result. *)
Theorem C02_program_ref : forall s reg p reg' s', zprog s reg p reg' s' ->
  exists f0, forall f, f0 <= f -> eval_block f s p reg = (ONormal reg', s').
Proof. exact zprog_ref. Qed.
Print Assumptions C02_program_ref.
Theorem C02_program_runs : forall s p reg s' r c f,
  zprog s RNone p reg s' ->
  AtM s RNone r c f [] [] -> f_code f = compile_block p -> f_pos f = 0 -> f_exit f = None ->
  exists rf cf,
    Steps r rf /\ cur rf = Some cf /\ c_frames cf = [] /\
    c_values cf = match reg with RNone => [] | v => [cv v] end /\
    world rf = (mnss (st_nss s'), st_trace s') /\
    do_iter rf = Ok (Return REmpty rf) /\
    forall fuel n x r', execute_do fuel r n = Ok (x, r') ->
      (x = REmpty /\ r' = rf) \/ (x = ROk /\ Steps r r' /\ Steps r' rf).
Proof. exact program_run_z. Qed.
Print Assumptions C02_program_runs.
(* a program of that kind and its premises on a concrete machine:  i = 0; while { i < 3 } do { i = i + 1 }; i  yields 3 *)
Definition ex_loop_prog : list stmt :=
  [SAssign "i" (ENum 0); SExpr ex_while; SExpr (EVar "i")].
Example program_inhabited : exists s', zprog init_state RNone ex_loop_prog (RNum 3) s' /\ glob_of s' "i" = Some (RNum 3).
Proof.
  eexists. split. unfold ex_loop_prog.
  eapply ZPCons; [operand|]. eapply ZPCons.
  eapply ZSExprV, ZWhileLoop; operand.
  do 3 (eapply ZWhileRound; operand). eapply ZWhileStop; operand.
  all: operand.
Qed.
Definition ex_running_loop : rt :=
  let r := load (create_rt [] 0 0 0 150) (compile_block ex_loop_prog) in
  rt_with r (r_ctxs r) (Some 0) StRunning false false true false [] [] (r_nss r) (r_clock r) (r_timestamp r) (r_next_id r).
Example program_premises :
  let c := push_frame (new_context 0 false) (mk_frame default_ns (compile_block ex_loop_prog) None None []) in
  let f := mk_frame default_ns (compile_block ex_loop_prog) None None [] in
  AtM init_state RNone ex_running_loop c f [] [] /\ f_code f = compile_block ex_loop_prog /\ f_pos f = 0 /\ f_exit f = None.
Proof. split; [exact (running_AtM (compile_block ex_loop_prog))|repeat split]. Qed.

(* the same for a program whose ROOT scope may be left by `if c exitWith {..}` (the usual `if (..) exitWith {..};` at the top of a
   script): the handler runs as a frame of its own, the abandoned root frame completes with the handler's value and drops what
   it still held, nothing behind the exitWith statement runs; the reference side is C02_ref_runs_blocks_with_exit *)
Theorem C02_program_runs_with_exit : forall s p out s' r c f,
  zblock s RNone p out s' ->
  AtM s RNone r c f [] [] -> f_code f = compile_block p -> f_pos f = 0 -> f_exit f = None ->
  exists rf cf,
    Steps r rf /\ cur rf = Some cf /\ c_frames cf = [] /\ c_values cf = root_value out /\
    world rf = (mnss (st_nss s'), st_trace s') /\
    do_iter rf = Ok (Return REmpty rf) /\
    forall fuel n x r', execute_do fuel r n = Ok (x, r') ->
      (x = REmpty /\ r' = rf) \/ (x = ROk /\ Steps r r' /\ Steps r' rf).
Proof. exact program_run_exit. Qed.
Print Assumptions C02_program_runs_with_exit.
(* a derivation:  x = 1; if (x > 0) exitWith { x + 10 }; x = 99; 0   - the script ends with 11, `x = 99` never runs *)
Definition ex_root_exit : list stmt :=
  [SAssign "x" (ENum 1);
   SExpr (EBinary "exitWith" (EUnary "if" (EBinary ">" (EVar "x") (ENum 0))) (ECode [SExpr (EBinary "+" (EVar "x") (ENum 10))]));
   SAssign "x" (ENum 99); SExpr (ENum 0)].
Example root_exit_inhabited : exists s', zblock init_state RNone ex_root_exit (BExit (RNum 11)) s' /\ glob_of s' "x" = Some (RNum 1) /\
  root_value (BExit (RNum 11)) = [VNum 11].
Proof.
  eexists. split. unfold ex_root_exit.
  eapply ZBCons; [operand|]. change (BExit (RNum 11)) with (BExit (val_of (BNorm (RNum 11)))).
  eapply ZBExit; operand.
  split; reflexivity.
Qed.

(* ---- what the property observes: "the sequence of statements executed", seen through the markers a program logs with
   diag_log.  Match relates the machine's log to the trace of the reference state (world: namespaces and markers), diag_log is
   a constructor of the relation (ZDiag), so every theorem above also says that the markers are logged in the order of the
   reference semantics; for a whole program: the markers the machine has logged when execute_do returns `empty` are exactly
   the reference run's, in the same order.  The relation also covers the namespaces a program can name (missionNamespace,
   uiNamespace), with ns do {..}, getVariable / setVariable on them, private "x", and the operators str, unary - and +, *,
   ==, !=, isEqualTo next to the earlier ones. *)
Theorem C02_program_trace : forall s p reg s' r c f,
  zprog s RNone p reg s' ->
  AtM s RNone r c f [] [] -> f_code f = compile_block p -> f_pos f = 0 -> f_exit f = None ->
  (exists f0, forall fl, f0 <= fl -> st_trace (snd (eval_block fl s p RNone)) = st_trace s') /\
  exists rf, Steps r rf /\ do_iter rf = Ok (Return REmpty rf) /\ marks (r_out rf) = st_trace s' /\
             forall fuel n x r', execute_do fuel r n = Ok (x, r') -> x = REmpty -> marks (r_out r') = st_trace s'.
Proof. exact program_trace. Qed.
Print Assumptions C02_program_trace.
(* i = 0; while { i < 3 } do { diag_log i; i = i + 1 }  logs 0, 1, 2 in that order (the trace is kept newest first) *)
Definition ex_trace_prog : list stmt :=
  [SAssign "i" (ENum 0);
   SExpr (EBinary "do" (EUnary "while" (ECode [SExpr (EBinary "<" (EVar "i") (ENum 3))]))
                       (ECode [SExpr (EUnary "diag_log" (EVar "i")); SAssign "i" (EBinary "+" (EVar "i") (ENum 1))]))].
Example trace_inhabited : exists s', zprog init_state RNone ex_trace_prog RNil s' /\ st_trace s' = ["2"; "1"; "0"].
Proof.
  eexists. split. unfold ex_trace_prog.
  eapply ZPCons; [operand|]. eapply ZPLast, ZSExprV, ZWhileLoop; operand.
  do 3 (eapply ZWhileRound; operand). eapply ZWhileStop; operand.
  reflexivity.
Qed.
(* with uiNamespace do { x = 5 }; str ((uiNamespace getVariable "x") * 2) == "10"  yields true: the assignment inside with-do and
   getVariable use one storage, and the operators mean what the reference semantics says *)
Definition ex_ns_prog : list stmt :=
  [SExpr (EBinary "do" (EUnary "with" (ENular "uiNamespace")) (ECode [SAssign "x" (ENum 5)]));
   SExpr (EBinary "==" (EUnary "str" (EBinary "*" (EBinary "getVariable" (ENular "uiNamespace") (EStr "x")) (ENum 2))) (EStr "10"))].
Example namespace_inhabited : exists s', zprog init_state RNone ex_ns_prog (RBool true) s' /\ rns_get s' "uiNamespace" "x" = Some (RNum 5).
Proof.
  eexists. split. unfold ex_ns_prog.
  eapply ZPCons.
  eapply ZSExprV. change RNil with (val_of (BNorm RNil)). eapply ZWithDo; operand.
  (* str ((uiNamespace getVariable "x") * 2) == "10": getVariable is no pure operator, the operators around it are *)
  eapply ZPLast, ZSExprV. eapply ZBin; operand. eapply ZUn; operand. eapply ZBin; operand.
  all: operand.
Qed.

(* ---- try {..} catch {..} and throw (VM/SimThrowOps.v, relation zthrow of VM/SimExit.v).  A block is LEFT BY A THROW when, after
   statements that run normally, it reaches `throw v`, `if c throw v`, or a scope construct standing as a statement - call {..},
   if-then(-else), a try-catch whose own handler throws - whose block is left by a throw; try-catch is a constructor of the
   expression relation with the two outcomes "the block ran to its end / was left by exitWith" and "the block was left by a
   throw, the handler ran".  Reference side: the block evaluates to OThrow with the state at the throw (the scopes in between
   closed).  Machine side: in any chain of frames in which the innermost handler frame is ft (the frames above it carry none),
   the machine reaches the state in which ft runs its handler from position 0 with _exception bound, every frame above it is gone,
   the reference state Matches, and what lies on the operand stack above ft's base are nils only (throw_any pops frames without
   clearing their parts of the stack; at statement level these hold nothing else, which is what `under` / Fresh say).
   A loop standing as a statement one of whose rounds is left by a throw is such a statement too (ZTLoop, section LEAVING A LOOP below).
   A switch whose chosen block is left by a throw likewise (ZLSwitchThrow).  Not covered: a throw inside an operand, or past the last handler. *)
Theorem C02_ref_runs_throw : forall s reg b x s', zthrow s reg b x s' ->
  exists f0, forall f, f0 <= f -> eval_block f s b reg = (OThrow x, s').
Proof. exact (proj1 (proj2 (proj2 (proj2 (proj2 (proj2 (proj2 (proj2 ref_runs_z)))))))). Qed.
Print Assumptions C02_ref_runs_throw.
Theorem C02_vm_runs_throw : forall s reg b x s', zthrow s reg b x s' ->
  forall r c f restf below pre inner ft rest h jn below_t,
    AtM s reg r c f restf below -> Fresh c below ->
    f_code f = pre ++ compile_block b -> f_pos f = length pre ->
    f :: restf = inner ++ ft :: rest -> Forall (fun m => f_err m = None) inner -> f_err ft = Some (ECatch h) ->
    below = jn ++ below_t -> under jn -> length below_t = f_base ft ->
    exists r' c' rest' ft0, Steps r r' /\ Forall2 kept rest rest' /\ moved ft ft0 /\
      Good r' c' /\ quirks r' = ([], 0) /\ c_frames c' = handler_frame ft0 h (cv x) :: rest' /\
      Match (set_top_vars (drop_scopes (length inner) s') [("_exception", x)]) r' (handler_frame ft0 h (cv x) :: rest') /\
      exists jn', c_values c' = VNil :: jn' ++ below_t /\ under jn'.
Proof. exact (proj1 (proj2 (proj2 (proj2 (proj2 (proj2 (proj2 (proj2 vm_runs_z)))))))). Qed.
Print Assumptions C02_vm_runs_throw.
(* r = try { diag_log "a"; if (true) then { throw "boom" }; diag_log "dead"; 1 } catch { diag_log _exception; _exception + "!" }; r
   yields "boom!", logs a then boom, and nothing behind the throw runs *)
Definition ex_try_prog : list stmt :=
  [SAssign "r" (EBinary "catch"
     (EUnary "try" (ECode [SExpr (EUnary "diag_log" (EStr "a"));
                           SExpr (EBinary "then" (EUnary "if" (EBool true)) (ECode [SExpr (EUnary "throw" (EStr "boom"))]));
                           SExpr (EUnary "diag_log" (EStr "dead")); SExpr (ENum 1)]))
     (ECode [SExpr (EUnary "diag_log" (EVar "_exception")); SExpr (EBinary "+" (EVar "_exception") (EStr "!"))]));
   SExpr (EVar "r")].
Example try_inhabited : exists s', zprog init_state RNone ex_try_prog (RStr "boom!") s' /\ st_trace s' = ["boom"; "a"].
Proof.
  eexists. split. unfold ex_try_prog.
  eapply ZPCons. eapply ZSAssign; operand.
  (* the block is left by a throw, the handler runs *)
  eapply ZCatchThrow; operand.
  eapply ZTCons; [operand|]. eapply ZTThen; operand. eapply ZTThrow; operand.
  all: operand.
Qed.
(* try { try { throw "a" } catch { throw (_exception + "b"); diag_log "dead" }; diag_log "dead" } catch { _exception + "c" }
   yields "abc": a throw out of a handler goes to the next handler outwards *)
Definition ex_rethrow : expr :=
  EBinary "catch"
    (EUnary "try" (ECode [SExpr (EBinary "catch" (EUnary "try" (ECode [SExpr (EUnary "throw" (EStr "a"))]))
                                                (ECode [SExpr (EUnary "throw" (EBinary "+" (EVar "_exception") (EStr "b")));
                                                        SExpr (EUnary "diag_log" (EStr "dead"))]));
                          SExpr (EUnary "diag_log" (EStr "dead"))]))
    (ECode [SExpr (EBinary "+" (EVar "_exception") (EStr "c"))]).
Example rethrow_inhabited : exists s', zev init_state ex_rethrow (RStr "abc") s' /\ st_trace s' = [].
Proof.
  eexists. split. change (RStr "abc") with (val_of (BNorm (RStr "abc"))).
  eapply ZCatchThrow; operand.
  (* the inner try-catch: its block throws "a", its handler throws again *)
  eapply ZTHandler; operand; eapply ZTThrow; operand.
  all: operand.
Qed.
(* ... and the program above on a concrete machine: C02_program_runs / C02_program_trace apply to it *)
Definition ex_running_try : rt :=
  let r := load (create_rt [] 0 0 0 150) (compile_block ex_try_prog) in
  rt_with r (r_ctxs r) (Some 0) StRunning false false true false [] [] (r_nss r) (r_clock r) (r_timestamp r) (r_next_id r).
Example try_program_premises :
  let c := push_frame (new_context 0 false) (mk_frame default_ns (compile_block ex_try_prog) None None []) in
  let f := mk_frame default_ns (compile_block ex_try_prog) None None [] in
  AtM init_state RNone ex_running_try c f [] [] /\ f_code f = compile_block ex_try_prog /\ f_pos f = 0 /\ f_exit f = None.
Proof. split; [exact (running_AtM (compile_block ex_try_prog))|repeat split]. Qed.

(* ---- scopeName / breakOut (VM/SimBreakOps.v, relation zbreak of VM/SimExit.v).  Scope names are part of the matched state
   (frame_match: the frame's name is the scope's).  `scopeName "t"` is a constructor of the expression relation (a scope is named
   once); a block is LEFT BY breakOut "t" when, after statements that run normally, it reaches `breakOut "t"`, `v breakOut "t"`, or a
   scope construct standing as a statement - call {..}, if-then(-else) - whose own scope is not named t and whose block is left that
   way; call / if-then / if-then-else whose own scope IS named t yield the value handed to breakOut (nil for the unary form).
   Machine side: where the innermost scope named t is k scopes up (judged on the reference state at the breakOut), the machine pops
   k+1 frames, each one's part of the operand stack with it, and continues in the frame below with the value on what lay below the
   named frame - an early exit leaves exactly the targeted scope.  A loop frame that goes round gives up its name: frame::next
   clears it where the frame starts over (repair 4504ca1 of /repo, DESIGN.md Deviation 4).  A loop standing as a statement one of whose rounds is left by breakOut to a name outside
   the loop is such a statement too (ZKLoop, section LEAVING A LOOP below).  Not covered: breakOut to a name no scope carries, to "". *)
Theorem C02_ref_runs_breakout : forall s reg b t v s', zbreak s reg b t v s' ->
  exists f0, forall f, f0 <= f -> eval_block f s b reg = (OBreak t v, s').
Proof. exact (proj1 (proj2 (proj2 (proj2 (proj2 (proj2 (proj2 (proj2 (proj2 ref_runs_z))))))))). Qed.
Print Assumptions C02_ref_runs_breakout.
Theorem C02_vm_runs_breakout : forall s reg b t v s', zbreak s reg b t v s' ->
  forall r c f restf below pre k top fn fc rest jn below_n,
    AtM s reg r c f restf below -> Fresh c below ->
    f_code f = pre ++ compile_block b -> f_pos f = length pre ->
    find_name t (st_scopes s') 0 = Some k ->
    f :: restf = top ++ fn :: fc :: rest -> length top = k ->
    Forall (fun m => f_base fn <= f_base m) top -> f_base fc <= f_base fn ->
    below = jn ++ below_n -> length below_n = f_base fn ->
    exists r' c' fc' rest', Steps r r' /\ Mach (drop_scopes (S k) s') r' c' fc' rest' /\ c_values c' = cv v :: below_n /\
      kept fc fc' /\ Forall2 kept rest rest'.
Proof. exact (proj1 (proj2 (proj2 (proj2 (proj2 (proj2 (proj2 (proj2 (proj2 vm_runs_z))))))))). Qed.
Print Assumptions C02_vm_runs_breakout.
(* r = call { scopeName "out"; diag_log "a"; if (true) then { call { diag_log "b"; "v" breakOut "out" }; diag_log "dead" }; diag_log "dead"; 1 }; r
   yields "v", logs a then b: two scopes that do not carry the name are passed, the named one ends with the value *)
Definition ex_break_prog : list stmt :=
  [SAssign "r" (EUnary "call" (ECode
     [SExpr (EUnary "scopeName" (EStr "out"));
      SExpr (EUnary "diag_log" (EStr "a"));
      SExpr (EBinary "then" (EUnary "if" (EBool true))
               (ECode [SExpr (EUnary "call" (ECode [SExpr (EUnary "diag_log" (EStr "b")); SExpr (EBinary "breakOut" (EStr "v") (EStr "out"))]));
                       SExpr (EUnary "diag_log" (EStr "dead"))]));
      SExpr (EUnary "diag_log" (EStr "dead")); SExpr (ENum 1)]));
   SExpr (EVar "r")].
Example breakout_inhabited : exists s', zprog init_state RNone ex_break_prog (RStr "v") s' /\ st_trace s' = ["b"; "a"].
Proof.
  eexists. split. unfold ex_break_prog.
  eapply ZPCons. eapply ZSAssign; operand.
  (* the scope of the call carries the name: it ends with the value; the if-scope and the inner call are passed *)
  eapply ZCallBreak; operand.
  do 2 (eapply ZKCons; [operand|]). eapply ZKThen; operand. eapply ZKCallU; operand.
  eapply ZKCons; [operand|]. eapply ZKBreakV; operand.
  all: operand.
Qed.


(* ---- LEAVING A LOOP by a throw or by breakOut (relations zloopleave / zileave / zfleave / zwleave of VM/SimExit.v, constructors ZTLoop
   of zthrow and ZKLoop of zbreak).  The body of forEach / count / apply / select / findIf, the body of for, the condition and the body
   of while may be left by a throw that a try-catch OUTSIDE the loop takes, and by breakOut to a scope name OUTSIDE the loop: after
   rounds that run normally, one round is left that way (zthrow / zbreak of the round's block; for breakOut the scope of the round
   does not carry the name).  A loop standing as a statement and left that way makes its block a block left by a throw / by breakOut
   (ZTLoop, ZKLoop) - so C02_vm_runs_throw / C02_vm_runs_breakout / C02_ref_runs_throw / C02_ref_runs_breakout above speak about
   such blocks too, and try {.. loop ..} catch {..}, call {.. scopeName "o"; loop ..} are expressions of the relation zev, nestable
   like every other.  `abr` = AThrow x | ABreak t v is the kind of exit, `oa` the outcome of the reference semantics that goes with it.
   Machine side, in the shape of C02_vm_runs_throw / C02_vm_runs_breakout: from the state in which the running frame f stands in
   front of the loop's operands, the machine evaluates the operands, pushes the loop frame, goes round (each pass that goes round
   also executes the first instruction of the next round), and reaches the state in which the handler's frame runs the handler from
   position 0 with _exception bound / the frame below the named one goes on with the value; the loop frame and everything above
   the handler's / below the named frame's base on the operand stack are gone (only the nils of abandoned scopes remain above the
   handler's base), and the reference state - the scopes of the round, of the loop and of everything in between closed - Matches. *)
Theorem C02_ref_runs_loop_exit : forall s e a s', zloopleave s e a s' ->
  exists f0, forall f, f0 <= f -> eval f s e = (oa a, s').
Proof. exact (proj1 (proj2 (proj2 (proj2 (proj2 (proj2 (proj2 (proj2 (proj2 (proj2 ref_runs_z)))))))))). Qed.
Print Assumptions C02_ref_runs_loop_exit.
Theorem C02_vm_runs_loop_throw : forall s e x s', zloopleave s e (AThrow x) s' ->
  forall reg r c f restf below pre post inner ft rest h jn below_t,
    AtM s reg r c f restf below -> Fresh c below ->
    f_code f = pre ++ compile_expr e ++ post -> f_pos f = length pre ->
    f :: restf = inner ++ ft :: rest -> Forall (fun m => f_err m = None) inner -> f_err ft = Some (ECatch h) ->
    below = jn ++ below_t -> under jn -> length below_t = f_base ft ->
    exists r' c' rest' ft0, Steps r r' /\ Forall2 kept rest rest' /\ moved ft ft0 /\
      Good r' c' /\ quirks r' = ([], 0) /\ c_frames c' = handler_frame ft0 h (cv x) :: rest' /\
      Match (set_top_vars (drop_scopes (length inner) s') [("_exception", x)]) r' (handler_frame ft0 h (cv x) :: rest') /\
      exists jn', c_values c' = VNil :: jn' ++ below_t /\ under jn'.
Proof.
  exact (fun s e x s' H reg r c f restf below pre post inner ft rest h jn below_t A FR EC EP =>
           expr_leaves_atm _ _ _ _ (proj1 (proj2 (proj2 (proj2 (proj2 (proj2 (proj2 (proj2 (proj2 (proj2 vm_runs_z))))))))) s e (AThrow x) s' H)
             reg r c f restf below pre post A FR EC EP inner ft rest h jn below_t).
Qed.
Print Assumptions C02_vm_runs_loop_throw.
Theorem C02_vm_runs_loop_breakout : forall s e t v s', zloopleave s e (ABreak t v) s' ->
  forall reg r c f restf below pre post k top fn fc rest jn below_n,
    AtM s reg r c f restf below -> Fresh c below ->
    f_code f = pre ++ compile_expr e ++ post -> f_pos f = length pre ->
    find_name t (st_scopes s') 0 = Some k ->
    f :: restf = top ++ fn :: fc :: rest -> length top = k ->
    Forall (fun m => f_base fn <= f_base m) top -> f_base fc <= f_base fn ->
    below = jn ++ below_n -> length below_n = f_base fn ->
    exists r' c' fc' rest', Steps r r' /\ Mach (drop_scopes (S k) s') r' c' fc' rest' /\ c_values c' = cv v :: below_n /\
      kept fc fc' /\ Forall2 kept rest rest'.
Proof.
  exact (fun s e t v s' H reg r c f restf below pre post k top fn fc rest jn below_n A FR EC EP =>
           expr_leaves_atm _ _ _ _ (proj1 (proj2 (proj2 (proj2 (proj2 (proj2 (proj2 (proj2 (proj2 (proj2 vm_runs_z))))))))) s e (ABreak t v) s' H)
             reg r c f restf below pre post A FR EC EP k top fn fc rest jn below_n).
Qed.
Print Assumptions C02_vm_runs_loop_breakout.

(* the same at the level of the loop frame, per kind of loop.  LeavesL a s' r f restf below (VM/SimExit.v) is the conclusion of the two
   theorems above read for a LOOP frame f at the start of a round: the handler's frame / the named frame lies in restf, s' has the scope
   of the loop closed as well, and the run is not empty (r' <> r).  C02_loop_frame_throw / C02_loop_frame_breakout spell it out. *)
Theorem C02_loop_frame_throw : forall x s' r f restf below, LeavesL (AThrow x) s' r f restf below ->
  forall inner ft rest h jn below_t,
    restf = inner ++ ft :: rest -> f_err f = None -> Forall (fun m => f_err m = None) inner -> f_err ft = Some (ECatch h) ->
    below = jn ++ below_t -> under jn -> length below_t = f_base ft ->
    exists r' c' rest' ft0, Steps r r' /\ r' <> r /\ Forall2 kept rest rest' /\ moved ft ft0 /\
      Good r' c' /\ quirks r' = ([], 0) /\ c_frames c' = handler_frame ft0 h (cv x) :: rest' /\
      Match (set_top_vars (drop_scopes (length inner) s') [("_exception", x)]) r' (handler_frame ft0 h (cv x) :: rest') /\
      exists jn', c_values c' = VNil :: jn' ++ below_t /\ under jn'.
Proof. exact (fun x s' r f restf below H => H). Qed.
Print Assumptions C02_loop_frame_throw.
Theorem C02_loop_frame_breakout : forall t v s' r f restf below, LeavesL (ABreak t v) s' r f restf below ->
  forall k top fn fc rest jn below_n,
    find_name t (st_scopes s') 0 = Some k ->
    restf = top ++ fn :: fc :: rest -> length top = k ->
    f_base fn <= f_base f -> Forall (fun m => f_base fn <= f_base m) top -> f_base fc <= f_base fn ->
    below = jn ++ below_n -> length below_n = f_base fn ->
    exists r' c' fc' rest', Steps r r' /\ r' <> r /\ Mach (drop_scopes (S k) s') r' c' fc' rest' /\ c_values c' = cv v :: below_n /\
      kept fc fc' /\ Forall2 kept rest rest'.
Proof. exact (fun t v s' r f restf below H => H). Qed.
Print Assumptions C02_loop_frame_breakout.

Theorem C02_ref_runs_loops_exit : forall k s arr i body acc a s', zileave k s arr i body acc a s' ->
  exists f0, forall f, f0 <= f -> forall kk, length arr < kk ->
    iterate_f f kk s arr i body (kwith k) acc (kstep k) = (oa a, s').
Proof. exact (proj1 (proj2 (proj2 (proj2 (proj2 (proj2 (proj2 (proj2 (proj2 (proj2 (proj2 ref_runs_z))))))))))). Qed.
Print Assumptions C02_ref_runs_loops_exit.
Theorem C02_vm_runs_loops_exit : forall k s x rest0 i body acc a s', zileave k s (x :: rest0) i body acc a s' ->
  forall r c f fc frest below allarr b,
    AtM (enter s (kvars k i x)) (match i with O => RNil | _ => RNone end) r c f (fc :: frest) below -> Fresh c below ->
    f_code f = compile_block body -> f_pos f = 0 -> f_exit f = Some b -> kb k allarr i acc b -> f_die f = false ->
    skipn i allarr = x :: rest0 -> leaf_first body -> f_ns f = f_ns fc -> f_base fc <= length below ->
    LeavesL a s' r f (fc :: frest) below.
Proof.
  exact (fun k s x rest0 i body acc a s' H =>
           proj1 (proj2 (proj2 (proj2 (proj2 (proj2 (proj2 (proj2 (proj2 (proj2 (proj2 vm_runs_z)))))))))) k s (x :: rest0) i body acc a s' H).
Qed.
Print Assumptions C02_vm_runs_loops_exit.
Theorem C02_ref_runs_for_exit : forall var to st s x first body a s', zfleave var to st s x first body a s' ->
  exists f0 k0, forall f, f0 <= f -> forall k, k0 <= k -> for_loop_f f var to st body k s x first = (oa a, s').
Proof. exact (proj1 (proj2 (proj2 (proj2 (proj2 (proj2 (proj2 (proj2 (proj2 (proj2 (proj2 (proj2 ref_runs_z)))))))))))). Qed.
Print Assumptions C02_ref_runs_for_exit.
Theorem C02_vm_runs_for_exit : forall var to st s x first body a s', zfleave var to st s x first body a s' ->
  forall r c f fc frest below,
    AtM (enter s [(lower var, RNum x)]) (if first then RNil else RNone) r c f (fc :: frest) below -> Fresh c below ->
    f_code f = compile_block body -> f_pos f = 0 -> f_exit f = Some (BFor var to st) -> f_die f = false ->
    leaf_first body -> f_ns f = f_ns fc -> f_base fc <= length below ->
    LeavesL a s' r f (fc :: frest) below.
Proof. exact (proj1 (proj2 (proj2 (proj2 (proj2 (proj2 (proj2 (proj2 (proj2 (proj2 (proj2 (proj2 vm_runs_z)))))))))))). Qed.
Print Assumptions C02_vm_runs_for_exit.
Theorem C02_ref_runs_while_exit : forall cond body s first a s', zwleave cond body s first a s' ->
  exists f0 k0, forall f, f0 <= f -> forall k, k0 <= k -> forall n, first = Nat.eqb n 0 ->
    while_loop_f f cond body k s n = (oa a, s').
Proof. exact (proj1 (proj2 (proj2 (proj2 (proj2 (proj2 (proj2 (proj2 (proj2 (proj2 (proj2 (proj2 (proj2 ref_runs_z))))))))))))). Qed.
Print Assumptions C02_ref_runs_while_exit.
Theorem C02_vm_runs_while_exit : forall cond body s first a s', zwleave cond body s first a s' ->
  forall r c f fc frest below loops,
    AtM (enter s []) (if first then RNil else RNone) r c f (fc :: frest) below -> Fresh c below ->
    f_code f = compile_block cond -> f_pos f = 0 ->
    f_exit f = Some (BWhile loops WCond (compile_block cond) (compile_block body)) -> f_die f = false ->
    leaf_first cond -> leaf_first body -> f_ns f = f_ns fc -> f_base fc <= length below ->
    LeavesL a s' r f (fc :: frest) below.
Proof. exact (proj1 (proj2 (proj2 (proj2 (proj2 (proj2 (proj2 (proj2 (proj2 (proj2 (proj2 (proj2 (proj2 vm_runs_z))))))))))))). Qed.
Print Assumptions C02_vm_runs_while_exit.

(* derivations.  (1) try { { diag_log _x; if (_x > 1) then { throw _x } } forEach [1, 2, 3]; diag_log "dead" } catch { _exception }
   yields 2 and logs 1 then 2: the first round runs normally, the second is left by the throw, the third does not run, nothing behind
   the loop runs, the handler sees the thrown value *)
Definition ex_loop_body_throw : list stmt :=
  [SExpr (EUnary "diag_log" (EVar "_x"));
   SExpr (EBinary "then" (EUnary "if" (EBinary ">" (EVar "_x") (ENum 1))) (ECode [SExpr (EUnary "throw" (EVar "_x"))]))].
Definition ex_loop_throw : expr :=
  EBinary "catch"
    (EUnary "try" (ECode [SExpr (EBinary "forEach" (ECode ex_loop_body_throw) (EArr [ENum 1; ENum 2; ENum 3]));
                          SExpr (EUnary "diag_log" (EStr "dead"))]))
    (ECode [SExpr (EVar "_exception")]).
Example foreach_rounds_throw_inhabited : exists s',
  zileave KForEach (enter init_state []) [RNum 1; RNum 2; RNum 3] 0 ex_loop_body_throw RNil (AThrow (RNum 2)) s' /\ st_trace s' = ["2"; "1"].
Proof.
  eexists. split. unfold ex_loop_body_throw.
  (* first round: normal; second round: left by the throw *)
  eapply ZILCons; operand. eapply ZILThrow. eapply ZTCons; [operand|]. eapply ZTThen; operand. eapply ZTThrow; operand.
  reflexivity.
Qed.
Example loop_throw_inhabited : exists v s', zev init_state ex_loop_throw v s' /\ v = RNum 2 /\ st_trace s' = ["2"; "1"].
Proof.
  eexists _, _. split.
  eapply ZCatchThrow; operand.
  eapply ZTLoop. eapply (ZLLoopCA _ _ _ _ _ _ _ KForEach); operand. 1: operand.
  eapply ZILCons; operand. eapply ZILThrow. eapply ZTCons; [operand|]. eapply ZTThen; operand. eapply ZTThrow; operand.
  all: operand. split; reflexivity.
Qed.

(* (2) r = call { scopeName "o"; { if (_x > 1) then { 7 breakOut "o" } } forEach [1, 2, 3]; diag_log "dead"; 1 }; r   yields 7: the
   second round breaks out of the if-scope, the scope of the round, the loop and the scope named o *)
Definition ex_loop_body_break : list stmt :=
  [SExpr (EBinary "then" (EUnary "if" (EBinary ">" (EVar "_x") (ENum 1))) (ECode [SExpr (EBinary "breakOut" (ENum 7) (EStr "o"))]))].
Definition ex_loop_break_prog : list stmt :=
  [SAssign "r" (EUnary "call" (ECode
     [SExpr (EUnary "scopeName" (EStr "o"));
      SExpr (EBinary "forEach" (ECode ex_loop_body_break) (EArr [ENum 1; ENum 2; ENum 3]));
      SExpr (EUnary "diag_log" (EStr "dead")); SExpr (ENum 1)]));
   SExpr (EVar "r")].
Example loop_breakout_inhabited : exists s', zprog init_state RNone ex_loop_break_prog (RNum 7) s' /\ st_trace s' = [].
Proof.
  eexists. split. unfold ex_loop_break_prog.
  eapply ZPCons. eapply ZSAssign; operand.
  eapply ZCallBreak; operand.
  eapply ZKCons; [operand|]. eapply ZKLoop. eapply (ZLLoopCA _ _ _ _ _ _ _ KForEach); operand. 1: operand.
  (* first round: normal; second round: breakOut through the if-scope and the scope of the round *)
  eapply ZILCons; operand. eapply ZILBreak; operand. eapply ZKThen; operand. eapply ZKBreakV; operand.
  all: operand.
Qed.

(* (3) for "_i" from 1 to 5 do { if (_i > 1) then { throw _i } }: the second round is left by the throw *)
Definition ex_for_body_throw : list stmt :=
  [SExpr (EBinary "then" (EUnary "if" (EBinary ">" (EVar "_i") (ENum 1))) (ECode [SExpr (EUnary "throw" (EVar "_i"))]))].
Example for_rounds_throw_inhabited : exists s', zfleave "_i" 5 1 (enter init_state []) 1 true ex_for_body_throw (AThrow (RNum 2)) s'.
Proof.
  eexists. unfold ex_for_body_throw.
  eapply ZFLRound; operand. eapply ZFLThrow. eapply ZTThen; operand. eapply ZTThrow; operand.
Qed.
Definition ex_for_throw : expr :=
  EBinary "catch"
    (EUnary "try" (ECode [SExpr (EBinary "do" (EBinary "to" (EBinary "from" (EUnary "for" (EStr "_i")) (ENum 1)) (ENum 5)) (ECode ex_for_body_throw))]))
    (ECode [SExpr (EBinary "+" (EVar "_exception") (ENum 40))]).
Example for_throw_inhabited : exists v s', zev init_state ex_for_throw v s' /\ v = RNum 42.
Proof.
  eexists _, _. split.
  eapply ZCatchThrow; operand.
  eapply ZTLoop. eapply ZLFor; operand.
  eapply ZFLRound; operand. eapply ZFLThrow. eapply ZTThen; operand. eapply ZTThrow; operand.
  all: operand.
Qed.

(* (4) i = 0; while { i < 5 } do { i = i + 1; if (i > 1) then { i breakOut "o" } }: the body of the second round is left by breakOut *)
Definition ex_while_cond : list stmt := [SExpr (EBinary "<" (EVar "i") (ENum 5))].
Definition ex_while_body_break : list stmt :=
  [SAssign "i" (EBinary "+" (EVar "i") (ENum 1));
   SExpr (EBinary "then" (EUnary "if" (EBinary ">" (EVar "i") (ENum 1))) (ECode [SExpr (EBinary "breakOut" (EVar "i") (EStr "o"))]))].
Example while_rounds_break_inhabited : exists s0 s', glob_of s0 "i" = Some (RNum 0) /\
  zwleave ex_while_cond ex_while_body_break s0 true (ABreak "o" (RNum 2)) s' /\ glob_of s' "i" = Some (RNum 2).
Proof.
  exists (rns_set init_state default_ns "i" (RNum 0)). eexists. split; [reflexivity|]. split.
  unfold ex_while_cond, ex_while_body_break.
  eapply ZWLRound; operand.
  (* second round: the body is left by breakOut *)
  eapply ZWLBreakBody; operand. eapply ZKCons; [operand|]. eapply ZKThen; operand. eapply ZKBreakV; operand.
  all: operand.
Qed.

(* ... and the first two programs evaluated inside Coq on both sides: the reference semantics and the VM model (the loaded program run
   by execute_do to the end) log the same markers and yield the same value *)
Definition ex_loop_throw_prog : list stmt := [SExpr ex_loop_throw].
Example loop_exit_ref_and_vm_agree :
  run_ref 200 ex_loop_throw_prog = "OK:M<1>,M<2>,V<2>" /\
  run_final (load (create_rt [] 0 0 (100 * 100) 150) (compile_block ex_loop_throw_prog)) = "-1:0:3:60019,M<1>,3:60019,M<2>,3:60095,M<VALUE 2>," /\
  run_ref 200 ex_loop_break_prog = "OK:V<7>" /\
  run_final (load (create_rt [] 0 0 (100 * 100) 150) (compile_block ex_loop_break_prog)) = "-1:0:3:60095,M<VALUE 7>,".
Proof. repeat split; vm_compute; reflexivity. Qed.

(* (5) breakOut to the name the scope of the round itself carries:  { scopeName "l"; if (_x > 1) then { _x breakOut "l" }; 0 } forEach [1, 2, 3]
   ends the whole loop in the second round with the value 2 (constructor ZIterBreak of ziter, covered by C02_vm_runs_loops / C02_ref_runs_loops;
   ZForBreak, ZWhileBreakCond, ZWhileBreakBody are the same for for and while) *)
Definition ex_loop_own_name : expr :=
  EBinary "forEach"
    (ECode [SExpr (EUnary "scopeName" (EStr "l"));
            SExpr (EBinary "then" (EUnary "if" (EBinary ">" (EVar "_x") (ENum 1))) (ECode [SExpr (EBinary "breakOut" (EVar "_x") (EStr "l"))]));
            SExpr (ENum 0)])
    (EArr [ENum 1; ENum 2; ENum 3]).
Example loop_own_name_inhabited : exists v s', zev init_state ex_loop_own_name v s' /\ v = RNum 2.
Proof.
  eexists _, _. split.
  eapply (ZLoopCA _ _ _ _ _ _ _ KForEach); operand. 1: operand.
  eapply ZIterCons; operand.
  (* second round: breakOut to the name of the round's own scope ends the loop *)
  eapply ZIterBreak. eapply ZKCons; [operand|]. eapply ZKThen; operand. eapply ZKBreakV; operand.
  all: operand.
Qed.
Example loop_own_name_ref_and_vm_agree :
  run_ref 200 [SExpr ex_loop_own_name] = "OK:V<2>" /\
  run_final (load (create_rt [] 0 0 (100 * 100) 150) (compile_block [SExpr ex_loop_own_name])) = "-1:0:3:60095,M<VALUE 2>,".
Proof. split; vm_compute; reflexivity. Qed.

(* ---- switch - case - default (VM/SimSwitchOps.v; relation zswitch and the constructors ZSwitchVal / ZSwitchNone / ZSwitchRun of
   VM/SimExit.v).  The statements of a switch body - labels `case x;` (fall-through), `case x : {..}`, `default {..}`, the case values
   pure expressions - are judged against the bookkeeping of the reference semantics (RefSem.swst): the first case that matches, or
   that stands behind a matching label, wins and the rest of the body is skipped; default offers its block when nothing was chosen.
   The machine keeps that bookkeeping in the hidden variable ___switch of the switch frame - which is why the frames Match the
   reference scopes on every name but that one, and why a program's own variables must not carry it (premise `hidden` of the
   variable rules).  C02_switch_body_vm: from any statement boundary of the body the machine's hidden variable follows the
   reference bookkeeping statement by statement, and the frame ends at the end of its code - behind it when a case was chosen.
   The construct itself: with no block chosen it yields nil; otherwise the chosen block's instructions are exchanged into the
   frame and its value is the value of the construct (the block starts with a push or a variable read; a block that is left early: section EARLY EXITS OUT OF THE CHOSEN BLOCK OF A SWITCH below). *)
Theorem C02_switch_body_ref : forall s body sw sw', zswitch s body sw sw' ->
  exists f0, forall f, f0 <= f -> eval_switch_body f s body sw = (ONormal RNil, s, sw').
Proof. exact switch_body_ref. Qed.
Print Assumptions C02_switch_body_ref.
Theorem C02_switch_body_vm : forall s body sw sw', zswitch s body sw sw' ->
  forall r c f rest below pre (first:bool), Mach s r c f rest -> length below = f_base f -> Fresh c below ->
    f_code f = pre ++ compile_block_from first body -> f_pos f = length pre -> SwInv sw f ->
    exists r' c' f', Steps r r' /\ Mach s r' c' f' rest /\ Fresh c' below /\
      (body <> [] -> exists t, c_values c' = VNil :: t ++ below) /\ (body = [] -> c_values c' = c_values c) /\
      moved f f' /\ SwInv sw' f' /\ (f_pos f' = length (f_code f') \/ f_pos f' = S (length (f_code f'))).
Proof. exact switch_body_vm. Qed.
Print Assumptions C02_switch_body_vm.
(* x = 2; r = switch x do { case 1; case 2 : { diag_log "two"; "a" }; case 2 : { "again" }; default { "d" } }; r   yields "a" and logs
   two: the label `case 1` does not match, `case 2` does and wins, the second `case 2` and the default are skipped;
   and with x = 7 the default block runs *)
Definition ex_switch_body : list stmt :=
  [SExpr (EUnary "case" (ENum 1));
   SExpr (EBinary ":" (EUnary "case" (ENum 2)) (ECode [SExpr (EUnary "diag_log" (EStr "two")); SExpr (EStr "a")]));
   SExpr (EBinary ":" (EUnary "case" (ENum 2)) (ECode [SExpr (EStr "again")]));
   SExpr (EUnary "default" (ECode [SExpr (EStr "d")]))].
Definition ex_switch_prog (x:Z) : list stmt :=
  [SAssign "x" (ENum x); SAssign "r" (EBinary "do" (EUnary "switch" (EVar "x")) (ECode ex_switch_body)); SExpr (EVar "r")].
Example switch_inhabited : exists s', zprog init_state RNone (ex_switch_prog 2) (RStr "a") s' /\ st_trace s' = ["two"].
Proof.
  eexists. split. unfold ex_switch_prog, ex_switch_body.
  eapply ZPCons; [operand|]. eapply ZPCons. eapply ZSAssign; operand.
  change (RStr "a") with (res_of (RStr "a")). eapply ZSwitchRun; operand.
  (* `case 1` does not match, `case 2 : {..}` does *)
  eapply ZWLabel; operand. eapply ZWCaseHit; operand.
  all: operand.
Qed.
Example switch_default_inhabited : exists s', zprog init_state RNone (ex_switch_prog 7) (RStr "d") s' /\ st_trace s' = [].
Proof.
  eexists. split. unfold ex_switch_prog, ex_switch_body.
  eapply ZPCons; [operand|]. eapply ZPCons. eapply ZSAssign; operand.
  change (RStr "d") with (res_of (RStr "d")). eapply ZSwitchRun; operand.
  eapply ZWLabel; operand. do 2 (eapply ZWCaseSkip; operand). eapply ZWDefault; operand. apply ZWNil.
  all: operand.
Qed.

(* ---- EARLY EXITS OUT OF THE CHOSEN BLOCK OF A SWITCH (constructors ZSwitchExit / ZSwitchBreak of zev, ZLSwitchThrow / ZLSwitchBreak of
   zloopleave in VM/SimExit.v).  The chosen block - a case's or the default's - runs in the frame of the switch body (the machine puts
   its instructions into that frame, C02_switch_body_vm above).  It may be left early:
     by `if c exitWith {..}`: the handler runs as a frame of its own, the switch frame is marked as finished and completes with the
       handler's value whatever its behaviour still wanted to do - the switch yields the handler's value, nothing behind the exitWith
       runs (C02_vm_switch_exitwith; the reference semantics says the same: OExit x => x);
     by breakOut to the name the scope of the switch itself carries (scopeName inside the block names the switch frame): the switch
       yields the value handed to breakOut (C02_vm_switch_own_breakout);
     by a throw that a try-catch outside the switch takes, and by breakOut to a scope outside the switch: a switch standing as a statement
       and left that way is a statement of zthrow / zbreak through ZTLoop / ZKLoop, like a loop (C02_vm_switch_throw,
       C02_vm_switch_breakout: the state in which the handler starts / execution goes on below the named frame; the switch frame and its
       part of the operand stack are gone, the reference state with the scope of the switch closed Matches).
   Premises as for ZSwitchRun: the chosen block starts with a push or a variable read. *)
Theorem C02_ref_switch_exitwith : forall s n a b v body s1 s2 sw t ts x s4, lower n = "do" -> zev s a (RSwitch v) s1 -> zev s1 b (RCode body) s2 ->
  zswitch (enter s2 []) body (sw_start v) sw -> sw_target sw = Some (t :: ts) -> leaf_first (t :: ts) ->
  zblock (enter s2 []) RNil (t :: ts) (BExit x) s4 ->
  exists f0, forall f, f0 <= f -> eval f s (EBinary n a b) = (ONormal x, pop_scope s4).
Proof.
  exact (fun s n a b v body s1 s2 sw t ts x s4 H1 H2 H3 H4 H5 H6 H7 =>
           proj1 ref_runs_z _ _ _ _ (ZSwitchExit s n a b v body s1 s2 sw t ts x s4 H1 H2 H3 H4 H5 H6 H7)).
Qed.
Print Assumptions C02_ref_switch_exitwith.
Theorem C02_vm_switch_exitwith : forall s n a b v body s1 s2 sw t ts x s4, lower n = "do" -> zev s a (RSwitch v) s1 -> zev s1 b (RCode body) s2 ->
  zswitch (enter s2 []) body (sw_start v) sw -> sw_target sw = Some (t :: ts) -> leaf_first (t :: ts) ->
  zblock (enter s2 []) RNil (t :: ts) (BExit x) s4 ->
  forall r c f rest pre post, Mach s r c f rest -> f_code f = pre ++ compile_expr (EBinary n a b) ++ post -> f_pos f = length pre ->
    exists r' c' f' rest', Steps r r' /\ Mach (pop_scope s4) r' c' f' rest' /\ c_values c' = cv x :: c_values c /\
      moved f f' /\ f_pos f' = f_pos f + length (compile_expr (EBinary n a b)) /\ Forall2 kept rest rest'.
Proof.
  exact (fun s n a b v body s1 s2 sw t ts x s4 H1 H2 H3 H4 H5 H6 H7 =>
           proj1 vm_runs_z _ _ _ _ (ZSwitchExit s n a b v body s1 s2 sw t ts x s4 H1 H2 H3 H4 H5 H6 H7)).
Qed.
Print Assumptions C02_vm_switch_exitwith.
Theorem C02_ref_switch_own_breakout : forall s n a b v body s1 s2 sw t ts t0 x s4, lower n = "do" -> zev s a (RSwitch v) s1 -> zev s1 b (RCode body) s2 ->
  zswitch (enter s2 []) body (sw_start v) sw -> sw_target sw = Some (t :: ts) -> leaf_first (t :: ts) ->
  zbreak (enter s2 []) RNil (t :: ts) t0 x s4 -> top_name s4 = t0 ->
  exists f0, forall f, f0 <= f -> eval f s (EBinary n a b) = (ONormal x, pop_scope s4).
Proof.
  exact (fun s n a b v body s1 s2 sw t ts t0 x s4 H1 H2 H3 H4 H5 H6 H7 H8 =>
           proj1 ref_runs_z _ _ _ _ (ZSwitchBreak s n a b v body s1 s2 sw t ts t0 x s4 H1 H2 H3 H4 H5 H6 H7 H8)).
Qed.
Print Assumptions C02_ref_switch_own_breakout.
Theorem C02_vm_switch_own_breakout : forall s n a b v body s1 s2 sw t ts t0 x s4, lower n = "do" -> zev s a (RSwitch v) s1 -> zev s1 b (RCode body) s2 ->
  zswitch (enter s2 []) body (sw_start v) sw -> sw_target sw = Some (t :: ts) -> leaf_first (t :: ts) ->
  zbreak (enter s2 []) RNil (t :: ts) t0 x s4 -> top_name s4 = t0 ->
  forall r c f rest pre post, Mach s r c f rest -> f_code f = pre ++ compile_expr (EBinary n a b) ++ post -> f_pos f = length pre ->
    exists r' c' f' rest', Steps r r' /\ Mach (pop_scope s4) r' c' f' rest' /\ c_values c' = cv x :: c_values c /\
      moved f f' /\ f_pos f' = f_pos f + length (compile_expr (EBinary n a b)) /\ Forall2 kept rest rest'.
Proof.
  exact (fun s n a b v body s1 s2 sw t ts t0 x s4 H1 H2 H3 H4 H5 H6 H7 H8 =>
           proj1 vm_runs_z _ _ _ _ (ZSwitchBreak s n a b v body s1 s2 sw t ts t0 x s4 H1 H2 H3 H4 H5 H6 H7 H8)).
Qed.
Print Assumptions C02_vm_switch_own_breakout.
Theorem C02_ref_switch_throw : forall s n a b v body s1 s2 sw t ts y s4, lower n = "do" -> zev s a (RSwitch v) s1 -> zev s1 b (RCode body) s2 ->
  zswitch (enter s2 []) body (sw_start v) sw -> sw_target sw = Some (t :: ts) -> leaf_first (t :: ts) ->
  zthrow (enter s2 []) RNil (t :: ts) y s4 ->
  exists f0, forall f, f0 <= f -> eval f s (EBinary n a b) = (OThrow y, pop_scope s4).
Proof.
  exact (fun s n a b v body s1 s2 sw t ts y s4 H1 H2 H3 H4 H5 H6 H7 =>
           C02_ref_runs_loop_exit _ _ _ _ (ZLSwitchThrow s n a b v body s1 s2 sw t ts y s4 H1 H2 H3 H4 H5 H6 H7)).
Qed.
Print Assumptions C02_ref_switch_throw.
Theorem C02_vm_switch_throw : forall s n a b v body s1 s2 sw t ts y s4, lower n = "do" -> zev s a (RSwitch v) s1 -> zev s1 b (RCode body) s2 ->
  zswitch (enter s2 []) body (sw_start v) sw -> sw_target sw = Some (t :: ts) -> leaf_first (t :: ts) ->
  zthrow (enter s2 []) RNil (t :: ts) y s4 ->
  forall reg r c f restf below pre post inner ft rest h jn below_t,
    AtM s reg r c f restf below -> Fresh c below ->
    f_code f = pre ++ compile_expr (EBinary n a b) ++ post -> f_pos f = length pre ->
    f :: restf = inner ++ ft :: rest -> Forall (fun m => f_err m = None) inner -> f_err ft = Some (ECatch h) ->
    below = jn ++ below_t -> under jn -> length below_t = f_base ft ->
    exists r' c' rest' ft0, Steps r r' /\ Forall2 kept rest rest' /\ moved ft ft0 /\
      Good r' c' /\ quirks r' = ([], 0) /\ c_frames c' = handler_frame ft0 h (cv y) :: rest' /\
      Match (set_top_vars (drop_scopes (length inner) (pop_scope s4)) [("_exception", y)]) r' (handler_frame ft0 h (cv y) :: rest') /\
      exists jn', c_values c' = VNil :: jn' ++ below_t /\ under jn'.
Proof.
  exact (fun s n a b v body s1 s2 sw t ts y s4 H1 H2 H3 H4 H5 H6 H7 =>
           C02_vm_runs_loop_throw _ _ _ _ (ZLSwitchThrow s n a b v body s1 s2 sw t ts y s4 H1 H2 H3 H4 H5 H6 H7)).
Qed.
Print Assumptions C02_vm_switch_throw.
Theorem C02_ref_switch_breakout : forall s n a b v body s1 s2 sw t ts t0 x s4, lower n = "do" -> zev s a (RSwitch v) s1 -> zev s1 b (RCode body) s2 ->
  zswitch (enter s2 []) body (sw_start v) sw -> sw_target sw = Some (t :: ts) -> leaf_first (t :: ts) ->
  zbreak (enter s2 []) RNil (t :: ts) t0 x s4 -> top_name s4 <> t0 ->
  exists f0, forall f, f0 <= f -> eval f s (EBinary n a b) = (OBreak t0 x, pop_scope s4).
Proof.
  exact (fun s n a b v body s1 s2 sw t ts t0 x s4 H1 H2 H3 H4 H5 H6 H7 H8 =>
           C02_ref_runs_loop_exit _ _ _ _ (ZLSwitchBreak s n a b v body s1 s2 sw t ts t0 x s4 H1 H2 H3 H4 H5 H6 H7 H8)).
Qed.
Print Assumptions C02_ref_switch_breakout.
Theorem C02_vm_switch_breakout : forall s n a b v body s1 s2 sw t ts t0 x s4, lower n = "do" -> zev s a (RSwitch v) s1 -> zev s1 b (RCode body) s2 ->
  zswitch (enter s2 []) body (sw_start v) sw -> sw_target sw = Some (t :: ts) -> leaf_first (t :: ts) ->
  zbreak (enter s2 []) RNil (t :: ts) t0 x s4 -> top_name s4 <> t0 ->
  forall reg r c f restf below pre post k top fn fc rest jn below_n,
    AtM s reg r c f restf below -> Fresh c below ->
    f_code f = pre ++ compile_expr (EBinary n a b) ++ post -> f_pos f = length pre ->
    find_name t0 (st_scopes (pop_scope s4)) 0 = Some k ->
    f :: restf = top ++ fn :: fc :: rest -> length top = k ->
    Forall (fun m => f_base fn <= f_base m) top -> f_base fc <= f_base fn ->
    below = jn ++ below_n -> length below_n = f_base fn ->
    exists r' c' fc' rest', Steps r r' /\ Mach (drop_scopes (S k) (pop_scope s4)) r' c' fc' rest' /\ c_values c' = cv x :: below_n /\
      kept fc fc' /\ Forall2 kept rest rest'.
Proof.
  exact (fun s n a b v body s1 s2 sw t ts t0 x s4 H1 H2 H3 H4 H5 H6 H7 H8 =>
           C02_vm_runs_loop_breakout _ _ _ _ _ (ZLSwitchBreak s n a b v body s1 s2 sw t ts t0 x s4 H1 H2 H3 H4 H5 H6 H7 H8)).
Qed.
Print Assumptions C02_vm_switch_breakout.
(* derivations.  (1) switch (1 + 1) do { case 1 : { 1 }; case 2 : { diag_log "two"; if (true) exitWith { 9 }; diag_log "dead"; 2 } }  yields 9 and
   logs two only *)
Definition ex_sw_exit : expr :=
  EBinary "do" (EUnary "switch" (EBinary "+" (ENum 1) (ENum 1)))
    (ECode [SExpr (EBinary ":" (EUnary "case" (ENum 1)) (ECode [SExpr (ENum 1)]));
            SExpr (EBinary ":" (EUnary "case" (ENum 2))
                     (ECode [SExpr (EUnary "diag_log" (EStr "two"));
                             SExpr (EBinary "exitWith" (EUnary "if" (EBool true)) (ECode [SExpr (ENum 9)]));
                             SExpr (EUnary "diag_log" (EStr "dead")); SExpr (ENum 2)]))]).
Example switch_exitwith_inhabited : exists v s', zev init_state ex_sw_exit v s' /\ v = RNum 9 /\ st_trace s' = ["two"].
Proof.
  eexists _, _. split.
  eapply ZSwitchExit; operand.
  eapply ZWCaseSkip; operand. eapply ZWCaseHit; operand. all: operand.
  eapply ZBCons; [operand|]. eapply ZBExit; operand.
  split; reflexivity.
Qed.
(* (2) try { switch (1 + 1) do { case 2 : { diag_log "two"; throw (2 + 3); 1 } }; diag_log "dead" } catch { _exception + 1 }  yields 6 *)
Definition ex_sw_throw : expr :=
  EBinary "catch"
    (EUnary "try" (ECode [SExpr (EBinary "do" (EUnary "switch" (EBinary "+" (ENum 1) (ENum 1)))
                                   (ECode [SExpr (EBinary ":" (EUnary "case" (ENum 2))
                                             (ECode [SExpr (EUnary "diag_log" (EStr "two")); SExpr (EUnary "throw" (EBinary "+" (ENum 2) (ENum 3))); SExpr (ENum 1)]))]));
                          SExpr (EUnary "diag_log" (EStr "dead"))]))
    (ECode [SExpr (EBinary "+" (EVar "_exception") (ENum 1))]).
Example switch_throw_inhabited : exists v s', zev init_state ex_sw_throw v s' /\ v = RNum 6 /\ st_trace s' = ["two"].
Proof.
  eexists _, _. split.
  eapply ZCatchThrow; operand.
  eapply ZTLoop. eapply ZLSwitchThrow; operand.
  eapply ZWCaseHit; operand. all: operand.
  eapply ZTCons; [operand|]. eapply ZTThrow; operand.
  all: operand. split; reflexivity.
Qed.
(* (3) r = call { scopeName "o"; switch (0 + 1) do { case 1 : { 7 breakOut "o" } }; diag_log "dead"; 1 }; r  yields 7 *)
Definition ex_sw_break_prog : list stmt :=
  [SAssign "r" (EUnary "call" (ECode
     [SExpr (EUnary "scopeName" (EStr "o"));
      SExpr (EBinary "do" (EUnary "switch" (EBinary "+" (ENum 0) (ENum 1)))
               (ECode [SExpr (EBinary ":" (EUnary "case" (ENum 1)) (ECode [SExpr (EBinary "breakOut" (ENum 7) (EStr "o"))]))]));
      SExpr (EUnary "diag_log" (EStr "dead")); SExpr (ENum 1)]));
   SExpr (EVar "r")].
Example switch_breakout_inhabited : exists s', zprog init_state RNone ex_sw_break_prog (RNum 7) s' /\ st_trace s' = [].
Proof.
  eexists. split. unfold ex_sw_break_prog.
  eapply ZPCons. eapply ZSAssign; operand.
  eapply ZCallBreak; operand.
  eapply ZKCons; [operand|]. eapply ZKLoop. eapply ZLSwitchBreak; operand.
  eapply ZWCaseHit; operand. all: operand.
  eapply ZKBreakV; operand.
  all: operand.
Qed.
(* (4) switch (0 + 1) do { case 1 : { scopeName "w"; 5 breakOut "w"; 0 } }  yields 5: the scope of the switch itself carries the name *)
Definition ex_sw_own : expr :=
  EBinary "do" (EUnary "switch" (EBinary "+" (ENum 0) (ENum 1)))
    (ECode [SExpr (EBinary ":" (EUnary "case" (ENum 1))
                     (ECode [SExpr (EUnary "scopeName" (EStr "w")); SExpr (EBinary "breakOut" (ENum 5) (EStr "w")); SExpr (ENum 0)]))]).
Example switch_own_name_inhabited : exists v s', zev init_state ex_sw_own v s' /\ v = RNum 5.
Proof.
  eexists _, _. split.
  eapply ZSwitchBreak; operand.
  eapply ZWCaseHit; operand. all: operand.
  eapply ZKCons; [operand|]. eapply ZKBreakV; operand.
  all: operand.
Qed.
(* ... and the four programs evaluated inside Coq on the reference semantics and on the VM model *)
Example switch_exits_ref_and_vm_agree :
  run_ref 200 [SExpr ex_sw_exit] = "OK:M<two>,V<9>" /\
  run_final (load (create_rt [] 0 0 (100 * 100) 150) (compile_block [SExpr ex_sw_exit])) = "-1:0:3:60019,M<two>,3:60095,M<VALUE 9>," /\
  run_ref 200 [SExpr ex_sw_throw] = "OK:M<two>,V<6>" /\
  run_final (load (create_rt [] 0 0 (100 * 100) 150) (compile_block [SExpr ex_sw_throw])) = "-1:0:3:60019,M<two>,3:60095,M<VALUE 6>," /\
  run_ref 200 ex_sw_break_prog = "OK:V<7>" /\
  run_final (load (create_rt [] 0 0 (100 * 100) 150) (compile_block ex_sw_break_prog)) = "-1:0:3:60095,M<VALUE 7>," /\
  run_ref 200 [SExpr ex_sw_own] = "OK:V<5>" /\
  run_final (load (create_rt [] 0 0 (100 * 100) 150) (compile_block [SExpr ex_sw_own])) = "-1:0:3:60095,M<VALUE 5>,".
Proof. repeat split; vm_compute; reflexivity. Qed.

(* ---- AN EXIT RAISED INSIDE AN OPERAND (constructors ZLUn / ZLBinL / ZLBinR / ZLArr / ZLCallU / ZLCallB / ZLThen / ZLThenElse of zloopleave,
   relations zscopeleave and zelemsleave, ZTAssign / ZTLocal / ZKAssign / ZKLocal of zthrow / zbreak in VM/SimExit.v).  zloopleave s e a s'
   reads "the EXPRESSION e is left by a" : a loop or a switch, or the operand of a unary operator, the left or right operand of a
   binary one, an element of an array is left, or e is call {..} / x call {..} / if-then(-else) whose block is left through its scope.  So
   C02_ref_runs_loop_exit / C02_vm_runs_loop_throw / C02_vm_runs_loop_breakout above speak about all of these, and so do C02_vm_runs_throw /
   C02_vm_runs_breakout through ZTLoop / ZKLoop and the statement forms x = e, private _x = e.
   breakOut is covered in EVERY operand position (C02_vm_operand_breakout): the operands that were already evaluated wait on the operand stack
   above the named frame's base, and pop_clearing drops them with the regions of the frames it removes - the machine continues below the named
   frame with exactly the value on what lay below that frame, the abandoned expression leaves nothing behind, its statement has no effect.
   A throw is covered in the positions in which NOTHING WAITS: operand of a unary operator, left operand, first element, and any nesting of
   these through call / if-then(-else) - hence the name C02_vm_operand_throw_partial.  The full statement wanted is the one below with the
   constructors ZLBinR / ZELTl also for AThrow; it is not proved: throw_any pops frames without clearing the stack, the waiting operands
   stay under the nil the throw pushes, the handler starts on them - harmless on the machine (the handler's frame drops its region when it
   completes; operand_exits_ref_and_vm_agree evaluates such a program on both sides), but the region invariant of the simulation says
   "under a region's value lie nils only" (`under`), and widening it to arbitrary leftovers means re-proving the block lemmas of SimBlock /
   SimCtl / SimExit. *)
Theorem C02_vm_operand_breakout : forall s e t v s', zloopleave s e (ABreak t v) s' ->
  forall r c f restf pre post k top fn fc rest jn below_n,
    Mach s r c f restf -> f_code f = pre ++ compile_expr e ++ post -> f_pos f = length pre ->
    find_name t (st_scopes s') 0 = Some k ->
    f :: restf = top ++ fn :: fc :: rest -> length top = k ->
    Forall (fun m => f_base fn <= f_base m) top -> f_base fc <= f_base fn ->
    c_values c = jn ++ below_n -> length below_n = f_base fn ->
    exists r' c' fc' rest', Steps r r' /\ Mach (drop_scopes (S k) s') r' c' fc' rest' /\ c_values c' = cv v :: below_n /\
      kept fc fc' /\ Forall2 kept rest rest'.
Proof.
  exact (fun s e t v s' H r c f restf pre post k top fn fc rest jn below_n MA EC EP =>
           proj1 (proj2 (proj2 (proj2 (proj2 (proj2 (proj2 (proj2 (proj2 (proj2 vm_runs_z))))))))) s e (ABreak t v) s' H r c f restf pre post MA EC EP k top fn fc rest jn below_n).
Qed.
Print Assumptions C02_vm_operand_breakout.
Theorem C02_vm_operand_throw_partial : forall s e x s', zloopleave s e (AThrow x) s' ->
  forall r c f restf pre post inner ft rest h jn below_t,
    Mach s r c f restf -> f_code f = pre ++ compile_expr e ++ post -> f_pos f = length pre ->
    f :: restf = inner ++ ft :: rest -> Forall (fun m => f_err m = None) inner -> f_err ft = Some (ECatch h) ->
    c_values c = jn ++ below_t -> under jn -> length below_t = f_base ft ->
    exists r' c' rest' ft0, Steps r r' /\ Forall2 kept rest rest' /\ moved ft ft0 /\
      Good r' c' /\ quirks r' = ([], 0) /\ c_frames c' = handler_frame ft0 h (cv x) :: rest' /\
      Match (set_top_vars (drop_scopes (length inner) s') [("_exception", x)]) r' (handler_frame ft0 h (cv x) :: rest') /\
      exists jn', c_values c' = VNil :: jn' ++ below_t /\ under jn'.
Proof.
  exact (fun s e x s' H r c f restf pre post inner ft rest h jn below_t MA EC EP =>
           proj1 (proj2 (proj2 (proj2 (proj2 (proj2 (proj2 (proj2 (proj2 (proj2 vm_runs_z))))))))) s e (AThrow x) s' H r c f restf pre post MA EC EP inner ft rest h jn below_t).
Qed.
Print Assumptions C02_vm_operand_throw_partial.
(* a block in a scope of its own (call, then, else) left through that scope, and the elements of an array *)
Theorem C02_ref_scope_left : forall s vars b a s', zscopeleave s vars b a s' ->
  exists f0, forall f, f0 <= f -> in_scope_f f s (plain_scope_f s vars) b = (oa a, s').
Proof. exact (proj1 (proj2 (proj2 (proj2 (proj2 (proj2 (proj2 (proj2 (proj2 (proj2 (proj2 (proj2 (proj2 (proj2 ref_runs_z)))))))))))))). Qed.
Print Assumptions C02_ref_scope_left.
Theorem C02_vm_scope_left : forall s vars b a s', zscopeleave s vars b a s' ->
  forall r1 c0 fc restf,
    Good r1 (push_value (push_frame c0 (mk_frame (cur_ns c0) (compile_block b) None None (mvars vars))) VNil) -> quirks r1 = ([], 0) ->
    c_frames c0 = fc :: restf -> Match s r1 (fc :: restf) -> f_base fc <= length (c_values c0) ->
    Leaves0 a s' r1 fc restf (c_values c0).
Proof. exact (proj1 (proj2 (proj2 (proj2 (proj2 (proj2 (proj2 (proj2 (proj2 (proj2 (proj2 (proj2 (proj2 (proj2 vm_runs_z)))))))))))))). Qed.
Print Assumptions C02_vm_scope_left.
Theorem C02_ref_elements_left : forall s l a s', zelemsleave s l a s' ->
  exists f0, forall f, f0 <= f -> forall acc, go_arr f s l acc = (oa a, s').
Proof. exact (proj1 (proj2 (proj2 (proj2 (proj2 (proj2 (proj2 (proj2 (proj2 (proj2 (proj2 (proj2 (proj2 (proj2 (proj2 ref_runs_z))))))))))))))). Qed.
Print Assumptions C02_ref_elements_left.
Theorem C02_vm_elements_left : forall s l a s', zelemsleave s l a s' ->
  forall r c f restf pre post, Mach s r c f restf ->
    f_code f = pre ++ flat_map compile_expr l ++ post -> f_pos f = length pre -> Leaves0 a s' r f restf (c_values c).
Proof. exact (proj1 (proj2 (proj2 (proj2 (proj2 (proj2 (proj2 (proj2 (proj2 (proj2 (proj2 (proj2 (proj2 (proj2 (proj2 vm_runs_z))))))))))))))). Qed.
Print Assumptions C02_vm_elements_left.
(* derivations.  (1) r = call { scopeName "o"; x = [1, 2 + (call { 7 breakOut "o" }), 3]; diag_log "dead"; 1 }; r   yields 7: when breakOut
   runs, the element 1 and the left operand 2 wait on the operand stack; they go with the regions pop_clearing drops, x is not assigned *)
Definition ex_operand_break_prog : list stmt :=
  [SAssign "r" (EUnary "call" (ECode
     [SExpr (EUnary "scopeName" (EStr "o"));
      SAssign "x" (EArr [ENum 1;
                         EBinary "+" (ENum 2) (EUnary "call" (ECode [SExpr (EBinary "breakOut" (ENum 7) (EStr "o"))]));
                         ENum 3]);
      SExpr (EUnary "diag_log" (EStr "dead")); SExpr (ENum 1)]));
   SExpr (EVar "r")].
Example operand_breakout_inhabited : exists s', zprog init_state RNone ex_operand_break_prog (RNum 7) s' /\ st_trace s' = [] /\ glob_of s' "x" = None.
Proof.
  eexists. split. unfold ex_operand_break_prog.
  eapply ZPCons. eapply ZSAssign; operand.
  eapply ZCallBreak; operand.
  eapply ZKCons; [operand|].
  (* x = [1, 2 + call {..}, 3]: the second element is left, through the right operand of +, out of the scope of the call *)
  eapply ZKAssign, ZLArr. eapply ZELTl; operand. eapply ZELHd. eapply ZLBinR; operand. eapply ZLCallU; operand.
  eapply ZSLBreak; operand. eapply ZKBreakV; operand.
  all: operand. split; reflexivity.
Qed.
(* (2) try { x = (call { diag_log "in"; throw (2 + 3) }) + 1; diag_log "dead" } catch { _exception }   yields 5: the throw is raised while
   the left operand of + is evaluated (nothing waits on the stack) *)
Definition ex_operand_throw : expr :=
  EBinary "catch"
    (EUnary "try" (ECode [SAssign "x" (EBinary "+" (EUnary "call" (ECode [SExpr (EUnary "diag_log" (EStr "in"));
                                                                          SExpr (EUnary "throw" (EBinary "+" (ENum 2) (ENum 3)))]))
                                                   (ENum 1));
                          SExpr (EUnary "diag_log" (EStr "dead"))]))
    (ECode [SExpr (EVar "_exception")]).
Example operand_throw_inhabited : exists v s', zev init_state ex_operand_throw v s' /\ v = RNum 5 /\ st_trace s' = ["in"].
Proof.
  eexists _, _. split.
  eapply ZCatchThrow; operand.
  (* x = (call {..}) + 1: the left operand is left by the throw *)
  eapply ZTAssign, ZLBinL. eapply ZLCallU; operand. eapply ZSLThrow. eapply ZTCons; [operand|]. eapply ZTThrow; operand.
  all: operand. split; reflexivity.
Qed.
(* ... both programs evaluated inside Coq on the reference semantics and on the VM model; and - for the part that is NOT proved - the two
   sides also agree on a throw raised while an operand waits:  try { [1, call { throw (2 + 3) }] } catch { _exception }  yields 5 on both *)
Definition ex_pending_throw : expr :=
  EBinary "catch" (EUnary "try" (ECode [SExpr (EArr [ENum 1; EUnary "call" (ECode [SExpr (EUnary "throw" (EBinary "+" (ENum 2) (ENum 3)))])])]))
                  (ECode [SExpr (EVar "_exception")]).
Example operand_exits_ref_and_vm_agree :
  run_ref 200 ex_operand_break_prog = "OK:V<7>" /\
  run_final (load (create_rt [] 0 0 (100 * 100) 150) (compile_block ex_operand_break_prog)) = "-1:0:3:60095,M<VALUE 7>," /\
  run_ref 200 [SExpr ex_operand_throw] = "OK:M<in>,V<5>" /\
  run_final (load (create_rt [] 0 0 (100 * 100) 150) (compile_block [SExpr ex_operand_throw])) = "-1:0:3:60019,M<in>,3:60095,M<VALUE 5>," /\
  run_ref 200 [SExpr ex_pending_throw] = "OK:V<5>" /\
  run_final (load (create_rt [] 0 0 (100 * 100) 150) (compile_block [SExpr ex_pending_throw])) = "-1:0:3:60095,M<VALUE 5>,".
Proof. repeat split; vm_compute; reflexivity. Qed.

(* ---- exitWith INSIDE AN OPERAND (relations zexexit / zelemsexit, constructors ZBExitIn / ZBExitAssign / ZBExitLocal of zblock in VM/SimExit.v).
   `if c exitWith {..}` with a true condition may stand in any operand position - operand of a unary operator, either operand of a binary one,
   any element of an array, nested - of a statement e, x = e or private _x = e: the scope in which the statement stands ends with the
   handler's value all the same (BExit: C02_vm_runs_blocks_with_exit / C02_ref_runs_blocks_with_exit above speak about such blocks too,
   C02_program_runs_with_exit about a root scope left that way).  What the machine does with the operands that were already evaluated:
   they wait in the part of the operand stack that belongs to the scope that dies; exitWith marks that frame as finished and runs the handler
   as a frame of its own on top of them; when the handler's value arrives, the dead frame completes with it and clear_values drops everything
   above its base - the waiting operands included.  Nothing of the abandoned expression survives, the pending operator and the assignment do
   not run.  Every position is covered (no restriction as for throw: the waiting operands are never looked at again). *)
Theorem C02_ref_operand_exitwith : forall s e v s', zexexit s e v s' ->
  exists f0, forall f, f0 <= f -> eval f s e = (OExit v, s').
Proof. exact (proj1 (proj2 (proj2 (proj2 (proj2 (proj2 (proj2 (proj2 (proj2 (proj2 (proj2 (proj2 (proj2 (proj2 (proj2 (proj2 ref_runs_z)))))))))))))))). Qed.
Print Assumptions C02_ref_operand_exitwith.
Theorem C02_vm_operand_exitwith : forall s e v s', zexexit s e v s' ->
  forall r c f fc rest pre post pend below, Mach s r c f (fc :: rest) ->
    f_code f = pre ++ compile_expr e ++ post -> f_pos f = length pre ->
    c_values c = pend ++ below -> length below = f_base f -> f_base fc <= length below ->
    exists r' c' fc' rest', Steps r r' /\ Mach (pop_scope s') r' c' fc' rest' /\ c_values c' = cv v :: below /\
      kept fc fc' /\ Forall2 kept rest rest'.
Proof. exact (proj1 (proj2 (proj2 (proj2 (proj2 (proj2 (proj2 (proj2 (proj2 (proj2 (proj2 (proj2 (proj2 (proj2 (proj2 (proj2 vm_runs_z)))))))))))))))). Qed.
Print Assumptions C02_vm_operand_exitwith.
Theorem C02_ref_elements_exitwith : forall s l v s', zelemsexit s l v s' ->
  exists f0, forall f, f0 <= f -> forall acc, go_arr f s l acc = (OExit v, s').
Proof. exact (proj2 (proj2 (proj2 (proj2 (proj2 (proj2 (proj2 (proj2 (proj2 (proj2 (proj2 (proj2 (proj2 (proj2 (proj2 (proj2 ref_runs_z)))))))))))))))). Qed.
Print Assumptions C02_ref_elements_exitwith.
Theorem C02_vm_elements_exitwith : forall s l v s', zelemsexit s l v s' ->
  forall r c f fc rest pre post pend below, Mach s r c f (fc :: rest) ->
    f_code f = pre ++ flat_map compile_expr l ++ post -> f_pos f = length pre ->
    c_values c = pend ++ below -> length below = f_base f -> f_base fc <= length below ->
    exists r' c' fc' rest', Steps r r' /\ Mach (pop_scope s') r' c' fc' rest' /\ c_values c' = cv v :: below /\
      kept fc fc' /\ Forall2 kept rest rest'.
Proof. exact (proj2 (proj2 (proj2 (proj2 (proj2 (proj2 (proj2 (proj2 (proj2 (proj2 (proj2 (proj2 (proj2 (proj2 (proj2 (proj2 vm_runs_z)))))))))))))))). Qed.
Print Assumptions C02_vm_elements_exitwith.
(* ... and in the ROOT scope of a program (VM/SimProg.v): the run ends with result `empty`, no frame, exactly the handler's value *)
Theorem C02_vm_operand_exitwith_root : forall s e v s', zexexit s e v s' ->
  forall r c f pre post, Mach s r c f [] -> f_base f = 0 -> f_code f = pre ++ compile_expr e ++ post -> f_pos f = length pre ->
  exists rf cf, Steps r rf /\ cur rf = Some cf /\ c_frames cf = [] /\ c_values cf = [cv v] /\
    world rf = (mnss (st_nss s'), st_trace s') /\ do_iter rf = Ok (Return REmpty rf).
Proof. exact (proj1 (proj2 (proj2 (proj2 (proj2 (proj2 (proj2 (proj2 (proj2 (proj2 (proj2 (proj2 (proj2 (proj2 (proj2 (proj2 root_exits)))))))))))))))). Qed.
Print Assumptions C02_vm_operand_exitwith_root.
(* a derivation:  r = call { x = [1, 2 + (if (true) exitWith { diag_log "h"; 9 }), 3]; diag_log "dead"; 1 }; r   yields 9 and logs h: when exitWith
   runs, the element 1 and the left operand 2 wait in the part of the operand stack that belongs to the scope of the call; that scope ends
   with the handler's value, its part of the stack is dropped, x is not assigned, nothing behind the statement runs *)
Definition ex_operand_exit_prog : list stmt :=
  [SAssign "r" (EUnary "call" (ECode
     [SAssign "x" (EArr [ENum 1;
                         EBinary "+" (ENum 2) (EBinary "exitWith" (EUnary "if" (EBool true))
                                                  (ECode [SExpr (EUnary "diag_log" (EStr "h")); SExpr (ENum 9)]));
                         ENum 3]);
      SExpr (EUnary "diag_log" (EStr "dead")); SExpr (ENum 1)]));
   SExpr (EVar "r")].
Example operand_exitwith_inhabited : exists v s', zprog init_state RNone ex_operand_exit_prog v s' /\ v = RNum 9 /\ st_trace s' = ["h"] /\ glob_of s' "x" = None.
Proof.
  eexists _, _. split. unfold ex_operand_exit_prog.
  eapply ZPCons. eapply ZSAssign; operand.
  eapply ZCallU; operand.
  (* x = [1, 2 + (if (true) exitWith {..}), 3]: the scope of the call ends with the handler's value *)
  eapply ZBExitAssign, ZXArr. eapply ZXETl; operand. eapply ZXEHd. eapply ZXBinR; operand. eapply ZXHere; operand.
  all: operand. repeat split; reflexivity.
Qed.
(* ... and the program evaluated inside Coq on the reference semantics and on the VM model *)
Example operand_exitwith_ref_and_vm_agree :
  run_ref 200 ex_operand_exit_prog = "OK:M<h>,V<9>" /\
  run_final (load (create_rt [] 0 0 (100 * 100) 150) (compile_block ex_operand_exit_prog)) = "-1:0:3:60019,M<h>,3:60095,M<VALUE 9>,".
Proof. split; vm_compute; reflexivity. Qed.

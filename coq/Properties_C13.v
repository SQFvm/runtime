(* C13 - the preprocessor equals the reference expansion; strings are inviolate.
   The theorems (about the reference expander PP/Spec.v, defect setting irrelevant unless stated);
   the lemmas they rest on are in PP/ReaderProofs.v, PP/ExpandProofs.v, PP/TopProofs.v. The reference is tied to
   src/parser/preprocessor/default.cpp by the correspondence run of checks/C13.py.
   This property is partial by construction: no theorem is about a model of default.cpp itself. *)
From Coq Require Import ZArith List Bool Lia.
Import ListNotations.
From SqfVerif Require Import PP.Spec PP.ReaderProofs PP.ExpandProofs PP.TopProofs.
Local Open Scope Z_scope.

(* ---- strings_inviolate ---------------------------------------------------------------------
   reader: from the opening quote to the closing one every byte becomes a character with its own
   position and an empty gap: no comment is cut out, no continuation joined (CR is dropped: S1). *)
Theorem C13_strings_inviolate_reader : forall body rest ln col gap, ~ In QUOTE body -> ~ In CR body ->
  exists ln' col',
  rd RNormal ln col gap (QUOTE :: body ++ QUOTE :: rest) =
  mkpc QUOTE ln col gap :: pos_chars ln (col + 1) (body ++ [QUOTE]) ++ rd RNormal ln' col' [] rest.
Proof. intros. eexists. eexists. simpl. rewrite rd_in_string by auto. reflexivity. Qed.
Print Assumptions C13_strings_inviolate_reader.

(* lexer: the literal is one token - no directive, word or macro name is seen inside *)
Theorem C13_strings_inviolate_lexer : forall q1 sc q2 rest bol,
  pc_b q1 = QUOTE -> pc_b q2 = QUOTE -> Forall (fun c => pc_b c <> QUOTE) sc ->
  lex (MNorm bol) (q1 :: sc ++ q2 :: rest) = LS (q1 :: sc ++ [q2]) :: lex (MNorm bol) rest.
Proof.
  intros q1 sc q2 rest bol Q1 Q2 F. simpl. unfold lex_norm. rewrite Q1. simpl.
  rewrite lex_str_acc by auto. reflexivity.
Qed.
Print Assumptions C13_strings_inviolate_lexer.

(* file level: in an active region the token is written character for character *)
Theorem C13_strings_inviolate_top : forall d file eof_line dfuel incl st s rest,
  active (add_pend st (hid_sum s) true) = true ->
  top d file eof_line dfuel incl st 0 (LS s :: rest) =
  bind (top d file eof_line dfuel incl (add_pend st (hid_sum s) true) 0 rest)
       (fun r => Ok (map (src file) s ++ fst r, snd r)).
Proof. intros d file eof_line dfuel incl st s rest A. simpl. rewrite A. reflexivity. Qed.
Print Assumptions C13_strings_inviolate_top.

(* inside macro arguments and macro bodies *)
Theorem C13_strings_inviolate_args : forall tbl callf inner pm s rest,
  xarg_go tbl callf inner pm 0 (BS s :: rest) =
  bind (xarg_go tbl callf inner pm 0 rest) (fun y => Ok (s ++ y)).
Proof. reflexivity. Qed.
Print Assumptions C13_strings_inviolate_args.
Theorem C13_strings_inviolate_bodies : forall tbl callf pm s rest,
  xbody tbl callf pm 0 (BS s :: rest) = bind (xbody tbl callf pm 0 rest) (fun y => Ok (s ++ y)).
Proof. reflexivity. Qed.
Print Assumptions C13_strings_inviolate_bodies.

(* ---- inactive_never_emitted -----------------------------------------------------------------
   any balanced stretch of an inactive branch (plain text, strings, macro uses, #define, #undef,
   #include, nested #ifdef/#ifndef with #else) contributes newline bytes only, and afterwards the
   macro table and the condition stack are what they were. *)
Theorem C13_inactive_never_emitted : forall d file eof_line dfuel incl toks, inert toks ->
  forall st rest items st', active st = false ->
  top d file eof_line dfuel incl st 0 (toks ++ rest) = Ok (items, st') ->
  exists o st1 items', items = o ++ items' /\ Forall is_nl_item o /\
    ts_tbl st1 = ts_tbl st /\ ts_conds st1 = ts_conds st /\
    top d file eof_line dfuel incl st1 0 rest = Ok (items', st').
Proof. exact inactive_never_emitted. Qed.
Print Assumptions C13_inactive_never_emitted.

(* ---- passthrough ---------------------------------------------------------------------------
   no comment start, continuation or CR (plain), no directive line and no word that is a macro
   (verbatim_tok on the tokens of the text): the body of the output is the text, byte for byte. *)
Theorem C13_passthrough : forall d fs file s,
  plain s -> Forall (verbatim_tok initial_table) (lex (MNorm true) (read s)) ->
  preprocess d fs file s = Ok (OLine 0 file :: map (src file) (read s), initial_table, false) /\
  render (map (src file) (read s)) = s.
Proof. exact passthrough. Qed.
Print Assumptions C13_passthrough.

(* ---- whole_identifier_only -----------------------------------------------------------------
   an identifier is one token however many macro names it contains, and only the whole
   identifier is looked up *)
Theorem C13_identifier_is_one_token : forall w c rest bol, w <> [] -> Forall wordc w -> ~ wordc c ->
  lex (MNorm bol) (w ++ c :: rest) = LW w :: lex (MNorm false) (c :: rest).
Proof.
  intros w c rest bol N W NC. destruct w as [|a w']; [congruence|].
  inversion W as [|x y Wa Ww]; subst. simpl. unfold lex_norm. unfold wordc in Wa. rewrite Wa. simpl.
  rewrite lex_word_acc by auto. reflexivity.
Qed.
Print Assumptions C13_identifier_is_one_token.
Theorem C13_whole_identifier_only : forall d file eof_line dfuel incl st w rest,
  active (add_pend st (hid_sum w) true) = true -> lookup (ts_tbl st) (bytes w) = None ->
  top d file eof_line dfuel incl st 0 (LW w :: rest) =
  bind (top d file eof_line dfuel incl (add_pend st (hid_sum w) true) 0 rest)
       (fun r => Ok (map (src file) w ++ fst r, snd r)).
Proof. exact whole_identifier_only. Qed.
Print Assumptions C13_whole_identifier_only.
(* the positive side: an object-like macro used as a whole identifier is replaced by its expansion *)
Theorem C13_object_macro_expanded : forall d file eof_line dfuel incl st w rest m x,
  active (add_pend st (hid_sum w) true) = true ->
  lookup (ts_tbl st) (bytes w) = Some m -> callable m = false ->
  call dfuel (ts_tbl st) file
       (match rest with t :: _ => match tok_line t with Some l => l | None => eof_line end | [] => eof_line end)
       [] (bytes w) m [] = Ok x ->
  exists st2, top d file eof_line dfuel incl st 0 (LW w :: rest) =
              bind (top d file eof_line dfuel incl st2 0 rest) (fun r => Ok (map mac x ++ fst r, snd r)).
Proof.
  intros d file eof_line dfuel incl st w rest m x A L C E. simpl. rewrite A. unfold top_word. simpl. rewrite L, C.
  simpl in E. rewrite E. simpl. eexists. reflexivity.
Qed.
Print Assumptions C13_object_macro_expanded.

(* ---- define_undef_table -------------------------------------------------------------------- *)
Theorem C13_define_undef_table : forall d file eof_line dfuel incl ds st rest items st',
  active st = true -> Forall wf_ltok ds -> Forall is_defundef ds ->
  top d file eof_line dfuel incl st 0 (ds ++ rest) = Ok (items, st') ->
  exists o st1 items', items = o ++ items' /\ Forall is_nl_item o /\
    ts_tbl st1 = fold_left apply_dir (map dir_or_unknown ds) (ts_tbl st) /\
    ts_conds st1 = ts_conds st /\ top d file eof_line dfuel incl st1 0 rest = Ok (items', st').
Proof. exact define_undef_table. Qed.
Print Assumptions C13_define_undef_table.
Theorem C13_table_laws : forall t n m k,
  lookup (define t n m) n = Some m /\ lookup (remove t n) n = None /\
  (n <> k -> lookup (define t n m) k = lookup t k /\ lookup (remove t n) k = lookup t k).
Proof.
  intros. split; [apply lookup_define_same|]. split; [apply lookup_remove_same|].
  intros. split; [apply lookup_define_other | apply lookup_remove_other]; auto.
Qed.
Print Assumptions C13_table_laws.

(* ---- args_balanced ------------------------------------------------------------------------- *)
Theorem C13_args_balanced : forall np args rest, args <> [] -> Forall (bal true) args -> np <> O ->
  exists n, split_args np (join_args args ++ BC RPAR :: rest) = Some (args, n).
Proof. exact args_balanced. Qed.
Print Assumptions C13_args_balanced.
Theorem C13_string_is_one_argument_token : forall body rest, ~ In QUOTE body ->
  blex (QUOTE :: body ++ QUOTE :: rest) = BS (QUOTE :: body ++ [QUOTE]) :: blex rest.
Proof. intros. unfold blex. simpl. rewrite blex_go_str by auto. reflexivity. Qed.
Print Assumptions C13_string_is_one_argument_token.

(* ---- stringify_concat ---------------------------------------------------------------------- *)
(* #X  ->  "argument" *)
Theorem C13_stringify : forall tbl callf pm x v rest, plookup pm x = Some v ->
  xbody tbl callf pm 0 (BC HASH :: BW x :: rest) =
  bind (xbody tbl callf pm 0 rest) (fun y => Ok (QUOTE :: v ++ [QUOTE] ++ y)).
Proof.
  intros tbl callf pm x v rest P. simpl. unfold hash_value. simpl. unfold word_value. rewrite P. simpl.
  destruct (xbody tbl callf pm 0 rest); simpl; auto. rewrite <- app_assoc. reflexivity.
Qed.
Print Assumptions C13_stringify.
(* X##Y  ->  the two arguments side by side, not scanned again *)
Theorem C13_concat : forall tbl callf pm x y vx vy rest,
  plookup pm x = Some vx -> plookup pm y = Some vy ->
  xbody tbl callf pm 0 (BW x :: BC HASH :: BC HASH :: BW y :: rest) =
  bind (xbody tbl callf pm 0 rest) (fun z => Ok (vx ++ vy ++ z)).
Proof.
  intros tbl callf pm x y vx vy rest Px Py. simpl. unfold word_value at 1. rewrite Px. simpl.
  unfold hash_value. simpl. unfold word_value. rewrite Py. simpl.
  destruct (xbody tbl callf pm 0 rest); simpl; auto.
Qed.
Print Assumptions C13_concat.
(* pre_##X and X##_suf: ordinary text joins the argument *)
Theorem C13_concat_word : forall tbl callf pm x vx w rest,
  plookup pm x = Some vx -> plookup pm w = None -> lookup tbl w = None ->
  xbody tbl callf pm 0 (BW w :: BC HASH :: BC HASH :: BW x :: rest) =
  bind (xbody tbl callf pm 0 rest) (fun z => Ok (w ++ vx ++ z)).
Proof.
  intros tbl callf pm x vx w rest Px Pw Lw. simpl. unfold word_value at 1. rewrite Pw, Lw. simpl.
  unfold hash_value. simpl. unfold word_value. rewrite Px. simpl.
  destruct (xbody tbl callf pm 0 rest); simpl; auto.
Qed.
Print Assumptions C13_concat_word.

(* ---- termination and recursion ------------------------------------------------------------- *)
Theorem C13_call_fuel_enough : forall d tbl cfile cline stack name m args,
  NoDup stack -> incl stack (names tbl) -> lookup tbl name = Some m ->
  (length (names tbl) < d + length stack)%nat ->
  call d tbl cfile cline stack name m args <> Err EOutOfFuel.
Proof. exact call_fuel_enough. Qed.
Print Assumptions C13_call_fuel_enough.
Theorem C13_call_terminates : forall tbl cfile cline name m args, lookup tbl name = Some m ->
  call (S (length tbl)) tbl cfile cline [] name m args <> Err EOutOfFuel.
Proof.
  intros. apply C13_call_fuel_enough; auto.
  - constructor.
  - intros x [].
  - unfold names. rewrite map_length. simpl. lia.
Qed.
Print Assumptions C13_call_terminates.
(* self- and mutually recursive macros are an error outcome, at any fuel that is large enough *)
Theorem C13_recursive_macro_detected : forall d tbl cfile cline stack name m args,
  m_builtin m = None -> length args = nparams m -> mem name stack = true ->
  call (S d) tbl cfile cline stack name m args = Err ERecursiveMacro.
Proof.
  intros d tbl cfile cline stack name m args B A M. simpl. rewrite A, Nat.eqb_refl. simpl. rewrite B, M. reflexivity.
Qed.
Print Assumptions C13_recursive_macro_detected.

(* ---- non-vacuity: the hypotheses are satisfiable, the definitions compute ------------------ *)
Definition bs (l:list Z) := l.
(*  #define F(X,Y) X##Y #X NL #define A 1 NL F(a,(b,c)) A AB "A // x" NL  *)
Definition ex_src : list Z :=
  [35;100;101;102;105;110;101;32;70;40;88;44;89;41;32;88;35;35;89;32;35;88;10;
   35;100;101;102;105;110;101;32;65;32;49;10;
   70;40;97;44;40;98;44;99;41;41;32;65;32;65;66;32;34;65;32;47;47;32;120;34;10].
Example ex_expansion : exists items t h,
  preprocess repaired (fun _ => None) [109] ex_src = Ok (items, t, h) /\
  render items = [35;108;105;110;101;32;48;32;34;109;34;10; 10; 10;
                  97;40;98;44;99;41;32;34;97;34;32;49;32;65;66;32;34;65;32;47;47;32;120;34;10].
Proof. eexists. eexists. eexists. split; vm_compute; reflexivity. Qed.
Example ex_recursive : preprocess repaired (fun _ => None) [109] [35;100;101;102;105;110;101;32;65;32;65;10;65]
                       = Err ERecursiveMacro.
Proof. vm_compute. reflexivity. Qed.
Example ex_plain : plain [120;32;61;32;49;32;47;32;50;59;10;34;97;47;98;34].
Proof.
  simpl. repeat match goal with
  | H: _ = _ |- _ => discriminate H
  | |- _ /\ _ => split
  | |- _ <> _ => discriminate
  | |- _ = _ -> _ => intros ?
  | |- True => exact I end.
Qed.
Example ex_bal : bal true [BW [97]; BC LPAR; BW [98]; BC COMMA; BS [34;44;34]; BC RPAR].
Proof.
  apply bal_tok; [simpl; auto|].
  apply (bal_par true [BW [98]; BC COMMA; BS [34;44;34]] []).
  - apply bal_tok; [simpl; auto|]. apply bal_comma. apply bal_tok; [simpl; auto|]. constructor.
  - constructor.
Qed.

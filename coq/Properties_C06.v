(* C06 - str / literals round-trip, VALUE HALF (booleans, strings, numbers, nested arrays).
   The lemmas behind the theorems are in Num/NumProofs.v, Num/NumFloat.v, Num/NumDig.v. The model (Num/NumDefs.v) is
   tied to d_string.h, d_scalar.cpp, d_array.h, d_boolean.h, tokenizer.hpp and sqf_parser.cpp by the
   correspondence run of checks/C06_values.py. The code half is in coq/Properties_C06_code.v.
   Real-number statements use Flocq's `round` (generic rounding of a real to a format); the assumption
   listings under them name what Coq's classical real numbers rest on. *)
From Coq Require Import ZArith List Lia Reals SpecFloat.
From Flocq Require Import Core BinarySingleNaN.
Import ListNotations.
From SqfVerif Require Import Num.NumDefs Num.NumFloat Num.NumProofs Num.NumDig.
Local Open Scope Z_scope.

(* strings: every byte string (quotes, newlines, any byte) *)
Theorem C06_string_roundtrip : forall s, from_sqf (to_sqf s) = Some s.
Proof. exact string_roundtrip. Qed.
Print Assumptions C06_string_roundtrip.

(* ... and the tokenizer reads the printed text as exactly one string token, unless another quote follows *)
Theorem C06_string_one_token : forall df s rest, not_quote_next rest ->
  next_tok df (to_sqf s ++ rest) = (TStr (to_sqf s), rest).
Proof. exact lex_to_sqf. Qed.
Print Assumptions C06_string_one_token.

(* arrays: the seekp(-1) trick of d_array::to_string_sqf prints the comma separated list in brackets *)
Theorem C06_array_text : forall l, arr_text l = 91 :: join l ++ [93].
Proof. exact arr_text_join. Qed.
Print Assumptions C06_array_text.

(* values of any size and nesting depth: compiling and evaluating `str v` gives v again, and isEqualTo
   holds. printable: numbers satisfy nearest32 (round6 x) = x (DESIGN Appendix B), no inf/NaN.
   Stated for the setting `repaired` (both defect switches off: strtof literal rule, whole-keyword match);
   the keyword switch is irrelevant here (C06_string_one_token, C06_g6_relex hold for every setting). *)
Theorem C06_value_roundtrip : forall v, printable v ->
  exists v', read_all repaired (str_value v) = Ok v' /\ veq v' v = true /\ v' = v.
Proof. exact value_roundtrip. Qed.
Print Assumptions C06_value_roundtrip.

(* the same inside any context that continues with a separator, for every sufficient fuel: the fuel of read_all
   (twice the text length) is never exhausted *)
Theorem C06_value_roundtrip_in_context : forall v, printable v -> forall fuel rest,
  (vfuel v <= fuel)%nat -> vstop rest -> read_value repaired fuel (str_value v ++ rest) = Ok (v, rest).
Proof. exact read_str_value. Qed.
Print Assumptions C06_value_roundtrip_in_context.

Theorem C06_bool_roundtrip : forall b, read_all repaired (str_value (VBool b)) = Ok (VBool b).
Proof. intro b. now apply read_all_str_value. Qed.
Print Assumptions C06_bool_roundtrip.

Theorem C06_array_roundtrip : forall l, Forall printable l -> read_all repaired (str_value (VArr l)) = Ok (VArr l).
Proof. intros l H. apply read_all_str_value. now apply printable_arr. Qed.
Print Assumptions C06_array_roundtrip.

Theorem C06_veq_refl : forall v, printable v -> veq v v = true.
Proof. exact veq_refl. Qed.
Print Assumptions C06_veq_refl.

(* numbers: what %g prints is one number token, and it spells round6 x, the nearest six-digit decimal *)
Theorem C06_g6_relex : forall df s m e rest,
  valid_binary 24 128 (S754_finite s m e) = true -> vstop rest ->
  let q := fst (round6 (S754_finite s m e)) in let ex := snd (round6 (S754_finite s m e)) in
  fmt_g6 (S754_finite s m e) = sgn s ++ print_g q ex /\
  next_tok df (print_g q ex ++ rest) = (TNum (print_g q ex), rest) /\
  dec_R (fst (dec_of (print_g q ex))) (snd (dec_of (print_g q ex))) = dec_R q ex /\
  dec_R q ex = round radix10 (FLX_exp 6) ZnearestE (F2R (Float radix2 (Zpos m) e)).
Proof. exact g6_relex. Qed.
Print Assumptions C06_g6_relex.

(* literals: with the repaired rule a NUMBER token is the binary32 nearest to the decimal it spells *)
Theorem C06_literal_value : forall t D X, dec_of t = (D, X) ->
  (D <= 0 -> lit_num repaired t = (S754_zero false, false)) /\
  (0 < D ->
     if Rlt_bool (Rabs (round radix2 (SpecFloat.fexp 24 128) ZnearestE (dec_R D X))) (bpow radix2 128) then
       exists z, lit_num repaired t = (z, false) /\ valid_binary 24 128 z = true /\
                 SF2R radix2 z = round radix2 (SpecFloat.fexp 24 128) ZnearestE (dec_R D X) /\
                 is_finite_SF z = true /\ sign_SF z = false
     else lit_num repaired t = (S754_nan, true)).
Proof.
  intros t D X Hd. unfold lit_num. rewrite Hd. unfold lit_of_dec. cbn [d_stod_cast repaired]. split.
  - intro H0. unfold nearest32_dec. now rewrite (proj2 (Z.leb_le D 0) H0).
  - intro HD. destruct (nearest32_dec_spec D X HD) as [Hv Hs].
    destruct (Rlt_bool (Rabs (round radix2 (SpecFloat.fexp 24 128) ZnearestE (dec_R D X))) (bpow radix2 128)).
    + destruct Hs as (HR & HF & HS). exists (nearest32_dec D X). repeat split; try assumption.
      destruct (nearest32_dec D X); try reflexivity; discriminate.
    + now rewrite Hs.
Qed.
Print Assumptions C06_literal_value.

(* ... the rule of the unchanged code (std::stod, then conversion to float) does not: double rounding, and
   NaN for decimals below the smallest normal double *)
Theorem C06_literal_value_refuted :
  exists t D X, fst (next_tok as_is t) = TNum t /\ dec_of t = (D, X) /\ 0 < D /\
                fst (lit_num as_is t) <> nearest32_dec D X.
Proof.
  exists witness_double_rounding. eexists. eexists. split; [vm_compute; reflexivity|].
  split; [vm_compute; reflexivity|]. split; [reflexivity|]. vm_compute. discriminate.
Qed.
Print Assumptions C06_literal_value_refuted.

Theorem C06_literal_value_refuted_witnesses :
  (fst (next_tok as_is witness_double_rounding) = TNum witness_double_rounding /\
   lit_num as_is witness_double_rounding = (S754_finite false 8388608 (-23), false) /\
   lit_num repaired witness_double_rounding = (S754_finite false 8388609 (-23), false)) /\
  (fst (next_tok as_is witness_tiny) = TNum witness_tiny /\
   lit_num as_is witness_tiny = (S754_nan, true) /\
   lit_num repaired witness_tiny = (S754_zero false, false)).
Proof.
  split; [vm_compute; repeat split|]. split; [reflexivity|].
  unfold lit_num. change (dec_of witness_tiny) with (1, -320).
  unfold lit_of_dec, stod, nearest32_dec. cbn [d_stod_cast as_is repaired]. change (1 <=? 0) with false. cbn iota.
  (* 1e-320 is the quotient 1 / 10^320, which is 2024 * 2^-1074 and a remainder in binary64 and below 2^-149 in
     binary32. The denominator is let-bound, so that one evaluation computes it once, and the quotients are given:
     the whole is then cheap to check also outside the VM. *)
  change (ratio_of 1 (-320)) with (1, 10 ^ 320). set (q := 10 ^ 320). cbn iota.
  rewrite (round_ratio_guess_eq 53 1024 1 q 2024), (round_ratio_guess_eq 24 128 1 q 0).
  vm_compute. split; reflexivity.
Qed.
Print Assumptions C06_literal_value_refuted_witnesses.

(* what the unchanged rule computes when stod does not throw: the decimal rounded to binary64, rounded again to binary32 *)
Theorem C06_literal_value_as_is : forall t D X dbl, dec_of t = (D, X) -> 0 < D ->
  stod D X = Some dbl ->
  lit_num as_is t = (cast32 dbl, false) /\
  SF2R radix2 dbl = round radix2 (SpecFloat.fexp 53 1024) ZnearestE (dec_R D X) /\
  (Rabs (round radix2 (SpecFloat.fexp 24 128) ZnearestE (round radix2 (SpecFloat.fexp 53 1024) ZnearestE (dec_R D X))) < bpow radix2 128 ->
   SF2R radix2 (cast32 dbl) =
   round radix2 (SpecFloat.fexp 24 128) ZnearestE (round radix2 (SpecFloat.fexp 53 1024) ZnearestE (dec_R D X)))%R.
Proof.
  intros t D X dbl Hd HD Hs. rewrite <- (stod_spec D X dbl HD Hs). split; [|split; [reflexivity|apply cast32_spec]].
  unfold lit_num. rewrite Hd. unfold lit_of_dec. cbn [d_stod_cast as_is]. now rewrite Hs.
Qed.
Print Assumptions C06_literal_value_as_is.

(* hexadecimal literals: nearest binary32 of the integer; from 2^63 on the out-of-range path *)
Theorem C06_literal_hex_value : forall t,
  let h := hex_int t in
  (2 ^ 63 <= h -> lit_hex t = (S754_nan, true)) /\
  (h <= 0 -> lit_hex t = (S754_zero false, false)) /\
  (0 < h < 2 ^ 63 -> exists z, lit_hex t = (z, false) /\ valid_binary 24 128 z = true /\
                               SF2R radix2 z = round radix2 (SpecFloat.fexp 24 128) ZnearestE (IZR h) /\
                               is_finite_SF z = true).
Proof.
  intros t h. unfold lit_hex. fold (hex_int t). fold h. repeat split.
  - intro H. now rewrite (proj2 (Z.leb_le _ _) H).
  - intro H. rewrite (proj2 (Z.leb_gt (2 ^ 63) h)) by lia. destruct h; try reflexivity. lia.
  - intros [H0 H63]. rewrite (proj2 (Z.leb_gt (2 ^ 63) h)) by lia. destruct h as [|p|p]; try lia.
    eexists. split; [reflexivity|]. now apply float_of_int63.
Qed.
Print Assumptions C06_literal_hex_value.

(* FLT_DIG: every decimal of at most six significant digits whose nearest binary32 is a normal number is
   printed back as that decimal, hence compiles back to the same binary32 (printable) *)
Theorem C06_dec6_survives : forall n k m e,
  0 < n < 1000000 -> (bpow radix2 (-126) <= dec_R n k)%R ->
  nearest32_dec n k = S754_finite false m e ->
  dec_R (fst (dec6_of m e)) (snd (dec6_of m e)) = dec_R n k /\
  nearest32_dec (fst (dec6_of m e)) (snd (dec6_of m e)) = S754_finite false m e.
Proof. exact dec6_survives. Qed.
Print Assumptions C06_dec6_survives.

(* non-vacuity *)
Example C06_printable_example :
  printable (VArr [VNum (decode32 0x3f800000); VNum (decode32 0xc2f6e979); VStr [97; 34; 10]; VArr []; VBool true;
                   VArr [VNum (decode32 0x80000000); VNum (decode32 0x49742400)]]).
Proof. vm_compute. repeat split. Qed.
Example C06_dec6_survives_example :
  nearest32_dec 123456 (-3) = S754_finite false 16181625 (-17) /\ fmt_g6 (S754_finite false 16181625 (-17)) = [49;50;51;46;52;53;54].
Proof. vm_compute. split; reflexivity. Qed.

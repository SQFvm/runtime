(* C19 - execution control (start / stop / abort / assembly step / line step / leave scope) follows its state machine,
   one action after another and with a controller thread beside the executing thread.
   Sequential theorems are about API/CtlDefs.execute_ctl (VmExec.execute plus line_step / leave_scope with a position table)
   for the code WITH the repairs proposed in /verif/proposed_fixes/C19-01..04; the ..._refuted theorems show what the
   code does without them.  Concurrent theorems are about the interleaving model API/Interleave.v (plain fields as
   sequentially consistent registers; C++ data races are outside the model: the property is shown only in part). *)
From Coq Require Import String ZArith List Bool.
From SqfVerif Require Import Gen.ResultMap VM.VmDefs VM.VmExec API.CtlDefs API.CtlProofs API.Interleave.
Import ListNotations.
Local Open Scope list_scope.

(* the result -> state table is the one in the source *)
Theorem C19_state_of_result_uniform :
  (forall blk, In blk state_switches -> snd blk = model_switch) /\
  (forall a, In a ["start"; "assembly_step"; "line_step"; "leave_scope"]%string -> exists t, In (a, t) state_switches) /\
  (forall x r, r_state (state_of_result x r) = CtlProofs.table x) /\
  enums_ok = true.
Proof.
  destruct (switches_ok_spec eq_refl) as [A B]. split; [exact A|]. split; [exact B|]. split; [exact state_of_result_table|reflexivity].
Qed.
Print Assumptions C19_state_of_result_uniform.

(* result and next state of every action from every state *)
Theorem C19_sequential_table : forall dg a r x r', execute_ctl ctl_repaired dg a r = Ok (x, r') ->
  match a with
  | AStop =>
      match r_state r, r_run r with
      | StRunning, true => x = ROk /\ r' = set_exit_req r true
      | _, _ => x = RActionError /\ r' = r end
  | AAbort =>
      match r_state r, r_run r with
      | StRunning, true => x = ROk /\ r' = set_exit_req r true
      | StHalted, false | StHaltedError, false =>
          x = ROk /\ r_state r' = StEmpty /\ r_ctxs r' = [] /\ r_active r' = None /\ r_run r' = false
      | _, _ => x = RActionError /\ r' = r end
  | _ =>
      if r_run r then x = RActionError /\ r' = r
      else (x = ROk \/ x = REmpty \/ x = RRuntimeError) /\ r_run r' = false /\
           r_state r' = (if r_exit_req r' then StEmpty else CtlProofs.table x) /\
           (r_exit_req r' = true -> r_ctxs r' = [] /\ r_active r' = None)
  end.
Proof. exact sequential_table. Qed.
Print Assumptions C19_sequential_table.

Theorem C19_abort_on_halted_clears : forall dg r x r', r_run r = false -> (r_state r = StHalted \/ r_state r = StHaltedError) ->
  execute_ctl ctl_repaired dg AAbort r = Ok (x, r') ->
  x = ROk /\ r_ctxs r' = [] /\ r_active r' = None /\ r_state r' = StEmpty /\ r_run r' = false.
Proof. exact abort_on_halted_clears. Qed.
Print Assumptions C19_abort_on_halted_clears.

(* after any history of actions that returned, the run flag is free and the state is not `running`: every executing action is
   accepted again (never action_error), and abort discards a halted script *)
Theorem C19_always_accepting : forall dg r l r', idle r -> history dg r l r' ->
  idle r' /\
  (forall a x r'', executing a = true -> execute_ctl ctl_repaired dg a r' = Ok (x, r'') -> x <> RActionError) /\
  (r_state r' = StHalted \/ r_state r' = StHaltedError ->
   execute_ctl ctl_repaired dg AAbort r' = Ok (ROk, set_run (set_state (set_active (set_ctxs r' []) None) StEmpty) false)).
Proof. exact always_accepting. Qed.
Print Assumptions C19_always_accepting.

(* an assembly step: passes of the execute_do loop that only complete frames, then exactly one executed instruction -
   unless an exit request, a finished / suspended / failing script ends it first *)
Theorem C19_assembly_step_one : forall dg r x r', r_run r = false ->
  execute_ctl ctl_repaired dg AAssemblyStep r = Ok (x, r') ->
  exists r1, one_step (resolve_active (set_state (enter r) StRunning)) x r1 /\ r' = finish_action x r1.
Proof. exact assembly_step_one. Qed.
Print Assumptions C19_assembly_step_one.

(* a line step that began in front of an instruction of line (fst p0): its instruction steps all stay on that line (or at the end
   of a scope, where it continues in the caller); if it returns ok without having been stopped, the next instruction of the
   innermost scope is on another line *)
Theorem C19_line_step_stops_at_line_change : forall dg r x r' p0, r_run r = false -> r_ctxs r <> [] ->
  execute_ctl ctl_repaired dg ALineStep r = Ok (x, r') ->
  (exists f, look ctl_repaired (set_state (enter r) StRunning) = Ok (resolve_active (set_state (enter r) StRunning), Some f) /\
             peek_pos ctl_repaired dg f = Ok (Some p0)) ->
  exists r1, line_steps dg (fst p0) (resolve_active (set_state (enter r) StRunning)) x r1 /\ r' = finish_action x r1 /\
    (x = ROk -> loop_on r1 = true -> exists l, next_line dg r1 = Some l /\ l <> fst p0).
Proof. exact line_step_stops_at_line_change. Qed.
Print Assumptions C19_line_step_stops_at_line_change.

(* at most one agent is between a successful compare_exchange on the run flag and the store of false, in every reachable
   state of the interleaving of two agents issuing arbitrary actions (b = false) *)
Theorem C19_mutual_exclusion : forall b s, reachable b s ->
  (in_cs (pc0 s) = true -> in_cs (pc1 s) = true -> False) /\ run s = orb (in_cs (pc0 s)) (in_cs (pc1 s)).
Proof. exact mutual_exclusion. Qed.
Print Assumptions C19_mutual_exclusion.

(* no deadlock: an agent inside execute() always has its next atomic step enabled; when both are outside, the run flag is
   free and the state is not `running`, so actions are accepted again *)
Theorem C19_never_stuck : forall b s, reachable b s ->
  (pc0 s <> Idle -> moves (pc0 s) s <> []) /\ (pc1 s <> Idle -> moves (pc1 s) s <> []) /\
  (pc0 s = Idle -> pc1 s = Idle -> run s = false /\ state s <> SRunning).
Proof. exact never_stuck. Qed.
Print Assumptions C19_never_stuck.

(* the executing thread issues one action, the controller anything: once a stop/abort was accepted the executor executes at
   most ONE more instruction (g never reaches GBad), and if the request was stored before the executor's last test of it,
   all scripts are gone and the state is empty when the executor hands the run flag back *)
Theorem C19_stop_abort_bounded : forall s, reachable true s ->
  g s <> GBad /\
  (forall k x, pc0 s = XRelease k x -> (g s = GReq0 \/ g s = GReq1) -> state s = SEmpty /\ cx s = false).
Proof. exact stop_abort_bounded. Qed.
Print Assumptions C19_stop_abort_bounded.

(* the full statement `every accepted stop/abort takes effect` is refuted by the faithful model: the test of state/run flag
   and the store of the request are two steps *)
Theorem C19_stop_lost_across_actions_refuted : exists s, reachable false s /\ g s = GBad /\ ex s = false /\ pc1 s = Idle.
Proof. exact stop_lost_across_actions_refuted. Qed.
Print Assumptions C19_stop_lost_across_actions_refuted.

Theorem C19_accepted_abort_can_miss_refuted :
  exists s, reachable true s /\ g s = GLate /\ pc0 s = Idle /\ pc1 s = Idle /\ state s = SHalted /\ cx s = true /\ ex s = true.
Proof. exact accepted_abort_can_miss_refuted. Qed.
Print Assumptions C19_accepted_abort_can_miss_refuted.

Definition flat_dg : code -> nat -> nat * nat := fun _ i => (0, i).    (* everything on line 0, one column per instruction *)
Definition two_lines : code -> nat -> nat * nat := fun _ i => (if Nat.ltb i 3 then 0 else 1, i).
Definition prog : code := [IPush (VNum 1); IAssign "a"; IEnd; IPush (VNum 2); IAssign "b"]%string.
Definition empty_vm : rt := create_rt [] 0 0 10000 150.
Definition loaded_vm : rt := load empty_vm prog.

(* an outcome decided by evaluation: result and state are compared by their numbers, the machine is not written out *)
Definition ends_in (o:res (rresult * rt)) (x:rresult) (s:rstate) : bool :=
  match o with
  | Ok (x', r') => andb (Z.eqb (result_num x') (result_num x)) (Z.eqb (CtlProofs.state_num (r_state r')) (CtlProofs.state_num s))
  | _ => false end.
Lemma ends_in_ok : forall o x s, ends_in o x s = true -> exists r', o = Ok (x, r') /\ r_state r' = s.
Proof.
  intros o x s H. destruct o as [[x' r']| | |]; try discriminate. apply andb_prop in H. destruct H as [Hx Hs].
  exists r'. split; [destruct x', x; try discriminate Hx; reflexivity|destruct (r_state r'), s; try discriminate Hs; reflexivity].
Qed.

(* C19-01: start / line_step on a runtime without scripts: invalid, halted_error *)
Theorem C19_no_script_is_an_error_refuted :
  (exists r', execute_ctl ctl_as_is flat_dg AStart empty_vm = Ok (RInvalid, r') /\ r_state r' = StHaltedError) /\
  (exists r', execute_ctl ctl_as_is flat_dg ALineStep empty_vm = Ok (RInvalid, r') /\ r_state r' = StHaltedError) /\
  (exists r', execute_ctl ctl_repaired flat_dg AStart empty_vm = Ok (REmpty, r') /\ r_state r' = StEmpty).
Proof. repeat split; apply ends_in_ok; vm_compute; reflexivity. Qed.
Print Assumptions C19_no_script_is_an_error_refuted.

(* C19-02: leave_scope on an empty runtime and line_step on a loaded, never started one go through the null active context;
   line_step after the script was stepped to its end calls current_frame() on a context without frames *)
Theorem C19_null_active_context_refuted :
  (exists w, execute_ctl ctl_as_is flat_dg ALeaveScope empty_vm = UB w) /\
  (exists w, execute_ctl ctl_as_is flat_dg ALineStep loaded_vm = UB w) /\
  (exists w, execute_ctl ctl_as_is flat_dg ALeaveScope loaded_vm = UB w) /\
  (exists x r', execute_ctl ctl_repaired flat_dg ALineStep loaded_vm = Ok (x, r')) /\
  (exists x r', execute_ctl ctl_repaired flat_dg ALeaveScope empty_vm = Ok (x, r')).
Proof.
  assert (Returns : forall o:res (rresult * rt), (match o with Ok _ => true | _ => false end) = true -> exists x r', o = Ok (x, r')).
  { intros o H. destruct o as [[x r']| | |]; try discriminate. eauto. }
  repeat split; try (eexists; vm_compute; reflexivity); apply Returns; vm_compute; reflexivity.
Qed.
Print Assumptions C19_null_active_context_refuted.

(* C19-03: with both statements on one line, a line step of the unrepaired code (after one assembly step) advances by ONE
   instruction; the repaired one runs the whole line.  With two lines the repaired step stops in front of line 1. *)
Definition top_pos (o:res (rresult * rt)) : option nat :=
  match o with Ok (_, r) => match r_ctxs r with c :: _ => match c_frames c with f :: _ => Some (f_pos f) | [] => None end | [] => None end | _ => None end.
Definition after_one_step (d:cdefects) (dg:code -> nat -> nat * nat) : res (rresult * rt) :=
  match execute_ctl d dg AAssemblyStep loaded_vm with Ok (_, r) => execute_ctl d dg ALineStep r | o => o end.
Theorem C19_line_step_is_instruction_step_refuted :
  top_pos (after_one_step ctl_as_is flat_dg) = Some 2 /\
  (exists r', after_one_step ctl_repaired flat_dg = Ok (REmpty, r')) /\
  top_pos (execute_ctl ctl_repaired two_lines ALineStep loaded_vm) = Some 3.
Proof.
  split; [vm_compute; reflexivity|]. split; [|vm_compute; reflexivity].
  assert (E : ends_in (after_one_step ctl_repaired flat_dg) REmpty StEmpty = true) by (vm_compute; reflexivity).
  apply ends_in_ok in E. destruct E as [r' [E _]]. exists r'. exact E.
Qed.
Print Assumptions C19_line_step_is_instruction_step_refuted.

(* non-vacuity *)
Example ex_history : exists r', history flat_dg loaded_vm [(AAssemblyStep, ROk); (ALineStep, REmpty); (AStart, REmpty)] r' /\ idle r'.
Proof.
  set (l := [(AAssemblyStep, ROk); (ALineStep, REmpty); (AStart, REmpty)]).
  assert (E : match replay flat_dg loaded_vm l with
              | Some r' => andb (negb (r_run r')) (negb (Z.eqb (CtlProofs.state_num (r_state r')) (CtlProofs.state_num StRunning)))
              | None => false end = true) by (vm_compute; reflexivity).
  destruct (replay flat_dg loaded_vm l) as [r'|] eqn:R; [|discriminate]. apply andb_prop in E. destruct E as [E1 E2].
  exists r'. split; [exact (replay_history flat_dg l _ _ R)|]. split; [apply negb_true_iff; exact E1|].
  intros S. rewrite S in E2. discriminate.
Qed.
Example ex_idle_initial : idle empty_vm /\ idle loaded_vm.
Proof. repeat split; discriminate. Qed.

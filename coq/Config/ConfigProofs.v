(* Proofs about the config host model (Config/ConfigDefs.v).  A comment that begins "C15:" says which
   claim of Properties_C15.v the lemma carries. *)
From Coq Require Import ZArith List Bool Arith Lia.
Import ListNotations.
From SqfVerif Require Import Config.ConfigDefs.

Lemma eqs_refl : forall a, eqs a a = true.
Proof. induction a as [|x a IH]; cbn; [reflexivity|]. rewrite Z.eqb_refl. exact IH. Qed.
Lemma eqs_eq : forall a b, eqs a b = true <-> a = b.
Proof.
  induction a as [|x a IH]; destruct b as [|y b]; cbn; split; intro H; try reflexivity; try discriminate.
  - apply andb_true_iff in H. destruct H as [H1 H2]. apply Z.eqb_eq in H1. apply IH in H2. congruence.
  - inversion H; subst. rewrite Z.eqb_refl. cbn. apply eqs_refl.
Qed.
Lemma eqs_neq : forall a b, eqs a b = false <-> a <> b.
Proof.
  intros a b. split; intro H.
  - intro E. apply eqs_eq in E. congruence.
  - destruct (eqs a b) eqn:E; [|reflexivity]. apply eqs_eq in E. contradiction.
Qed.
Lemma cid_eqb_eq : forall a b, cid_eqb a b = true <-> a = b.
Proof.
  intros [x|] [y|]; cbn; split; intro H; try reflexivity; try discriminate.
  - apply Nat.eqb_eq in H. congruence.
  - inversion H. apply Nat.eqb_refl.
Qed.

Lemma mfind_mset_same : forall m k v, mfind (mset m k v) k = Some v.
Proof.
  induction m as [|[k' v'] m IH]; intros k v; cbn.
  - now rewrite eqs_refl.
  - destruct (eqs k' k) eqn:E; cbn; rewrite E; auto.
Qed.
Lemma mfind_mset_other : forall m k v k', k <> k' -> mfind (mset m k v) k' = mfind m k'.
Proof.
  induction m as [|[k0 v0] m IH]; intros k v k' N; cbn.
  - apply eqs_neq in N. now rewrite N.
  - destruct (eqs k0 k) eqn:E; cbn.
    + apply eqs_eq in E. subst k0. apply eqs_neq in N. now rewrite N.
    + destruct (eqs k0 k'); auto.
Qed.

Lemma upd_length : forall h n f, length (upd h n f) = length h.
Proof. induction h as [|c h IH]; intros [|n] f; cbn; auto. Qed.
Lemma nth_upd_same : forall h n f c, nth_error h n = Some c -> nth_error (upd h n f) n = Some (f c).
Proof. induction h as [|c0 h IH]; intros [|n] f c H; cbn in *; try discriminate; [congruence|auto]. Qed.
Lemma nth_upd_other : forall h n f m, m <> n -> nth_error (upd h n f) m = nth_error h m.
Proof.
  induction h as [|c0 h IH]; intros [|n] f [|m] N; cbn; auto; try congruence.
Qed.
Lemma nth_upd : forall h n f m,
  nth_error (upd h n f) m = if Nat.eqb m n then option_map f (nth_error h m) else nth_error h m.
Proof.
  intros h n f m. destruct (Nat.eqb_spec m n) as [->|N].
  - destruct (nth_error h n) as [c|] eqn:E; cbn.
    + now apply nth_upd_same.
    + apply nth_error_None. rewrite upd_length. now apply nth_error_None.
  - now apply nth_upd_other.
Qed.
Lemma upd_out : forall h n f, length h <= n -> upd h n f = h.
Proof. induction h as [|c h IH]; intros [|n] f L; cbn in *; auto; try lia. f_equal. apply IH. lia. Qed.
Lemma upd_app_last : forall h c f, upd (h ++ [c]) (length h) f = h ++ [f c].
Proof. induction h as [|c0 h IH]; intros c f; cbn; auto. now rewrite IH. Qed.
Lemma nth_app_last : forall (h : host) c, nth_error (h ++ [c]) (length h) = Some c.
Proof. intros. rewrite nth_error_app2 by lia. now rewrite Nat.sub_diag. Qed.

Lemma bind_ok : forall A B (r : res A) (f : A -> res B) y,
  bind r f = Ok y -> exists a, r = Ok a /\ f a = Ok y.
Proof. intros A B [a| |] f y H; cbn in H; try discriminate. eauto. Qed.
Tactic Notation "bind_inv" hyp(H) "as" ident(a) ident(Ha) :=
  apply bind_ok in H; destruct H as [a [Ha H]].
Lemma get_ok : forall h n c, get h n = Ok c <-> nth_error h n = Some c.
Proof. intros. unfold get. destruct (nth_error h n); split; intro H; inversion H; auto. Qed.

Definition links := nat -> option nat.
Definition updl (p : links) (x : nat) (b : option nat) : links := fun y => if Nat.eqb y x then b else p y.
Definition inh_of (h : host) : links :=
  fun n => match nth_error h n with Some c => c_pinh c | None => None end.

(* does the walk from y end within n steps?  (the loop of lookup_in_inherited on a missing name) *)
Fixpoint ends (n : nat) (p : links) (y : nat) : bool :=
  match n with O => false | S n' => match p y with None => true | Some z => ends n' p z end end.
(* does the walk from y meet x within n steps (y itself included)? *)
Fixpoint hits (n : nat) (p : links) (y x : nat) : bool :=
  if Nat.eqb y x then true else
  match n with O => false | S n' => match p y with None => false | Some z => hits n' p z x end end.

Definition Terminating (p : links) : Prop := forall y, exists n, ends n p y = true.
(* the inherited-parent relation of a host is acyclic: every walk along id_parent_inherited ends *)
Definition Acyclic (h : host) : Prop := Terminating (inh_of h).
(* the usual reading: some node comes back to itself *)
Fixpoint iter_link (k : nat) (p : links) (y : nat) : option nat :=
  match k with O => Some y | S k' => match p y with None => None | Some z => iter_link k' p z end end.
Definition Cyclic (p : links) : Prop := exists y k, iter_link (S k) p y = Some y.

Lemma ends_mono : forall n p y, ends n p y = true -> forall m, n <= m -> ends m p y = true.
Proof.
  induction n as [|n IH]; intros p y H m L; [discriminate|]. destruct m as [|m]; [lia|]. cbn in *.
  destruct (p y); auto. apply IH; auto. lia.
Qed.
Lemma ends_ext : forall n p q y, (forall z, p z = q z) -> ends n p y = ends n q y.
Proof. induction n as [|n IH]; intros p q y E; cbn; auto. rewrite <- E. destruct (p y); auto. Qed.
Lemma hits_self : forall n p y, hits n p y y = true.
Proof. intros [|n] p y; cbn; now rewrite Nat.eqb_refl. Qed.

Lemma ends_cut : forall n p q y, (forall z, q z = p z \/ q z = None) -> ends n p y = true -> ends n q y = true.
Proof.
  induction n as [|n IH]; intros p q y C E; [discriminate|]. cbn in *.
  destruct (C y) as [-> | ->]; [|reflexivity]. destruct (p y); [now apply (IH p)|reflexivity].
Qed.

Definition in_range (p : links) (N : nat) : Prop := forall y z, p y = Some z -> y < N /\ z < N.

Lemma hits_in_range : forall n p N y z, in_range p N -> y < N -> hits n p y z = true -> z < N.
Proof.
  induction n as [|n IH]; intros p N y z R Ly H; cbn in H.
  - destruct (Nat.eqb_spec y z); [lia|discriminate].
  - destruct (Nat.eqb_spec y z); [lia|]. destruct (p y) as [w|] eqn:Py; [|discriminate].
    apply (IH p N w z R); auto. now apply (R y w).
Qed.
Lemma inh_in_range : forall h, (forall n c b, nth_error h n = Some c -> c_pinh c = Some b -> b < length h) ->
  in_range (inh_of h) (length h).
Proof.
  intros h W y z H. unfold inh_of in H. destruct (nth_error h y) as [c|] eqn:E; [|discriminate].
  split; [apply nth_error_Some; congruence|]. eapply W; eauto.
Qed.

Lemma iter_ends : forall k p y z n, iter_link k p y = Some z -> ends (k + n) p y = ends n p z.
Proof.
  induction k as [|k IH]; intros p y z n H; cbn in *; [congruence|].
  destruct (p y) as [w|]; [|discriminate]. now apply IH.
Qed.
Lemma iter_no_end : forall j p y z, iter_link j p y = Some z -> forall m, m <= j -> ends m p y = false.
Proof.
  induction j as [|j IH]; intros p y z H m L.
  - assert (m = 0) by lia. subst. reflexivity.
  - destruct m as [|m]; [reflexivity|]. cbn in *. destruct (p y) as [w|]; [|discriminate].
    apply (IH p w z H). lia.
Qed.
Lemma hits_iter : forall n p z y, hits n p z y = true -> exists k, k <= n /\ iter_link k p z = Some y.
Proof.
  induction n as [|n IH]; intros p z y H; cbn in H.
  - destruct (Nat.eqb_spec z y); [|discriminate]. subst. exists 0. split; auto.
  - destruct (Nat.eqb_spec z y) as [->|N]; [exists 0; split; [lia|reflexivity]|].
    destruct (p z) as [w|] eqn:Pz; [|discriminate].
    destruct (IH p w y H) as [k [L E]]. exists (S k). split; [lia|]. cbn. now rewrite Pz.
Qed.

Lemma loop_no_end : forall p w k, iter_link (S k) p w = Some w -> forall m, ends m p w = false.
Proof.
  intros p w k Hk. induction m as [m IHm] using lt_wf_ind.
  destruct (le_lt_dec (S k) m) as [L|L].
  - replace m with (S k + (m - S k)) by lia. rewrite (iter_ends _ _ _ _ _ Hk). apply IHm. lia.
  - apply (iter_no_end _ _ _ _ Hk). lia.
Qed.
Lemma loop_blocks : forall p y w j k, hits j p y w = true -> iter_link (S k) p w = Some w ->
  forall m, ends m p y = false.
Proof.
  intros p y w j k Hj Hk m. destruct (hits_iter _ _ _ _ Hj) as [i [_ Ei]].
  destruct (le_lt_dec i m) as [L|L].
  - replace m with (i + (m - i)) by lia. rewrite (iter_ends _ _ _ _ _ Ei). exact (loop_no_end p w k Hk _).
  - apply (iter_no_end _ _ _ _ Ei). lia.
Qed.
Lemma cyclic_not_terminating : forall p, Cyclic p -> ~ Terminating p.
Proof. intros p [y [k Hk]] T. destruct (T y) as [n Hn]. rewrite (loop_no_end p y k Hk) in Hn. discriminate. Qed.

(* pigeonhole (no classical axiom: the walk is computed): a walk that has not ended after more steps than
   the set it lives in has nodes has met a node that comes back to itself *)
Lemma long_walk_loops_set : forall (S0 : list nat) n p y,
  (forall z, hits n p y z = true -> In z S0) -> length S0 < n -> ends n p y = false ->
  exists w k, hits n p y w = true /\ iter_link (S k) p w = Some w.
Proof.
  intros S0. remember (length S0) as l eqn:El. revert S0 El.
  induction l as [l IHl] using lt_wf_ind. intros S0 El n p y Hin L He.
  destruct n as [|n]; [lia|]. cbn in He. destruct (p y) as [z|] eqn:Py; [|discriminate].
  destruct (hits n p z y) eqn:Hz.
  - destruct (hits_iter _ _ _ _ Hz) as [k [_ Ek]]. exists y, k. split; [apply hits_self|]. cbn. now rewrite Py.
  - (* the walk from z never sees y again: drop y from the set *)
    assert (Step : forall w, hits n p z w = true -> hits (S n) p y w = true).
    { intros w Hw. cbn. destruct (Nat.eqb y w); auto. now rewrite Py. }
    pose (S1 := remove Nat.eq_dec y S0).
    assert (L1 : length S1 < length S0) by (apply remove_length_lt; apply Hin; apply hits_self).
    destruct (IHl (length S1) ltac:(lia) S1 eq_refl n p z) as [w [k [Hw Hk]]]; try lia; auto.
    + intros w Hw. apply in_in_remove; [intro E; subst w; congruence|]. apply Hin. now apply Step.
    + exists w, k. split; [now apply Step|exact Hk].
Qed.
Lemma long_walk_loops : forall p N y, in_range p N -> ends (S N) p y = false ->
  exists w k, hits (S N) p y w = true /\ iter_link (S k) p w = Some w.
Proof.
  intros p N y R E. destruct (lt_dec y N) as [Ly|Ly].
  - apply (long_walk_loops_set (seq 0 N)); [|rewrite seq_length; lia|exact E].
    intros z Hz. apply in_seq. pose proof (hits_in_range _ _ _ _ _ R Ly Hz). lia.
  - cbn in E. destruct (p y) as [z|] eqn:Py; [|discriminate]. destruct (R y z Py). lia.
Qed.

(* C15: the fuel bound.  A walk that ends at all ends within |host| + 1 steps *)
Lemma ends_bound : forall n p N y, in_range p N -> ends n p y = true -> ends (S N) p y = true.
Proof.
  intros n p N y R He. destruct (ends (S N) p y) eqn:E; [reflexivity|].
  destruct (long_walk_loops p N y R E) as [w [k [Hw Hk]]]. rewrite (loop_blocks p y w _ k Hw Hk) in He. discriminate.
Qed.
(* C15: for links that stay inside the host, "every walk ends" and "no node comes back to itself" agree *)
Lemma terminating_iff_not_cyclic : forall p N, in_range p N -> (Terminating p <-> ~ Cyclic p).
Proof.
  intros p N R. split; [intros T C; exact (cyclic_not_terminating p C T)|].
  intros NC y. exists (S N). destruct (ends (S N) p y) eqn:E; [reflexivity|]. exfalso. apply NC.
  destruct (long_walk_loops p N y R E) as [w [k [_ Hk]]]. exists w, k. exact Hk.
Qed.

Record WF (h : host) : Prop := {
  wf_root : 0 < length h;
  (* inherited parents are containers of the host *)
  wf_pinh : forall n c b, nth_error h n = Some c -> c_pinh c = Some b -> b < length h;
  (* a logical parent was created before its child *)
  wf_plog : forall n c p, nth_error h n = Some c -> c_plog c = Some p -> p < n;
  (* a live entry of a container is a container whose logical parent is that container, under its name *)
  wf_child : forall n c t e, nth_error h n = Some c -> mfind (c_map c) t = Some (Some e) ->
             exists ce, nth_error h e = Some ce /\ c_plog ce = Some n /\ c_name ce = t;
  (* the ordered entries are containers of the host (or delete markers) *)
  wf_vec : forall n c e, nth_error h n = Some c -> In (Some e) (c_vec c) -> e < length h
}.

Lemma wf_in_range : forall h, WF h -> in_range (inh_of h) (length h).
Proof. intros h W. apply inh_in_range. exact (wf_pinh h W). Qed.

Lemma init_wf : WF init_host.
Proof.
  split; cbn; try lia.
  - intros [|[|n]] c b H1 H2; cbn in H1; inversion H1; subst; cbn in H2; discriminate.
  - intros [|[|n]] c p H1 H2; cbn in H1; inversion H1; subst; cbn in H2; discriminate.
  - intros [|[|n]] c t e H1 H2; cbn in H1; inversion H1; subst; cbn in H2; discriminate.
  - intros [|[|n]] c e H1 H2; cbn in H1; inversion H1; subst; cbn in H2; destruct H2.
Qed.
Lemma init_acyclic : Acyclic init_host.
Proof. intros y. exists 1. cbn. unfold inh_of. destruct y as [|[|y]]; reflexivity. Qed.

(* C15 spec: the entry a lookup of name t in class n yields - the class's own entry if it has one
   (a delete marker, None, hides whatever the ancestors define), else what its base class yields,
   else nothing *)
Inductive Nearest (h : host) (t : str) : nat -> cid -> Prop :=
| Near_here : forall n c e, nth_error h n = Some c -> mfind (c_map c) t = Some e -> Nearest h t n e
| Near_base : forall n c b r, nth_error h n = Some c -> mfind (c_map c) t = None -> c_pinh c = Some b ->
              Nearest h t b r -> Nearest h t n r
| Near_none : forall n c, nth_error h n = Some c -> mfind (c_map c) t = None -> c_pinh c = None ->
              Nearest h t n None.

Lemma nearest_deterministic : forall h t n r1 r2, Nearest h t n r1 -> Nearest h t n r2 -> r1 = r2.
Proof.
  intros h t n r1 r2 H1. revert r2. induction H1 as [n c e Hn Hm|n c b r Hn Hm Hp Hb IH|n c Hn Hm Hp]; intros r2 H2;
    inversion H2; subst; try congruence.
  apply IH. congruence.
Qed.

Lemma lookup_sound : forall f h n t r, lookup_inh f h (Some n) t = Ok r -> Nearest h t n r.
Proof.
  induction f as [|f IH]; intros h n t r H; cbn in H; [discriminate|].
  destruct (nth_error h n) as [c|] eqn:En; [|discriminate].
  destruct (mfind (c_map c) t) as [e|] eqn:Em.
  - inversion H; subst. eapply Near_here; eauto.
  - destruct (c_pinh c) as [b|] eqn:Ep.
    + eapply Near_base; eauto.
    + destruct f; cbn in H; inversion H; subst; eapply Near_none; eauto.
Qed.

Lemma lookup_own : forall h n c t e, nth_error h n = Some c -> mfind (c_map c) t = Some e ->
  lookup_inh (fuel_of h) h (Some n) t = Ok e.
Proof. intros h n c t e En Em. unfold fuel_of. cbn [lookup_inh]. now rewrite En, Em. Qed.

Lemma lookup_fuel_mono : forall f h i t r, lookup_inh f h i t = Ok r -> forall g, f <= g -> lookup_inh g h i t = Ok r.
Proof.
  induction f as [|f IH]; intros h i t r H g L.
  - destruct i; cbn in H; [discriminate|]. destruct g; cbn; auto.
  - destruct i as [n|]; [|destruct g; cbn in *; auto]. destruct g as [|g]; [lia|]. cbn in *.
    destruct (nth_error h n) as [c|]; [|discriminate]. destruct (mfind (c_map c) t); auto. apply IH; auto. lia.
Qed.

(* The lookup of t walks the links cut at the first container that has t among its own entries: it
   returns when that walk ends and runs out of fuel when it does not (so OutOfFuel at fuel_of h, which by
   ends_bound is enough for every walk that ends, is a real divergence). *)
Definition stop_links (h : host) (t : str) : links :=
  fun y => match nth_error h y with
           | Some c => match mfind (c_map c) t with Some _ => None | None => c_pinh c end
           | None => None
           end.
Lemma stop_in_range : forall h t, WF h -> in_range (stop_links h t) (length h).
Proof.
  intros h t W y z H. unfold stop_links in H. destruct (nth_error h y) as [c|] eqn:E; [|discriminate].
  split; [apply nth_error_Some; congruence|]. destruct (mfind (c_map c) t); [discriminate|]. eapply wf_pinh; eauto.
Qed.
Lemma lookup_by_ends : forall f h n t, WF h -> n < length h ->
  if ends f (stop_links h t) n then exists r, lookup_inh f h (Some n) t = Ok r
  else lookup_inh f h (Some n) t = OutOfFuel.
Proof.
  induction f as [|f IH]; intros h n t W L; cbn; [reflexivity|].
  unfold stop_links at 1. destruct (nth_error h n) as [c|] eqn:En; [|apply nth_error_None in En; lia].
  destruct (mfind (c_map c) t) as [e|]; [eauto|].
  destruct (c_pinh c) as [b|] eqn:Ep.
  - apply IH; auto. eapply wf_pinh; eauto.
  - destruct f; cbn; eauto.
Qed.
Lemma stop_cut : forall h t z, stop_links h t z = inh_of h z \/ stop_links h t z = None.
Proof. intros h t z. unfold stop_links, inh_of. destruct (nth_error h z) as [c|]; auto. destruct (mfind (c_map c) t); auto. Qed.

(* C15: under acyclicity every lookup returns within fuel_of h, with the specified entry *)
Lemma lookup_terminates_under_acyclic : forall h n t, WF h -> Acyclic h -> n < length h ->
  exists r, lookup_inh (fuel_of h) h (Some n) t = Ok r /\ Nearest h t n r.
Proof.
  intros h n t W A L. destruct (A n) as [k Ek].
  pose proof (ends_cut _ _ _ n (stop_cut h t) (ends_bound _ _ _ _ (wf_in_range h W) Ek)) as E.
  pose proof (lookup_by_ends (fuel_of h) h n t W L) as B. unfold fuel_of in B. rewrite E in B. destruct B as [r Hr].
  exists r. split; [exact Hr|]. eapply lookup_sound; eauto.
Qed.
Lemma lookup_spec : forall h n t r, WF h -> Acyclic h -> n < length h ->
  (lookup_inh (fuel_of h) h (Some n) t = Ok r <-> Nearest h t n r).
Proof.
  intros h n t r W A L. split; [apply lookup_sound|].
  intros N. destruct (lookup_terminates_under_acyclic h n t W A L) as [r' [H1 H2]].
  now rewrite (nearest_deterministic _ _ _ _ _ N H2).
Qed.

Definition Inv (h : host) : Prop := WF h /\ Acyclic h.
Definition valid (h : host) (b : cid) : Prop := match b with Some x => x < length h | None => True end.

Lemma push_back_fields : forall d c k t,
  c_value (push_back d c k t) = c_value c /\ c_plog (push_back d c k t) = c_plog c /\
  c_pinh (push_back d c k t) = c_pinh c /\ c_name (push_back d c k t) = c_name c.
Proof.
  intros. unfold push_back. destruct (mfind (c_map c) k) as [old|]; [|cbn; auto].
  destruct (cid_eqb old t); [auto|]. destruct (negb (d_deleted_reopen d) && cid_eqb old None); cbn; auto.
Qed.
Lemma push_back_pinh : forall d c k t, c_pinh (push_back d c k t) = c_pinh c.
Proof. intros. apply push_back_fields. Qed.
Lemma push_back_map : forall d c k t k',
  mfind (c_map (push_back d c k t)) k' = if eqs k k' then Some t else mfind (c_map c) k'.
Proof.
  intros. unfold push_back. destruct (eqs k k') eqn:E.
  - apply eqs_eq in E. subst k'. destruct (mfind (c_map c) k) as [old|] eqn:F; cbn; [|apply mfind_mset_same].
    destruct (cid_eqb old t) eqn:Eo; [apply cid_eqb_eq in Eo; congruence|].
    destruct (negb (d_deleted_reopen d) && cid_eqb old None); cbn; apply mfind_mset_same.
  - apply eqs_neq in E. destruct (mfind (c_map c) k) as [old|] eqn:F; cbn; [|now apply mfind_mset_other].
    destruct (cid_eqb old t); [reflexivity|].
    destruct (negb (d_deleted_reopen d) && cid_eqb old None); cbn; now apply mfind_mset_other.
Qed.
Lemma push_back_vec_in : forall d c k t x, In x (c_vec (push_back d c k t)) -> In x (c_vec c) \/ x = t.
Proof.
  intros d c k t x. unfold push_back. destruct (mfind (c_map c) k) as [old|].
  - destruct (cid_eqb old t); [auto|]. destruct (negb (d_deleted_reopen d) && cid_eqb old None); cbn.
    + intro H. apply in_app_or in H. destruct H as [H|[H|[]]]; auto.
    + intro H. apply in_map_iff in H. destruct H as [y [Hy Iy]]. destruct (cid_eqb y old); subst; auto.
  - cbn. intro H. apply in_app_or in H. destruct H as [H|[H|[]]]; auto.
Qed.

Lemma WF_upd : forall h n f, WF h ->
  (forall c, c_plog (f c) = c_plog c /\ c_name (f c) = c_name c) ->
  (forall c b, nth_error h n = Some c -> c_pinh (f c) = Some b -> b < length h) ->
  (forall c t e, nth_error h n = Some c -> mfind (c_map (f c)) t = Some (Some e) ->
       exists ce, nth_error h e = Some ce /\ c_plog ce = Some n /\ c_name ce = t) ->
  (forall c e, nth_error h n = Some c -> In (Some e) (c_vec (f c)) -> e < length h) ->
  WF (upd h n f).
Proof.
  intros h n f W Hf Hp Hm Hv.
  assert (K : forall m c, nth_error (upd h n f) m = Some c ->
              (m = n /\ exists c0, nth_error h n = Some c0 /\ c = f c0) \/ (m <> n /\ nth_error h m = Some c)).
  { intros m c H. rewrite nth_upd in H. destruct (Nat.eqb_spec m n) as [->|N]; [|auto].
    left. split; auto. destruct (nth_error h n) as [c0|]; cbn in H; inversion H. eauto. }
  assert (Keep : forall e ce, nth_error h e = Some ce ->
              exists ce', nth_error (upd h n f) e = Some ce' /\ c_plog ce' = c_plog ce /\ c_name ce' = c_name ce).
  { intros e ce H. rewrite nth_upd. destruct (Nat.eqb e n); rewrite H; cbn;
      [exists (f ce); destruct (Hf ce); auto | eauto]. }
  split.
  - rewrite upd_length. apply W.
  - intros m c b H1 H2. rewrite upd_length. destruct (K m c H1) as [[-> [c0 [E0 ->]]]|[N E]].
    + eapply Hp; eauto.
    + eapply wf_pinh; eauto.
  - intros m c p H1 H2. destruct (K m c H1) as [[-> [c0 [E0 ->]]]|[N E]].
    + destruct (Hf c0) as [P _]. rewrite P in H2. eapply wf_plog; eauto.
    + eapply wf_plog; eauto.
  - intros m c t e H1 H2. destruct (K m c H1) as [[-> [c0 [E0 ->]]]|[N E]].
    + destruct (Hm c0 t e E0 H2) as [ce [A [B C]]]. destruct (Keep e ce A) as [ce' [A' [B' C']]].
      exists ce'. repeat split; congruence.
    + destruct (wf_child h W m c t e E H2) as [ce [A [B C]]]. destruct (Keep e ce A) as [ce' [A' [B' C']]].
      exists ce'. repeat split; congruence.
  - intros m c e H1 H2. rewrite upd_length. destruct (K m c H1) as [[-> [c0 [E0 ->]]]|[N E]].
    + eapply Hv; eauto.
    + eapply wf_vec; eauto.
Qed.

Lemma WF_upd_value : forall h n v, WF h -> WF (upd h n (set_value v)).
Proof.
  intros h n v W. apply WF_upd; auto; cbn.
  - intros c b H1 H2. eapply wf_pinh; eauto.
  - intros c t e H1 H2. eapply wf_child; eauto.
  - intros c e H1 H2. eapply wf_vec; eauto.
Qed.
Lemma WF_upd_pinh : forall h n b, WF h -> valid h b -> WF (upd h n (set_pinh b)).
Proof.
  intros h n b W Hb. apply WF_upd; auto; cbn.
  - intros c b' H1 H2. subst b. exact Hb.
  - intros c t e H1 H2. eapply wf_child; eauto.
  - intros c e H1 H2. eapply wf_vec; eauto.
Qed.
Lemma WF_app : forall h p t b, WF h -> p < length h -> valid h b -> WF (h ++ [new_container p t b]).
Proof.
  intros h p t b W Lp Hb.
  assert (K : forall m c, nth_error (h ++ [new_container p t b]) m = Some c ->
              (m < length h /\ nth_error h m = Some c) \/ (m = length h /\ c = new_container p t b)).
  { intros m c H. destruct (lt_dec m (length h)) as [L|L].
    - rewrite nth_error_app1 in H by exact L. auto.
    - rewrite nth_error_app2 in H by lia. destruct (m - length h) as [|k] eqn:E; cbn in H.
      + inversion H. right. split; [lia|reflexivity].
      + destruct k; discriminate. }
  split.
  - rewrite app_length. cbn. lia.
  - intros m c b' H1 H2. rewrite app_length. cbn. destruct (K m c H1) as [[L E]|[-> ->]].
    + pose proof (wf_pinh h W m c b' E H2). lia.
    + cbn in H2. subst b. cbn in Hb. lia.
  - intros m c q H1 H2. destruct (K m c H1) as [[L E]|[-> ->]].
    + eapply wf_plog; eauto.
    + cbn in H2. inversion H2. subst. exact Lp.
  - intros m c k e H1 H2. destruct (K m c H1) as [[L E]|[-> ->]].
    + destruct (wf_child h W m c k e E H2) as [ce [A [B C]]]. exists ce. split; [|auto].
      rewrite nth_error_app1; auto. apply nth_error_Some. congruence.
    + cbn in H2. discriminate.
  - intros m c e H1 H2. rewrite app_length. cbn. destruct (K m c H1) as [[L E]|[-> ->]].
    + pose proof (wf_vec h W m c e E H2). lia.
    + cbn in H2. destruct H2.
Qed.

Lemma inh_of_upd_keep : forall h n f, (forall c, c_pinh (f c) = c_pinh c) -> forall y, inh_of (upd h n f) y = inh_of h y.
Proof.
  intros h n f Hf y. unfold inh_of. rewrite nth_upd. destruct (Nat.eqb y n); auto.
  destruct (nth_error h y); cbn; auto.
Qed.
Lemma inh_of_upd_pinh : forall h n b, n < length h -> forall y, inh_of (upd h n (set_pinh b)) y = updl (inh_of h) n b y.
Proof.
  intros h n b L y. unfold inh_of, updl. rewrite nth_upd. destruct (Nat.eqb_spec y n) as [->|N]; auto.
  destruct (nth_error h n) eqn:E; cbn; auto. apply nth_error_None in E. lia.
Qed.
Lemma inh_of_app : forall h c y, inh_of (h ++ [c]) y = updl (inh_of h) (length h) (c_pinh c) y.
Proof.
  intros h c y. unfold inh_of, updl. destruct (Nat.eqb_spec y (length h)) as [->|N].
  - now rewrite nth_app_last.
  - destruct (lt_dec y (length h)) as [L|L].
    + now rewrite nth_error_app1.
    + assert (E1 : nth_error (h ++ [c]) y = None) by (apply nth_error_None; rewrite app_length; cbn; lia).
      assert (E2 : nth_error h y = None) by (apply nth_error_None; lia). now rewrite E1, E2.
Qed.

Lemma Terminating_ext : forall p q, (forall y, p y = q y) -> Terminating p -> Terminating q.
Proof. intros p q E T y. destruct (T y) as [n H]. exists n. now rewrite <- (ends_ext n p q y E). Qed.

Lemma avoid_same : forall n p x b' y, hits n p y x = false -> ends n p y = true -> ends n (updl p x b') y = true.
Proof.
  induction n as [|n IH]; intros p x b' y Hh He; [discriminate|]. cbn in *. unfold updl at 1.
  destruct (Nat.eqb_spec y x); [discriminate|]. destruct (p y); auto.
Qed.
Lemma Terminating_updl_guard : forall p x b nb, Terminating p ->
  ends nb p b = true -> hits nb p b x = false -> Terminating (updl p x (Some b)).
Proof.
  intros p x b nb T Eb Hb.
  pose proof (avoid_same _ _ _ (Some b) _ Hb Eb) as Eb'.
  assert (K : forall n y, ends n p y = true -> exists m, ends m (updl p x (Some b)) y = true).
  { induction n as [|n IH]; intros y He; [discriminate|]. cbn in He.
    destruct (Nat.eqb_spec y x) as [->|Hne].
    - exists (S nb). cbn. unfold updl at 1. rewrite Nat.eqb_refl. exact Eb'.
    - destruct (p y) as [z|] eqn:Py.
      + destruct (IH z He) as [m Hm]. exists (S m). cbn. unfold updl at 1.
        destruct (Nat.eqb_spec y x); [contradiction|]. rewrite Py. exact Hm.
      + exists 1. cbn. unfold updl. destruct (Nat.eqb_spec y x); [contradiction|]. now rewrite Py. }
  intros y. destruct (T y) as [n Hn]. eauto.
Qed.
Lemma Terminating_updl_none : forall p x, Terminating p -> Terminating (updl p x None).
Proof.
  intros p x T y. destruct (T y) as [n Hn]. exists n. apply (ends_cut n p); [|exact Hn].
  intro z. unfold updl. destruct (Nat.eqb z x); auto.
Qed.
Lemma Terminating_updl_fresh : forall p N b, in_range p N -> Terminating p ->
  match b with Some x => x < N | None => True end -> Terminating (updl p N b).
Proof.
  intros p N b R T Hb. destruct b as [b|]; [|now apply Terminating_updl_none].
  destruct (T b) as [nb Eb]. apply Terminating_updl_guard with (nb := nb); auto.
  destruct (hits nb p b N) eqn:H; [|reflexivity].
  pose proof (hits_in_range _ _ _ _ _ R Hb H). lia.
Qed.

Lemma WF_upd_push_none : forall d h p t, WF h -> WF (upd h p (fun c => push_back d c t None)).
Proof.
  intros d h p t W. apply WF_upd; auto.
  - intros c. split; apply push_back_fields.
  - intros c b H1 H2. rewrite push_back_pinh in H2. eapply wf_pinh; eauto.
  - intros c k e H1 H2. rewrite push_back_map in H2. destruct (eqs t k); [discriminate|]. eapply wf_child; eauto.
  - intros c e H1 H2. apply push_back_vec_in in H2. destruct H2 as [H2|H2]; [|discriminate]. eapply wf_vec; eauto.
Qed.
Lemma acyclic_upd_keep : forall h n f, (forall c, c_pinh (f c) = c_pinh c) -> Acyclic h -> Acyclic (upd h n f).
Proof.
  intros h n f Hf A. unfold Acyclic. apply Terminating_ext with (p := inh_of h); auto.
  intro y. symmetry. now apply inh_of_upd_keep.
Qed.

(* own entries only grow: a position keeps its entry or becomes a delete marker, new entries go to the end *)
Inductive vext : list cid -> list cid -> Prop :=
| vext_nil : forall l, vext [] l
| vext_keep : forall x v v', vext v v' -> vext (x :: v) (x :: v')
| vext_del : forall x v v', vext v v' -> vext (x :: v) (None :: v').
Lemma vext_refl : forall v, vext v v.
Proof. induction v; constructor; auto. Qed.
Lemma vext_trans : forall a b c, vext a b -> vext b c -> vext a c.
Proof.
  intros a b c H. revert c. induction H as [l|x v v' H IH|x v v' H IH]; intros c H2.
  - constructor.
  - inversion H2; subst; constructor; auto.
  - inversion H2; subst; constructor; auto.
Qed.
Lemma vext_app : forall v e, vext v (v ++ e).
Proof. induction v; intros; cbn; constructor; auto. Qed.
Lemma vext_length : forall v v', vext v v' -> length v <= length v'.
Proof. induction 1; cbn; lia. Qed.
Lemma vext_nth : forall v v', vext v v' -> forall i x, nth_error v i = Some x ->
  nth_error v' i = Some x \/ nth_error v' i = Some None.
Proof.
  induction 1 as [l|x v v' H IH|x v v' H IH]; intros i y E.
  - destruct i; discriminate.
  - destruct i as [|i]; cbn in *; auto.
  - destruct i as [|i]; cbn in *; auto.
Qed.
Lemma vext_map_del : forall old v, vext v (map (fun x => if cid_eqb x old then None else x) v).
Proof. induction v as [|x v IH]; cbn; [constructor|]. destruct (cid_eqb x old); constructor; auto. Qed.

Lemma push_back_vext : forall d c k t,
  t = None \/ mfind (c_map c) k = None \/ (mfind (c_map c) k = Some None /\ d_deleted_reopen d = false) ->
  vext (c_vec c) (c_vec (push_back d c k t)).
Proof.
  intros d c k t H. unfold push_back. destruct (mfind (c_map c) k) as [old|] eqn:Em.
  - destruct (cid_eqb old t) eqn:Eo; [apply vext_refl|].
    destruct H as [->|[H|[H Ed]]]; [|discriminate|].
    + destruct (negb (d_deleted_reopen d) && cid_eqb old None); cbn; [apply vext_app|apply vext_map_del].
    + inversion H; subst. rewrite Ed. cbn. apply vext_app.
  - cbn. apply vext_app.
Qed.

Definition hext (h h' : host) : Prop :=
  forall k ck, nth_error h k = Some ck -> exists ck', nth_error h' k = Some ck' /\ vext (c_vec ck) (c_vec ck').
Lemma hext_refl : forall h, hext h h.
Proof. intros h k ck E. exists ck. split; auto. apply vext_refl. Qed.
Lemma hext_trans : forall a b c, hext a b -> hext b c -> hext a c.
Proof.
  intros a b c H1 H2 k ck E. destruct (H1 k ck E) as [ck1 [E1 V1]]. destruct (H2 k ck1 E1) as [ck2 [E2 V2]].
  exists ck2. split; auto. eapply vext_trans; eauto.
Qed.
Lemma hext_upd : forall h n f, (forall c, nth_error h n = Some c -> vext (c_vec c) (c_vec (f c))) -> hext h (upd h n f).
Proof.
  intros h n f Hf k ck E. rewrite nth_upd. destruct (Nat.eqb_spec k n) as [->|N]; rewrite E; cbn.
  - exists (f ck). auto.
  - exists ck. split; auto. apply vext_refl.
Qed.
Lemma hext_app : forall h e, hext h (h ++ e).
Proof.
  intros h e k ck E. exists ck. split; [|apply vext_refl]. rewrite nth_error_app1; auto. apply nth_error_Some. congruence.
Qed.

(* What every statement does to the host, for every defect setting: it stays well-formed (no dangling
   ids), containers are only added, own entries keep their positions; with the rebind guard the
   inherited-parent relation also stays acyclic.  Each primitive step is of this kind, and steps compose. *)
Definition grows (d : defects) (h h' : host) : Prop :=
  WF h' /\ length h <= length h' /\ hext h h' /\ (d_rebind_cycle d = false -> Acyclic h -> Acyclic h').

Lemma grows_refl : forall d h, WF h -> grows d h h.
Proof. intros d h W. split; [exact W|]. split; [lia|]. split; [apply hext_refl|auto]. Qed.
Lemma grows_trans : forall d a b c, grows d a b -> grows d b c -> grows d a c.
Proof.
  intros d a b c [_ [L1 [X1 A1]]] [W2 [L2 [X2 A2]]].
  split; [exact W2|]. split; [lia|]. split; [eapply hext_trans; eauto|auto].
Qed.
Lemma grows_inv : forall d h h', d_rebind_cycle d = false -> grows d h h' -> Inv h -> Inv h'.
Proof. intros d h h' Ed [W' [_ [_ A']]] [_ A]. split; auto. Qed.
Lemma grows_upd : forall d h n f, WF (upd h n f) -> (forall c, c_pinh (f c) = c_pinh c) ->
  (forall c, vext (c_vec c) (c_vec (f c))) -> grows d h (upd h n f).
Proof.
  intros d h n f W Hp Hv. split; [exact W|]. split; [rewrite upd_length; lia|].
  split; [apply hext_upd; auto|]. intros _ A. now apply acyclic_upd_keep.
Qed.
Lemma grows_set_value : forall d h n v, WF h -> grows d h (upd h n (set_value v)).
Proof. intros d h n v W. apply grows_upd; [now apply WF_upd_value|reflexivity|intro c; apply vext_refl]. Qed.
Lemma grows_delete : forall d h p t, WF h -> grows d h (upd h p (fun c => push_back d c t None)).
Proof.
  intros d h p t W. apply grows_upd; [now apply WF_upd_push_none|intro c; apply push_back_pinh|].
  intro c. apply push_back_vext. now left.
Qed.
Lemma reaches_false : forall f h b x, reaches f h (Some b) x = Ok false ->
  ends f (inh_of h) b = true /\ hits f (inh_of h) b x = false.
Proof.
  induction f as [|f IH]; intros h b x H; cbn in H.
  - destruct (Nat.eqb b x); discriminate.
  - cbn. destruct (Nat.eqb b x); [discriminate|]. unfold inh_of at 1 3.
    destruct (nth_error h b) as [c|]; [|discriminate].
    destruct (c_pinh c) as [z|]; [now apply IH|auto].
Qed.
Lemma reaches_total : forall f h b x, WF h -> b < length h -> ends f (inh_of h) b = true ->
  exists r, reaches f h (Some b) x = Ok r.
Proof.
  induction f as [|f IH]; intros h b x W L E; [discriminate|]. cbn in *.
  destruct (Nat.eqb b x); [eauto|]. unfold inh_of in E at 1.
  destruct (nth_error h b) as [c|] eqn:En; [|apply nth_error_None in En; lia].
  destruct (c_pinh c) as [z|] eqn:Ep; [|destruct f; cbn; eauto].
  apply IH; auto. eapply wf_pinh; eauto.
Qed.

(* lookup along the enclosing classes: terminates because a logical parent is older than its child *)
Lemma lookup_log_total : forall h t n f, WF h -> n < length h -> n < f -> exists r, lookup_log f h (Some n) t = Ok r.
Proof.
  intros h t n. induction n as [n IH] using lt_wf_ind. intros f W L Lf.
  destruct f as [|f]; [lia|]. cbn.
  destruct (nth_error h n) as [c|] eqn:En; [|apply nth_error_None in En; lia].
  destruct (mfind (c_map c) t); [eauto|].
  destruct (c_plog c) as [p|] eqn:Ep; [|destruct f; cbn; eauto].
  pose proof (wf_plog h W n c p En Ep). apply IH; auto; lia.
Qed.
Lemma lookup_log_valid : forall f h n t e, WF h -> lookup_log f h (Some n) t = Ok (Some e) -> e < length h.
Proof.
  induction f as [|f IH]; intros h n t e W H; cbn in H; [discriminate|].
  destruct (nth_error h n) as [c|] eqn:En; [|discriminate].
  destruct (mfind (c_map c) t) as [r|] eqn:Em.
  - inversion H; subst. destruct (wf_child h W n c t e En Em) as [ce [A _]]. apply nth_error_Some. congruence.
  - destruct (c_plog c) as [p|]; [eapply IH; eauto|]. destruct f; cbn in H; discriminate.
Qed.
Lemma lookup_log_app : forall f h ext n t, WF h -> n < length h ->
  lookup_log f (h ++ ext) (Some n) t = lookup_log f h (Some n) t.
Proof.
  induction f as [|f IH]; intros h ext n t W L; cbn; [reflexivity|].
  rewrite nth_error_app1 by exact L.
  destruct (nth_error h n) as [c|] eqn:En; [|reflexivity].
  destruct (mfind (c_map c) t); [reflexivity|].
  destruct (c_plog c) as [p|] eqn:Ep; [|destruct f; reflexivity].
  pose proof (wf_plog h W n c p En Ep). apply IH; auto. lia.
Qed.

Lemma lookup_log_fuel_mono : forall f h i t r, lookup_log f h i t = Ok r -> forall g, f <= g -> lookup_log g h i t = Ok r.
Proof.
  induction f as [|f IH]; intros h i t r H g L.
  - destruct i; cbn in H; [discriminate|]. destruct g; cbn; auto.
  - destruct i as [n|]; [|destruct g; cbn in *; auto]. destruct g as [|g]; [lia|]. cbn in *.
    destruct (nth_error h n) as [c|]; [|discriminate]. destruct (mfind (c_map c) t); auto. apply IH; auto. lia.
Qed.

(* the host after a child named t with base b has been created below pn *)
Definition created (d : defects) (h : host) (pn : nat) (t : str) (b : cid) : host :=
  upd (h ++ [new_container pn t b]) pn (fun c => push_back d c t (Some (length h))).

Lemma create_child_spec : forall d h pn t inh, WF h -> pn < length h ->
  exists b, create_child d h pn t inh = Ok (created d h pn t b, Some (length h)) /\ valid h b /\
            (match inh with [] => b = None | _ => lookup_log (S (fuel_of h)) h (Some pn) inh = Ok b end).
Proof.
  intros d h pn t inh W L. unfold create_child.
  assert (B : exists b, (match inh with [] => Ok None
               | _ => lookup_log (fuel_of (h ++ [new_container pn t None])) (h ++ [new_container pn t None]) (Some pn) inh end) = Ok b /\
             valid h b /\ (match inh with [] => b = None | _ => lookup_log (S (fuel_of h)) h (Some pn) inh = Ok b end)).
  { destruct inh as [|i0 inh]; [exists None; cbn; auto|]. rewrite lookup_log_app by auto.
    unfold fuel_of. rewrite app_length. cbn [length]. replace (length h + 1) with (S (length h)) by lia.
    destruct (lookup_log_total h (i0 :: inh) pn (S (S (length h))) W L ltac:(lia)) as [b Hb].
    exists b. split; [exact Hb|]. split; [|exact Hb]. destruct b; cbn; auto. eapply lookup_log_valid; eauto. }
  destruct B as [b [Hb R]]. exists b. rewrite Hb. cbn [bind].
  rewrite upd_app_last. unfold get. rewrite nth_error_app1 by exact L.
  destruct (nth_error h pn) eqn:E; [|apply nth_error_None in E; lia]. split; [reflexivity|exact R].
Qed.

Lemma created_wf : forall d h pn t b, WF h -> pn < length h -> valid h b -> WF (created d h pn t b).
Proof.
  intros d h pn t b W L Vb. unfold created.
  pose proof (WF_app h pn t b W L Vb) as W2.
  apply WF_upd; auto.
  - intros c. destruct (push_back_fields d c t (Some (length h))) as [_ [P [_ N]]]. auto.
  - intros c b' H1 H2. destruct (push_back_fields d c t (Some (length h))) as [_ [_ [P _]]]. rewrite P in H2.
    eapply wf_pinh; eauto.
  - intros c k e H1 H2. rewrite push_back_map in H2. destruct (eqs t k) eqn:E.
    + apply eqs_eq in E. subst k. inversion H2; subst.
      exists (new_container pn t b). split; [apply nth_app_last|]. cbn. auto.
    + eapply wf_child; eauto.
  - intros c e H1 H2. apply push_back_vec_in in H2. destruct H2 as [H2|H2].
    + eapply wf_vec; eauto.
    + inversion H2. rewrite app_length. cbn. lia.
Qed.
Lemma created_links : forall d h pn t b y, inh_of (created d h pn t b) y = updl (inh_of h) (length h) b y.
Proof.
  intros. unfold created. rewrite inh_of_upd_keep.
  - now rewrite inh_of_app.
  - intros c. destruct (push_back_fields d c t (Some (length h))) as [_ [_ [P _]]]. exact P.
Qed.
Lemma created_acyclic : forall d h pn t b, WF h -> Acyclic h -> valid h b -> Acyclic (created d h pn t b).
Proof.
  intros d h pn t b W A Vb. unfold Acyclic.
  apply Terminating_ext with (p := updl (inh_of h) (length h) b).
  - intro y. symmetry. apply created_links.
  - apply Terminating_updl_fresh; auto. now apply wf_in_range.
Qed.
Lemma created_length : forall d h pn t b, length (created d h pn t b) = S (length h).
Proof. intros. unfold created. rewrite upd_length, app_length. cbn. lia. Qed.
Lemma created_old : forall d h pn t b m, m < length h -> m <> pn ->
  nth_error (created d h pn t b) m = nth_error h m.
Proof. intros. unfold created. rewrite nth_upd_other by auto. now apply nth_error_app1. Qed.
Lemma created_parent : forall d h pn t b cp, nth_error h pn = Some cp ->
  nth_error (created d h pn t b) pn = Some (push_back d cp t (Some (length h))).
Proof.
  intros d h pn t b cp H. unfold created.
  apply (nth_upd_same (h ++ [new_container pn t b]) pn (fun c => push_back d c t (Some (length h))) cp).
  rewrite nth_error_app1; auto. apply nth_error_Some. congruence.
Qed.
Lemma created_new : forall d h pn t b, pn < length h ->
  nth_error (created d h pn t b) (length h) = Some (new_container pn t b).
Proof. intros. unfold created. rewrite nth_upd_other by lia. apply nth_app_last. Qed.

Inductive aor_case (d : defects) (h : host) (p : nat) (t inh : str) (h' : host) (x : nat) : Prop :=
| aor_created : forall b, h' = created d h p t b -> x = length h -> valid h b ->
    (match inh with [] => b = None | _ => lookup_log (S (fuel_of h)) h (Some p) inh = Ok b end) ->
    (forall cp, nth_error h p = Some cp ->
       mfind (c_map cp) t = None \/ (mfind (c_map cp) t = Some None /\ d_deleted_reopen d = false)) ->
    aor_case d h p t inh h' x
| aor_reopened : forall cp, nth_error h p = Some cp -> mfind (c_map cp) t = Some (Some x) -> inh = [] -> h' = h ->
    aor_case d h p t inh h' x
| aor_rebound : forall cp b, nth_error h p = Some cp -> mfind (c_map cp) t = Some (Some x) -> inh <> [] ->
    lookup_log (fuel_of h) h (Some p) inh = Ok b -> valid h b ->
    h' = upd h x (set_pinh b) ->
    (d_rebind_cycle d = false -> reaches (fuel_of h) h b x = Ok false) ->
    aor_case d h p t inh h' x
| aor_refused : forall cp b, nth_error h p = Some cp -> mfind (c_map cp) t = Some (Some x) -> inh <> [] ->
    lookup_log (fuel_of h) h (Some p) inh = Ok b -> d_rebind_cycle d = false ->
    reaches (fuel_of h) h b x = Ok true -> h' = h ->
    aor_case d h p t inh h' x.

Definition no_marker (d : defects) (h : host) (p : nat) (t : str) : Prop :=
  d_deleted_reopen d = true -> forall cp, nth_error h p = Some cp -> mfind (c_map cp) t <> Some None.

(* append_or_replace (any defect setting) fails only on a delete marker it cannot handle, or when the
   repair's cycle test walks a cyclic host. *)
Lemma aor_spec : forall d h p t inh, WF h -> p < length h ->
  match append_or_replace d h (Some p) t inh with
  | Ok (h', nav) => exists x, nav = Some x /\ aor_case d h p t inh h' x
  | _ => ~ (no_marker d h p t /\ (inh = [] \/ d_rebind_cycle d = true \/ Acyclic h))
  end.
Proof.
  intros d h p t inh W L. unfold append_or_replace, get.
  destruct (nth_error h p) as [cp|] eqn:Ep; [|apply nth_error_None in Ep; lia]. cbn [bind].
  assert (New : mfind (c_map cp) t = None \/ (mfind (c_map cp) t = Some None /\ d_deleted_reopen d = false) ->
            match create_child d h p t inh with
            | Ok (h', nav) => exists x, nav = Some x /\ aor_case d h p t inh h' x
            | _ => ~ (no_marker d h p t /\ (inh = [] \/ d_rebind_cycle d = true \/ Acyclic h))
            end).
  { intros Hm. destruct (create_child_spec d h p t inh W L) as [b [E [Vb Lb]]]. rewrite E.
    exists (length h). split; [reflexivity|]. eapply aor_created; eauto. intros c Ec. congruence. }
  destruct (mfind (c_map cp) t) as [[rn|]|] eqn:Em.
  - destruct (wf_child h W p cp t rn Ep Em) as [cr [Er _]]. rewrite Er.
    destruct inh as [|i0 inh]; [exists rn; split; [reflexivity|]; eapply aor_reopened; eauto|].
    destruct (lookup_log_total h (i0 :: inh) p (fuel_of h) W L ltac:(unfold fuel_of; lia)) as [b Hb].
    rewrite Hb. cbn [bind].
    assert (Vb : valid h b) by (destruct b; cbn; auto; eapply lookup_log_valid; eauto).
    destruct (d_rebind_cycle d) eqn:Ed.
    { exists rn. split; [reflexivity|]. eapply aor_rebound; eauto; try discriminate; intro; congruence. }
    assert (RT : Acyclic h -> exists c, reaches (fuel_of h) h b rn = Ok c).
    { intro A. destruct b as [bb|]; [|unfold fuel_of; cbn; eauto].
      destruct (A bb) as [k Ek]. apply reaches_total; auto. exact (ends_bound _ _ _ _ (wf_in_range h W) Ek). }
    destruct (reaches (fuel_of h) h b rn) as [[|]| |] eqn:R; cbn [bind].
    + exists rn. split; [reflexivity|]. eapply aor_refused; eauto; discriminate.
    + exists rn. split; [reflexivity|]. eapply aor_rebound; eauto; discriminate.
    + intros [_ [HA|[HA|A]]]; try discriminate. destruct (RT A); discriminate.
    + intros [_ [HA|[HA|A]]]; try discriminate. destruct (RT A); discriminate.
  - destruct (d_deleted_reopen d) eqn:Ed; [intros [NM _]; exact (NM Ed cp Ep Em)|]. apply New. auto.
  - apply New. auto.
Qed.
Lemma aor_total : forall d h p t inh, WF h -> p < length h -> no_marker d h p t ->
  inh = [] \/ d_rebind_cycle d = true \/ Acyclic h ->
  exists r, append_or_replace d h (Some p) t inh = Ok r.
Proof.
  intros d h p t inh W L NM HA. pose proof (aor_spec d h p t inh W L) as S.
  destruct (append_or_replace d h (Some p) t inh); [eauto|destruct S; auto..].
Qed.

Lemma created_grows : forall d h pn t b, WF h -> pn < length h -> valid h b ->
  (forall cp, nth_error h pn = Some cp ->
     mfind (c_map cp) t = None \/ (mfind (c_map cp) t = Some None /\ d_deleted_reopen d = false)) ->
  grows d h (created d h pn t b).
Proof.
  intros d h pn t b W L Vb Hm. split; [now apply created_wf|]. split; [rewrite created_length; lia|]. split.
  - unfold created. eapply hext_trans; [apply hext_app|]. apply hext_upd.
    intros c Ec. rewrite nth_error_app1 in Ec by exact L. apply push_back_vext. right. exact (Hm c Ec).
  - intros _ A. now apply created_acyclic.
Qed.
Lemma rebind_grows : forall d h x b, WF h -> x < length h -> valid h b ->
  (d_rebind_cycle d = false -> reaches (fuel_of h) h b x = Ok false) -> grows d h (upd h x (set_pinh b)).
Proof.
  intros d h x b W Lx Vb R. split; [now apply WF_upd_pinh|]. split; [rewrite upd_length; lia|]. split.
  - apply hext_upd. intros c _. apply vext_refl.
  - intros Ed A. unfold Acyclic. apply Terminating_ext with (p := updl (inh_of h) x b).
    + intro y. symmetry. now apply inh_of_upd_pinh.
    + destruct b as [bb|]; [|now apply Terminating_updl_none].
      destruct (reaches_false _ _ _ _ (R Ed)) as [E1 E2]. eapply Terminating_updl_guard; eauto.
Qed.
Lemma aor_grows : forall d h p t inh h' x, WF h -> p < length h -> aor_case d h p t inh h' x -> grows d h h'.
Proof.
  intros d h p t inh h' x W L C.
  destruct C as [b E Ex Vb Lb Hm|cp Ep Em Ei E|cp b Ep Em Ei Lb Vb E R|cp b Ep Em Ei Lb Ed R E]; subst.
  - now apply created_grows.
  - now apply grows_refl.
  - apply rebind_grows; auto. destruct (wf_child h W p cp t x Ep Em) as [cx [Ax _]]. apply nth_error_Some. congruence.
  - now apply grows_refl.
Qed.

Lemma aor_inv : forall d h p t inh h' nav, WF h -> p < length h ->
  append_or_replace d h (Some p) t inh = Ok (h', nav) ->
  exists x cp' cx, nav = Some x /\ aor_case d h p t inh h' x /\ grows d h h' /\ x < length h' /\
    nth_error h' p = Some cp' /\ mfind (c_map cp') t = Some (Some x) /\
    nth_error h' x = Some cx /\ c_plog cx = Some p /\ c_name cx = t.
Proof.
  intros d h p t inh h' nav W L H. pose proof (aor_spec d h p t inh W L) as S. rewrite H in S. destruct S as [x [-> C]].
  pose proof (aor_grows _ _ _ _ _ _ _ W L C) as G.
  assert (E : exists cp', nth_error h' p = Some cp' /\ mfind (c_map cp') t = Some (Some x)).
  { destruct C as [b E Ex Vb Lb _|cp Ep Em Ei E|cp b Ep Em Ei Lb Vb E _|cp b Ep Em Ei Lb Ed R E]; subst; eauto.
    - destruct (nth_error h p) as [cp|] eqn:Ep; [|apply nth_error_None in Ep; lia].
      exists (push_back d cp t (Some (length h))). split; [now apply created_parent|].
      rewrite push_back_map. now rewrite eqs_refl.
    - rewrite nth_upd. destruct (Nat.eqb p x); rewrite Ep; cbn; eauto. }
  destruct E as [cp' [Ep' Em']]. destruct (wf_child h' (proj1 G) p cp' t x Ep' Em') as [cx [Ex [Pl Nm]]].
  exists x, cp', cx. repeat split; auto; try apply G. apply nth_error_Some. congruence.
Qed.

Fixpoint vnode_ind' (P : vnode -> Prop) (hn : forall z, P (NNum z)) (hs : forall s, P (NStr s))
  (ha : forall l, Forall P l -> P (NArr l)) (v : vnode) : P v :=
  match v with
  | NNum z => hn z
  | NStr s => hs s
  | NArr l => ha l ((fix go (l : list vnode) : Forall P l :=
                       match l with [] => Forall_nil P | x :: r => Forall_cons x (vnode_ind' P hn hs ha x) (go r) end) l)
  end.

Lemma upd_upd_value : forall h p v1 v2, upd (upd h p (set_value v1)) p (set_value v2) = upd h p (set_value v2).
Proof. induction h as [|c h IH]; intros [|p] v1 v2; cbn; auto. now rewrite IH. Qed.
Lemma nav_set_value_ok : forall h p v, p < length h -> nav_set_value h (Some p) v = Ok (upd h p (set_value v)).
Proof.
  intros h p v L. unfold nav_set_value, get. destruct (nth_error h p) eqn:E; [reflexivity|].
  apply nth_error_None in E. lia.
Qed.
Lemma nav_value_upd : forall h p v, p < length h -> nav_value (upd h p (set_value v)) (Some p) = Ok v.
Proof.
  intros h p v L. unfold nav_value, get. destruct (nth_error h p) as [c|] eqn:E; [|apply nth_error_None in E; lia].
  now rewrite (nth_upd_same h p (set_value v) c E).
Qed.

(* C15: storing a value node stores exactly its denotation (numbers, strings, arrays nested to any depth) *)
Lemma apply_value_spec : forall v h p, p < length h ->
  apply_value h (Some p) v = Ok (upd h p (set_value (eval_v v))).
Proof.
  induction v as [z|s|l IHl] using vnode_ind'; intros h p L.
  - now apply nav_set_value_ok.
  - now apply nav_set_value_ok.
  - cbn [apply_value eval_v].
    assert (K : forall l' acc h0, Forall (fun v => forall h p, p < length h ->
                   apply_value h (Some p) v = Ok (upd h p (set_value (eval_v v)))) l' -> p < length h0 ->
              (fix go (h : host) (l : list vnode) (acc : list cval) {struct l} : res host :=
                 match l with
                 | [] => nav_set_value h (Some p) (VArr (rev acc))
                 | x :: r => h1 <- apply_value h (Some p) x;; e <- nav_value h1 (Some p);; go h1 r (e :: acc)
                 end) h0 l' acc = Ok (upd h0 p (set_value (VArr (rev acc ++ map eval_v l'))))).
    { induction l' as [|x r IHr]; intros acc h0 F L0.
      - cbn [map]. rewrite app_nil_r. now apply nav_set_value_ok.
      - inversion F as [|x' r' Hx Hr]; subst.
        rewrite (Hx h0 p L0). cbn [bind]. rewrite (nav_value_upd h0 p _ L0). cbn [bind].
        rewrite IHr; [|exact Hr|rewrite upd_length; exact L0].
        rewrite upd_upd_value. cbn [rev map]. now rewrite <- app_assoc. }
    rewrite (K l [] h IHl L). reflexivity.
Qed.

Lemma delete_entry_inv : forall d h p t h', Inv h -> delete_entry d h (Some p) t = Ok h' ->
  Inv h' /\ length h' = length h /\ h' = upd h p (fun c => push_back d c t None).
Proof.
  intros d h p t h' [W A] H. unfold delete_entry in H. bind_inv H as cp Hg. inversion H; subst; clear H.
  split; [split|].
  - now apply WF_upd_push_none.
  - apply acyclic_upd_keep; auto. intro c. apply push_back_pinh.
  - split; [apply upd_length|reflexivity].
Qed.
Lemma set_value_inv : forall h p v, Inv h -> Inv (upd h p (set_value v)).
Proof. intros h p v [W A]. split; [now apply WF_upd_value|apply acyclic_upd_keep; auto]. Qed.

Lemma append_inherited_shape : forall h2 nav n h3, append_inherited h2 nav n = Ok h3 ->
  h3 = h2 \/ exists x v, nav = Some x /\ h3 = upd h2 x (set_value v).
Proof.
  intros h2 nav n h3 H. unfold append_inherited in H.
  bind_inv H as pl Hpl. bind_inv H as pi Hpi. bind_inv H as e He. destruct e as [en|]; [|inversion H; auto].
  destruct nav as [navn|]; [|discriminate]. bind_inv H as cs Hcs. bind_inv H as ce Hce.
  destruct (c_value cs); try (inversion H; auto; fail).
  destruct (c_value ce); try (inversion H; auto; fail).
  destruct (Nat.eqb navn en); [discriminate|]. inversion H. right. eauto.
Qed.

Lemma append_inherited_grows : forall d h nav n h', WF h -> append_inherited h nav n = Ok h' -> grows d h h'.
Proof.
  intros d h nav n h' W H. destruct (append_inherited_shape _ _ _ _ H) as [->|[x [v [_ ->]]]].
  - now apply grows_refl.
  - now apply grows_set_value.
Qed.

Lemma aor_nobase_keeps : forall d h p t h1 x, aor_case d h p t [] h1 x ->
  forall n c, nth_error h n = Some c ->
    exists c', nth_error h1 n = Some c' /\ c_pinh c' = c_pinh c /\ c_value c' = c_value c /\ c_plog c' = c_plog c /\
               c_name c' = c_name c /\ (n <> p -> c_map c' = c_map c /\ c_vec c' = c_vec c).
Proof.
  intros d h p t h1 x C n c En.
  destruct C as [b E Ex Vb Lb _|cp Ep Em Ei E|cp b Ep Em Ei Lb Vb E _|cp b Ep Em Ei Lb Ed R E]; subst; try congruence.
  - assert (Ln : n < length h) by (apply nth_error_Some; congruence).
    destruct (Nat.eq_dec n p) as [->|N].
    + exists (push_back d c t (Some (length h))). split; [now apply created_parent|].
      destruct (push_back_fields d c t (Some (length h))) as [A [B [C D]]]. repeat split; auto; contradiction.
    + exists c. rewrite created_old by auto. repeat split; auto.
  - exists c. repeat split; auto.
Qed.
Lemma aor_nobase_acyclic : forall d h p t h1 x, WF h -> Acyclic h -> aor_case d h p t [] h1 x -> Acyclic h1.
Proof.
  intros d h p t h1 x W A C.
  destruct C as [b E Ex Vb Lb _|cp Ep Em Ei E|cp b Ep Em Ei Lb Vb E _|cp b Ep Em Ei Lb Ed R E]; subst; try congruence; auto.
  now apply created_acyclic.
Qed.

Lemma getters_spec : forall h e ce, nth_error h e = Some ce ->
  op_getNumber h (Some e) = Ok (match c_value ce with VNum z => z | _ => 0%Z end, []) /\
  op_getText h (Some e) = Ok (match c_value ce with VStr s => s | _ => [] end, []) /\
  op_getArray h (Some e) = Ok (match c_value ce with VArr l => l | _ => [] end, []) /\
  op_isNumber h (Some e) = Ok (is_num (c_value ce), []) /\
  op_isText h (Some e) = Ok (is_str (c_value ce), []) /\
  op_isArray h (Some e) = Ok (is_arr (c_value ce), []) /\
  op_isClass h (Some e) = Ok (class_like ce, []) /\
  op_configName h (Some e) = Ok (c_name ce, []) /\
  op_count h (Some e) = Ok (length (c_vec ce), []).
Proof.
  intros h e ce E. unfold op_getNumber, op_getText, op_getArray, op_isNumber, op_isText, op_isArray, op_isClass, op_is,
    op_configName, op_count, get. rewrite E. cbn. repeat split.
Qed.

(* C15: delete hides the entry - in the class itself and in a class deriving from it that does not declare the name *)
Lemma delete_hides : forall d h lg p name, WF h -> p < length h ->
  exists h', apply_node d (h, lg) (Some p) (NDelete name) = Ok (h', lg) /\
    lookup_inh (fuel_of h') h' (Some p) name = Ok None /\
    (forall q cq, nth_error h' q = Some cq -> c_pinh cq = Some p -> mfind (c_map cq) name = None ->
                  lookup_inh (fuel_of h') h' (Some q) name = Ok None).
Proof.
  intros d h lg p name W L.
  destruct (nth_error h p) as [cp|] eqn:Ep; [|apply nth_error_None in Ep; lia].
  exists (upd h p (fun c => push_back d c name None)).
  cbn [apply_node delete_entry]. unfold get. rewrite Ep. cbn [bind].
  split; [reflexivity|].
  assert (Hp : nth_error (upd h p (fun c => push_back d c name None)) p = Some (push_back d cp name None))
    by (apply (nth_upd_same h p (fun c => push_back d c name None) cp Ep)).
  assert (Hm : mfind (c_map (push_back d cp name None)) name = Some None) by (rewrite push_back_map; now rewrite eqs_refl).
  split; [exact (lookup_own _ _ _ _ _ Hp Hm)|].
  intros q cq Eq Pq Mq. unfold fuel_of. rewrite upd_length.
  destruct (length h) as [|k] eqn:Lh; [lia|]. cbn [lookup_inh]. now rewrite Eq, Mq, Pq, Hp, Hm.
Qed.

(* C15: re-opening a class merges: the existing container is returned, nothing is created or removed *)
Lemma reopen_merges : forall d h p cp name x, WF h -> nth_error h p = Some cp ->
  mfind (c_map cp) name = Some (Some x) -> append_or_replace d h (Some p) name [] = Ok (h, Some x).
Proof.
  intros d h p cp name x W Ep Em. unfold append_or_replace, get. rewrite Ep. cbn [bind]. rewrite Em.
  destruct (wf_child h W p cp name x Ep Em) as [cx [Ex _]]. now rewrite Ex.
Qed.

(* C15: a first declaration goes to the end of the class's own entries; count/select read that vector *)
Lemma first_declaration_appends : forall d h p cp name inh h' nav, WF h -> nth_error h p = Some cp ->
  mfind (c_map cp) name = None -> append_or_replace d h (Some p) name inh = Ok (h', nav) ->
  exists cp', nth_error h' p = Some cp' /\ c_vec cp' = c_vec cp ++ [Some (length h)] /\ nav = Some (length h).
Proof.
  intros d h p cp name inh h' nav W Ep Em H.
  assert (L : p < length h) by (apply nth_error_Some; congruence).
  unfold append_or_replace, get in H. rewrite Ep in H. cbn [bind] in H. rewrite Em in H.
  destruct (create_child_spec d h p name inh W L) as [b [E _]]. rewrite E in H. inversion H; subst.
  exists (push_back d cp name (Some (length h))). split; [now apply created_parent|].
  split; [|reflexivity]. unfold push_back. now rewrite Em.
Qed.
Lemma select_nth : forall h n c i e, nth_error h n = Some c -> (0 <= i)%Z ->
  nth_error (c_vec c) (Z.to_nat i) = Some e -> op_select h (Some n) i = Ok (e, []).
Proof.
  intros h n c i e E I0 F. unfold op_select, get. rewrite E. cbn [bind].
  assert (I1 : Z.to_nat i < length (c_vec c)) by (apply nth_error_Some; congruence).
  destruct (i <? 0)%Z eqn:A; [apply Z.ltb_lt in A; lia|].
  destruct (Z.of_nat (length (c_vec c)) <=? i)%Z eqn:B; [apply Z.leb_le in B; lia|]. cbn [orb]. now rewrite F.
Qed.
Lemma select_spec : forall h n c i, nth_error h n = Some c -> (0 <= i < Z.of_nat (length (c_vec c)))%Z ->
  exists e, nth_error (c_vec c) (Z.to_nat i) = Some e /\ op_select h (Some n) i = Ok (e, []).
Proof.
  intros h n c i E [I0 I1]. destruct (nth_error (c_vec c) (Z.to_nat i)) as [e|] eqn:F.
  - exists e. split; [reflexivity|]. eapply select_nth; eauto.
  - apply nth_error_None in F. lia.
Qed.

(* C15: inheritsFrom (repaired) returns the base class bound by the class statement *)
Lemma inheritsFrom_is_base : forall d h p name base h' x, WF h -> p < length h -> base <> [] ->
  d_inherits_logical d = false ->
  aor_case d h p name base h' x ->
  (exists b, lookup_log (S (fuel_of h)) h (Some p) base = Ok b /\
     (op_inheritsFrom d h' (Some x) = Ok (b, []) \/
      (* ... unless that base would have closed a cycle: then the class keeps the base it had *)
      (d_rebind_cycle d = false /\ reaches (fuel_of h) h b x = Ok true /\ h' = h))).
Proof.
  intros d h p name base h' x W L Nb Ed C.
  destruct C as [b E Ex Vb Lb _|cp Ep Em Ei E|cp b Ep Em Ei Lb Vb E _|cp b Ep Em Ei Lb Edr R E]; subst; try congruence.
  - exists b. destruct base as [|b0 base]; [congruence|]. split; [exact Lb|]. left.
    unfold op_inheritsFrom, get. rewrite (created_new d h p name b L). cbn. now rewrite Ed.
  - exists b. split; [apply lookup_log_fuel_mono with (f := fuel_of h); auto|]. left.
    destruct (wf_child h W p cp name x Ep Em) as [cx [Ex _]].
    unfold op_inheritsFrom, get. rewrite (nth_upd_same h x (set_pinh b) cx Ex). cbn. now rewrite Ed.
  - exists b. split; [apply lookup_log_fuel_mono with (f := fuel_of h); auto|]. right. auto.
Qed.

(* C15: configHierarchy (repaired) lists the enclosing classes from the root down to the class itself *)
Inductive Enclosing (h : host) : nat -> list nat -> Prop :=
| Encl_root : forall n c, nth_error h n = Some c -> c_plog c = None -> Enclosing h n [n]
| Encl_step : forall n c p l, nth_error h n = Some c -> c_plog c = Some p -> Enclosing h p l -> Enclosing h n (l ++ [n]).

Lemma encl_loop_spec : forall h n f, WF h -> n < length h -> n < f ->
  exists l, encl_loop f h (Some n) = Ok l /\ Enclosing h n (rev l).
Proof.
  intros h n. induction n as [n IH] using lt_wf_ind. intros f W L Lf.
  destruct f as [|f]; [lia|]. cbn [encl_loop]. unfold get.
  destruct (nth_error h n) as [c|] eqn:En; [|apply nth_error_None in En; lia]. cbn [bind].
  destruct (c_plog c) as [p|] eqn:Ep.
  - pose proof (wf_plog h W n c p En Ep) as Lp.
    destruct (IH p Lp f W ltac:(lia) ltac:(lia)) as [l [E1 E2]]. rewrite E1. cbn [bind].
    exists (n :: l). split; [reflexivity|]. cbn [rev]. eapply Encl_step; eauto.
  - destruct f; cbn; exists [n]; (split; [reflexivity|]); cbn; eapply Encl_root; eauto.
Qed.

Lemma not_reachable_from_base : forall p x b, Terminating p -> p x = Some b -> forall k, hits k p b x = false.
Proof.
  intros p x b T Px k. destruct (hits k p b x) eqn:H; [|reflexivity]. exfalso.
  destruct (hits_iter _ _ _ _ H) as [j [_ Ej]].
  apply (cyclic_not_terminating p); [|exact T]. exists x, j. cbn. now rewrite Px.
Qed.
Lemma never_hit_neq : forall p y x, (forall k, hits k p y x = false) -> y <> x.
Proof. intros p y x NR E. subst. specialize (NR 0). rewrite hits_self in NR. discriminate. Qed.
Lemma nearest_definer : forall h t b r, Nearest h t b r -> forall e, r = Some e ->
  exists a ca k, hits k (inh_of h) b a = true /\ nth_error h a = Some ca /\ mfind (c_map ca) t = Some (Some e).
Proof.
  intros h t b r N. induction N as [n c e0 Hn Hm|n c b' r Hn Hm Hp Hb IH|n c Hn Hm Hp]; intros e E; subst.
  - exists n, c, 0. split; [apply hits_self|auto].
  - destruct (IH e eq_refl) as [a [ca [k [H1 [H2 H3]]]]]. exists a, ca, (S k). split; [|auto].
    cbn. destruct (Nat.eqb n a); [reflexivity|]. unfold inh_of at 1. now rewrite Hn, Hp.
  - discriminate.
Qed.
(* a lookup that starts at b and cannot reach p does not notice changes confined to p (and to values) *)
Lemma nearest_frame : forall h h2 t p,
  (forall n c, n <> p -> nth_error h n = Some c ->
     exists c', nth_error h2 n = Some c' /\ c_map c' = c_map c /\ c_pinh c' = c_pinh c) ->
  forall b r, Nearest h t b r -> (forall k, hits k (inh_of h) b p = false) -> Nearest h2 t b r.
Proof.
  intros h h2 t p F b r N. induction N as [n c e0 Hn Hm|n c b' r Hn Hm Hp Hb IH|n c Hn Hm Hp]; intros NR;
    destruct (F n c (never_hit_neq _ _ _ NR) Hn) as [c' [A [B C]]].
  - eapply Near_here; eauto. congruence.
  - apply (Near_base h2 t n c' b' r A); try congruence.
    apply IH. intro k. specialize (NR (S k)). cbn in NR. destruct (Nat.eqb n p); [discriminate|].
    unfold inh_of in NR at 1. now rewrite Hn, Hp in NR.
  - eapply Near_none; eauto; congruence.
Qed.

Lemma nearest_valid : forall h t n r, WF h -> Nearest h t n r -> valid h r.
Proof.
  intros h t n r W N. induction N as [n c e Hn Hm|n c b r Hn Hm Hp Hb IH|n c Hn Hm Hp]; auto; [|exact I].
  destruct e as [e|]; [|exact I]. destruct (wf_child h W n c t e Hn Hm) as [ce [A _]]. cbn. apply nth_error_Some. congruence.
Qed.

(* what the base chain of class p yields under a name is not an entry of p itself: its definer would be p,
   which the chain cannot reach *)
Lemma inherited_not_own : forall h p cp b name e x cx, Inv h -> nth_error h p = Some cp -> c_pinh cp = Some b ->
  Nearest h name b (Some e) -> nth_error h x = Some cx -> c_plog cx = Some p -> x <> e.
Proof.
  intros h p cp b name e x cx [W A] Ep Pi N Ex Pl ->.
  destruct (nearest_definer _ _ _ _ N e eq_refl) as [a [ca [k [Hk [Ea Ma]]]]].
  destruct (wf_child h W a ca name e Ea Ma) as [ce [Ee [Pe _]]].
  assert (a = p) by congruence. subst a.
  rewrite (not_reachable_from_base (inh_of h) p b A) in Hk; [discriminate|]. unfold inh_of. now rewrite Ep.
Qed.

Lemma append_inherited_spec : forall h p x name cp cx b e0 c0 a0 self, Inv h ->
  nth_error h p = Some cp -> nth_error h x = Some cx -> c_plog cx = Some p -> c_pinh cp = Some b ->
  Nearest h name b (Some e0) -> nth_error h e0 = Some c0 -> c_value c0 = VArr a0 -> c_value cx = VArr self ->
  append_inherited h (Some x) name = Ok (upd h x (set_value (VArr (a0 ++ self)))).
Proof.
  intros h p x name cp cx b e0 c0 a0 self I Ep Ex Pl Pi N E0 V0 Vx.
  pose proof (inherited_not_own h p cp b name e0 x cx I Ep Pi N Ex Pl) as Nx. destruct I as [W A].
  unfold append_inherited, parent_logical, parent_inherited, get. rewrite Ex. cbn [bind]. rewrite Pl, Ep. cbn [bind].
  rewrite Pi, (proj2 (lookup_spec h b name (Some e0) W A (wf_pinh h W p cp b Ep Pi)) N). cbn [bind].
  rewrite E0. cbn [bind]. rewrite Vx, V0. destruct (Nat.eqb_spec x e0); [contradiction|reflexivity].
Qed.
Lemma append_inherited_total : forall h p x name cp cx, Inv h ->
  nth_error h p = Some cp -> nth_error h x = Some cx -> c_plog cx = Some p ->
  exists h3, append_inherited h (Some x) name = Ok h3.
Proof.
  intros h p x name cp cx I Ep Ex Pl. pose proof I as [W A].
  unfold append_inherited, parent_logical, parent_inherited, get. rewrite Ex. cbn [bind]. rewrite Pl, Ep. cbn [bind].
  destruct (c_pinh cp) as [b|] eqn:Pi; [|unfold fuel_of; cbn; eauto].
  destruct (lookup_terminates_under_acyclic h b name W A (wf_pinh h W p cp b Ep Pi)) as [r [Hr Nr]].
  rewrite Hr. cbn [bind]. destruct r as [en|]; [|eauto].
  pose proof (nearest_valid _ _ _ _ W Nr) as Le. cbn in Le.
  destruct (nth_error h en) as [ce|] eqn:Ee; [|apply nth_error_None in Ee; lia]. cbn [bind].
  destruct (c_value cx); eauto. destruct (c_value ce); eauto.
  destruct (Nat.eqb_spec x en) as [->|]; [|eauto].
  exfalso. exact (inherited_not_own h p cp b name en en cx I Ep Pi Nr Ex Pl eq_refl).
Qed.

(* C15: `name[] += {vs}` in a class whose base chain yields an array entry: the entry reads inherited ++ vs *)
Lemma append_appends_inherited : forall d h lg p name vs cp b e0 c0 a0, Inv h -> p < length h -> no_marker d h p name ->
  nth_error h p = Some cp -> c_pinh cp = Some b ->
  Nearest h name b (Some e0) -> nth_error h e0 = Some c0 -> c_value c0 = VArr a0 ->
  exists h' e ce, apply_node d (h, lg) (Some p) (NAppend name (NArr vs)) = Ok (h', lg) /\
    lookup_inh (fuel_of h') h' (Some p) name = Ok (Some e) /\ nth_error h' e = Some ce /\
    c_value ce = VArr (a0 ++ map eval_v vs).
Proof.
  intros d h lg p name vs cp b e0 c0 a0 [W A] L NM Ep Pi N0 E0 V0.
  destruct (aor_total d h p name [] W L NM (or_introl eq_refl)) as [[h1 nav] E].
  destruct (aor_inv _ _ _ _ _ _ _ W L E) as [x [cp' [cx [-> [C [[W1 _] [Lx [Ep1 [Em1 [Ex1 [Pl Nm]]]]]]]]]]].
  pose proof (aor_nobase_acyclic _ _ _ _ _ _ W A C) as A1.
  pose proof (aor_nobase_keeps _ _ _ _ _ _ C) as Keep.
  set (own := VArr (map eval_v vs)).
  set (h2 := upd h1 x (set_value own)).
  assert (I2 : Inv h2) by (apply set_value_inv; split; auto).
  assert (Npx : p <> x) by (pose proof (wf_plog h1 W1 x cx p Ex1 Pl); lia).
  assert (Ep2 : nth_error h2 p = Some cp') by (unfold h2; now rewrite nth_upd_other).
  assert (Ex2 : nth_error h2 x = Some (set_value own cx)) by (unfold h2; now apply nth_upd_same).
  destruct (Keep p cp Ep) as [cp1 [Ep1' [Pi1 _]]]. assert (cp1 = cp') by congruence. subst cp1.
  assert (Pi2 : c_pinh cp' = Some b) by congruence.
  (* the inherited entry is still found from b: p is out of reach, and only p and values have changed *)
  assert (N2 : Nearest h2 name b (Some e0)).
  { apply (nearest_frame h h2 name p); auto.
    - intros n c Nn En. destruct (Keep n c En) as [c1 [En1 [P1 [_ [_ [_ M1]]]]]]. destruct (M1 Nn) as [M1a _].
      unfold h2. rewrite nth_upd. destruct (Nat.eqb n x); rewrite En1; cbn; eauto.
    - apply not_reachable_from_base; auto. unfold inh_of. now rewrite Ep. }
  pose proof (inherited_not_own h2 p cp' b name e0 x _ I2 Ep2 Pi2 N2 Ex2 Pl) as Ne.
  destruct (Keep e0 c0 E0) as [c01 [E01 [_ [V01 _]]]].
  assert (E02 : nth_error h2 e0 = Some c01) by (unfold h2; rewrite nth_upd_other; auto).
  exists (upd h2 x (set_value (VArr (a0 ++ map eval_v vs)))), x,
    (set_value (VArr (a0 ++ map eval_v vs)) (set_value own cx)).
  cbn [apply_node]. rewrite E. cbn [bind]. rewrite (apply_value_spec (NArr vs) h1 x Lx). cbn [bind eval_v].
  fold own. fold h2.
  rewrite (append_inherited_spec h2 p x name cp' _ b e0 c01 a0 (map eval_v vs) I2 Ep2 Ex2 Pl Pi2 N2 E02 (eq_trans V01 V0) eq_refl).
  cbn [bind]. split; [reflexivity|]. split.
  - apply lookup_own with (c := cp'); [now rewrite nth_upd_other|exact Em1].
  - split; [now apply nth_upd_same|reflexivity].
Qed.

Fixpoint node_ind' (P : node -> Prop)
  (hc : forall n b body, Forall P body -> P (NClass n b body))
  (hd : forall n, P (NDelete n)) (hf : forall n v, P (NField n v)) (ha : forall n v, P (NAppend n v))
  (x : node) : P x :=
  match x with
  | NClass n b body => hc n b body ((fix go (l : list node) : Forall P l :=
       match l with [] => Forall_nil P | y :: r => Forall_cons y (node_ind' P hc hd hf ha y) (go r) end) body)
  | NDelete n => hd n
  | NField n v => hf n v
  | NAppend n v => ha n v
  end.

Lemma class_body_nodes : forall d nav l st,
  (fix go (st : lstate) (l : list node) : res lstate :=
     match l with [] => Ok st | x :: r => st1 <- apply_node d st nav x ;; go st1 r end) st l
  = apply_nodes d st nav l.
Proof.
  induction l as [|x r IH]; intro st; cbn [apply_nodes]; [reflexivity|].
  destruct (apply_node d st nav x); cbn [bind]; auto.
Qed.

Definition safe_setting (d : defects) : Prop := d_rebind_cycle d = false /\ d_deleted_reopen d = false.
Lemma safe_no_marker : forall d h p t, safe_setting d -> no_marker d h p t.
Proof. intros d h p t [_ E] E'. congruence. Qed.

(* What applying statements to a host comes to: a host that has grown (any defect setting), or a failure -
   and with the repairs a failure (fault or divergence) does not happen on an acyclic host. *)
Definition outcome (d : defects) (h : host) (r : res lstate) : Prop :=
  match r with Ok (h', _) => grows d h h' | _ => ~ (safe_setting d /\ Acyclic h) end.

Lemma outcome_after : forall d h h1 r, grows d h h1 -> outcome d h1 r -> outcome d h r.
Proof.
  intros d h h1 r G O. destruct r as [[h2 lg2]| |]; cbn in *.
  - exact (grows_trans d h h1 h2 G O).
  - intros [S A]. apply O. split; [exact S|]. apply G; [apply S|exact A].
  - intros [S A]. apply O. split; [exact S|]. apply G; [apply S|exact A].
Qed.
Lemma outcome_bind : forall d h r f, outcome d h r ->
  (forall h1 lg1, grows d h h1 -> outcome d h1 (f (h1, lg1))) -> outcome d h (bind r f).
Proof.
  intros d h r f O K. destruct r as [[h1 lg1]| |]; cbn [bind]; [|exact O..].
  exact (outcome_after d h h1 _ O (K h1 lg1 O)).
Qed.
Lemma aor_then : forall d h p t inh (k : host * cid -> res lstate), WF h -> p < length h ->
  (forall h1 x cp' cx, grows d h h1 -> x < length h1 -> nth_error h1 p = Some cp' -> nth_error h1 x = Some cx ->
     c_plog cx = Some p -> outcome d h1 (k (h1, Some x))) ->
  outcome d h (bind (append_or_replace d h (Some p) t inh) k).
Proof.
  intros d h p t inh k W L K. pose proof (aor_spec d h p t inh W L) as S.
  destruct (append_or_replace d h (Some p) t inh) as [[h1 nav]| |] eqn:E; cbn [bind].
  - destruct (aor_inv _ _ _ _ _ _ _ W L E) as [x [cp' [cx [-> [_ [G [Lx [Ep [_ [Ex [Pl _]]]]]]]]]]].
    apply (outcome_after d h h1 _ G). eapply K; eauto.
  - intros [Sf A]. apply S. split; [now apply safe_no_marker|auto].
  - intros [Sf A]. apply S. split; [now apply safe_no_marker|auto].
Qed.

Definition node_ok (d : defects) (n : node) : Prop :=
  forall h lg p, WF h -> p < length h -> outcome d h (apply_node d (h, lg) (Some p) n).

Lemma nodes_ok_of : forall d l, Forall (node_ok d) l -> forall h lg p, WF h -> p < length h ->
  outcome d h (apply_nodes d (h, lg) (Some p) l).
Proof.
  intros d l F. induction F as [|x r Hx _ IH]; intros h lg p W L; cbn [apply_nodes].
  - now apply grows_refl.
  - apply outcome_bind; [now apply Hx|]. intros h1 lg1 [W1 [L1 _]]. apply IH; [exact W1|lia].
Qed.

Lemma apply_node_ok : forall d n, node_ok d n.
Proof.
  intros d. induction n as [name base body IHb|name|name v|name v] using node_ind'; intros h lg p W L; cbn [apply_node].
  - assert (Hw : exists wanted, (match base with [] => Ok None | _ => lookup_log (fuel_of h) h (Some p) base end) = Ok wanted).
    { destruct base as [|b0 base]; [eauto|]. apply lookup_log_total; auto. unfold fuel_of. lia. }
    destruct Hw as [wanted ->]. cbn [bind]. apply aor_then; auto. intros h1 x cp' cx G Lx Ep Ex Pl.
    assert (Hl : exists w, (match base with [] => Ok [] | _ => class_ext_log d wanted h1 (Some x) end) = Ok w).
    { destruct base as [|b0 base]; [eauto|]. unfold class_ext_log, parent_inherited, get. rewrite Ex. cbn [bind].
      destruct (d_rebind_cycle d); eauto. }
    destruct Hl as [w ->]. cbn [bind]. rewrite class_body_nodes. apply (nodes_ok_of d body IHb); [apply G|exact Lx].
  - unfold delete_entry, get. destruct (nth_error h p) eqn:Ep; [|apply nth_error_None in Ep; lia]. cbn.
    now apply grows_delete.
  - apply aor_then; auto. intros h1 x cp' cx G Lx Ep Ex Pl.
    rewrite (apply_value_spec v h1 x Lx). cbn. apply grows_set_value. apply G.
  - apply aor_then; auto. intros h1 x cp' cx G Lx Ep Ex Pl. pose proof (proj1 G) as W1.
    rewrite (apply_value_spec v h1 x Lx). cbn [bind].
    pose proof (grows_set_value d h1 x (eval_v v) W1) as G2. apply (outcome_after d h1 _ _ G2).
    assert (T : safe_setting d /\ Acyclic (upd h1 x (set_value (eval_v v))) ->
                exists h3, append_inherited (upd h1 x (set_value (eval_v v))) (Some x) name = Ok h3).
    { intros [_ A2]. apply (append_inherited_total _ p x name cp' (set_value (eval_v v) cx)).
      - split; [apply G2|exact A2].
      - rewrite nth_upd_other; [exact Ep|]. pose proof (wf_plog h1 W1 x cx p Ex Pl). lia.
      - now apply nth_upd_same.
      - exact Pl. }
    destruct (append_inherited _ (Some x) name) as [h3| |] eqn:Hai; cbn [bind].
    + exact (append_inherited_grows d _ _ _ _ (proj1 G2) Hai).
    + intro SA. destruct (T SA). discriminate.
    + intro SA. destruct (T SA). discriminate.
Qed.

Lemma apply_nodes_ok : forall d l h lg p, WF h -> p < length h -> outcome d h (apply_nodes d (h, lg) (Some p) l).
Proof. intros d l. apply nodes_ok_of. apply Forall_forall. intros n _. apply apply_node_ok. Qed.
Lemma loads_ok : forall d ls h lg, WF h -> outcome d h (loads d (h, lg) ls).
Proof.
  intros d ls. induction ls as [|l r IH]; intros h lg W; cbn [loads]; [now apply grows_refl|].
  apply outcome_bind; [exact (apply_nodes_ok d l h lg 0 W (wf_root h W))|]. intros h1 lg1 G. apply IH. apply G.
Qed.

(* for every defect setting the host stays well-formed (no dangling ids) and own entries keep their positions *)
Lemma loads_inv : forall d ls h lg h' lg', WF h -> loads d (h, lg) ls = Ok (h', lg') -> grows d h h'.
Proof. intros d ls h lg h' lg' W H. pose proof (loads_ok d ls h lg W) as O. now rewrite H in O. Qed.
(* C15: every sequence of loads keeps the host well-formed and the inherited-parent relation acyclic *)
Lemma acyclic_preserved : forall d ls h lg h' lg', d_rebind_cycle d = false -> Inv h ->
  loads d (h, lg) ls = Ok (h', lg') -> Inv h'.
Proof. intros d ls h lg h' lg' Ed I H. destruct I as [W A]. exact (grows_inv d h h' Ed (loads_inv d ls h lg h' lg' W H) (conj W A)). Qed.
(* C15: with the repairs every sequence of loads returns (no fault, no divergence) *)
Lemma loads_total : forall d, safe_setting d -> forall ls h lg, Inv h -> exists st', loads d (h, lg) ls = Ok st'.
Proof.
  intros d S ls h lg [W A]. pose proof (loads_ok d ls h lg W) as O.
  destruct (loads d (h, lg) ls); [eauto|destruct O; auto..].
Qed.

Lemma path_loop_total : forall h n f, WF h -> n < length h -> n < f -> exists l, path_loop f h n = Ok l.
Proof.
  intros h n. induction n as [n IH] using lt_wf_ind. intros f W L Lf.
  destruct f as [|f]; [lia|]. cbn [path_loop]. unfold get.
  destruct (nth_error h n) as [c|] eqn:En; [|apply nth_error_None in En; lia]. cbn [bind].
  destruct (c_plog c) as [p|] eqn:Ep; [|eauto].
  pose proof (wf_plog h W n c p En Ep) as Lp.
  destruct (IH p Lp f W ltac:(lia) ltac:(lia)) as [l E]. rewrite E. cbn. eauto.
Qed.
Lemma message_path_total : forall h n, WF h -> n < length h -> exists l, message_path h n = Ok l.
Proof.
  intros h n W L. unfold message_path, get.
  destruct (nth_error h n) as [c|] eqn:En; [|apply nth_error_None in En; lia]. cbn [bind].
  destruct (path_loop_total h n (fuel_of h) W L ltac:(unfold fuel_of; lia)) as [l E]. rewrite E. cbn. eauto.
Qed.
Lemma op_lookup_total : forall h c t, Inv h -> valid h c -> exists r w, op_lookup h c t = Ok (r, w) /\ valid h r.
Proof.
  intros h c t [W A] V. destruct c as [n|]; [|cbn; exists None, [W_NONNULL]; split; [reflexivity|exact I]].
  cbn in V. unfold op_lookup.
  destruct (lookup_terminates_under_acyclic h n t W A V) as [r [Hr Nr]]. rewrite Hr. cbn [bind].
  pose proof (nearest_valid _ _ _ _ W Nr) as Vr.
  destruct r as [e|].
  - cbn in Vr. unfold get. destruct (nth_error h e) eqn:Ee; [|apply nth_error_None in Ee; lia]. cbn. eauto.
  - destruct (message_path_total h n W V) as [l E]. rewrite E. cbn. exists None, [W_NOTFOUND]. split; [reflexivity|exact I].
Qed.
(* C15: every lookup path, existing or not, evaluates (no fault, no divergence) on a well-formed acyclic host *)
Lemma op_path_total : forall h p c, Inv h -> valid h c -> exists r w, op_path h c p = Ok (r, w) /\ valid h r.
Proof.
  intros h p. induction p as [|t p IH]; intros c I V; cbn [op_path].
  - exists c, []. auto.
  - destruct (op_lookup_total h c t I V) as [r1 [w1 [E1 V1]]]. rewrite E1. cbn [bind].
    destruct (IH r1 I V1) as [r2 [w2 [E2 V2]]]. rewrite E2. cbn [bind]. eauto.
Qed.
Lemma op_select_total : forall h n i, WF h -> n < length h -> exists r w, op_select h (Some n) i = Ok (r, w) /\ valid h r.
Proof.
  intros h n i W L. unfold op_select, get.
  destruct (nth_error h n) as [c|] eqn:En; [|apply nth_error_None in En; lia]. cbn [bind].
  destruct ((i <? 0)%Z || (Z.of_nat (length (c_vec c)) <=? i)%Z) eqn:B.
  - exists None, [W_INDEX]. split; [reflexivity|exact I].
  - apply orb_false_iff in B. destruct B as [B1 B2]. apply Z.ltb_ge in B1. apply Z.leb_gt in B2.
    destruct (nth_error (c_vec c) (Z.to_nat i)) as [e|] eqn:F; [|apply nth_error_None in F; lia].
    exists e, []. split; [reflexivity|]. destruct e as [e|]; [|exact I]. cbn. eapply wf_vec; eauto.
    eapply nth_error_In; eauto.
Qed.

(* the code before the repairs: witnesses for the _refuted theorems of Properties_C15.v *)

Local Open Scope Z_scope.
Definition nA : str := [65]. Definition nB : str := [66]. Definition nx : str := [120].
Definition nBase : str := [66;97;115;101]. Definition nDerived : str := [68;101;114;105;118;101;100].
(* class A {}; class B : A {}; class A : B {}; *)
Definition cycle_witness : list (list node) := [[NClass nA [] []; NClass nB nA []; NClass nA nB []]].
Local Close Scope Z_scope.

Definition cycle_host : host :=
  Eval vm_compute in match loads original (init_host, []) cycle_witness with Ok (h, _) => h | _ => [] end.

(* class Base {}; class Derived : Base {}; *)
Definition inh_witness : list (list node) := [[NClass nBase [] []; NClass nDerived nBase []]].
Definition inh_host : host :=
  Eval vm_compute in match loads original (init_host, []) inh_witness with Ok (h, _) => h | _ => [] end.
(* class A { class B {}; }; *)
Definition hier_witness : list (list node) := [[NClass nA [] [NClass nB [] []]]].
Definition hier_host : host :=
  Eval vm_compute in match loads original (init_host, []) hier_witness with Ok (h, _) => h | _ => [] end.

(* the inheritance chain of a class: the class, its base, the base's base, ... *)
Inductive Chain (h : host) : nat -> list nat -> Prop :=
| Chain_end : forall n c, nth_error h n = Some c -> c_pinh c = None -> Chain h n [n]
| Chain_cons : forall n c b l, nth_error h n = Some c -> c_pinh c = Some b -> Chain h b l -> Chain h n (n :: l).
(* the own entry of class k under name t: None = not declared, Some None = delete marker, Some (Some e) = entry e *)
Definition own (h : host) (k : nat) (t : str) : option cid :=
  match nth_error h k with Some c => mfind (c_map c) t | None => None end.
(* r is what the first class of the chain that declares t says - nothing if none does *)
Definition first_declared (h : host) (t : str) (l : list nat) (r : cid) : Prop :=
  (exists pre k post, l = pre ++ k :: post /\ (forall j, In j pre -> own h j t = None) /\ own h k t = Some r) \/
  ((forall j, In j l -> own h j t = None) /\ r = None).

Lemma chain_exists : forall f h n, WF h -> n < length h -> ends f (inh_of h) n = true -> exists l, Chain h n l.
Proof.
  induction f as [|f IH]; intros h n W L E; [discriminate|]. cbn in E. unfold inh_of in E at 1.
  destruct (nth_error h n) as [c|] eqn:En; [|apply nth_error_None in En; lia].
  destruct (c_pinh c) as [b|] eqn:Ep.
  - destruct (IH h b W (wf_pinh h W n c b En Ep) E) as [l Hl]. exists (n :: l). eapply Chain_cons; eauto.
  - exists [n]. eapply Chain_end; eauto.
Qed.
Lemma nearest_chain : forall h t n l, Chain h n l -> forall r, Nearest h t n r <-> first_declared h t l r.
Proof.
  intros h t n l C. induction C as [n c En Ep|n c b l En Ep C IH]; intros r.
  - split.
    + intro N. inversion N; subst; try congruence.
      * left. exists [], n, []. split; [reflexivity|]. split; [intros j []|]. unfold own. rewrite H. assert (c0 = c) by congruence. now subst.
      * right. split; [|reflexivity]. intros j [<-|[]]. unfold own. rewrite H. assert (c0 = c) by congruence. now subst.
    + intros [[pre [k [post [E [Hpre Hk]]]]]|[Hall ->]].
      * destruct pre as [|p0 pre]; cbn in E; inversion E; subst.
        -- unfold own in Hk. rewrite En in Hk. eapply Near_here; eauto.
        -- destruct pre; discriminate.
      * specialize (Hall n (or_introl eq_refl)). unfold own in Hall. rewrite En in Hall. eapply Near_none; eauto.
  - split.
    + intro N. inversion N; subst; try congruence.
      * left. exists [], n, l. split; [reflexivity|]. split; [intros j []|]. unfold own. rewrite H. assert (c0 = c) by congruence. now subst.
      * assert (c0 = c) by congruence. subst c0. assert (b0 = b) by congruence. subst b0.
        apply IH in H2. destruct H2 as [[pre [k [post [E [Hpre Hk]]]]]|[Hall ->]].
        -- left. exists (n :: pre), k, post. split; [cbn; now rewrite E|]. split; [|exact Hk].
           intros j [<-|Hj]; [unfold own; now rewrite En|auto].
        -- right. split; [|reflexivity]. intros j [<-|Hj]; [unfold own; now rewrite En|auto].
    + intros [[pre [k [post [E [Hpre Hk]]]]]|[Hall ->]].
      * destruct pre as [|p0 pre]; cbn in E; inversion E; subst.
        -- unfold own in Hk. rewrite En in Hk. eapply Near_here; eauto.
        -- assert (Hn : own h p0 t = None) by (apply Hpre; now left). unfold own in Hn. rewrite En in Hn.
           eapply Near_base; eauto. apply IH. left. exists pre, k, post. split; [reflexivity|]. split; [|exact Hk].
           intros j Hj. apply Hpre. now right.
      * assert (Hn : own h n t = None) by (apply Hall; now left). unfold own in Hn. rewrite En in Hn.
        eapply Near_base; eauto. apply IH. right. split; [|reflexivity]. intros j Hj. apply Hall. now right.
Qed.

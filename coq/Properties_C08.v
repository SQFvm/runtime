(* C08 - arrays are shared references, copies are independent, and never cyclic.
   The short proofs stand here; the others are in Data/DataGraph.v (recursion test), Data/DataHeap.v (walks),
   Data/DataStep.v and Data/DataFrame.v (the forms of an outcome: every operation keeps the invariant, frame property,
   fresh results), Data/DataTerm.v, Data/DataProofs.v (refusals, index rules), Data/DataCopy.v (deep copy),
   Data/DataSort.v and Data/DataSortStep.v (sort of a table).
   The model (Data/DataDefs.v) is tied to the C++ by the correspondence run of checks/C08.py.
   `repaired` = the code as it stands since the fix: commits 75f978a, 5a49f25 (C08) and a4dc5e5 (C07, keys by value)
   of /repo (proposed_fixes/C08-*.diff, C07-01-*.diff); `as_is` = the code before them, kept for the refutations.
   Inv st = every reference points to a container, and no container reaches itself. *)
From Coq Require Import ZArith List Bool Lia Permutation Sorted.
Import ListNotations.
From SqfVerif Require Import Data.DataDefs Data.DataGraph Data.DataHeap Data.DataStep Data.DataTerm Data.DataFrame Data.DataProofs Data.DataCopy
  Data.DataSort Data.DataSortStep.

(* The recursion test of d_array (path-based DFS, over any successor relation): a yes means
   that the tested container lies on no cycle and reaches none. *)
Theorem C08_recursion_test_sound : forall (K : nat -> list nat) f x, rt K f [] x = Some true ->
  ~ reach K x x /\ forall y, reach K x y -> ~ reach K y y.
Proof. exact rt_true_sound. Qed.
Print Assumptions C08_recursion_test_sound.

(* ... and |heap| + 2 levels of fuel always suffice for it (nodes outside the heap have no successors) *)
Theorem C08_recursion_test_fuel : forall (K : nat -> list nat) n, (forall r, n <= r -> K r = []) ->
  forall x, rt K (S (S n)) [] x <> None.
Proof. intros K n Ko x. apply (rt_fuel K n Ko); [constructor|intros ? []|cbn; lia]. Qed.
Print Assumptions C08_recursion_test_fuel.

(* When the test says yes on a container, printing it, comparing it with anything and deep
   copying it terminate within the same fuel. *)
Theorem C08_test_yes_terminates : forall f h vis a, hwf h -> cont h a = true ->
  rt (succs h) f vis a = Some true ->
  (exists t, freeze f h (VRef a) = Ok t) /\
  (forall w, vwf h w -> exists b, deq f h (VRef a) w = Ok b) /\
  (is_arr h a = true -> exists r, copy_deep f h a = Ok r).
Proof.
  intros f h vis a W C R. split; [eapply rt_yes_freeze; eauto|]. split.
  - intros w Vw. eapply rt_yes_deq; eauto.
  - intros Ia. eapply rt_yes_copy; eauto. apply gext_refl; auto.
Qed.
Print Assumptions C08_test_yes_terminates.

(* On a well-formed acyclic heap printing, comparing and copying need at most |heap| + 2
   levels of fuel (fuel_of), for every value. *)
Theorem C08_terminates_under_acyclic : forall st, Inv st ->
  (forall v, vwf (st_heap st) v -> exists t, observe st v = Ok t) /\
  (forall v w, vwf (st_heap st) v -> vwf (st_heap st) w -> exists b, veq (fuel_of (st_heap st)) (st_heap st) v w = Ok b) /\
  (forall a, is_arr (st_heap st) a = true -> exists r, copy_deep (fuel_of (st_heap st)) (st_heap st) a = Ok r).
Proof.
  intros st Hi. split; [intros; apply print_terminates; auto|]. split; [intros; apply compare_terminates; auto|].
  intros; apply copy_terminates; auto.
Qed.
Print Assumptions C08_terminates_under_acyclic.

(* No operation - set, pushBack, pushBackUnique, append, deleteAt, deleteRange, resize, reverse,
   sort, +, -, select, HashMap set / deleteAt / createHashMapFromArray / keys / copy, with any
   aliasing of the operands - can make a container contain itself: the invariant is kept by
   every operation, hence along every history. *)
Theorem C08_acyclic_preserved : forall st o, Inv st -> Inv (o_state (step repaired st o)).
Proof. exact acyclic_preserved. Qed.
Print Assumptions C08_acyclic_preserved.
Theorem C08_acyclic_along_histories : forall n os, Inv (run repaired (init_state n) os).
Proof. intros. apply run_inv, init_inv. Qed.
Print Assumptions C08_acyclic_along_histories.

(* The unrepaired code breaks it in three ways (witnesses replayed on the implementation by
   checks/C08.py): _a append [_a]; _m set [1,_m]; _a pushBack _m when _m holds _a.  In the
   first two the print of the variable then needs unbounded fuel (the C++ recursion overflows
   the stack). *)
Theorem C08_acyclic_preserved_refuted_append : exists st o, Inv st /\
  o_status (step as_is st o) = Done /\ ~ HAcyclic (st_heap (o_state (step as_is st o))) /\
  observe (o_state (step as_is st o)) (VRef 0) = OutOfFuel.
Proof.
  exists st_one, (OpAppend (OVar 0) (OWrap 0)). split; [apply st_one_inv|]. split; [reflexivity|]. split; [|reflexivity].
  intros A. apply (A 0). constructor. unfold edge. cbn. auto.
Qed.
Print Assumptions C08_acyclic_preserved_refuted_append.
Theorem C08_acyclic_preserved_refuted_hashmap_set : exists st o, Inv st /\
  o_status (step as_is st o) = Done /\ ~ HAcyclic (st_heap (o_state (step as_is st o))) /\
  observe (o_state (step as_is st o)) (VRef 0) = OutOfFuel.
Proof.
  exists st_map, (OpMapSet (OVar 0) (OLit (TNum (SHalf 2))) (OVar 0)). split; [apply st_map_inv|]. split; [reflexivity|].
  split; [|reflexivity]. intros A. apply (A 0). constructor. unfold edge. cbn. auto.
Qed.
Print Assumptions C08_acyclic_preserved_refuted_hashmap_set.
Theorem C08_acyclic_preserved_refuted_through_hashmap : exists st o, Inv st /\
  o_status (step as_is st o) = Done /\ o_diags (step as_is st o) = [] /\
  ~ HAcyclic (st_heap (o_state (step as_is st o))).
Proof. exact acyclic_preserved_refuted_via_map. Qed.
Print Assumptions C08_acyclic_preserved_refuted_through_hashmap.

(* A refused insertion (diagnostic ArrayRecursion) leaves every variable and every container
   that existed as it was. *)
Theorem C08_refused_insert_unchanged : forall st o, Inv st ->
  In DArrayRecursion (o_diags (step repaired st o)) ->
  st_vars (o_state (step repaired st o)) = st_vars st /\
  forall a, a < length (st_heap st) -> nth_error (st_heap (o_state (step repaired st o))) a = nth_error (st_heap st) a.
Proof. exact refused_insert_unchanged. Qed.
Print Assumptions C08_refused_insert_unchanged.
(* the unrepaired set keeps the growth: [] set [3, itself] leaves [nil,nil,nil,nil] *)
Theorem C08_refused_insert_unchanged_refuted : exists st o,
  In DArrayRecursion (o_diags (step as_is st o)) /\
  nth_error (st_heap (o_state (step as_is st o))) 0 <> nth_error (st_heap st) 0.
Proof.
  exists {| st_heap := [CArr []]; st_vars := [VRef 0] |}, (OpSet (OVar 0) 6%Z (OVar 0)).
  split; [vm_compute; auto|]. vm_compute. discriminate.
Qed.
Print Assumptions C08_refused_insert_unchanged_refuted.

(* An operation changes at most the one container it works on in place (target_of) and
   otherwise only adds new cells: every other variable or slot that refers to a container
   keeps observing the same cell, and all references to the changed container see the change
   (they are the same address). *)
Theorem C08_step_frame : forall d st o, Inv st ->
  length (st_heap st) <= length (st_heap (o_state (step d st o))) /\
  forall a, a < length (st_heap st) -> target_of st o <> Some a ->
            nth_error (st_heap (o_state (step d st o))) a = nth_error (st_heap st) a.
Proof. exact step_frame. Qed.
Print Assumptions C08_step_frame.

(* +x, x + y, x - y, x select [..], keys m, createHashMap(FromArray) return containers that did
   not exist before, and no later history that does not work in place on the result itself
   changes them - whatever it does to the operands. *)
Theorem C08_fresh_results_independent : forall st o dst, Inv st -> fresh_op o dst ->
  o_status (step repaired st o) = Done ->
  let st' := o_state (step repaired st o) in
  exists r, nth_error (st_vars st') dst = Some (VRef r) /\ length (st_heap st) <= r /\
            forall os, untouched repaired r st' os ->
                       nth_error (st_heap (run repaired st' os)) r = nth_error (st_heap st') r.
Proof. exact fresh_results_independent. Qed.
Print Assumptions C08_fresh_results_independent.

(* +array is deep: the copy and every array it reaches through arrays are cells that did not
   exist before (no variable, alias or slot of the old heap refers to them), and no history that
   does not work in place on one of these cells themselves changes any of them.  (A HashMap
   inside the array is shared: d_array::copy_deep copies arrays only.) *)
Theorem C08_copy_is_deep : forall st n a dst, Inv st ->
  nth_error (st_vars st) n = Some (VRef a) -> is_arr (st_heap st) a = true ->
  o_status (step repaired st (OpCopy dst (OVar n))) = Done ->
  let st' := o_state (step repaired st (OpCopy dst (OVar n))) in
  exists r, nth_error (st_vars st') dst = Some (VRef r) /\ length (st_heap st) <= r /\
    (forall b, reach (succs_arr (st_heap st')) r b -> length (st_heap st) <= b) /\
    forall os, (forall b, (b = r \/ reach (succs_arr (st_heap st')) r b) -> untouched repaired b st' os) ->
      forall b, (b = r \/ reach (succs_arr (st_heap st')) r b) -> b < length (st_heap st') ->
                nth_error (st_heap (run repaired st' os)) b = nth_error (st_heap st') b.
Proof. exact copy_is_deep. Qed.
Print Assumptions C08_copy_is_deep.

(* ---- sort of a TABLE (an array of rows), ops_generic.cpp:736-817: in place, on the heap.
   sort_table h asc l = Ok (TSorted l') says: the table passed the type checks (every element an array, every row of the
   size and the element types of the first), and two rows that the comparator does not order are the same row object.
   Then `table sort flag` leaves the table in its cell; the new content l' is a permutation of the old element VALUES - the
   references to the row cells, no copies -, sorted by the comparator of the C++ (comp(later, earlier) is false for every
   pair), and it is the ONLY sorted permutation (so the result does not depend on the algorithm behind std::sort); no other
   cell changes, no variable is rebound, the heap stays well formed and acyclic.  Hence every name of the table observes
   the new order, and every name of a row still refers to a cell that is an element of the table (and sees, and causes,
   every later change of that row through any name). *)
Theorem C08_sort_table_in_place : forall d st n asc a l l',
  Inv st -> nth_error (st_vars st) n = Some (VRef a) -> nth_error (st_heap st) a = Some (CArr l) -> 1 < length l ->
  sort_table (st_heap st) asc l = Ok (TSorted l') ->
  let o := step d st (OpSort (OVar n) asc) in
  let h' := st_heap (o_state o) in
  o_status o = Done /\ o_diags o = [] /\ st_vars (o_state o) = st_vars st /\
  Inv (o_state o) /\ length h' = length (st_heap st) /\
  nth_error h' a = Some (CArr l') /\
  (forall b, b <> a -> nth_error h' b = nth_error (st_heap st) b) /\
  Permutation l l' /\
  StronglySorted (fun x y => vrow_ltb h' asc y x = false) l' /\
  (forall l2, Permutation l l2 -> StronglySorted (fun x y => vrow_ltb h' asc y x = false) l2 -> l2 = l') /\
  (forall r, In (VRef r) l -> r <> a /\ In (VRef r) l' /\ nth_error h' r = nth_error (st_heap st) r).
Proof. exact sort_table_step. Qed.
Print Assumptions C08_sort_table_in_place.

(* A table the type checks refuse (an element that is no array: one ExpectedArrayTypeMissmatch per such element; a row of
   another size: ExpectedArraySizeMissmatch; a row with other element types: one ExpectedArrayTypeMissmatch per position,
   the loop stops at the first such row) is left exactly as it was. *)
Theorem C08_sort_table_refused_unchanged : forall d st n asc a l ds,
  nth_error (st_vars st) n = Some (VRef a) -> nth_error (st_heap st) a = Some (CArr l) -> 1 < length l ->
  sort_table (st_heap st) asc l = Ok (TRefused ds) ->
  step d st (OpSort (OVar n) asc) = mk Done st ds VNil /\ ds <> [] /\
  forall x, In x ds -> x = DExpectedArrayTypeMissmatch \/ x = DExpectedArraySizeMissmatch.
Proof. exact sort_table_refused_step. Qed.
Print Assumptions C08_sort_table_refused_unchanged.

(* On a well-formed heap the model of the table sort never reaches its explicit outcome for undefined behaviour: no dangling
   reference, and after the type checks the comparator never reads beyond the end of a row nor a string / float out of a
   value of another type, for any pair of rows std::sort may hand it. *)
Theorem C08_sort_table_defined : forall h asc l, hwf h -> Forall (vwf h) l -> exists r, sort_table h asc l = Ok r.
Proof. exact sort_table_defined. Qed.
Print Assumptions C08_sort_table_defined.

(* The comparator on rows that passed the type checks (rows of one shape: the same kind - string, number, passed over - at
   every position) is a strict weak ordering, ascending and descending: defined, irreflexive, asymmetric, and "not less" is
   transitive.  NaN is in front of every number, -0 and 0 are equal. *)
Theorem C08_row_comparator_strict_weak : forall asc,
  (forall a, row_lt asc a a = Some false) /\
  (forall a b, shape a = shape b -> exists r, row_lt asc a b = Some r) /\
  (forall a b, shape a = shape b -> row_lt asc a b = Some true -> row_lt asc b a = Some false) /\
  (forall a b c, shape a = shape b -> shape b = shape c ->
     row_lt asc a b = Some false -> row_lt asc b c = Some false -> row_lt asc a c = Some false).
Proof.
  intros asc. split; [apply row_lt_irrefl|]. split; [apply row_lt_defined|]. split; [apply row_lt_asym|apply row_lt_ntrans].
Qed.
Print Assumptions C08_row_comparator_strict_weak.

(* Index rules. *)
Local Open Scope Z_scope.
Theorem C08_set_grows_with_nils : forall l i v, zlen l <= i ->
  put (resize_list l (i + 1)) i v = l ++ repeat VNil (Z.to_nat (i - zlen l)) ++ [v].
Proof. exact set_grows_with_nils. Qed.
Print Assumptions C08_set_grows_with_nils.
Theorem C08_set_negative_rejected_unchanged : forall d st n a l idx m v,
  nth_error (st_vars st) n = Some (VRef a) -> nth_error (st_heap st) a = Some (CArr l) ->
  eval_opnd st (OVar m) = Some (st, v) -> trunc_half idx < 0 ->
  step d st (OpSet (OVar n) idx (OVar m)) = mk Done st [DNegativeIndex] VNil.
Proof. exact set_negative_rejected_unchanged. Qed.
Print Assumptions C08_set_negative_rejected_unchanged.
Theorem C08_deleteAt_out_of_range_unchanged : forall d st n a l idx,
  nth_error (st_vars st) n = Some (VRef a) -> nth_error (st_heap st) a = Some (CArr l) ->
  zlen l <= trunc_half idx \/ trunc_half idx < 0 ->
  exists w, (w = DIndexOutOfRangeWeak \/ w = DNegativeIndexWeak) /\
            step d st (OpDeleteAt (OVar n) idx) = mk Done st [w] VNil.
Proof.
  intros d st n a l idx V E H. destruct (var_array _ _ _ _ V E) as [E1 E2].
  cbn [step]. unfold with1. rewrite E1, E2.
  destruct (Z.leb_spec (zlen l) (trunc_half idx)); [eexists; split; [left; reflexivity|reflexivity]|].
  destruct (Z.ltb_spec (trunc_half idx) 0); [eexists; split; [right; reflexivity|reflexivity]|lia].
Qed.
Print Assumptions C08_deleteAt_out_of_range_unchanged.
Theorem C08_resize_negative_rejected_unchanged : forall st n a l k,
  nth_error (st_vars st) n = Some (VRef a) -> nth_error (st_heap st) a = Some (CArr l) -> k < 0 ->
  step repaired st (OpResize (OVar n) k) = mk Done st [DNegativeSize] VNil.
Proof.
  intros st n a l k V E H. destruct (var_array _ _ _ _ V E) as [E1 E2].
  cbn [step]. unfold with1. rewrite E1, E2. destruct (Z.ltb_spec k 0); [|lia].
  cbn [d_resize_unchecked repaired negb]. rewrite Bool.orb_true_r. reflexivity.
Qed.
Print Assumptions C08_resize_negative_rejected_unchanged.
Theorem C08_deleteRange_beyond_unchanged : forall st n a l from to,
  nth_error (st_vars st) n = Some (VRef a) -> nth_error (st_heap st) a = Some (CArr l) ->
  zlen l < round_half from -> round_half from <= round_half to ->
  step repaired st (OpDeleteRange (OVar n) from to) = mk Done st [DIndexOutOfRangeWeak] VNil.
Proof.
  intros st n a l from to V E H1 H2. destruct (var_array _ _ _ _ V E) as [E1 E2].
  pose proof (zlen_nonneg l).
  cbn [step]. unfold with1. rewrite E1, E2.
  destruct (Z.ltb_spec (round_half to) (round_half from)); [lia|].
  destruct (Z.ltb_spec (round_half from) 0); [lia|].
  destruct (Z.leb_spec (zlen l) (round_half to)); [|lia].
  destruct (Z.ltb_spec (zlen l - 1 + 1) (round_half from)); [reflexivity|lia].
Qed.
Print Assumptions C08_deleteRange_beyond_unchanged.
(* the unrepaired code: resize -2 casts the negative float to size_t (length_error escapes),
   deleteRange starting beyond the end erases an inverted range *)
Theorem C08_index_rules_refuted : (exists st k, k < 0 /\ o_status (step as_is st (OpResize (OVar 0%nat) k)) = Undefined) /\
  (exists st from to, o_status (step as_is st (OpDeleteRange (OVar 0%nat) from to)) = Undefined).
Proof.
  split.
  - exists {| st_heap := [CArr []]; st_vars := [VRef 0%nat] |}, (-4). split; [lia|reflexivity].
  - exists {| st_heap := [CArr [VNum (SHalf 2); VNum (SHalf 4)]]; st_vars := [VRef 0%nat] |}, 10, 10. reflexivity.
Qed.
Print Assumptions C08_index_rules_refuted.
Local Close Scope Z_scope.

(* ---- non-vacuity: a history with aliasing, nesting and refused self-insertions keeps Inv,
   and the refusals are reported *)
Definition ex_history : list op :=
  [ OpAssign 0 (OLit (TArr [TNum (SHalf 2%Z); TArr [TNum (SHalf 4%Z)]]));
    OpAssign 1 (OSel 0 1);                      (* v1 aliases the inner array *)
    OpPushBack (OVar 1) (OLit (TStr [97%Z]));     (* seen through v0 as well *)
    OpNewMap 2;
    OpMapSet (OVar 2) (OLit (TNum (SHalf 2%Z))) (OVar 0);
    OpPushBack (OVar 1) (OVar 2);               (* v1 <- map <- v0 <- v1 : refused *)
    OpAppend (OVar 0) (OWrap 0);                (* refused *)
    OpCopy 3 (OVar 0) ].
Example ex_inv : Inv (run repaired (init_state 4) ex_history).
Proof. apply C08_acyclic_along_histories. Qed.
Example ex_observed :
  let st := run repaired (init_state 4) ex_history in
  option_map (fun v => match observe st v with Ok t => print_tree true t | _ => [] end) (nth_error (st_vars st) 0)
  = Some (print_tree true (TArr [TNum (SHalf 2%Z); TArr [TNum (SHalf 4%Z); TStr [97%Z]]])).
Proof. vm_compute. reflexivity. Qed.
Example ex_refused :
  let st := run repaired (init_state 4) (firstn 5 ex_history) in
  o_diags (step repaired st (OpPushBack (OVar 1) (OVar 2))) = [DArrayRecursion].
Proof. vm_compute. reflexivity. Qed.

(* ---- non-vacuity of the table sort: rows held by variables v0..v2 and by the table v3 (alias v4); NaN sorts in front, the
   second column decides between the two rows whose first column is equal (0 and -0), the boolean column is passed over.
   After the sort a row is changed through its own name: both names of the table show it. *)
Definition ex_table : list op :=
  [ OpAssign 0 (OLit (TArr [TNum (SHalf 0%Z); TStr [98%Z]; TBool true]));
    OpAssign 1 (OLit (TArr [TNum SNegZero; TStr [97%Z]; TBool false]));
    OpAssign 2 (OLit (TArr [TNum (SNaN 1%Z); TStr [122%Z]; TBool true]));
    OpAssign 3 (OLit (TArr []));
    OpPushBack (OVar 3) (OVar 0); OpPushBack (OVar 3) (OVar 1); OpPushBack (OVar 3) (OVar 2);
    OpAssign 4 (OVar 3) ].
Example ex_table_sorted :
  let st := run repaired (init_state 5) ex_table in
  match nth_error (st_vars st) 3 with
  | Some (VRef a) => match nth_error (st_heap st) a with
                     | Some (CArr l) => exists l', sort_table (st_heap st) true l = Ok (TSorted l') /\ l' = rev l /\ 1 < length l
                     | _ => False end
  | _ => False end.
Proof. vm_compute. eexists. split; [reflexivity|]. split; [reflexivity|lia]. Qed.
Example ex_table_observed :
  let st := run repaired (init_state 5) (ex_table ++ [OpSort (OVar 4) true; OpPushBack (OVar 1) (OLit (TStr [120%Z]))]) in
  map (fun v => match observe st v with Ok t => print_tree true t | _ => [] end) (firstn 2 (skipn 3 (st_vars st)))
  = let t := print_tree true (TArr [TArr [TNum (SNaN 1%Z); TStr [122%Z]; TBool true];
                                    TArr [TNum SNegZero; TStr [97%Z]; TBool false; TStr [120%Z]];
                                    TArr [TNum (SHalf 0%Z); TStr [98%Z]; TBool true]]) in [t; t].
Proof. vm_compute. reflexivity. Qed.
Example ex_table_refused :
  let st := run repaired (init_state 5) (ex_table ++ [OpPushBack (OVar 1) (OLit (TStr [120%Z]))]) in
  o_diags (step repaired st (OpSort (OVar 3) false)) = [DExpectedArraySizeMissmatch] /\
  o_state (step repaired st (OpSort (OVar 3) false)) = st.
Proof. vm_compute. split; reflexivity. Qed.

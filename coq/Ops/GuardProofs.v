(* C09 (b) - proofs about the guard models: for the repaired code every modelled operator ends in Ret (no undefined
   behaviour, no escaping exception, fuel suffices), its result refers to existing elements and its allocation is
   bounded by the size of its arguments plus the explicitly requested size; for the code as it is, witnesses that
   reach UB / Throw. *)
From Coq Require Import ZArith List String Bool Lia.
From SqfVerif Require Import Ops.OpsBase Ops.Guards Ops.SortOrder.
Import ListNotations.
Local Open Scope Z_scope.

Ltac b2z :=
  repeat match goal with
  | H : (_ && _) = true |- _ => apply andb_true_iff in H; destruct H
  | H : (_ && _) = false |- _ => apply andb_false_iff in H; destruct H
  | H : (_ || _) = true |- _ => apply orb_true_iff in H; destruct H
  | H : (_ || _) = false |- _ => apply orb_false_iff in H; destruct H
  | H : negb _ = true |- _ => apply negb_true_iff in H
  | H : negb _ = false |- _ => apply negb_false_iff in H
  | H : (_ <? _) = true |- _ => apply Z.ltb_lt in H
  | H : (_ <? _) = false |- _ => apply Z.ltb_ge in H
  | H : (_ <=? _) = true |- _ => apply Z.leb_le in H
  | H : (_ <=? _) = false |- _ => apply Z.leb_gt in H
  | H : (_ =? _) = true |- _ => apply Z.eqb_eq in H
  | H : (_ =? _) = false |- _ => apply Z.eqb_neq in H
  end.

Ltac split_all := repeat match goal with |- _ /\ _ => split end.

(* case analysis on every test of the model; the constants are unfolded only when the arithmetic needs them *)
Ltac cases :=
  repeat match goal with
  | |- context [if ?c then _ else _] => destruct c eqn:?
  | |- context [match ?x with _ => _ end] => destruct x eqn:?
  end.

(* No statement here looks at the message of a UB or Throw outcome, and a compiled `match` repeats each message in
   every branch it falls through to: naming the outcomes keeps one copy of each message in the goal and in the
   proof term (a destruct on a goal with the copies is many times dearer, for coqc and for coqchk). *)
Ltac hide_messages := repeat (let u := fresh "ub" in set (u := UB _)); repeat (let t := fresh "thr" in set (t := Throw _)).

Lemma zlen_nonneg {A} (l : list A) : 0 <= zlen l.
Proof. unfold zlen. lia. Qed.
Lemma zlen_cons {A} (x : A) l : zlen (x :: l) = 1 + zlen l.
Proof. unfold zlen. cbn [List.length]. lia. Qed.
Lemma zlen_nil {A} : zlen (@nil A) = 0.
Proof. reflexivity. Qed.

Lemma vec_ok_true n i : 0 <= i < n -> vec_ok n i = true.
Proof. intro H. unfold vec_ok. apply andb_true_iff. split; [apply Z.leb_le | apply Z.ltb_lt]; lia. Qed.
Lemma it_ok_true n k : 0 <= k <= n -> it_ok n k = true.
Proof. intro H. unfold it_ok. apply andb_true_iff. split; apply Z.leb_le; lia. Qed.
Lemma iadd_some a b : INT_MIN <= a + b <= INT_MAX -> iadd a b = Some (a + b).
Proof. intro H. unfold iadd, in_int. destruct H. rewrite (proj2 (Z.leb_le _ _)), (proj2 (Z.leb_le _ _)) by assumption. reflexivity. Qed.
Lemma vec_at {A} (l : list A) i : 0 <= i < zlen l -> exists x, nth_error l (Z.to_nat i) = Some x /\ In x l.
Proof.
  intro H. destruct (nth_error l (Z.to_nat i)) as [x|] eqn:E; [eauto using nth_error_In|].
  apply nth_error_None in E. unfold zlen in H. lia.
Qed.

Lemma clamp_in z : INT_MIN <= clamp_int z <= INT_MAX.
Proof. unfold clamp_int, INT_MIN, INT_MAX. destruct (z <? -2147483648) eqn:E1; [lia|]. destruct (2147483647 <? z) eqn:E2; b2z; lia. Qed.

Lemma cast_repaired p : exists z, cast_int repaired p = CI z /\ INT_MIN <= z <= INT_MAX.
Proof.
  destruct p; cbn; eexists; split; try reflexivity; try apply clamp_in; unfold INT_MIN, INT_MAX; lia.
Qed.

Lemma cast_as_is_range p z : cast_int as_is p = CI z -> INT_MIN <= z <= INT_MAX.
Proof.
  destruct p; cbn; try discriminate. destruct (in_int z0) eqn:E; try discriminate. intro H; inversion H; subst.
  unfold in_int in E. b2z. lia.
Qed.

Ltac use_cast p :=
  let z := fresh "z" in let Hc := fresh "Hc" in let Hz := fresh "Hz" in
  destruct (cast_repaired p) as [z [Hc Hz]]; rewrite Hc; unfold INT_MIN, INT_MAX in Hz.

(* stated on a name so that a goal holds the model once, not three times *)
Definition within (n B : Z) (o : outcome) : Prop := safe o /\ res_ok n o /\ alloc_of o <= B.
Lemma within_ret n B ds v al : res_ok n (Ret ds v al) -> al <= B -> within n B (Ret ds v al).
Proof. intros R A. split; [exact I | split; [exact R | exact A]]. Qed.
Lemma within_def n B o : within n B o -> safe o /\ res_ok n o /\ alloc_of o <= B.
Proof. exact (fun H => H). Qed.
Definition bounded (B : Z) (o : outcome) : Prop := safe o /\ alloc_of o <= B.
Lemma bounded_ret B ds v al : al <= B -> bounded B (Ret ds v al).
Proof. intros A. split; [exact I | exact A]. Qed.
Lemma bounded_def B o : bounded B o -> safe o /\ alloc_of o <= B.
Proof. exact (fun H => H). Qed.

Lemma select_range_safe n args : 0 <= n -> within n (2 * n + zlen args) (select_range repaired n args).
Proof.
  intro Hn. pose proof (zlen_nonneg args) as Hm. unfold select_range. cbn [df_range_add repaired].
  destruct (zlen args <? 1) eqn:E0; [apply within_ret; cbn [res_ok]; lia|].
  destruct (nth_error args 0) as [[f0| | | |]|] eqn:E1; try (apply within_ret; cbn [res_ok]; lia).
  2:{ destruct args; [rewrite zlen_nil in E0; discriminate | cbn in E1; discriminate]. }
  use_cast (ip_round f0).
  destruct (z <? 0) eqn:E2; [apply within_ret; cbn [res_ok]; lia|].
  destruct (n <? z) eqn:E3; [apply within_ret; cbn [res_ok]; lia|].
  destruct (2 <=? zlen args) eqn:E4; [|apply within_ret; cbn [res_ok]; lia].
  destruct (nth_error args 1) as [[f1| | | |]|] eqn:E5; try (apply within_ret; cbn [res_ok]; lia).
  2:{ destruct args as [|a [|b r]]; cbn in E5; try discriminate; rewrite ?zlen_cons, ?zlen_nil in E4; b2z; pose proof (zlen_nonneg r); lia. }
  use_cast (ip_round f1).
  destruct (z0 <? 0) eqn:E6; [apply within_ret; cbn [res_ok]; lia|].
  b2z.
  destruct (n - z <? z0) eqn:E7; b2z; rewrite !it_ok_true by lia;
    (replace (z <=? _) with true by (symmetry; apply Z.leb_le; lia));
    apply within_ret; cbn [res_ok]; lia.
Qed.

(* start <= size, start + length > INT_MAX: an array of 200 elements, [200, 2147483520] *)
Lemma select_range_refuted :
  select_range as_is 200 [VNum (FFin (200 * SCALE)); VNum (FFin (2147483520 * SCALE))]
  = UB "signed integer overflow: start + length".
Proof. vm_compute. reflexivity. Qed.

Lemma quot_bound k : 0 <= k -> k <= ARR_MAX * SCALE -> 0 <= Z.quot k SCALE <= ARR_MAX.
Proof.
  intros H0 H1. unfold SCALE, ARR_MAX in *. rewrite Z.quot_div_nonneg by lia.
  split; [apply Z.div_pos; lia|]. apply Z.div_le_upper_bound; lia.
Qed.

Lemma resize_safe n f :
  safe (resize_model repaired n f) /\ alloc_of (resize_model repaired n f) <= ARR_MAX /\
  (forall k, f = FFin k -> alloc_of (resize_model repaired n f) * SCALE <= Z.max 0 k).
Proof.
  (* refused: nothing is allocated *)
  assert (R0: forall ds, safe (Ret ds RNil 0) /\ alloc_of (Ret ds RNil 0) <= ARR_MAX /\
                         (forall k, f = FFin k -> alloc_of (Ret ds RNil 0) * SCALE <= Z.max 0 k)).
  { intros ds. cbn. unfold ARR_MAX. split_all; auto; intros; lia. }
  unfold resize_model. hide_messages. cbn [df_nolimit repaired negb andb].
  destruct f as [| | |k]; cbn [fl_ge0 negb ip_trunc]; try apply R0.
  destruct (0 <=? k) eqn:E; cbn [negb]; b2z; [|apply R0].
  destruct (ARR_MAX * SCALE <? k) eqn:E2; b2z; [apply R0|].
  pose proof (quot_bound k E E2) as [Q0 Q1].
  assert (Z.quot k SCALE <? SIZE_MOD = true) as E3 by (apply Z.ltb_lt; unfold SIZE_MOD, ARR_MAX in *; lia).
  assert (VEC_MAX <? Z.quot k SCALE = false) as E4 by (apply Z.ltb_ge; unfold VEC_MAX, ARR_MAX in *; lia).
  rewrite E3, E4. cbn [safe res_ok alloc_of]. split_all; auto.
  intros k0 Hk. inversion Hk; subst k0.
  unfold SCALE in *. rewrite Z.quot_div_nonneg by lia.
  pose proof (Z.mul_div_le k 713623846352979940529142984724747568191373312 ltac:(lia)). lia.
Qed.

Lemma resize_refuted :
  resize_model as_is 3 (FFin (1000000000000000019884624838656 * SCALE))
    = UB "float-cast-overflow: the value is not representable in size_t" /\
  resize_model as_is 3 (FFin (4611686018427387904 * SCALE)) = Throw "std::length_error (vector::resize)".
Proof. split; vm_compute; reflexivity. Qed.

(* d_array::check_type with a type vector: never reads behind the vector when max <= its length (every caller passes
   max = the length: d_array.h:218-221) *)
Lemma check_typeN_loop_safe : forall elems tys, (List.length elems <= List.length tys)%nat -> check_typeN_loop elems tys <> None.
Proof.
  induction elems as [|v es IH]; cbn; intros tys H; [discriminate|].
  destruct tys as [|t ts]; cbn in H; [lia|].
  specialize (IH ts ltac:(lia)). destruct (check_typeN_loop es ts) as [[ds ok]|]; [|contradiction].
  destruct (ty_eqb (ty_of v) t); discriminate.
Qed.

Lemma check_typeN_safe elems tys mn mx : mx <= zlen tys -> check_typeN elems tys mn mx <> None.
Proof.
  intro H. unfold check_typeN. destruct ((zlen elems <? mn) || (mx <? zlen elems)) eqn:E; [discriminate|].
  b2z. apply check_typeN_loop_safe. unfold zlen in *. lia.
Qed.

Lemma sort_safe elems flag : safe (sort_model repaired elems flag).
Proof.
  unfold sort_model. hide_messages.
  destruct (zlen elems <=? 1) eqn:E1; [cbn; auto|].
  destruct elems as [|e0 rest] eqn:EE; [rewrite zlen_nil in E1; discriminate|]. rewrite <- EE.
  destruct (is_sortable (ty_of e0)) eqn:ES; cbn [negb]; [|cbn; auto].
  destruct (check_type1 elems (ty_of e0) (zlen elems) (zlen elems)) as [ds [|]] eqn:EC; [|cbn; auto].
  pose proof (check_type1_true _ _ _ _ _ EC) as HT.
  destruct e0 as [f|s|b|r0|t]; cbn in ES; try discriminate.
  - rewrite (swo_scalars flag elems HT). cbn. auto.
  - rewrite (swo_strings flag elems HT). cbn. auto.
  - destruct (rows_check elems (map ty_of r0)) as [[ds2 [|]]|] eqn:ER.
    + rewrite (swo_rows flag elems (map ty_of r0) (rows_check_true _ _ _ ER)). cbn. auto.
    + cbn. auto.
    + (* rows_check cannot read behind the type vector: max = its length *)
      exfalso. clear - ER HT. revert ER. generalize (map ty_of r0) as tys. intro tys.
      assert (forall v, In v elems -> ty_of v = TArray) as HA by (intros v Hv; rewrite (HT v Hv); reflexivity).
      clear HT. induction elems as [|x xs IH]; cbn; [discriminate|].
      pose proof (HA x (or_introl eq_refl)) as Tx. destruct x; cbn in Tx; try discriminate.
      pose proof (check_typeN_safe l tys (zlen tys) (zlen tys) ltac:(lia)) as Hs.
      destruct (check_typeN l tys (zlen tys) (zlen tys)) as [[d [|]]|]; try discriminate; [|contradiction].
      apply IH. intros v Hv. apply HA. right. auto.
Qed.

(* as is: on rows, with sort_flag = false, comp(a, a) = true: not irreflexive *)
Lemma sort_cmp_refuted_rows :
  sort_cmp as_is false (VArr [VNum (FFin 0)]) (VArr [VNum (FFin 0)]) = Some true /\
  sort_model as_is [VArr [VNum (FFin 0)]; VArr [VNum (FFin SCALE)]] false
    = UB "std::sort: the comparator is not a strict weak ordering on the elements".
Proof. split; vm_compute; reflexivity. Qed.

(* as is: with a NaN among the numbers incomparability is not transitive (1 ~ NaN, NaN ~ 2, 1 < 2) *)
Lemma sort_cmp_refuted_nan :
  sort_model as_is [VNum (FFin SCALE); VNum FNan; VNum (FFin (2 * SCALE))] true
    = UB "std::sort: the comparator is not a strict weak ordering on the elements".
Proof. vm_compute. reflexivity. Qed.

(* the elements of the arrays among the descriptors: what param may copy besides its operands *)
Definition arr_sum (d : list val) : Z := fold_right (fun v a => a + match v with VArr l => zlen l | _ => 0 end) 0 d.
Lemma arr_sum_nth d k : 0 <= zlen (match nth_error d k with Some (VArr l) => l | _ => [] end) <= arr_sum d.
Proof.
  revert k. induction d as [|x d IH]; intros k; [destruct k; unfold arr_sum, zlen; cbn; lia|].
  assert (0 <= arr_sum d) by (specialize (IH 0%nat); lia).
  assert (0 <= match x with VArr l => zlen l | _ => 0 end) by (destruct x; try lia; apply zlen_nonneg).
  change (arr_sum (x :: d)) with (arr_sum d + match x with VArr l => zlen l | _ => 0 end).
  destruct k as [|k]; cbn [nth_error]; [destruct x; cbv iota beta; rewrite ?(@zlen_nil val); lia | specialize (IH k); lia].
Qed.

Lemma params_entry_safe elements i fel : 0 <= i -> safe (params_entry elements i fel).
Proof.
  intro Hi. unfold params_entry.
  (* :1759-1779 the descriptor starts with a string; with a second entry pd.at(1) exists, without one the size
     tests that guard pd.at(1) are false *)
  destruct (match fel with VArr l => l | v => [v] end) as [|[| s | | |] [|p1 pr]]; try (cbn; auto; fail);
    rewrite ?zlen_cons, ?(@zlen_nil val); cbn [nth_error];
    (* :1810 the index test is what makes elements.at(i) defined *)
    (destruct (i <? zlen elements) eqn:EI; b2z; [destruct (vec_at elements i) as (cur & -> & _); [lia|]|]);
    (* the remaining type tests all end in Ret *)
    cases; cbn [safe]; auto; b2z; lia.
Qed.

Lemma params_loop_safe elements : forall fmt i ds al, 0 <= i -> safe (params_loop elements i fmt ds al).
Proof.
  induction fmt as [|fel rest IH]; intros i ds al Hi; cbn; auto.
  pose proof (params_entry_safe elements i fel Hi) as Hs.
  destruct (params_entry elements i fel); cbn in Hs; try contradiction. apply IH. lia.
Qed.

Lemma find_aux_bounds : forall l c idx p, find_aux l c idx = Some p -> idx <= p < idx + zlen l.
Proof.
  induction l as [|x l IH]; cbn [find_aux]; intros c idx p H; [discriminate|].
  rewrite zlen_cons. pose proof (zlen_nonneg l).
  destruct (x =? c); [inversion H; lia|]. apply IH in H. lia.
Qed.

Lemma zlen_skipn {A} (l : list A) k : 0 <= k <= zlen l -> zlen (skipn (Z.to_nat k) l) = zlen l - k.
Proof. intro H. unfold zlen in *. rewrite skipn_length. lia. Qed.

Lemma find_from_bounds s c off p : 0 <= off -> find_from s c off = Some p -> off <= p < zlen s.
Proof.
  intros H0 H. unfold find_from in H. destruct (zlen s <=? off) eqn:E; [discriminate|]. b2z.
  apply find_aux_bounds in H. rewrite zlen_skipn in H by lia. lia.
Qed.

Lemma digits_run_bounds : forall l cnt acc c v, digits_run l cnt acc = (c, v) -> cnt <= c <= cnt + zlen l.
Proof.
  induction l as [|x l IH]; cbn [digits_run]; intros cnt acc c v H.
  - inversion H; subst. rewrite zlen_nil. lia.
  - rewrite zlen_cons. pose proof (zlen_nonneg l). destruct (is_digit x).
    + apply IH in H. lia.
    + inversion H; subst. lia.
Qed.

Lemma digits_run_first l x acc c v : is_digit x = true -> digits_run (x :: l) 0 acc = (c, v) -> 1 <= c.
Proof. intros Hd H. cbn [digits_run] in H. rewrite Hd in H. apply digits_run_bounds in H. lia. Qed.

Lemma digits_sat_bounds : forall l acc, 0 <= acc <= INT_MAX -> 0 <= digits_sat l acc <= INT_MAX.
Proof.
  induction l as [|x l IH]; cbn [digits_sat]; intros acc H; auto.
  destruct (is_digit x) eqn:D; auto. apply IH.
  unfold is_digit in D. b2z. unfold INT_MAX in *.
  destruct ((2147483647 - 9) / 10 <? acc) eqn:E; [lia|]. b2z.
  change ((2147483647 - 9) / 10) with 214748363 in E. lia.
Qed.

Lemma str_at_in s i : 0 <= i < zlen s -> exists c, str_at s i = Some c /\ nth_error s (Z.to_nat i) = Some c.
Proof.
  intro H. unfold str_at. fold (vec_ok (zlen s) i). rewrite vec_ok_true by lia.
  destruct (vec_at s i H) as (c & E & _). eauto.
Qed.
Lemma str_at_end s : str_at s (zlen s) = Some 0.
Proof.
  unfold str_at. rewrite Z.ltb_irrefl, andb_false_r, Z.eqb_refl. reflexivity.
Qed.
Lemma str_at_ok s i : 0 <= i <= zlen s -> str_at s i <> None.
Proof.
  intro H. destruct (Z.eq_dec i (zlen s)) as [->|N]; [rewrite str_at_end; discriminate|].
  destruct (str_at_in s i) as (c & -> & _); [lia | discriminate].
Qed.

Lemma skipn_cons_nth {A} (l : list A) k x : nth_error l k = Some x -> exists r, skipn k l = x :: r.
Proof.
  revert k. induction l as [|y l IH]; intros k H; destruct k; cbn in *; try discriminate.
  - inversion H. eexists; reflexivity.
  - apply IH; auto.
Qed.

(* the loop ends within its fuel and the number of bytes written is bounded; M bounds the printed length of every
   argument: bytes <= (|format| + 1) * (1 + M)  (a placeholder needs two characters of the format string) *)
Lemma fmt_loop_safe plens M (HM0 : 0 <= M) (HM : forall x, In x plens -> 0 <= x <= M) s :
  forall fuel off ds al,
    0 <= off <= zlen s + 1 -> Z.of_nat fuel + off >= zlen s + 2 ->
    0 <= al <= off + off * M ->
    safe (fmt_loop fuel repaired s plens off ds al) /\
    alloc_of (fmt_loop fuel repaired s plens off ds al) <= (zlen s + 1) + (zlen s + 1) * M.
Proof.
  pose proof (zlen_nonneg s) as Hs.
  induction fuel as [|fuel IH]; intros off ds al H0 Hfuel Hal; [lia|].
  cbn [fmt_loop]. hide_messages.
  assert (off * M <= (zlen s + 1) * M) as HoffM by (apply Z.mul_le_mono_nonneg_r; lia).
  destruct (find_from s 37 off) as [p|] eqn:EF.
  2:{ destruct (off <=? zlen s) eqn:E; b2z; cbn [safe alloc_of]; split; auto; lia. }
  apply find_from_bounds in EF; [|lia].
  assert ((off + 1) * M <= (p + 2) * M) as HpM by (apply Z.mul_le_mono_nonneg_r; lia).
  (* at the terminator, or at a character that is no digit: an invalid placeholder *)
  destruct (Z.eq_dec (p + 1) (zlen s)) as [Ee|Ne]; [rewrite Ee, str_at_end; cbn [is_digit Z.leb Z.compare andb negb]; apply IH; lia|].
  destruct (str_at_in s (p + 1)) as (c & -> & Hn); [lia|].
  destruct (is_digit c) eqn:ED; cbn [negb]; [|apply IH; lia].
  - (* a placeholder number *)
    destruct (skipn_cons_nth _ _ _ Hn) as [r Hr]. rewrite Hr.
    destruct (digits_run (c :: r) 0 0) as [cnt value] eqn:EDR.
    pose proof (digits_run_first _ _ _ _ _ ED EDR) as Hc1.
    pose proof (digits_run_bounds _ _ _ _ _ EDR) as Hc2. rewrite <- Hr in Hc2. rewrite zlen_skipn in Hc2 by lia.
    assert (str_at s (p + 1 + cnt) <> None) as Hat2 by (apply str_at_ok; lia).
    destruct (str_at s (p + 1 + cnt)) as [c2|] eqn:EA2; [|contradiction].
    cbn [df_stoi repaired].
    pose proof (digits_sat_bounds (c :: r) 0 ltac:(unfold INT_MAX; lia)) as Hsat.
    assert ((p + 2) * M <= (p + 1 + cnt) * M) as HeM by (apply Z.mul_le_mono_nonneg_r; lia).
    destruct (zlen plens <=? digits_sat (c :: r) 0) eqn:EN.
    + apply IH; lia.
    + b2z. destruct (vec_at plens (digits_sat (c :: r) 0)) as (pl & -> & Hin); [lia|].
      pose proof (HM pl Hin) as Hpl. apply IH; lia.
Qed.

(* as is: format ["%99999999999"] *)
Lemma format_refuted :
  format_model as_is [VStr [37;57;57;57;57;57;57;57;57;57;57;57]] [14] = Throw "std::out_of_range (stoi)".
Proof. vm_compute. reflexivity. Qed.

Lemma to_string_loop_safe : forall l ds al, bounded (al + zlen l) (to_string_loop repaired l ds al).
Proof.
  induction l as [|v l IH]; intros ds al; cbn [to_string_loop].
  - apply bounded_ret. rewrite zlen_nil. lia.
  - rewrite zlen_cons. pose proof (zlen_nonneg l). destruct v as [f| | | |];
      try (destruct (IH (ds ++ [ExpectedArrayTypeMissmatch]) al) as [I1 I2]; split; auto; lia).
    use_cast (ip_trunc f). destruct (IH ds (al + 1)) as [I1 I2]. split; auto; lia.
Qed.

(* splitString: every token lies inside the string *)
Definition tokens_ok (n : Z) (o : outcome) : Prop :=
  match o with Ret _ (RTokens l) _ => forall s c, In (s, c) l -> 0 <= s /\ 0 < c /\ s + c <= n | Ret _ _ _ => True | _ => False end.

Lemma split_loop_safe delims : forall l i ml toks n,
  0 <= ml <= i -> n = i + zlen l ->
  (forall s c, In (s, c) toks -> 0 <= s /\ 0 < c /\ s + c <= n) ->
  tokens_ok n (split_loop l delims i ml toks) /\ alloc_of (split_loop l delims i ml toks) <= n + 2 * (zlen toks + zlen l + 1).
Proof.
  induction l as [|c l IH]; intros i ml toks n Hml Hn Ht; cbn [split_loop].
  - change (zlen (@nil Z)) with 0 in *. pose proof (zlen_nonneg toks).
    destruct (ml =? 0) eqn:E0; b2z.
    + cbn [alloc_of tokens_ok]. split; [|lia]. intros s c Hin. apply in_rev in Hin. auto.
    + assert ((0 <=? i - ml) && (i - ml <=? i) = true) as E1 by (apply andb_true_iff; split; [apply Z.leb_le | apply Z.leb_le]; lia).
      rewrite E1. cbn [alloc_of tokens_ok]. split; [|lia]. intros s c Hin. apply in_rev in Hin. destruct Hin as [Hin | Hin]; [inversion Hin; subst; lia | auto].
  - rewrite zlen_cons in *. pose proof (zlen_nonneg l). pose proof (zlen_nonneg toks).
    destruct (existsb (Z.eqb c) delims).
    + destruct (0 <? ml) eqn:E0; b2z.
      * assert ((0 <=? i - ml) && (i - ml <=? i + 1 + zlen l) = true) as E1 by (apply andb_true_iff; split; apply Z.leb_le; lia).
        rewrite E1. destruct (IH (i + 1) 0 ((i - ml, ml) :: toks) n ltac:(lia) ltac:(lia)) as [I1 I2].
        { intros s c0 [Hin | Hin]; [inversion Hin; subst; lia | auto]. }
        split; auto. rewrite zlen_cons in I2. lia.
      * destruct (IH (i + 1) 0 toks n ltac:(lia) ltac:(lia) Ht) as [I1 I2]. split; auto. lia.
    + destruct (IH (i + 1) (ml + 1) toks n ltac:(lia) ltac:(lia) Ht) as [I1 I2]. split; auto. lia.
Qed.

(* selectMax / selectMin: the down-counting size_t loop stays inside the array and ends *)
Lemma minmax_loop_safe elems : zlen elems < SIZE_MOD -> forall fuel i ds,
  (i = SIZE_MOD - 1 /\ 1 <= Z.of_nat fuel) \/ (0 <= i < zlen elems /\ i + 2 <= Z.of_nat fuel) ->
  bounded 0 (minmax_loop fuel elems i ds).
Proof.
  intros Hsz. induction fuel as [|fuel IH]; intros i ds Hi; [lia|].
  cbn [minmax_loop]. destruct (i =? SIZE_MOD - 1) eqn:E; [apply bounded_ret; lia|]. b2z.
  destruct Hi as [[Hi _] | [Hi Hf]]; [contradiction|].
  rewrite vec_ok_true by lia. destruct (vec_at elems i) as (v & -> & _); [lia|].
  apply IH. destruct (Z.eq_dec i 0) as [-> | Hnz].
  - left. split; [reflexivity | lia].
  - right. rewrite Z.mod_small by (unfold SIZE_MOD in *; lia). lia.
Qed.

Definition cfg_valid (id : Z) : bool := negb (id =? INVALID).

Lemma skipn_hd {A} k (l : list A) x r : skipn k l = x :: r -> nth_error l k = Some x /\ skipn (S k) l = r.
Proof. revert l. induction k as [|k IH]; destruct l; cbn; intros H; try discriminate; [inversion H; split; reflexivity | apply IH, H]. Qed.

(* the walk from slot k on, the slots from k on being l *)
Lemma cfg_walk_settle children ncont : (forall id, In id children -> id = INVALID \/ 0 <= id < ncont) ->
  forall l k acc fuel, skipn k children = l -> (List.length l < fuel)%nat ->
  cfg_walk fuel repaired children ncont (cfg_settle l (Z.of_nat k)) acc
    = Ret [] (RWalk (rev acc ++ filter cfg_valid l)) (zlen acc + zlen (filter cfg_valid l)).
Proof.
  intros Hwf. induction l as [|id l IH]; intros k acc fuel E Hfuel.
  - destruct fuel; [cbn in Hfuel; lia|]. cbn [cfg_walk cfg_settle filter]. rewrite app_nil_r.
    change (zlen (@nil Z)) with 0. f_equal. lia.
  - destruct (skipn_hd _ _ _ _ E) as [En Es]. cbn [cfg_settle filter]. change (cfg_valid id) with (negb (id =? INVALID)).
    replace (Z.of_nat k + 1) with (Z.of_nat (S k)) by lia.
    destruct (id =? INVALID) eqn:EI; cbn [negb]; [apply IH; [exact Es | cbn in Hfuel; lia]|].
    destruct fuel; [cbn in Hfuel; lia|]. cbn [cfg_walk]. b2z.
    assert (cfg_deref children ncont (Z.of_nat k) = Some id) as HD.
    { assert (k < List.length children)%nat by (apply nth_error_Some; congruence).
      destruct (Hwf id (nth_error_In _ _ En)) as [?|Hid]; [contradiction|].
      unfold cfg_deref. rewrite vec_ok_true by (unfold zlen; lia). rewrite Nat2Z.id, En, vec_ok_true by lia. reflexivity. }
    rewrite HD. cbn [df_cfg_iter repaired]. unfold cfg_settle_at.
    replace (Z.of_nat k + 1) with (Z.of_nat (S k)) by lia. rewrite Nat2Z.id, Es.
    rewrite IH; [|exact Es | cbn in Hfuel; lia].
    cbn [rev]. rewrite <- app_assoc. cbn [app]. f_equal. rewrite !zlen_cons. lia.
Qed.

Lemma from_sqf_loop_safe v start : forall fuel i out,
  1 <= i <= zlen v -> Z.of_nat fuel + i >= zlen v + 1 -> 0 <= out <= i - 1 ->
  bounded (2 * zlen v) (from_sqf_loop fuel v start i out).
Proof.
  induction fuel as [|fuel IH]; intros i out Hi Hf Ho; [lia|].
  cbn [from_sqf_loop]. destruct (i <? zlen v - 1) eqn:E; b2z; [|apply bounded_ret; lia].
  unfold sv_at. rewrite !vec_ok_true by lia. destruct (vec_at v i) as (c & -> & _); [lia|].
  destruct (c =? start); [|apply IH; lia].
  destruct (vec_at v (i + 1)) as (c2 & -> & _); [lia|]. destruct (c2 =? start); apply IH; lia.
Qed.

Lemma from_sqf_safe v : bounded (2 * zlen v) (from_sqf repaired v).
Proof.
  pose proof (zlen_nonneg v) as H0. unfold from_sqf. cbn [df_asm repaired].
  destruct (zlen v =? 0) eqn:E0; [apply bounded_ret; lia|]. b2z.
  unfold sv_at. rewrite vec_ok_true by lia. destruct (vec_at v 0) as (st & -> & _); [lia|].
  destruct (negb (st =? 34) && negb (st =? 39)); [apply bounded_ret; lia|].
  destruct (zlen v =? 2); [apply bounded_ret; lia|].
  apply from_sqf_loop_safe; unfold zlen in *; lia.
Qed.

Lemma digits_only_nonneg : forall l acc bound n, 0 <= acc -> digits_only l acc bound = Some n -> 0 <= n.
Proof.
  induction l as [|c l IH]; cbn; intros acc bound n Ha H; [inversion H; lia|].
  destruct (negb (is_digit c) || (bound <? acc)) eqn:E; [discriminate|]. b2z.
  unfold is_digit in *. b2z. eapply IH; [|eauto]. lia.
Qed.

(* repaired: never throws, and an accepted count is at most the number of instructions decoded so far *)
Lemma asm_make_array_safe arg sf codesize :
  safe (asm_make_array repaired arg sf codesize) /\
  (forall n ds al, asm_make_array repaired arg sf codesize = Ret ds (RNum n) al -> 0 <= n <= codesize).
Proof.
  unfold asm_make_array. cbn [df_asm repaired]. destruct arg as [|c r]; [cbn [safe]; split; auto; intros; discriminate|].
  destruct (digits_only (c :: r) 0 codesize) as [n|] eqn:E; [|cbn [safe]; split; auto; intros; discriminate].
  destruct (codesize <? n) eqn:E2; cbn [safe]; split; auto; intros n0 ds al H; inversion H; subst.
  b2z. split; [eapply digits_only_nonneg; eauto; lia | lia].
Qed.

Lemma asm_call_binary_safe registered lower name :
  (forall x, lower (lower x) = lower x) -> safe (asm_call_binary repaired registered lower name).
Proof.
  intro Hidem. unfold asm_call_binary. cbn [df_asm repaired]. rewrite Hidem.
  destruct (registered (lower name)); cbn; auto.
Qed.

Lemma asm_instr_safe registered lower full sf codesize :
  (forall x, lower (lower x) = lower x) -> safe (asm_instr repaired registered lower full sf codesize).
Proof.
  intro Hid. unfold asm_instr. destruct (asm_split full) as [[name arg]|]; [|cbn; auto].
  repeat match goal with |- context [if ?c then _ else _] => destruct c end;
    try apply from_sqf_safe; try apply asm_make_array_safe; try (apply asm_call_binary_safe; auto); cbn; auto.
Qed.

Lemma bom_conj_true b : forall tests, bom_conj repaired b tests = Some true -> forall i a, In (i, a) tests -> 0 <= i < zlen b.
Proof.
  induction tests as [|[i0 a0] rest IH]; cbn [bom_conj]; intros H i a Hin; [contradiction|].
  destruct (vec_ok (zlen b) i0) eqn:Ev.
  - destruct (nth_error b (Z.to_nat i0)); [|discriminate]. destruct (existsb (Z.eqb z) a0); [|discriminate].
    destruct Hin as [Hin | Hin]; [inversion Hin; subst; unfold vec_ok in Ev; b2z; lia | eapply IH; eauto].
  - cbn in H. discriminate.
Qed.
Lemma bom_conj_def b : forall tests, bom_conj repaired b tests <> None.
Proof.
  induction tests as [|[i0 a0] rest IH]; cbn [bom_conj]; [discriminate|].
  destruct (vec_ok (zlen b) i0) eqn:Ev; [|cbn; discriminate].
  unfold vec_ok in Ev. b2z. destruct (vec_at b i0) as (x & -> & _); [lia|].
  destruct (existsb (Z.eqb x) a0); [auto | discriminate].
Qed.

(* every branch of the chain looks at the last byte it promises to skip *)
Definition bom_entry_ok (e : list (Z * list Z) * Z * option (Z * list Z)) : bool :=
  let '(tests, k, extra) := e in
  (0 <=? k) && existsb (fun t => k <=? fst t + 1) tests &&
  match extra with None => true | Some t => k + 1 <=? fst t + 1 end.
Lemma bom_table_ok : forallb bom_entry_ok bom_table = true.
Proof. vm_compute. reflexivity. Qed.

Lemma bom_chain_safe b : forall cs, forallb bom_entry_ok cs = true ->
  exists k, bom_chain repaired b cs = BSkip k /\ 0 <= k <= zlen b.
Proof.
  pose proof (zlen_nonneg b) as Hb.
  induction cs as [|[[tests k] extra] rest IH]; cbn [bom_chain forallb]; intro H.
  - exists 0. split; auto; lia.
  - apply andb_true_iff in H. destruct H as [He Hr]. unfold bom_entry_ok in He. b2z.
    pose proof (bom_conj_def b tests) as Hd.
    destruct (bom_conj repaired b tests) as [[|]|] eqn:EC; [|apply IH; auto | contradiction].
    match goal with H : existsb _ tests = true |- _ => apply existsb_exists in H; destruct H as [[i a] [Hin Hk]] end.
    cbn [fst] in Hk. apply Z.leb_le in Hk.
    pose proof (bom_conj_true b tests EC i a Hin) as Hi.
    destruct extra as [[i3 a3]|].
    + pose proof (bom_conj_def b [(i3, a3)]) as Hd2.
      destruct (bom_conj repaired b [(i3, a3)]) as [[|]|] eqn:EC2; [| |contradiction].
      * pose proof (bom_conj_true b _ EC2 i3 a3 (or_introl eq_refl)) as Hi3. cbn [fst] in *. exists (k + 1). split; auto. lia.
      * exists k. split; auto. lia.
    + exists k. split; auto. lia.
Qed.

Lemma bom_refuted : bom_model as_is [239] = BUB /\ bom_model as_is [0; 0] = BUB /\ bom_model as_is [251; 238; 40] = BUB.
Proof. repeat split; vm_compute; reflexivity. Qed.

(* C09 (b) - the comparator of `sort`: three-way comparisons that are total preorders, their lexicographic lift, and
   the strict weak ordering std::sort needs, derived for every array that passes sort's type checks. *)
From Coq Require Import ZArith List Bool Lia.
From SqfVerif Require Import Ops.OpsBase Ops.Guards.
Import ListNotations.
Local Open Scope Z_scope.

(* a three-way comparison that orders its carrier as a total preorder *)
Record good_cmp {A : Type} (c : A -> A -> comparison) : Prop := {
  gc_refl : forall a, c a a = Eq;
  gc_anti : forall a b, c b a = CompOpp (c a b);
  gc_trans : forall a b d, c a b = Lt -> c b d = Lt -> c a d = Lt;
  gc_eq_l : forall a b d, c a b = Eq -> c a d = c b d
}.

Lemma gc_eq_r {A} (c : A -> A -> comparison) (G : good_cmp c) a b d : c a b = Eq -> c d a = c d b.
Proof. intro H. rewrite (gc_anti c G a d), (gc_anti c G b d). f_equal. apply (gc_eq_l c G); auto. Qed.

Lemma gc_gt_lt {A} (c : A -> A -> comparison) (G : good_cmp c) a b : c a b = Gt <-> c b a = Lt.
Proof. rewrite (gc_anti c G a b). destruct (c a b); cbn; split; congruence. Qed.

Lemma good_Z : good_cmp Z.compare.
Proof.
  constructor.
  - apply Z.compare_refl.
  - intros a b. apply Z.compare_antisym.
  - intros a b d H1 H2. change (a < b) in H1. change (b < d) in H2. change (a < d). lia.
  - intros a b d H. apply Z.compare_eq_iff in H. subst. reflexivity.
Qed.

Section Lex.
  Context {A : Type} (c : A -> A -> comparison) (G : good_cmp c).

  Lemma lexc_refl : forall a, lexc c a a = Eq.
  Proof. induction a as [|x a IH]; cbn; auto. rewrite (gc_refl c G). auto. Qed.

  Lemma lexc_anti : forall a b, lexc c b a = CompOpp (lexc c a b).
  Proof.
    induction a as [|x a IH]; destruct b as [|y b]; cbn; auto.
    rewrite (gc_anti c G x y). destruct (c x y); cbn; auto.
  Qed.

  Lemma lexc_eq_l : forall a b d, lexc c a b = Eq -> lexc c a d = lexc c b d.
  Proof.
    induction a as [|x a IH]; destruct b as [|y b]; cbn; intros d H; try discriminate; auto.
    destruct (c x y) eqn:E; try discriminate.
    destruct d as [|z d]; cbn; auto.
    rewrite (gc_eq_l c G x y z E). destruct (c y z); auto.
  Qed.

  Lemma lexc_trans : forall a b d, lexc c a b = Lt -> lexc c b d = Lt -> lexc c a d = Lt.
  Proof.
    induction a as [|x a IH]; destruct b as [|y b]; destruct d as [|z d]; cbn; intros H1 H2; try discriminate; auto.
    destruct (c x y) eqn:E1; try discriminate.
    - rewrite (gc_eq_l c G x y z E1). destruct (c y z) eqn:E2; try discriminate; auto. eapply IH; eauto.
    - destruct (c y z) eqn:E2; try discriminate.
      + rewrite <- (gc_eq_r c G y z x E2). rewrite E1. auto.
      + rewrite (gc_trans c G x y z E1 E2). auto.
  Qed.

  Lemma good_lexc : good_cmp (lexc c).
  Proof. constructor; [apply lexc_refl | apply lexc_anti | apply lexc_trans | apply lexc_eq_l]. Qed.
End Lex.

(* scalars under less_scalar *)
Lemma good_fl : good_cmp fl_cmp.
Proof.
  constructor.
  - intros [| | |x]; cbn; auto. apply Z.compare_refl.
  - intros [| | |x] [| | |y]; cbn; auto. apply Z.compare_antisym.
  - intros [| | |x] [| | |y] [| | |z]; cbn; intros H1 H2; try discriminate; auto.
    change (x < y) in H1. change (y < z) in H2. change (x < z). lia.
  - intros [| | |x] [| | |y] [| | |z]; cbn; intros H; try discriminate; auto.
    apply Z.compare_eq_iff in H. subst. reflexivity.
Qed.

Lemma fl_less_lt a b : fl_less a b = true <-> fl_cmp a b = Lt.
Proof. unfold fl_less. destruct (fl_cmp a b); split; congruence. Qed.

Lemma good_str : good_cmp str_cmp.
Proof. apply good_lexc. apply good_Z. Qed.

(* sort keys of the elements of a row: strings and scalars count, everything else is skipped by the comparator *)
Inductive key := KNum (f : fl) | KStr (s : list Z) | KIgn.
Definition key_of (v : val) : key := match v with VNum f => KNum f | VStr s => KStr s | _ => KIgn end.
Definition key_rank (k : key) : Z := match k with KNum _ => 0 | KStr _ => 1 | KIgn => 2 end.
Definition kcmp (a b : key) : comparison :=
  match a, b with
  | KNum x, KNum y => fl_cmp x y
  | KStr x, KStr y => str_cmp x y
  | _, _ => key_rank a ?= key_rank b
  end.

Lemma good_key : good_cmp kcmp.
Proof.
  pose proof good_fl as GF. pose proof good_str as GS.
  constructor.
  - intros [x|x|]; cbn; auto; [apply (gc_refl _ GF) | apply (gc_refl _ GS)].
  - intros [x|x|] [y|y|]; cbn; auto; [apply (gc_anti _ GF) | apply (gc_anti _ GS)].
  - intros [x|x|] [y|y|] [z|z|]; cbn; intros H1 H2; try discriminate; auto;
      [eapply (gc_trans _ GF); eauto | eapply (gc_trans _ GS); eauto].
  - intros [x|x|] [y|y|] [z|z|]; cbn; intros H; try discriminate; auto;
      [apply (gc_eq_l _ GF); auto | apply (gc_eq_l _ GS); auto].
Qed.

Definition row_keys (v : val) : list key := match v with VArr r => map key_of r | _ => [] end.

(* a comparator that decodes a good three-way comparison of keys is a strict weak ordering *)
Section FromKey.
  Context {K : Type} (cK : K -> K -> comparison) (G : good_cmp cK) (k : val -> K) (flag : bool).
  Variable f : val -> val -> option bool.
  Variable l : list val.
  Hypothesis Hf : forall a b, In a l -> In b l -> f a b = Some (decode flag (cK (k a) (k b))).

  Lemma ct_decode a b : In a l -> In b l -> cmp_true f a b = decode flag (cK (k a) (k b)).
  Proof. intros Ha Hb. unfold cmp_true. rewrite (Hf a b Ha Hb). destruct (decode flag (cK (k a) (k b))); auto. Qed.

  Lemma decode_true x : decode flag x = true <-> (if flag then x = Lt else x = Gt).
  Proof. destruct flag, x; cbn; split; congruence. Qed.

  Lemma swo_from_key : swo_check f l = true.
  Proof.
    unfold swo_check. rewrite !andb_true_iff. repeat split.
    - apply forallb_forall. intros a Ha. apply forallb_forall. intros b Hb. unfold cmp_def. rewrite (Hf a b Ha Hb). auto.
    - apply forallb_forall. intros a Ha. rewrite (ct_decode a a Ha Ha). rewrite (gc_refl _ G). cbn. auto.
    - apply forallb_forall. intros a Ha. apply forallb_forall. intros b Hb. apply forallb_forall. intros x Hx.
      rewrite (ct_decode a b Ha Hb), (ct_decode b x Hb Hx), (ct_decode a x Ha Hx), (ct_decode b a Hb Ha),
              (ct_decode x b Hx Hb), (ct_decode x a Hx Ha).
      pose proof (gc_anti _ G (k a) (k b)) as Aab. pose proof (gc_anti _ G (k b) (k x)) as Abx.
      pose proof (gc_anti _ G (k a) (k x)) as Aax.
      pose proof (gc_trans _ G (k a) (k b) (k x)) as T1. pose proof (gc_trans _ G (k x) (k b) (k a)) as T2.
      pose proof (gc_eq_l _ G (k a) (k b) (k x)) as E1.
      destruct (cK (k a) (k b)) eqn:Cab; destruct (cK (k b) (k x)) eqn:Cbx; cbn in Aab, Abx;
        rewrite ?Aab, ?Abx;
        try (specialize (E1 eq_refl); rewrite E1 in *; rewrite ?Aax; destruct flag; cbn; reflexivity);
        try (specialize (T1 eq_refl eq_refl); rewrite T1 in *; rewrite ?Aax; destruct flag; cbn; reflexivity).
      + (* a < b, b = x *)
        assert (cK (k a) (k x) = Lt) as C by (rewrite <- (gc_eq_r _ G (k b) (k x) (k a) Cbx); auto).
        rewrite Aax, C. destruct flag; cbn; reflexivity.
      + (* a < b, b > x *) destruct (cK (k a) (k x)) eqn:Cax; rewrite Aax; destruct flag; cbn; reflexivity.
      + (* a > b, b = x *)
        assert (cK (k a) (k x) = Gt) as C by (rewrite <- (gc_eq_r _ G (k b) (k x) (k a) Cbx); auto).
        rewrite Aax, C. destruct flag; cbn; reflexivity.
      + (* a > b, b < x *) destruct (cK (k a) (k x)) eqn:Cax; rewrite Aax; destruct flag; cbn; reflexivity.
      + (* a > b, b > x: x < b < a *)
        assert (cK (k x) (k b) = Lt) as C1 by (rewrite Abx; reflexivity).
        assert (cK (k b) (k a) = Lt) as C2 by (rewrite Aab; reflexivity).
        specialize (T2 C1 C2). rewrite T2. rewrite (gc_anti _ G (k x) (k a)), T2. destruct flag; cbn; reflexivity.
  Qed.
End FromKey.

Lemma ty_eqb_eq a b : ty_eqb a b = true <-> a = b.
Proof.
  destruct a, b; cbn; split; intro H; try discriminate; try reflexivity; try congruence.
  - apply Z.eqb_eq in H. subst. reflexivity.
  - inversion H. apply Z.eqb_refl.
Qed.

Lemma row_cmp_lex flag : forall ra rb, map ty_of ra = map ty_of rb ->
  row_cmp_rep flag ra rb = Some (decode flag (lexc kcmp (map key_of ra) (map key_of rb))).
Proof.
  induction ra as [|x ra IH]; destruct rb as [|y rb]; cbn; intro H; try discriminate; auto.
  inversion H as [[H1 H2]].
  destruct x, y; cbn in H1; try discriminate; cbn.
  - destruct (fl_cmp f f0); auto.
  - unfold str_cmp. destruct (lexc Z.compare s s0); auto.
  - auto.
  - auto.
  - auto.
Qed.

Lemma check_typeN_loop_true : forall r tys ds, check_typeN_loop r tys = Some (ds, true) -> map ty_of r = firstn (List.length r) tys.
Proof.
  induction r as [|v r IH]; cbn; intros tys ds H; auto.
  destruct tys as [|t ts]; try discriminate.
  destruct (check_typeN_loop r ts) as [[ds' ok]|] eqn:E; try discriminate.
  destruct (ty_eqb (ty_of v) t) eqn:Et; inversion H; subst.
  apply ty_eqb_eq in Et. cbn. f_equal; auto. eapply IH; eauto.
Qed.

Lemma check_typeN_true r tys ds : check_typeN r tys (zlen tys) (zlen tys) = Some (ds, true) -> map ty_of r = tys.
Proof.
  unfold check_typeN. destruct ((zlen r <? zlen tys) || (zlen tys <? zlen r)) eqn:E; [intro H; inversion H|].
  intro H. apply orb_false_iff in E. destruct E as [E1 E2]. apply Z.ltb_ge in E1. apply Z.ltb_ge in E2.
  unfold zlen in *. assert (List.length r = List.length tys) as L by lia.
  apply check_typeN_loop_true in H. rewrite H, L. apply firstn_all.
Qed.

Lemma rows_check_true tys : forall rows ds, rows_check rows tys = Some (ds, true) ->
  forall v, In v rows -> exists r, v = VArr r /\ map ty_of r = tys.
Proof.
  induction rows as [|x rows IH]; cbn; intros ds H v Hv; [contradiction|].
  destruct x as [| | |r|]; try discriminate.
  destruct (check_typeN r tys (zlen tys) (zlen tys)) as [[ds1 [|]]|] eqn:E; try discriminate.
  destruct Hv as [Hv | Hv].
  - subst. exists r. split; auto. eapply check_typeN_true; eauto.
  - eapply IH; eauto.
Qed.

Lemma check_type1_true elems t mn mx ds : check_type1 elems t mn mx = (ds, true) -> forall v, In v elems -> ty_of v = t.
Proof.
  unfold check_type1. destruct ((zlen elems <? mn) || (mx <? zlen elems)); [intro H; inversion H|].
  intro H. inversion H as [[H1 H2]]. intros v Hv.
  destruct (ty_eqb (ty_of v) t) eqn:E; [apply ty_eqb_eq; auto|].
  assert (In v (filter (fun v0 => negb (ty_eqb (ty_of v0) t)) elems)) as Hin by (apply filter_In; split; auto; rewrite E; auto).
  destruct (filter (fun v0 => negb (ty_eqb (ty_of v0) t)) elems); [contradiction | discriminate].
Qed.

Lemma swo_strings flag l : (forall v, In v l -> ty_of v = TString) -> swo_check (sort_cmp repaired flag) l = true.
Proof.
  intro H.
  apply (swo_from_key str_cmp good_str (fun v => match v with VStr s => s | _ => [] end) flag).
  intros a b Ha Hb. pose proof (H a Ha) as Ta. pose proof (H b Hb) as Tb.
  destruct a; cbn in Ta; try discriminate. destruct b; cbn in Tb; try discriminate. reflexivity.
Qed.

Lemma swo_scalars flag l : (forall v, In v l -> ty_of v = TScalar) -> swo_check (sort_cmp repaired flag) l = true.
Proof.
  intro H.
  apply (swo_from_key fl_cmp good_fl (fun v => match v with VNum f => f | _ => FNan end) flag).
  intros a b Ha Hb. pose proof (H a Ha) as Ta. pose proof (H b Hb) as Tb.
  destruct a as [x| | | |]; cbn in Ta; try discriminate. destruct b as [y| | | |]; cbn in Tb; try discriminate.
  cbn. unfold num_cmp_bool. cbn. f_equal.
  pose proof (gc_anti _ good_fl x y) as A. unfold fl_less. rewrite A.
  destruct (fl_cmp x y); destruct flag; reflexivity.
Qed.

Lemma swo_rows flag l tys : (forall v, In v l -> exists r, v = VArr r /\ map ty_of r = tys) ->
  swo_check (sort_cmp repaired flag) l = true.
Proof.
  intro H.
  apply (swo_from_key (lexc kcmp) (good_lexc kcmp good_key) row_keys flag).
  intros a b Ha Hb. destruct (H a Ha) as [ra [-> Ta]]. destruct (H b Hb) as [rb [-> Tb]].
  cbn. apply row_cmp_lex. congruence.
Qed.

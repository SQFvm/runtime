(* Distinctness of the keys of a generated table, decided in one pass: the generators print their tables sorted, so it
   is enough to see that each key is below the next one under a comparison whose Lt is transitive and whose Eq is
   equality.  (A pairwise sweep is quadratic, and coqchk re-runs it without the bytecode machine.) *)
From Coq Require Import String Ascii List Bool OrderedTypeEx.
Import ListNotations.

Definition cmp_ok {A} (c : A -> A -> comparison) : Prop :=
  (forall a b, c a b = Eq <-> a = b) /\ (forall x y z, c x y = Lt -> c y z = Lt -> c x z = Lt).

Lemma string_cmp_ok : cmp_ok String.compare.
Proof.
  split; [exact String_as_OT.cmp_eq |].
  intros x y z. rewrite !String_as_OT.cmp_lt. apply String_as_OT.lt_trans.
Qed.

(* String.compare turns every pair of characters into numbers; str_cmp does so only where two characters differ *)
Fixpoint str_cmp (s1 s2 : string) : comparison :=
  match s1, s2 with
  | EmptyString, EmptyString => Eq
  | EmptyString, String _ _ => Lt
  | String _ _, EmptyString => Gt
  | String a r1, String b r2 => if Ascii.eqb a b then str_cmp r1 r2 else Ascii.compare a b
  end.
Lemma str_cmp_compare s1 s2 : str_cmp s1 s2 = String.compare s1 s2.
Proof.
  revert s2. induction s1 as [|a r1 IH]; destruct s2 as [|b r2]; cbn; try reflexivity.
  destruct (Ascii.eqb_spec a b) as [->|Hne].
  - rewrite IH. unfold Ascii.compare. rewrite BinNat.N.compare_refl. reflexivity.
  - destruct (Ascii.compare a b) eqn:E; try reflexivity. apply Ascii.compare_eq_iff in E. contradiction.
Qed.
Lemma str_cmp_ok : cmp_ok str_cmp.
Proof. destruct string_cmp_ok as [E T]. split; intros *; rewrite !str_cmp_compare; [apply E|apply T]. Qed.

Definition lex {A B} (ca : A -> A -> comparison) (cb : B -> B -> comparison) (x y : A * B) : comparison :=
  match ca (fst x) (fst y) with Eq => cb (snd x) (snd y) | r => r end.

Lemma lex_ok {A B} (ca : A -> A -> comparison) (cb : B -> B -> comparison) :
  cmp_ok ca -> cmp_ok cb -> cmp_ok (lex ca cb).
Proof.
  intros [Ea Ta] [Eb Tb]. split.
  - intros [a1 b1] [a2 b2]. unfold lex; cbn [fst snd].
    assert (Ra : ca a1 a1 = Eq) by (apply Ea; reflexivity).
    destruct (ca a1 a2) eqn:C.
    + apply Ea in C. subst a2. rewrite Eb. split; [intros -> | intros [= ->]]; reflexivity.
    + split; [discriminate | intros [= <- <-]; congruence].
    + split; [discriminate | intros [= <- <-]; congruence].
  - intros [a1 b1] [a2 b2] [a3 b3]. unfold lex; cbn [fst snd].
    (* where a first component is equal to the next, the other comparison of first components decides *)
    destruct (ca a1 a2) eqn:C12; try discriminate; destruct (ca a2 a3) eqn:C23; try discriminate.
    + apply Ea in C12, C23. subst a2 a3. rewrite (proj2 (Ea a1 a1) eq_refl). apply Tb.
    + apply Ea in C12. subst a2. rewrite C23. auto.
    + apply Ea in C23. subst a3. rewrite C12. auto.
    + rewrite (Ta _ _ _ C12 C23). auto.
Qed.

Fixpoint ascending {A} (c : A -> A -> comparison) (l : list A) : bool :=
  match l with
  | x :: (y :: _) as r => match c x y with Lt => ascending c r | _ => false end
  | _ => true
  end.

Lemma ascending_cons {A} (c : A -> A -> comparison) (Hc : cmp_ok c) x l :
  ascending c (x :: l) = true -> ascending c l = true /\ forall y, In y l -> c x y = Lt.
Proof.
  revert x. induction l as [|y l IH]; intros x H; [split; [reflexivity | intros ? []] |].
  cbn [ascending] in H. destruct (c x y) eqn:C; try discriminate.
  split; [exact H |]. intros z [<- | Hz]; [exact C |].
  exact (proj2 Hc _ _ _ C (proj2 (IH y H) z Hz)).
Qed.

Theorem ascending_NoDup {A} (c : A -> A -> comparison) (Hc : cmp_ok c) l : ascending c l = true -> NoDup l.
Proof.
  induction l as [|x l IH]; intro H; constructor; destruct (ascending_cons c Hc x l H) as [Hl Hx]; [| auto].
  intro Hin. specialize (Hx x Hin). rewrite (proj2 (proj1 Hc x x) eq_refl) in Hx. discriminate.
Qed.

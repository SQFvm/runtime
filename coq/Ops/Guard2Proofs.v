(* C09 (b), second list - proofs about the guard models of Ops/Guards2.v: for ALL arguments the modelled operator ends
   in Ret (no undefined behaviour, no escaping exception), with the result class and the allocation the statement
   names; for the parts of the matrix operators behind the is_matrix test, witnesses showing that the test is what
   keeps them defined. *)
From Coq Require Import ZArith List String Bool Lia.
From SqfVerif Require Import Ops.OpsBase Ops.Guards Ops.Guards2 Ops.SortOrder Ops.GuardProofs.
Import ListNotations.
Local Open Scope Z_scope.

Lemma loop_ok : forall k i body, (forall x, i <= x < i + Z.of_nat k -> body x = AOk) -> loop k i body = AOk.
Proof.
  induction k as [|k IH]; intros i body H; [reflexivity|].
  cbn [loop]. rewrite (H i) by lia. apply IH. intros x Hx. apply H. lia.
Qed.

Lemma loop_cases : forall k i body,
  loop k i body = AOk \/ exists x, i <= x < i + Z.of_nat k /\ loop k i body = body x /\ body x <> AOk.
Proof.
  induction k as [|k IH]; intros i body; [left; reflexivity|].
  cbn [loop]. destruct (body i) eqn:E.
  - destruct (IH (i + 1) body) as [H | [x [Hx [H1 H2]]]]; [left; exact H|].
    right. exists x. split; [lia|]. split; assumption.
  - right. exists i. split; [lia|]. rewrite E. split; [reflexivity | discriminate].
  - right. exists i. split; [lia|]. rewrite E. split; [reflexivity | discriminate].
  - right. exists i. split; [lia|]. rewrite E. split; [reflexivity | discriminate].
Qed.

Lemma loop_inv : forall k i body, loop k i body = AOk -> forall x, i <= x < i + Z.of_nat k -> body x = AOk.
Proof.
  induction k as [|k IH]; intros i body H x Hx; [lia|].
  cbn [loop] in H. destruct (body i) eqn:E; try discriminate.
  destruct (Z.eq_dec x i) as [->|Hne]; [exact E|]. apply (IH (i + 1) body H). lia.
Qed.

Lemma at_some {A} (l : list A) i : 0 <= i < zlen l -> exists v, at_ l i = Some v /\ In v l.
Proof. intro H. unfold at_. rewrite vec_ok_true by lia. exact (vec_at l i H). Qed.

Lemma at_inv {A} (l : list A) i v : at_ l i = Some v -> 0 <= i < zlen l /\ In v l.
Proof.
  unfold at_, vec_ok. destruct (0 <=? i) eqn:E1; [|discriminate]. destruct (i <? zlen l) eqn:E2; [|discriminate].
  cbn [andb]. intro H. b2z. split; [lia|]. eapply nth_error_In; eauto.
Qed.

Lemma in_at {A} (l : list A) v : In v l -> exists i, 0 <= i < zlen l /\ at_ l i = Some v.
Proof.
  intro H. apply In_nth_error in H. destruct H as [n Hn].
  assert (n < List.length l)%nat as Hlt by (apply nth_error_Some; rewrite Hn; discriminate).
  exists (Z.of_nat n). unfold zlen. split; [lia|].
  unfold at_, vec_ok, zlen. destruct (0 <=? Z.of_nat n) eqn:E1; [|b2z; lia].
  destruct (Z.of_nat n <? Z.of_nat (List.length l)) eqn:E2; [|b2z; lia]. cbn [andb]. rewrite Nat2Z.id. exact Hn.
Qed.

Lemma at_cons0 {A} (a : A) l : at_ (a :: l) 0 = Some a.
Proof.
  unfold at_, vec_ok. rewrite zlen_cons. pose proof (zlen_nonneg l).
  destruct (0 <? 1 + zlen l) eqn:E2; [reflexivity | b2z; lia].
Qed.
Lemma at_cons1 {A} (a b : A) l : at_ (a :: b :: l) 1 = Some b.
Proof.
  unfold at_, vec_ok. rewrite !zlen_cons. pose proof (zlen_nonneg l).
  destruct (1 <? 1 + (1 + zlen l)) eqn:E2; [reflexivity | b2z; lia].
Qed.

Definition all_num (l : list val) : Prop := forall v, In v l -> exists f, v = VNum f.

Lemma num_at_ok l i : all_num l -> 0 <= i < zlen l -> num_at l i = AOk.
Proof.
  intros Hn Hi. unfold num_at. destruct (at_some l i Hi) as [v [Hv Hin]]. rewrite Hv.
  destruct (Hn v Hin) as [f ->]. reflexivity.
Qed.

Lemma is_num_VNum v : is_num v = true -> exists f, v = VNum f.
Proof. destruct v; cbn; try discriminate. eauto. Qed.

Lemma ct1_scalar l mn mx ds : check_type1 l TScalar mn mx = (ds, true) -> mn <= zlen l <= mx /\ all_num l.
Proof.
  intro H. split.
  - unfold check_type1 in H. destruct ((zlen l <? mn) || (mx <? zlen l)) eqn:E; [inversion H|]. b2z. lia.
  - intros v Hv. pose proof (check_type1_true _ _ _ _ _ H v Hv) as T. destruct v; cbn in T; try discriminate. eauto.
Qed.

Lemma shape_row m cols i : matrix_shape m cols -> 0 <= i < zlen m ->
  exists r, row_at m i = (AOk, r) /\ zlen r = cols /\ all_num r.
Proof.
  intros [_ [_ H]] Hi. unfold row_at. destruct (at_some m i Hi) as [v [Hv Hin]]. rewrite Hv.
  destruct (H v Hin) as [row [-> [Hl Hn]]]. exists row. split; [reflexivity|]. split; [exact Hl|].
  intros x Hx. apply is_num_VNum. auto.
Qed.

Lemma shape_cell m cols i j : matrix_shape m cols -> 0 <= i < zlen m -> 0 <= j < cols -> cell m i j = AOk.
Proof.
  intros Hs Hi Hj. unfold cell. destruct (shape_row m cols i Hs Hi) as [r [-> [Hl Hn]]]. apply num_at_ok; [exact Hn | lia].
Qed.

Lemma is_matrix_defined arr : is_matrix arr <> AThrow /\ is_matrix arr <> AUB.
Proof.
  unfold is_matrix. destruct (zlen arr =? 0) eqn:E0; [split; discriminate|]. b2z.
  pose proof (zlen_nonneg arr) as Hnn.
  destruct (at_some arr 0 ltac:(lia)) as [v0 [Hv0 _]]. rewrite Hv0.
  destruct v0 as [f|s|b|r0|t]; try (split; discriminate).
  destruct (zlen r0 =? 0) eqn:E1; [split; discriminate|].
  match goal with |- ?L <> _ /\ ?L <> _ => destruct (loop_cases (List.length arr) 0
     (fun i => match at_ arr i with
               | Some (VArr row) => if negb (zlen row =? zlen r0) then ANo
                                    else loop (Z.to_nat (zlen r0)) 0 (fun j => match at_ row j with
                                                                             | Some v => if is_num v then AOk else ANo
                                                                             | None => AThrow end)
               | Some _ => ANo
               | None => AThrow end)) as [H | [x [Hx [H1 H2]]]] end.
  - rewrite H. split; discriminate.
  - rewrite H1. clear H1 H2.
    destruct (at_some arr x ltac:(unfold zlen; lia)) as [v [Hv _]]. rewrite Hv.
    destruct v as [f|s|b|row|t]; try (split; discriminate).
    destruct (negb (zlen row =? zlen r0)) eqn:E2; [split; discriminate|]. b2z.
    match goal with |- ?L <> _ /\ ?L <> _ => destruct (loop_cases (Z.to_nat (zlen r0)) 0
       (fun j => match at_ row j with Some v => if is_num v then AOk else ANo | None => AThrow end)) as [H | [y [Hy [H1 H2]]]] end.
    + rewrite H. split; discriminate.
    + rewrite H1. pose proof (zlen_nonneg r0). destruct (at_some row y ltac:(lia)) as [w [Hw _]]. rewrite Hw.
      destruct (is_num w); split; discriminate.
Qed.

Lemma is_matrix_shape arr : is_matrix arr = AOk -> exists cols, matrix_shape arr cols.
Proof.
  unfold is_matrix. destruct (zlen arr =? 0) eqn:E0; [discriminate|]. b2z.
  pose proof (zlen_nonneg arr) as Hnn.
  destruct (at_ arr 0) as [v0|] eqn:Hv0; [|discriminate].
  destruct v0 as [f|s|b|r0|t]; try discriminate.
  destruct (zlen r0 =? 0) eqn:E1; [discriminate|]. b2z. pose proof (zlen_nonneg r0) as Hr0.
  intro H. exists (zlen r0). split; [lia|]. split; [lia|].
  intros v Hv. destruct (in_at arr v Hv) as [i [Hi Hat]].
  pose proof (loop_inv _ _ _ H i ltac:(unfold zlen in Hi; lia)) as Hb. cbv beta in Hb. rewrite Hat in Hb.
  destruct v as [f|s|b|row|t]; try discriminate.
  destruct (negb (zlen row =? zlen r0)) eqn:E2; [discriminate|]. b2z.
  exists row. split; [reflexivity|]. split; [exact E2|].
  intros x Hx. destruct (in_at row x Hx) as [j [Hj Hatj]].
  pose proof (loop_inv _ _ _ Hb j ltac:(lia)) as Hc. cbv beta in Hc. rewrite Hatj in Hc.
  destruct (is_num x); [reflexivity | discriminate].
Qed.

Lemma shape_first m cols : matrix_shape m cols -> first_cols m = (AOk, cols).
Proof.
  intro Hs. pose proof Hs as [Hm [Hc H]]. unfold first_cols.
  destruct (zlen m =? 0) eqn:E; [b2z; lia|].
  destruct (at_some m 0 ltac:(lia)) as [v [Hv Hin]]. rewrite Hv.
  destruct (H v Hin) as [row [-> [Hl _]]]. rewrite Hl.
  destruct (cols =? 0) eqn:E2; [b2z; lia | reflexivity].
Qed.

Lemma shape_same m cols : matrix_shape m cols -> same_cols m cols = AOk.
Proof.
  intro Hs. unfold same_cols. apply loop_ok. intros x Hx.
  destruct (shape_row m cols x Hs ltac:(unfold zlen; lia)) as [r [-> [Hl _]]]. rewrite Hl, Z.eqb_refl. reflexivity.
Qed.

Lemma transpose_body_shape l cols : matrix_shape l cols ->
  transpose_body l = Ret [] (RShape cols (zlen l)) (cols + cols * zlen l).
Proof.
  intro Hs. pose proof Hs as [Hm [Hc H]]. unfold transpose_body.
  destruct (zlen l =? 0) eqn:E; [b2z; lia|].
  destruct (at_some l 0 ltac:(lia)) as [v [Hv Hin]]. rewrite Hv.
  destruct (H v Hin) as [row [-> [Hl _]]]. rewrite Hl.
  destruct (cols =? 0) eqn:E2; [b2z; lia|].
  pose proof (shape_same l cols Hs) as Hsame. unfold same_cols in Hsame. rewrite Hsame.
  rewrite loop_ok; [reflexivity|].
  intros i Hi. apply loop_ok. intros j Hj. apply (shape_cell l cols); auto; unfold zlen; lia.
Qed.

Lemma multiply_body_shape l r k m : matrix_shape l k -> matrix_shape r m ->
  multiply_body l r = (if k =? zlen r then Ret [] (RShape (zlen l) m) (zlen l + zlen l * m) else Ret [] (RShape 0 0) 0).
Proof.
  intros Hl Hr. unfold multiply_body.
  rewrite (shape_first l k Hl), (shape_first r m Hr), (shape_same l k Hl), (shape_same r m Hr).
  destruct (k =? zlen r) eqn:E; cbn [negb]; [|reflexivity]. b2z.
  rewrite loop_ok; [reflexivity|].
  intros i Hi. apply loop_ok. intros j Hj. apply loop_ok. intros x Hx.
  rewrite (shape_cell l k i x Hl) by (unfold zlen in *; lia). cbn [aseq].
  apply (shape_cell r m); auto; unfold zlen in *; lia.
Qed.

(* without the is_matrix test in front, the bodies are undefined on a row that is no array / an element that is no
   number (the state of the code before repair 46cfd3b) *)
Lemma matrix_unguarded_refuted :
  transpose_body [VArr [VNum (FFin 0)]; VNum (FFin 0)]
    = UB "data<T>() of an element of another type (static_pointer_cast to the wrong class)" /\
  transpose_body [VArr [VStr []]]
    = UB "data<T>() of an element of another type (static_pointer_cast to the wrong class)" /\
  multiply_body [VArr [VNum (FFin 0)]] [VArr [VBool true]]
    = UB "data<T>() of an element of another type (static_pointer_cast to the wrong class)".
Proof. repeat split; vm_compute; reflexivity. Qed.

Lemma vec3_reads_ok k l : all_num l -> zlen l = 3 -> vec3_reads k l = AOk.
Proof.
  intros Hn Hl. destruct k; [|reflexivity]. unfold vec3_reads.
  rewrite !num_at_ok by (auto; lia). reflexivity.
Qed.

Lemma then_if_array_safe cond arr :
  safe (then_if_array cond arr) /\ res_ok (zlen arr) (then_if_array cond arr) /\ alloc_of (then_if_array cond arr) <= zlen arr /\
  (forall ds i al, then_if_array cond arr = Ret ds (RElem i) al ->
     i = (if cond then 0 else 1) /\ exists v, nth_error arr (Z.to_nat i) = Some v /\ is_code v = true).
Proof.
  unfold then_if_array. destruct (negb (zlen arr =? 2)) eqn:E.
  - cbn. split_all; auto; try lia. intros ? ? ? H; inversion H.
  - b2z. destruct arr as [|a [|b [|c r]]]; rewrite ?zlen_cons, ?(@zlen_nil val) in *; try lia; try (pose proof (zlen_nonneg r); lia).
    cbn [nth_error]. destruct cond; destruct (is_code a) eqn:Ea; destruct (is_code b) eqn:Eb;
      cbn [safe res_ok alloc_of app]; (split; [exact I|]); (split; [try exact I; lia|]); (split; [lia|]);
      intros ? ? ? H; inversion H; subst; (split; [reflexivity|]); cbn; try change (Pos.to_nat 1) with 1%nat; cbn; eauto.
Qed.

Lemma pos_reads_ok arr : all_num arr -> 2 <= zlen arr <= 3 ->
  aseq (num_at arr 0) (aseq (num_at arr 1) (if 2 <? zlen arr then num_at arr 2 else AOk)) = AOk.
Proof.
  intros Hn Hl. rewrite !num_at_ok by (auto; lia). cbn [aseq].
  destruct (2 <? zlen arr) eqn:E; [|reflexivity]. b2z. apply num_at_ok; auto; lia.
Qed.

Lemma chkN_2 arr t0 t1 : chkN arr [t0; t1] <> None /\
  (forall ds, chkN arr [t0; t1] = Some (ds, true) -> exists a b, arr = [a; b] /\ ty_of a = t0 /\ ty_of b = t1).
Proof.
  split.
  - unfold chkN. apply check_typeN_safe. lia.
  - intros ds H. unfold chkN, check_typeN in H. change (zlen [t0; t1]) with 2 in H.
    destruct ((zlen arr <? 2) || (2 <? zlen arr)) eqn:E; [inversion H|]. b2z.
    destruct arr as [|a [|b [|c r]]]; rewrite ?zlen_cons, ?(@zlen_nil val) in *; try lia; try (pose proof (zlen_nonneg r); lia).
    exists a, b. split; [reflexivity|]. cbn in H.
    destruct (ty_eqb (ty_of b) t1) eqn:Eb; destruct (ty_eqb (ty_of a) t0) eqn:Ea; try (inversion H; fail).
    split; apply ty_eqb_eq; assumption.
Qed.

Lemma create_marker_safe nu ex arr : bounded (zlen arr) (create_marker nu ex arr).
Proof.
  unfold create_marker. hide_messages.
  destruct (chkN_2 arr TString (TOther TOBJECT)) as [N1 S1]. destruct (chkN_2 arr TString TArray) as [N2 S2].
  destruct (chkN arr [TString; TOther TOBJECT]) as [[ds1 [|]]|] eqn:E1; [| |contradiction].
  - destruct (S1 ds1 eq_refl) as [a [b [-> [Ta Tb]]]].
    destruct a; cbn in Ta; try discriminate. destruct b; cbn in Tb; try discriminate.
    rewrite at_cons0, at_cons1. destruct nu; destruct ex; apply bounded_ret; lia.
  - destruct (chkN arr [TString; TArray]) as [[ds2 [|]]|] eqn:E2; [| |contradiction].
    + destruct (S2 ds2 eq_refl) as [a [b [-> [Ta Tb]]]].
      destruct a; cbn in Ta; try discriminate. destruct b as [| | |tmp|]; cbn in Tb; try discriminate.
      rewrite at_cons0, at_cons1.
      destruct (check_type1 tmp TScalar 2 3) as [ds3 [|]] eqn:E3.
      * destruct (ct1_scalar _ _ _ _ E3) as [Hl Hn]. rewrite pos_reads_ok by auto. cbn [of_acc].
        destruct ex; apply bounded_ret; lia.
      * apply bounded_ret; lia.
    + apply bounded_ret; lia.
Qed.

Lemma callext_args_safe hp ld rvec :
  safe (callext_args hp ld rvec) /\
  alloc_of (callext_args hp ld rvec) <= CALLEXTBUFFSIZE + 2 * RVARGSLIMIT + 2 /\
  (forall ds al, callext_args hp ld rvec = Ret ds ROther al -> hp = true \/
     (ld = true /\ exists name v1, at_ rvec 0 = Some (VStr name) /\ at_ rvec 1 = Some v1 /\
        forall a, In a (match v1 with VArr l => l | v => [v] end) -> ext_arg_ok a = true)).
Proof.
  unfold callext_args. unfold CALLEXTBUFFSIZE, RVARGSLIMIT.
  destruct hp; [cbn [safe alloc_of]; split_all; auto; lia|].
  destruct (zlen rvec <? 2) eqn:E; [cbn [safe alloc_of]; split_all; auto; try lia; intros ? ? HR; discriminate HR|]. b2z.
  destruct (at_some rvec 0 ltac:(lia)) as [v0 [H0 _]]. destruct (at_some rvec 1 ltac:(lia)) as [v1 [H1 _]].
  rewrite H0, H1.
  destruct v0 as [f|name|b|l0|t]; try (cbn [safe alloc_of]; split_all; auto; try lia; intros ? ? HR; discriminate HR; fail).
  remember (match v1 with VArr a => a | v => [v] end) as args eqn:Hdef.
  destruct (is_arr v1 && (2048 <? zlen args)) eqn:EL.
  - cbn [safe alloc_of]. split_all; auto; try lia. intros ? ? HR; discriminate HR.
  - assert (zlen args <= 2048) as Hargs.
    { destruct v1; cbn in EL; subst args; rewrite ?zlen_cons, ?(@zlen_nil val); try lia; b2z; lia. }
    pose proof (zlen_nonneg args) as Hnn.
    destruct (loop_cases (List.length args) 0 (fun i => match at_ args i with
                                                       | Some a => if ext_arg_ok a then AOk else ANo
                                                       | None => AThrow end)) as [H | [x [Hx [Hb Hne]]]].
    + rewrite H. destruct ld; cbn [safe alloc_of]; split_all; auto; try lia; intros ? ? HR; [|discriminate HR].
      right. split; [reflexivity|]. exists name, v1. split; [reflexivity|]. split; [reflexivity|].
      intros a Ha. rewrite <- Hdef in Ha. destruct (in_at args a Ha) as [i [Hi Hat]].
      pose proof (loop_inv _ _ _ H i ltac:(unfold zlen in Hi; lia)) as Hc. cbv beta in Hc. rewrite Hat in Hc.
      destruct (ext_arg_ok a); [reflexivity | discriminate].
    + rewrite Hb. destruct (at_some args x ltac:(unfold zlen; lia)) as [a [Ha _]]. rewrite Ha in *.
      destruct (ext_arg_ok a); [contradiction|]. cbn [safe alloc_of]. split_all; auto; try lia. intros ? ? HR; discriminate HR.
Qed.

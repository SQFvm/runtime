(* C09 (a) - operator dispatch of call_nular / call_unary / call_binary over the registry of the built runtime.

   Mirrors (file:line of /repo/src):
     opcodes/call_binary.h:23-96   right operand popped first; nil right -> NilValueFoundForRightArgumentWeak, nil left ->
                                   NilValueFoundForRightArgumentWeak (sic) - both return before any lookup;
                                   key {name, tleft, tright}; then {name, ANY, tright}; then {name, tleft, ANY};
                                   then {name, ANY, ANY}; else UnknownInputTypeCombinationBinary
     opcodes/call_unary.h:22-58    nil operand rejected; key {name, tright}; then {name, ANY}; else UnknownInputTypeCombinationUnary
     opcodes/call_nular.h:27-37    key {name}; else UnknownInputTypeCombinationNular
     runtime/runtime.h:178-223     sqfop_exists = find in an unordered_map keyed by (name, types); register_sqfop inserts once per key
   The registry tables are generated (Gen/RegistryFull.v, translators/registry_full.py).
   Definitions and proofs of this part are in one file: the definitions are a dozen lines. *)
From Coq Require Import String List Bool.
From SqfVerif Require Import Gen.RegistryFull Ops.Ascending.
Import ListNotations.
Local Open Scope string_scope.

Definition ANY : string := "ANY".

(* the dynamic type of an operand; Nil = a value without data (type NOTHING), which the dispatcher rejects *)
Inductive operand := Nil | Val (t : string).

Definition ukey := (string * string)%type.
Definition bkey := (string * (string * string))%type.

Definition ukey_eqb (a b : ukey) : bool := String.eqb (fst a) (fst b) && String.eqb (snd a) (snd b).
Definition bkey_eqb (a b : bkey) : bool :=
  String.eqb (fst a) (fst b) && String.eqb (fst (snd a)) (fst (snd b)) && String.eqb (snd (snd a)) (snd (snd b)).

Lemma ukey_eqb_eq a b : ukey_eqb a b = true <-> a = b.
Proof.
  destruct a as [a1 a2], b as [b1 b2]; unfold ukey_eqb; cbn [fst snd].
  rewrite andb_true_iff, !String.eqb_eq. split; [intros [-> ->]; reflexivity | intros H; inversion H; auto].
Qed.
Lemma bkey_eqb_eq a b : bkey_eqb a b = true <-> a = b.
Proof.
  destruct a as [a1 [a2 a3]], b as [b1 [b2 b3]]; unfold bkey_eqb; cbn [fst snd].
  rewrite !andb_true_iff, !String.eqb_eq. split; [intros [[-> ->] ->]; reflexivity | intros H; inversion H; auto].
Qed.

Lemma existsb_eqb_In {A} (eqb : A -> A -> bool) (Heq : forall a b, eqb a b = true <-> a = b) k l :
  existsb (eqb k) l = true <-> In k l.
Proof.
  rewrite existsb_exists. split; [intros [x [Hi He]]; apply Heq in He; subst; exact Hi | intro H; exists k; split; [exact H | apply Heq; reflexivity]].
Qed.

Section Tables.
  (* the theorems that do not depend on the content of the table are proved for any table *)
  Variable nul : list string.
  Variable una : list ukey.
  Variable bin : list bkey.

  Definition has_n (n : string) : bool := existsb (String.eqb n) nul.
  Definition has_u (k : ukey) : bool := existsb (ukey_eqb k) una.
  Definition has_b (k : bkey) : bool := existsb (bkey_eqb k) bin.

  Lemma has_n_In n : has_n n = true <-> In n nul.
  Proof. exact (existsb_eqb_In String.eqb String.eqb_eq n nul). Qed.
  Lemma has_u_In k : has_u k = true <-> In k una.
  Proof. exact (existsb_eqb_In ukey_eqb ukey_eqb_eq k una). Qed.
  Lemma has_b_In k : has_b k = true <-> In k bin.
  Proof. exact (existsb_eqb_In bkey_eqb bkey_eqb_eq k bin). Qed.
  Lemma has_b_not_In k : ~ In k bin -> has_b k = false.
  Proof. rewrite <- has_b_In. apply not_true_is_false. Qed.

  Inductive nres := NFound | NUnknown.
  Inductive ures := UNilRight | UFound (r : string) | UUnknown.
  Inductive bres := BNilRight | BNilLeft | BFound (l r : string) | BUnknown.

  Definition dispatch_nular (n : string) : nres := if has_n n then NFound else NUnknown.

  Definition dispatch_unary (n : string) (r : operand) : ures :=
    match r with
    | Nil => UNilRight
    | Val tr => if has_u (n, tr) then UFound tr
                else if has_u (n, ANY) then UFound ANY
                else UUnknown
    end.

  Definition dispatch_binary (n : string) (l r : operand) : bres :=
    match r with
    | Nil => BNilRight
    | Val tr =>
      match l with
      | Nil => BNilLeft
      | Val tl => if has_b (n, (tl, tr)) then BFound tl tr
                  else if has_b (n, (ANY, tr)) then BFound ANY tr
                  else if has_b (n, (tl, ANY)) then BFound tl ANY
                  else if has_b (n, (ANY, ANY)) then BFound ANY ANY
                  else BUnknown
      end
    end.

  Definition accepts (registered dynamic : string) : Prop := registered = dynamic \/ registered = ANY.

  (* "the argument tuple's types match one of its registered signatures" *)
  Definition type_correct_u (n tr : string) : Prop := exists r', In (n, r') una /\ accepts r' tr.
  Definition type_correct_b (n tl tr : string) : Prop := exists l' r', In (n, (l', r')) bin /\ accepts l' tl /\ accepts r' tr.

  (* dispatch_total: whatever the name and the operand types, the dispatcher ends in one of its outcomes, a found key is
     registered and accepts the operand types, and "unknown" is reported exactly when no registered signature matches *)
  Theorem dispatch_nular_total n :
    (dispatch_nular n = NFound /\ In n nul) \/ (dispatch_nular n = NUnknown /\ ~ In n nul).
  Proof.
    unfold dispatch_nular. destruct (has_n n) eqn:E; [left | right]; split; auto.
    - apply has_n_In; auto.
    - intro H. apply has_n_In in H. congruence.
  Qed.

  Theorem dispatch_unary_total n tr :
    (exists r', dispatch_unary n (Val tr) = UFound r' /\ In (n, r') una /\ accepts r' tr)
    \/ (dispatch_unary n (Val tr) = UUnknown /\ ~ type_correct_u n tr).
  Proof.
    unfold dispatch_unary.
    destruct (has_u (n, tr)) eqn:E1.
    { left. exists tr. split; auto. split; [apply has_u_In; auto | left; auto]. }
    destruct (has_u (n, ANY)) eqn:E2.
    { left. exists ANY. split; auto. split; [apply has_u_In; auto | right; auto]. }
    right. split; auto. intros [r' [Hin [Ha | Ha]]]; subst; apply has_u_In in Hin; congruence.
  Qed.

  Theorem dispatch_binary_total n tl tr :
    (exists l' r', dispatch_binary n (Val tl) (Val tr) = BFound l' r' /\ In (n, (l', r')) bin /\ accepts l' tl /\ accepts r' tr)
    \/ (dispatch_binary n (Val tl) (Val tr) = BUnknown /\ ~ type_correct_b n tl tr).
  Proof.
    unfold dispatch_binary.
    destruct (has_b (n, (tl, tr))) eqn:E1.
    { left. exists tl, tr. repeat split; auto; [apply has_b_In; auto | left; auto | left; auto]. }
    destruct (has_b (n, (ANY, tr))) eqn:E2.
    { left. exists ANY, tr. repeat split; auto; [apply has_b_In; auto | right; auto | left; auto]. }
    destruct (has_b (n, (tl, ANY))) eqn:E3.
    { left. exists tl, ANY. repeat split; auto; [apply has_b_In; auto | left; auto | right; auto]. }
    destruct (has_b (n, (ANY, ANY))) eqn:E4.
    { left. exists ANY, ANY. repeat split; auto; [apply has_b_In; auto | right; auto | right; auto]. }
    right. split; auto.
    intros [l' [r' [Hin [[Hl | Hl] [Hr | Hr]]]]]; subst; apply has_b_In in Hin; congruence.
  Qed.

  (* nil operands never reach a lookup *)
  Theorem dispatch_rejects_nil n l :
    dispatch_unary n Nil = UNilRight /\ dispatch_binary n l Nil = BNilRight /\ dispatch_binary n Nil (Val "x") = BNilLeft.
  Proof. repeat split. Qed.

  (* exact_before_any: a signature registered for exactly the operand types wins over every ANY signature *)
  Theorem exact_before_any_u n tr : In (n, tr) una -> dispatch_unary n (Val tr) = UFound tr.
  Proof. intro H. unfold dispatch_unary. apply has_u_In in H. rewrite H. reflexivity. Qed.
  Theorem exact_before_any_b n tl tr : In (n, (tl, tr)) bin -> dispatch_binary n (Val tl) (Val tr) = BFound tl tr.
  Proof. intro H. unfold dispatch_binary. apply has_b_In in H. rewrite H. reflexivity. Qed.

  (* the order of the three fallbacks: (ANY, right) before (left, ANY) before (ANY, ANY) *)
  Theorem fallback_order n tl tr :
    ~ In (n, (tl, tr)) bin ->
    (In (n, (ANY, tr)) bin -> dispatch_binary n (Val tl) (Val tr) = BFound ANY tr) /\
    (~ In (n, (ANY, tr)) bin -> In (n, (tl, ANY)) bin -> dispatch_binary n (Val tl) (Val tr) = BFound tl ANY) /\
    (~ In (n, (ANY, tr)) bin -> ~ In (n, (tl, ANY)) bin -> In (n, (ANY, ANY)) bin ->
       dispatch_binary n (Val tl) (Val tr) = BFound ANY ANY).
  Proof.
    intro H0. unfold dispatch_binary. rewrite (has_b_not_In _ H0). repeat split.
    - intro H. apply has_b_In in H. rewrite H. reflexivity.
    - intros H1 H2. rewrite (has_b_not_In _ H1). apply has_b_In in H2. rewrite H2. reflexivity.
    - intros H1 H2 H3. rewrite (has_b_not_In _ H1), (has_b_not_In _ H2). apply has_b_In in H3. rewrite H3. reflexivity.
  Qed.

  (* type-correct arguments are always dispatched to a registered, accepting signature *)
  Corollary type_correct_dispatched_b n tl tr :
    type_correct_b n tl tr ->
    exists l' r', dispatch_binary n (Val tl) (Val tr) = BFound l' r' /\ In (n, (l', r')) bin /\ accepts l' tl /\ accepts r' tr.
  Proof. intro H. destruct (dispatch_binary_total n tl tr) as [Hf | [_ Hn]]; [exact Hf | contradiction]. Qed.
  Corollary type_correct_dispatched_u n tr :
    type_correct_u n tr ->
    exists r', dispatch_unary n (Val tr) = UFound r' /\ In (n, r') una /\ accepts r' tr.
  Proof. intro H. destruct (dispatch_unary_total n tr) as [Hf | [_ Hn]]; [exact Hf | contradiction]. Qed.
End Tables.

Definition d_nular := dispatch_nular reg_nular.
Definition d_unary := dispatch_unary reg_unary.
Definition d_binary := dispatch_binary reg_binary.

(* one callback per key: what a lookup finds is determined by the key (unordered_map semantics).  The generator prints
   the tables sorted (by name, then left type, then right type): each key is below the next *)
Definition ukey_cmp : ukey -> ukey -> comparison := lex str_cmp str_cmp.
Definition bkey_cmp : bkey -> bkey -> comparison := lex str_cmp ukey_cmp.

Lemma ascending_nular_ok : ascending str_cmp reg_nular = true. Proof. vm_compute. reflexivity. Qed.
Lemma ascending_unary_ok : ascending ukey_cmp reg_unary = true. Proof. vm_compute. reflexivity. Qed.
Lemma ascending_binary_ok : ascending bkey_cmp reg_binary = true. Proof. vm_compute. reflexivity. Qed.

Theorem registry_keys_unique : NoDup reg_nular /\ NoDup reg_unary /\ NoDup reg_binary.
Proof.
  pose proof (lex_ok _ _ str_cmp_ok str_cmp_ok) as Hu.
  exact (conj (ascending_NoDup _ str_cmp_ok _ ascending_nular_ok)
        (conj (ascending_NoDup _ Hu _ ascending_unary_ok)
              (ascending_NoDup _ (lex_ok _ _ str_cmp_ok Hu) _ ascending_binary_ok))).
Qed.

(* no signature is registered for NOTHING: rejecting nil operands loses no registered signature *)
Definition not_nothing (t : string) : bool := negb (String.eqb t "NOTHING").
Lemma not_nothing_neq t : not_nothing t = true -> t <> "NOTHING".
Proof. unfold not_nothing. intros H E. subst t. discriminate H. Qed.
Lemma no_nothing_unary_ok : forallb (fun k : ukey => not_nothing (snd k)) reg_unary = true.
Proof. vm_compute. reflexivity. Qed.
Lemma no_nothing_binary_ok : forallb (fun k : bkey => not_nothing (fst (snd k)) && not_nothing (snd (snd k))) reg_binary = true.
Proof. vm_compute. reflexivity. Qed.

Theorem registry_no_nothing :
  (forall k, In k reg_unary -> snd k <> "NOTHING") /\
  (forall k, In k reg_binary -> fst (snd k) <> "NOTHING" /\ snd (snd k) <> "NOTHING").
Proof.
  split.
  - intros k Hk. apply not_nothing_neq. exact (proj1 (forallb_forall _ _) no_nothing_unary_ok k Hk).
  - intros k Hk. pose proof (proj1 (forallb_forall _ _) no_nothing_binary_ok k Hk) as H.
    apply andb_true_iff in H. destruct H as [Ha Hb]. split; apply not_nothing_neq; assumption.
Qed.

(* every registered signature is reachable: called with exactly its own types (ANY standing for itself) it is the
   one that is found *)
Theorem registry_all_reachable :
  (forall n r, In (n, r) reg_unary -> d_unary n (Val r) = UFound r) /\
  (forall n l r, In (n, (l, r)) reg_binary -> d_binary n (Val l) (Val r) = BFound l r) /\
  (forall n, In n reg_nular -> d_nular n = NFound).
Proof.
  repeat split.
  - intros n r H. apply exact_before_any_u; auto.
  - intros n l r H. apply exact_before_any_b; auto.
  - intros n H. unfold d_nular, dispatch_nular. apply has_n_In in H. rewrite H. reflexivity.
Qed.

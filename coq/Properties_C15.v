(* C15 - config tree: values read back, inheritance lookup, merge / delete / append, acyclic.
   The lemmas about the model are in Config/ConfigProofs.v; here they are put together.  The model (Config/ConfigDefs.v) mirrors
   src/runtime/confighost.h, src/parser/config/config_parser.cpp (apply_to_confighost) and
   src/operators/ops_config.cpp; it is tied to that code by the correspondence run of checks/C15.py.

   Defect switches (ConfigDefs.defects): `original` is the pinned tree before the four repairs of
   /verif/proposed_fixes/C15-*.diff, `as_is` = `repaired` is the tree with them applied.  Positive
   theorems name the switches they need off; every switch has a `_refuted` theorem with the witness. *)
From Coq Require Import ZArith List Lia.
Import ListNotations.
From SqfVerif Require Import Config.ConfigDefs Config.ConfigProofs.

(* Storing a value node (number, string, array nested to any depth) into an entry stores exactly what
   the node denotes - the element-by-element "abuse parent's value" loop of config_parser.cpp:112-122
   included.  All hosts, all entries, all value nodes. *)
Theorem C15_value_readback : forall v h p, p < length h ->
  apply_value h (Some p) v = Ok (upd h p (set_value (eval_v v))).
Proof. exact apply_value_spec. Qed.
Print Assumptions C15_value_readback.

(* After `name = v;` / `name[] = {..};` in class p, a lookup of name in p finds an entry that holds v
   and answers getNumber/getText/getArray/isNumber/isText/isArray accordingly.  Every well-formed host,
   every class, every name and value, every defect setting (with d_deleted_reopen on: unless the name
   carries a delete marker - see C15_redefine_after_delete_refuted). *)
Theorem C15_field_readback : forall d h lg p name v, WF h -> p < length h -> no_marker d h p name ->
  exists h' e ce, apply_node d (h, lg) (Some p) (NField name v) = Ok (h', lg) /\
    lookup_inh (fuel_of h') h' (Some p) name = Ok (Some e) /\
    nth_error h' e = Some ce /\ c_name ce = name /\ c_plog ce = Some p /\
    op_getNumber h' (Some e) = Ok (match v with NNum z => z | _ => 0%Z end, []) /\
    op_getText h' (Some e) = Ok (match v with NStr s => s | _ => [] end, []) /\
    op_getArray h' (Some e) = Ok (match v with NArr l => map eval_v l | _ => [] end, []) /\
    op_isNumber h' (Some e) = Ok (match v with NNum _ => true | _ => false end, []) /\
    op_isText h' (Some e) = Ok (match v with NStr _ => true | _ => false end, []) /\
    op_isArray h' (Some e) = Ok (match v with NArr _ => true | _ => false end, []).
Proof.
  intros d h lg p name v W L NM.
  destruct (aor_total d h p name [] W L NM (or_introl eq_refl)) as [[h1 nav] E].
  destruct (aor_inv _ _ _ _ _ _ _ W L E) as [x [cp' [cx [-> [_ [[W1 _] [Lx [Ep [Em [Ex [Pl Nm]]]]]]]]]]].
  set (h' := upd h1 x (set_value (eval_v v))).
  assert (Ee : nth_error h' x = Some (set_value (eval_v v) cx)) by now apply nth_upd_same.
  exists h', x, (set_value (eval_v v) cx).
  cbn [apply_node]. rewrite E. cbn [bind]. rewrite (apply_value_spec v h1 x Lx). cbn [bind].
  split; [reflexivity|].
  assert (Npx : p <> x) by (pose proof (wf_plog h1 W1 x cx p Ex Pl); lia).
  split; [apply lookup_own with (c := cp'); [unfold h'; now rewrite nth_upd_other|exact Em]|].
  split; [exact Ee|]. split; [exact Nm|]. split; [exact Pl|].
  destruct (getters_spec h' x _ Ee) as [G1 [G2 [G3 [G4 [G5 [G6 _]]]]]]. cbn [set_value c_value] in *.
  repeat split; auto; destruct v; assumption.
Qed.
Print Assumptions C15_field_readback.

(* `Nearest h t n r` is the specification: the class's own entry if it has one (a delete marker hides
   whatever the ancestors define), else what the base class yields, else nothing.  On every well-formed
   acyclic host the lookup of confignav::lookup_in_inherited returns exactly that, within fuel_of h. *)
Theorem C15_lookup_spec : forall h n t r, WF h -> Acyclic h -> n < length h ->
  (lookup_inh (fuel_of h) h (Some n) t = Ok r <-> Nearest h t n r).
Proof. exact lookup_spec. Qed.
Print Assumptions C15_lookup_spec.

(* The same specification in chain form: every class of a well-formed acyclic host has a finite inheritance
   chain (itself, its base, ...), and a lookup finds an entry exactly when some class of the chain declares
   the name - the first such class wins; if its declaration is a delete marker the lookup finds nothing. *)
Theorem C15_lookup_chain_spec : forall h n t, WF h -> Acyclic h -> n < length h ->
  exists l, Chain h n l /\ forall r, lookup_inh (fuel_of h) h (Some n) t = Ok r <-> first_declared h t l r.
Proof.
  intros h n t W A L. destruct (A n) as [f Ef]. destruct (chain_exists f h n W L Ef) as [l C].
  exists l. split; [exact C|]. intro r. rewrite (lookup_spec h n t r W A L). now apply nearest_chain.
Qed.
Print Assumptions C15_lookup_chain_spec.

Theorem C15_nearest_deterministic : forall h t n r1 r2, Nearest h t n r1 -> Nearest h t n r2 -> r1 = r2.
Proof. exact nearest_deterministic. Qed.
Print Assumptions C15_nearest_deterministic.

(* Soundness needs no hypothesis at all: whatever a lookup returns, with whatever fuel, is the nearest definition. *)
Theorem C15_lookup_sound : forall f h n t r, lookup_inh f h (Some n) t = Ok r -> Nearest h t n r.
Proof. exact lookup_sound. Qed.
Print Assumptions C15_lookup_sound.

(* Fuel bound: under acyclicity |host| + 1 steps suffice ... *)
Theorem C15_lookup_terminates_under_acyclic : forall h n t, WF h -> Acyclic h -> n < length h ->
  exists r, lookup_inh (fuel_of h) h (Some n) t = Ok r /\ Nearest h t n r.
Proof. exact lookup_terminates_under_acyclic. Qed.
Print Assumptions C15_lookup_terminates_under_acyclic.

(* ... and OutOfFuel at that fuel is a real divergence of the C++ loop: no amount of fuel returns. *)
Theorem C15_out_of_fuel_is_divergence : forall h n t, WF h -> n < length h ->
  lookup_inh (fuel_of h) h (Some n) t = OutOfFuel -> forall f, lookup_inh f h (Some n) t = OutOfFuel.
Proof.
  intros h n t W L H f.
  pose proof (lookup_by_ends (fuel_of h) h n t W L) as B0.
  destruct (ends (fuel_of h) (stop_links h t) n) eqn:E0; [destruct B0 as [r Hr]; congruence|].
  pose proof (lookup_by_ends f h n t W L) as B.
  destruct (ends f (stop_links h t) n) eqn:E; [|exact B].
  pose proof (ends_bound _ _ _ _ (stop_in_range h t W) E) as E2. unfold fuel_of in E0. congruence.
Qed.
Print Assumptions C15_out_of_fuel_is_divergence.

(* "Acyclic" is stated as termination of every walk along id_parent_inherited; for a well-formed host
   that is the same as "no container is its own ancestor". *)
Theorem C15_acyclic_iff_no_cycle : forall h, WF h -> (Acyclic h <-> ~ Cyclic (inh_of h)).
Proof. intros h W. apply (terminating_iff_not_cyclic (inh_of h) (length h)). now apply wf_in_range. Qed.
Print Assumptions C15_acyclic_iff_no_cycle.

(* Every sequence of config loads, from any well-formed acyclic host (in particular the initial one),
   with the rebind guard of the repair: the host stays well-formed and acyclic. *)
Theorem C15_acyclic_preserved : forall d ls h lg h' lg', d_rebind_cycle d = false -> WF h -> Acyclic h ->
  loads d (h, lg) ls = Ok (h', lg') -> WF h' /\ Acyclic h'.
Proof. intros d ls h lg h' lg' Ed W A H. exact (acyclic_preserved d ls h lg h' lg' Ed (conj W A) H). Qed.
Print Assumptions C15_acyclic_preserved.

(* The code before the repair: class A {}; class B : A {}; class A : B {};  leaves a cyclic host on which the
   lookup of a missing entry never returns. *)
Theorem C15_acyclic_preserved_refuted :
  loads original (init_host, []) cycle_witness = Ok (cycle_host, []) /\
  (WF init_host /\ Acyclic init_host) /\ ~ Acyclic cycle_host /\
  (forall f, lookup_inh f cycle_host (Some 1) nx = OutOfFuel).
Proof.
  split; [vm_compute; reflexivity|]. split; [split; [apply init_wf|apply init_acyclic]|].
  assert (C : Cyclic (inh_of cycle_host)) by (exists 1, 1; vm_compute; reflexivity).
  split; [intro A; exact (cyclic_not_terminating _ C A)|].
  assert (K : forall f, lookup_inh f cycle_host (Some 1) nx = OutOfFuel /\ lookup_inh f cycle_host (Some 2) nx = OutOfFuel).
  { induction f as [|f [IH1 IH2]]; [split; reflexivity|]. split.
    - unfold cycle_host in *. cbn [lookup_inh nth_error c_map mfind c_pinh]. exact IH2.
    - unfold cycle_host in *. cbn [lookup_inh nth_error c_map mfind c_pinh]. exact IH1. }
  intro f. apply (K f).
Qed.
Print Assumptions C15_acyclic_preserved_refuted.

(* With the repairs, loading is total: every sequence of loads returns a host - no out-of-range access,
   no dereferenced delete marker, no self-insert, no non-terminating walk - and on the result every lookup
   path, existing or not, evaluates. *)
Theorem C15_loads_and_lookups_total : forall ls, exists h lg,
  loads as_is (init_host, []) ls = Ok (h, lg) /\ WF h /\ Acyclic h /\
  forall path, exists c w, op_path h (Some 0) path = Ok (c, w).
Proof.
  intros ls.
  assert (S : safe_setting as_is) by (split; reflexivity).
  destruct (loads_total as_is S ls init_host [] (conj init_wf init_acyclic)) as [[h lg] E].
  pose proof (acyclic_preserved as_is ls init_host [] h lg eq_refl (conj init_wf init_acyclic) E) as [W A].
  exists h, lg. split; [exact E|]. split; [exact W|]. split; [exact A|].
  intro path. destruct (op_path_total h path (Some 0) (conj W A) (wf_root h W)) as [c [w [E2 _]]]. eauto.
Qed.
Print Assumptions C15_loads_and_lookups_total.

(* For every defect setting, loads keep the host well-formed (ids never dangle). *)
Theorem C15_wellformed_preserved : forall d ls h lg h' lg', WF h -> loads d (h, lg) ls = Ok (h', lg') -> WF h'.
Proof. intros d ls h lg h' lg' W H. exact (proj1 (loads_inv d ls h lg h' lg' W H)). Qed.
Print Assumptions C15_wellformed_preserved.

(* Re-opening a class returns the existing container and changes nothing by itself: the body is then
   applied to the same container. *)
Theorem C15_reopen_merges : forall d h p cp name x, WF h -> nth_error h p = Some cp ->
  mfind (c_map cp) name = Some (Some x) -> append_or_replace d h (Some p) name [] = Ok (h, Some x).
Proof. exact reopen_merges. Qed.
Print Assumptions C15_reopen_merges.

(* Across ANY sequence of loads (any defect setting) the own entries of every existing class keep their
   positions: count never shrinks, position i keeps its entry or turns into a delete marker; nothing is
   reordered or dropped. *)
Theorem C15_declaration_order_stable : forall d ls h lg h' lg' k ck, WF h -> loads d (h, lg) ls = Ok (h', lg') ->
  nth_error h k = Some ck ->
  exists ck', nth_error h' k = Some ck' /\ length (c_vec ck) <= length (c_vec ck') /\
    forall i e, nth_error (c_vec ck) i = Some e ->
      nth_error (c_vec ck') i = Some e \/ nth_error (c_vec ck') i = Some None.
Proof.
  intros d ls h lg h' lg' k ck W H E. destruct (loads_inv d ls h lg h' lg' W H) as [_ [_ [X _]]].
  destruct (X k ck E) as [ck' [E' V]]. exists ck'. split; [exact E'|]. split; [now apply vext_length|].
  intros i e Hi. eapply vext_nth; eauto.
Qed.
Print Assumptions C15_declaration_order_stable.

(* A first declaration goes to the end; count is the length of that vector and select i its i-th element. *)
Theorem C15_count_select_declaration_order : forall d h p cp name inh h' nav, WF h -> nth_error h p = Some cp ->
  mfind (c_map cp) name = None -> append_or_replace d h (Some p) name inh = Ok (h', nav) ->
  exists cp', nth_error h' p = Some cp' /\ c_vec cp' = c_vec cp ++ [nav] /\ nav = Some (length h) /\
    op_count h' (Some p) = Ok (S (length (c_vec cp)), []) /\
    op_select h' (Some p) (Z.of_nat (length (c_vec cp))) = Ok (nav, []) /\
    (forall i, (0 <= i < Z.of_nat (length (c_vec cp)))%Z -> op_select h' (Some p) i = op_select h (Some p) i).
Proof.
  intros d h p cp name inh h' nav W Ep Em H.
  destruct (first_declaration_appends d h p cp name inh h' nav W Ep Em H) as [cp' [Ep' [V ->]]].
  exists cp'. split; [exact Ep'|]. split; [exact V|]. split; [reflexivity|].
  split; [unfold op_count, get; rewrite Ep'; cbn [bind]; rewrite V, app_length; cbn [length]; do 3 f_equal; lia|].
  split.
  - apply (select_nth h' p cp'); [exact Ep'|lia|].
    rewrite V, Nat2Z.id, nth_error_app2, Nat.sub_diag by lia. reflexivity.
  - intros i [I0 I1]. destruct (select_spec h p cp i Ep (conj I0 I1)) as [e [F ->]].
    apply (select_nth h' p cp'); [exact Ep'|exact I0|]. rewrite V, nth_error_app1 by lia. exact F.
Qed.
Print Assumptions C15_count_select_declaration_order.

Theorem C15_delete_hides : forall d h lg p name, WF h -> p < length h ->
  exists h', apply_node d (h, lg) (Some p) (NDelete name) = Ok (h', lg) /\
    lookup_inh (fuel_of h') h' (Some p) name = Ok None /\
    (forall q cq, nth_error h' q = Some cq -> c_pinh cq = Some p -> mfind (c_map cq) name = None ->
                  lookup_inh (fuel_of h') h' (Some q) name = Ok None).
Proof. exact delete_hides. Qed.
Print Assumptions C15_delete_hides.

(* `name[] += {vs}` in a class p with base b, where the nearest definition of name along b's chain is an
   array a0: afterwards p's own entry reads a0 ++ vs.  Every well-formed acyclic host. *)
Theorem C15_append_appends_inherited : forall d h lg p name vs cp b e0 c0 a0,
  WF h -> Acyclic h -> p < length h -> no_marker d h p name ->
  nth_error h p = Some cp -> c_pinh cp = Some b ->
  Nearest h name b (Some e0) -> nth_error h e0 = Some c0 -> c_value c0 = VArr a0 ->
  exists h' e, apply_node d (h, lg) (Some p) (NAppend name (NArr vs)) = Ok (h', lg) /\
    lookup_inh (fuel_of h') h' (Some p) name = Ok (Some e) /\
    op_getArray h' (Some e) = Ok (a0 ++ map eval_v vs, []).
Proof.
  intros d h lg p name vs cp b e0 c0 a0 W A L NM Ep Pi N0 E0 V0.
  destruct (append_appends_inherited d h lg p name vs cp b e0 c0 a0 (conj W A) L NM Ep Pi N0 E0 V0)
    as [h' [e [ce [E [Lk [Ee V]]]]]].
  exists h', e. split; [exact E|]. split; [exact Lk|].
  destruct (getters_spec h' e ce Ee) as [_ [_ [G _]]]. now rewrite V in G.
Qed.
Print Assumptions C15_append_appends_inherited.

(* `class name : base` applied below p: afterwards inheritsFrom (the class) is the class that `base`
   names along the enclosing classes of p - unless binding it would close a cycle, in which case nothing changed. *)
Theorem C15_inheritsFrom_is_base : forall d h p name base h' nav, WF h -> p < length h -> base <> [] ->
  d_inherits_logical d = false ->
  append_or_replace d h (Some p) name base = Ok (h', nav) ->
  exists x b, nav = Some x /\ lookup_log (S (fuel_of h)) h (Some p) base = Ok b /\
     (op_inheritsFrom d h' (Some x) = Ok (b, []) \/
      (d_rebind_cycle d = false /\ reaches (fuel_of h) h b x = Ok true /\ h' = h)).
Proof.
  intros d h p name base h' nav W L Nb Ed H.
  destruct (aor_inv _ _ _ _ _ _ _ W L H) as [x [_ [_ [-> [C _]]]]].
  destruct (inheritsFrom_is_base d h p name base h' x W L Nb Ed C) as [b [Hb R]]. eauto.
Qed.
Print Assumptions C15_inheritsFrom_is_base.

Theorem C15_inheritsFrom_is_base_refuted :
  loads original (init_host, []) inh_witness = Ok (inh_host, []) /\
  op_path inh_host (Some 0) [nDerived] = Ok (Some 2, []) /\ op_path inh_host (Some 0) [nBase] = Ok (Some 1, []) /\
  parent_inherited inh_host (Some 2) = Ok (Some 1) /\
  op_inheritsFrom original inh_host (Some 2) = Ok (Some 0, []).
Proof. repeat split; vm_compute; reflexivity. Qed.
Print Assumptions C15_inheritsFrom_is_base_refuted.

(* configHierarchy (repaired) = the enclosing classes, root first, the class itself last. *)
Theorem C15_configHierarchy_spec : forall d h n, WF h -> n < length h -> d_hierarchy_shape d = false ->
  exists l, op_hierarchy d h (Some n) = Ok (HConfigs l, []) /\ Enclosing h n l.
Proof.
  intros d h n W L Ed. unfold op_hierarchy. rewrite Ed.
  destruct (encl_loop_spec h n (fuel_of h) W L ltac:(unfold fuel_of; lia)) as [l [E1 E2]].
  rewrite E1. cbn. eauto.
Qed.
Print Assumptions C15_configHierarchy_spec.

Theorem C15_configHierarchy_spec_refuted :
  loads original (init_host, []) hier_witness = Ok (hier_host, []) /\
  op_path hier_host (Some 0) [nA; nB] = Ok (Some 2, []) /\
  Enclosing hier_host 2 [0; 1; 2] /\
  op_hierarchy original hier_host (Some 2) = Ok (HNames [nA; nB; nB], []).
Proof.
  split; [vm_compute; reflexivity|]. split; [vm_compute; reflexivity|]. split; [|vm_compute; reflexivity].
  change [0; 1; 2] with ([0; 1] ++ [2]).
  eapply Encl_step with (p := 1); [reflexivity|reflexivity|].
  change [0; 1] with ([0] ++ [1]).
  eapply Encl_step with (p := 0); [reflexivity|reflexivity|].
  eapply Encl_root; reflexivity.
Qed.
Print Assumptions C15_configHierarchy_spec_refuted.

(* class A { x = 1; delete x; x = 2; };  on the code before the repair: m_containers[invalid_id]. *)
Theorem C15_redefine_after_delete_refuted :
  loads original (init_host, []) [[NClass nA [] [NField nx (NNum 1); NDelete nx; NField nx (NNum 2)]]] = UB DeletedDeref.
Proof. vm_compute. reflexivity. Qed.
Print Assumptions C15_redefine_after_delete_refuted.

(* non-vacuity: hosts built by real loads meet the hypotheses, and the statements bite *)
Local Open Scope Z_scope.
Definition n_arr : str := [97;114;114].
(* class A { arr[] = {1,{2,"B"}}; x = 5; };  class B : A { arr[] += {3}; delete x; }; *)
Definition ex_loads : list (list node) :=
  [[NClass nA [] [NField n_arr (NArr [NNum 1; NArr [NNum 2; NStr nB]]); NField nx (NNum 5)]];
   [NClass nB nA [NAppend n_arr (NArr [NNum 3]); NDelete nx]]].
Local Close Scope Z_scope.
Definition ex_host : host :=
  Eval vm_compute in match loads as_is (init_host, []) ex_loads with Ok (h, _) => h | _ => [] end.
Example ex_loaded : loads as_is (init_host, []) ex_loads = Ok (ex_host, []).
Proof. vm_compute. reflexivity. Qed.
Example ex_inv : WF ex_host /\ Acyclic ex_host.
Proof. exact (C15_acyclic_preserved as_is ex_loads init_host [] ex_host [] eq_refl init_wf init_acyclic ex_loaded). Qed.
(* B >> arr = inherited ++ appended, B >> x hidden by delete although A defines it, A >> x = 5 *)
Example ex_append : exists e, op_path ex_host (Some 0) [nB; n_arr] = Ok (Some e, []) /\
  op_getArray ex_host (Some e) = Ok ([VNum 1; VArr [VNum 2; VStr nB]; VNum 3], []).
Proof. eexists. split; vm_compute; reflexivity. Qed.
Example ex_delete : op_path ex_host (Some 0) [nB; nx] = Ok (None, [W_NOTFOUND]) /\
  exists e, op_path ex_host (Some 0) [nA; nx] = Ok (Some e, []) /\ op_getNumber ex_host (Some e) = Ok (5%Z, []).
Proof. split; [vm_compute; reflexivity|]. eexists. split; vm_compute; reflexivity. Qed.
Example ex_inherits : op_inheritsFrom as_is ex_host (Some 4) = Ok (Some 1, []) /\
  op_hierarchy as_is ex_host (Some 5) = Ok (HConfigs [0; 4; 5], []).
Proof. split; vm_compute; reflexivity. Qed.
(* the repaired code refuses the cycle of the witness and logs the new warning *)
Example ex_cycle_refused : exists h, loads as_is (init_host, []) cycle_witness = Ok (h, [W_CYCLE_REFUSED]) /\
  op_path h (Some 0) [nA; nx] = Ok (None, [W_NOTFOUND]).
Proof. eexists. split; vm_compute; reflexivity. Qed.

(* C17 - PBO archives are read faithfully; damaged ones are rejected safely.
   The theorems, each a few steps from the lemmas of PBO/PboProofs.v and PBO/PboTrunc.v. The model (PBO/PboDefs.v) is
   tied to src/rvutils/pbofile.hpp by the correspondence run of checks/C17.py. *)
From Coq Require Import ZArith List Lia.
Import ListNotations.
From SqfVerif Require Import PBO.PboDefs PBO.PboProofs PBO.PboTrunc.
Local Open Scope Z_scope.

(* Every well-formed archive of any size: the reader reports exactly the stored
   properties and the entry list (names, sizes), in order. *)
Theorem C17_open_pack : forall a, wf a ->
  exists p, open (pack a) = Some p /\ attributes p = props a /\ files p = listing a.
Proof. exact open_pack. Qed.
Print Assumptions C17_open_pack.

(* ... and every entry's bytes come back unchanged (first entry of that name). *)
Theorem C17_read_pack : forall a name, wf a -> name <> [] ->
  exists p, open (pack a) = Some p /\
    read_entry (pack a) p name = option_map edata (find (fun e => eqbl (ename e) name) (entries a)).
Proof. exact read_pack. Qed.
Print Assumptions C17_read_pack.

(* ANY byte string (truncated, corrupted): if the reader accepts it, every exposed
   entry's data block lies inside the file. *)
Theorem C17_exposed_inside : forall l p, Forall isbyte l -> open l = Some p ->
  p_len p = len l /\
  Forall (fun h => 0 <= h_start h /\ 0 <= h_size h /\ h_start h + h_size h <= len l) (p_hdrs p).
Proof. exact exposed_inside. Qed.
Print Assumptions C17_exposed_inside.

(* ... and what a read returns is a slice of the file of exactly the advertised size, so
   the buffer the reader allocates (descriptor().size) never exceeds the file length. *)
Theorem C17_read_bounded : forall l p name d, Forall isbyte l -> open l = Some p ->
  read_entry l p name = Some d ->
  exists h, In h (p_hdrs p) /\ len d = h_size h /\ h_size h <= len l /\
            d = slice l (h_start h) (h_size h) /\ h_start h + h_size h <= len l.
Proof. exact read_bounded. Qed.
Print Assumptions C17_read_bounded.

(* The reader's two loops terminate within the file length (fuel = |file| is never exhausted:
   any larger fuel gives the same answer). *)
Theorem C17_open_fuel_irrelevant : forall (l:list Z) f, (length l <= f)%nat ->
  forall r0, (length r0 < length l)%nat ->
  take_attrs (length l) r0 = take_attrs f r0 /\ take_hdrs (length l) r0 = take_hdrs f r0.
Proof. intros l f Hf r0 Hr. split; [apply take_attrs_fuel|apply take_hdrs_fuel]; lia. Qed.
Print Assumptions C17_open_fuel_irrelevant.

(* DAMAGED ARCHIVES, truncation: EVERY proper prefix of a well-formed packed archive (any size, any cut) is refused by the
   reader - a truncated archive exposes no entry at all, hence no damaged one. *)
Theorem C17_truncation_rejected : forall a n, wf a -> (n < length (pack a))%nat -> open (firstn n (pack a)) = None.
Proof.
  intros a n W Hn. refine (prefix_refused _ _ _ _ n (open_pack_eq a W) eq_refl _ Hn). cbn [h_start h_size]. lia.
Qed.
Print Assumptions C17_truncation_rejected.

(* Bytes behind the data area (a checksum trailer, padding, garbage of any length) change nothing: ANY archive the reader
   accepts is accepted with the same properties and the same table when bytes are appended ... *)
Theorem C17_trailing_bytes_ignored : forall l p x, open l = Some p ->
  open (l ++ x) = Some {| p_attrs := p_attrs p; p_hdrs := p_hdrs p; p_len := len l + len x |}.
Proof. exact open_ext. Qed.
Print Assumptions C17_trailing_bytes_ignored.

(* ... and every read returns the same bytes as without them. *)
Theorem C17_trailing_bytes_reads : forall l p x name, Forall isbyte l -> open l = Some p ->
  read_entry (l ++ x) {| p_attrs := p_attrs p; p_hdrs := p_hdrs p; p_len := len l + len x |} name = read_entry l p name.
Proof.
  intros l p x name Fb H. unfold read_entry. cbn [p_hdrs].
  destruct (find _ (p_hdrs p)) as [h|] eqn:EF; [|reflexivity].
  apply find_some in EF as [Hin _].
  destruct (exposed_inside _ _ Fb H) as [_ FA]. rewrite Forall_forall in FA. destruct (FA _ Hin) as (A & B & C).
  now rewrite slice_ext.
Qed.
Print Assumptions C17_trailing_bytes_reads.

(* Corruption confined to the data area (same length, any bytes): the reader reports the properties and the table of the
   undamaged archive - names, sizes and positions of all entries are as stored; only the bytes that were changed differ. *)
Theorem C17_data_corruption_keeps_table : forall a d', wf a -> length d' = length (flat_map edata (entries a)) ->
  let L := pack a in
  let L' := firstn (length L - length d') L ++ d' in
  exists p', open L' = Some p' /\ p_attrs p' = props a /\ p_hdrs p' = p_hdrs (packed_pbo a) /\ p_len p' = len L.
Proof.
  intros a d' W Hd L L'. exists (packed_pbo a). unfold L', L. rewrite (damaged_head a d' Hd).
  split; [apply open_head; assumption|]. repeat split.
Qed.
Print Assumptions C17_data_corruption_keeps_table.

(* ... and an entry whose own bytes are still at their place reads back exactly as stored, whatever happened to the bytes of
   the other entries: damage stays local, an exposed entry that was not hit is intact. *)
Theorem C17_data_corruption_intact_entry : forall ps pre e post d',
  let a := {| props := ps; entries := pre ++ e :: post |} in
  wf a -> length d' = length (flat_map edata (entries a)) ->
  Forall (fun x => eqbl (ename x) (ename e) = false) pre ->
  slice d' (len (flat_map edata pre)) (len (edata e)) = edata e ->
  let L := pack a in
  let L' := firstn (length L - length d') L ++ d' in
  exists p', open L' = Some p' /\ read_entry L' p' (ename e) = Some (edata e).
Proof.
  intros ps pre e post d' a W Hd HN HS L L'. exists (packed_pbo a). unfold L', L. rewrite (damaged_head a d' Hd).
  split; [apply open_head; assumption|].
  rewrite (read_head a pre e post d' (ename e) W eq_refl HN) by (now apply eqbl_spec). now rewrite HS.
Qed.
Print Assumptions C17_data_corruption_intact_entry.

(* non-vacuity: a concrete two-entry archive with a property meets wf and reads back *)
Definition ex_archive : archive :=
  {| props := [([112;114;101;102;105;120], [120;92;121])];
     entries := [ {| ename := [97;46;115;113;102]; edata := [49;43;49;0;255]; etime := 7 |};
                  {| ename := [100;92;98]; edata := []; etime := 0 |} ] |}.
Example ex_wf : wf ex_archive.
Proof.
  unfold wf, ex_archive, wf_key, nonul, u32; cbn.
  repeat constructor; try discriminate; cbn; try reflexivity; try (intro; discriminate).
Qed.
Example ex_reads : exists p, open (pack ex_archive) = Some p /\
  read_entry (pack ex_archive) p [97;46;115;113;102] = Some [49;43;49;0;255] /\
  read_entry (pack ex_archive) p [100;92;98] = Some [].
Proof. eexists. split; [vm_compute; reflexivity|]. split; vm_compute; reflexivity. Qed.
(* and a truncated archive is rejected by the model *)
Example ex_truncated : open (firstn 60 (pack ex_archive)) = None.
Proof. vm_compute. reflexivity. Qed.
(* non-vacuity of the damaged-archive theorems: every cut of the example archive is refused (checked in the kernel for all
   cuts), 21 appended bytes are ignored, and a changed data byte leaves the table alone *)
Example ex_all_cuts_refused :
  forallb (fun n => match open (firstn n (pack ex_archive)) with None => true | Some _ => false end)
          (seq 0 (length (pack ex_archive))) = true.
Proof. vm_compute. reflexivity. Qed.
Example ex_trailer : exists p, open (pack ex_archive ++ repeat 7 21) = Some p /\
  read_entry (pack ex_archive ++ repeat 7 21) p [97;46;115;113;102] = Some [49;43;49;0;255].
Proof. eexists. split; vm_compute; reflexivity. Qed.

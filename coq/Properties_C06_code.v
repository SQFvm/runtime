(* C06, code half (the number/string half is Properties_C06.v): `str` of a code value compiles back to the same
   instructions; the CLI pretty printer - refuted as it stood before 382ec7b, round trip as repaired, over trees and
   over source texts; what the parser returns for an accepted text; the lexer is idempotent on its tokens.
   Proofs of more than a few lines are in Syntax/*.v. *)
From Coq Require Import ZArith List Bool Arith.
Import ListNotations.
From SqfVerif Require Import Syntax.SyntaxDefs Syntax.LexProofs Syntax.CompileProofs Syntax.CodeRoundtrip Syntax.ParsePrintGen Syntax.PrettyRoundtrip Syntax.PrettySpelling Syntax.ParseSound Syntax.LexIdem.
From SqfVerif Require Num.NumDefs.

(* str of code: for every registry and every well-formed block ss with compiled code c = postorder_block ss,
   the model of `str` (instruction::reconstruct + d_code::to_string_sqf) returns a text; if every token of that
   text is spelled so that it reads as itself (names are lexable; literals are printed as literals of their
   kind by show_lit - the number/string half of C06), the text is `{ ... }` and compiles back, for all
   sufficiently large fuel, to one code value whose instructions are those of c with every literal replaced
   by its printed form (so: instruction-for-instruction equal once show_lit preserves literal values). *)
Theorem C06_code_roundtrip : forall (R:registry) (d:defects) (show_lit:lit -> lit) (ss:list stmt),
  show_kind_ok show_lit -> wf_block R ss ->
  exists ps, reconstruct show_lit (postorder_block ss) = Some ps /\
    (toks_ok ps ->
     exists f0, forall f, (f0 <= f)%nat ->
       exists ss', parse_text d R f (pieces_text ps) = FOk [SExpr (Code ss')] /\
                   compile_block ss' = Some (map (mapl_i show_lit) (postorder_block ss))).
Proof. exact code_roundtrip. Qed.
Print Assumptions C06_code_roundtrip.

(* the CLI pretty printer as it stood before 382ec7b (model pretty_asis_program: no parentheses): refuted by `(a + b) * c` *)
Theorem C06_pretty_roundtrip_refuted :
  exists R s p p' c c',
    (forall f, (100 <= f)%nat -> parse_text as_is R f s = FOk p) /\ compile_block p = Some c /\
    (forall f, (100 <= f)%nat -> parse_text as_is R f (pieces_text (pretty_asis_program p)) = FOk p') /\ compile_block p' = Some c' /\
    c <> c'.
Proof.
  exists pp_R, pp_src.
  exists [SExpr (Bin 6 [42%Z] (Bin 5 [43%Z] (Var [97%Z]) (Var [98%Z])) (Var [99%Z]))].
  exists [SExpr (Bin 5 [43%Z] (Var [97%Z]) (Bin 6 [42%Z] (Var [98%Z]) (Var [99%Z])))].
  eexists. eexists.
  split; [apply parse_text_mono; vm_compute; reflexivity|].
  split; [vm_compute; reflexivity|].
  split; [apply parse_text_mono; vm_compute; reflexivity|].
  split; [vm_compute; reflexivity|].
  discriminate.
Qed.
Print Assumptions C06_pretty_roundtrip_refuted.

(* the CLI pretty printer as repaired (sqf_formatter.cpp after 382ec7b, model SyntaxDefs.pretty_program): for EVERY
   registry and every well-formed program ss as the parser returns it (no Par nodes: the parser drops source
   parentheses, parser.y:299), if every token of the printed text is spelled so that it reads as itself (the
   formatter writes the tokens of the source, operator names in lower case and `$ff` as `0xff`), then for all
   sufficiently large fuel the printed text - line breaks, indentation, `{}` / `{ a; b; }` blocks and the
   parentheses the formatter emits - is parsed to the program itself up to that respelling (pnorm: names of unary
   and binary operators lowered, hexnorm on literals), and that program compiles to the instruction sequence of ss
   with every `$` hex literal spelled `0x`.  Proof: the tokens of the printed text are the documented reading
   (ParsePrintGen.prg, layout per block) of a tree that carries a Par node where the formatter writes
   parentheses the reading does not need (`if (x)`, `! (x)`); the parentheses it writes around binary operands
   are exactly the minimal ones; then parse o print = id. *)
Theorem C06_pretty_roundtrip : forall (R:registry) (d:defects) (ss:list stmt),
  wf_block R ss -> forallb noparb_stmt ss = true -> toks_ok (pretty_program ss) ->
  exists f0, forall f, (f0 <= f)%nat ->
    parse_text d R f (pieces_text (pretty_program ss)) = FOk (map pnorm_stmt ss) /\
    exists c, compile_block ss = Some c /\ compile_block (map pnorm_stmt ss) = Some (map (mapl_i hexnorm) c).
Proof. exact pretty_roundtrip. Qed.
Print Assumptions C06_pretty_roundtrip.

(* the same with the spelling hypothesis on the INPUT: every token of the program reads as itself (spelled_block: each
   operator name, variable name and literal of ss, lexed on its own, is that token - what holds for a tree that came
   out of the parser).  The formatter lowers the names of unary and binary operators and respells `$` literals; a
   token that reads as itself still does afterwards (PrettySpelling.tok_ok_name_lower, tok_ok_hexnorm). *)
Theorem C06_pretty_roundtrip_spelled : forall (R:registry) (d:defects) (ss:list stmt),
  wf_block R ss -> forallb noparb_stmt ss = true -> spelled_block ss ->
  exists f0, forall f, (f0 <= f)%nat ->
    parse_text d R f (pieces_text (pretty_program ss)) = FOk (map pnorm_stmt ss) /\
    exists c, compile_block ss = Some c /\ compile_block (map pnorm_stmt ss) = Some (map (mapl_i hexnorm) c).
Proof. exact pretty_roundtrip_spelled. Qed.
Print Assumptions C06_pretty_roundtrip_spelled.

(* the statement of the property: a program without `$` literals compiles to the very same instruction sequence
   after pretty printing *)
Theorem C06_pretty_roundtrip_same : forall (R:registry) (d:defects) (ss:list stmt),
  wf_block R ss -> forallb noparb_stmt ss = true -> toks_ok (pretty_program ss) ->
  forallb nodollar_i (postorder_block ss) = true ->
  exists f0, forall f, (f0 <= f)%nat ->
    exists ss', parse_text d R f (pieces_text (pretty_program ss)) = FOk ss' /\ compile_block ss' = compile_block ss.
Proof.
  intros R d ss Hwf Hnp Hok Hnd. destruct (pretty_roundtrip R d ss Hwf Hnp Hok) as [f0 H].
  exists f0. intros f Hf. destruct (H f Hf) as (Hparse & c & Hc & Hc'). exists (map pnorm_stmt ss). split; [exact Hparse|].
  rewrite Hc', Hc. f_equal. rewrite compile_block_postorder in Hc. injection Hc as <-. apply map_hexnorm_id. exact Hnd.
Qed.
Print Assumptions C06_pretty_roundtrip_same.

(* ... and with `$` literals the two sequences differ in the spelling of those literals only, which denote the same
   number: the literal conversion of the number half (NumDefs.lit_hex, sqf_parser.cpp:98-120) reads `0x..` as it
   reads `$..` *)
Theorem C06_pretty_hex_respelling : forall l,
  match l, hexnorm l with
  | LHex s, LHex s' => NumDefs.lit_hex s' = NumDefs.lit_hex s
  | _, l' => l' = l
  end.
Proof.
  destruct l as [s|s|s|s|s]; try reflexivity. destruct s as [|c r]; [reflexivity|]. cbn [hexnorm].
  destruct (Z.eqb_spec c 36); [subst; apply hex_respelling_value|reflexivity].
Qed.
Print Assumptions C06_pretty_hex_respelling.

(* what the proof rests on, C01.2 with the separator layout chosen per statement list (`layf ss`) instead of once:
   every such rendering of a well-formed program is parsed back to the program (Par nodes erased).  The theorem
   of C01 is the instance `layf = fun _ => lay` (ParsePrintGen.parse_print_block_of_gen). *)
Theorem C06_parse_print_layout_per_block : forall (R:registry) (d:defects) (layf:list stmt -> layout) (ss:list stmt),
  wf_block R ss ->
  exists f0, forall f, (f0 <= f)%nat -> parse_toks d f (printg_toks R layf ss) = POk (map strip_stmt ss).
Proof. exact parse_printg_block. Qed.
Print Assumptions C06_parse_print_layout_per_block.

(* non-vacuity: a program with both operator classes, forced and minimal parentheses, nested and empty blocks, an
   array, a folded sign, an upper-case name and a `$` literal meets the hypotheses, and the conclusion computes *)
Example C06_pretty_hypotheses_satisfiable :
  ex_prog <> [] /\ wf_block ex_R ex_prog /\ forallb noparb_stmt ex_prog = true /\ toks_ok (pretty_program ex_prog).
Proof. exact ex_hyps. Qed.
Example C06_pretty_input_spelled : spelled_block ex_prog.
Proof.
  unfold spelled_block, ex_prog. intros s [<-|[<-|[]]]; cbn [spelled_stmt spelled fold_right]; repeat split; vm_compute; reflexivity.
Qed.
Example C06_pretty_roundtrip_computed :
  parse_text as_is ex_R 200 ex_src = FOk ex_prog /\
  parse_text as_is ex_R 200 (pieces_text (pretty_program ex_prog)) = FOk (map pnorm_stmt ex_prog) /\
  compile_block (map pnorm_stmt ex_prog) = option_map (map (mapl_i hexnorm)) (compile_block ex_prog) /\
  compile_block ex_prog <> None.
Proof. vm_compute. repeat split; discriminate. Qed.

(* What the parser model returns for an accepted text, for every registry, text and fuel: a tree without Par
   nodes; and - if every token of the text reads as itself (src_spelled) and every assignment target is a
   variable (tv_stmt) - a spelled tree which, when no name is both unary and nular except the unary+nular names
   without binary overload that the parser as it stands refuses as operands (reg_ok), is well formed for R.
   None of the three side conditions can be dropped: C06_parse_spelled_refuted, C06_parse_wf_refuted. *)
Theorem C06_parse_text_sound : forall (d:defects) (R:registry) (f:nat) (s:text) (ss:list stmt),
  parse_text d R f s = FOk ss ->
  forallb noparb_stmt ss = true /\
  (src_spelled s -> forallb tv_stmt ss = true -> spelled_block ss /\ (reg_ok d R -> wf_block R ss)).
Proof. exact parse_text_sound. Qed.
Print Assumptions C06_parse_text_sound.

(* the pretty printer, end to end: for every text the parser model accepts (under the side conditions), the
   formatter's output is accepted too, as the same program up to the respelling, and compiles to the same
   instruction sequence up to `$` -> `0x` *)
Theorem C06_pretty_roundtrip_text : forall (d:defects) (R:registry) (f1:nat) (s:text) (ss:list stmt),
  parse_text d R f1 s = FOk ss -> src_spelled s -> forallb tv_stmt ss = true -> reg_ok d R ->
  exists f0, forall f, (f0 <= f)%nat ->
    parse_text d R f (pieces_text (pretty_program ss)) = FOk (map pnorm_stmt ss) /\
    exists c, compile_block ss = Some c /\ compile_block (map pnorm_stmt ss) = Some (map (mapl_i hexnorm) c).
Proof.
  intros d R f1 s ss H Hsp Htv HR. destruct (parse_text_sound d R f1 s ss H) as [Hnp H2].
  destruct (H2 Hsp Htv) as [Hs Hwf]. apply pretty_roundtrip_spelled; auto.
Qed.
Print Assumptions C06_pretty_roundtrip_text.

(* str of the compiled code, end to end *)
Theorem C06_code_roundtrip_text : forall (d:defects) (R:registry) (show_lit:lit -> lit) (f1:nat) (s:text) (ss:list stmt),
  parse_text d R f1 s = FOk ss -> src_spelled s -> forallb tv_stmt ss = true -> reg_ok d R -> show_kind_ok show_lit ->
  exists c, compile_block ss = Some c /\
  exists ps, reconstruct show_lit c = Some ps /\
    (toks_ok ps ->
     exists f0, forall f, (f0 <= f)%nat ->
       exists ss', parse_text d R f (pieces_text ps) = FOk [SExpr (Code ss')] /\
                   compile_block ss' = Some (map (mapl_i show_lit) c)).
Proof.
  intros d R show_lit f1 s ss H Hsp Htv HR Hk. destruct (parse_text_sound d R f1 s ss H) as [Hnp H2].
  destruct (H2 Hsp Htv) as [Hs Hwf]. exists (postorder_block ss). split; [apply compile_block_postorder|].
  exact (code_roundtrip R d show_lit ss Hk (Hwf HR)).
Qed.
Print Assumptions C06_code_roundtrip_text.

(* without the side conditions the statement over all accepted texts is false for the formatter (confirmed on the
   binary): `"a` is printed `"a;` (the string swallows the separator), `1 = 2` is printed `2;` (the target of an
   assignment to a non-variable is dropped, sqf_formatter.cpp:119), `1e+ 2` is printed `1e + 2` (rejected) *)
Theorem C06_pretty_roundtrip_text_refuted :
  (exists p p' c c', (forall f, (100 <= f)%nat -> parse_text as_is ex_R f w_string = FOk p) /\ compile_block p = Some c /\
     (forall f, (100 <= f)%nat -> parse_text as_is ex_R f (pieces_text (pretty_program p)) = FOk p') /\ compile_block p' = Some c' /\ c <> c') /\
  (exists p p' c c', (forall f, (100 <= f)%nat -> parse_text as_is ex_R f w_target = FOk p) /\ compile_block p = Some c /\
     (forall f, (100 <= f)%nat -> parse_text as_is ex_R f (pieces_text (pretty_program p)) = FOk p') /\ compile_block p' = Some c' /\ c <> c') /\
  (exists p, (forall f, (100 <= f)%nat -> parse_text as_is ex_R f w_number = FOk p) /\
     (forall f, (100 <= f)%nat -> parse_text as_is ex_R f (pieces_text (pretty_program p)) = FParseError)).
Proof.
  split; [|split].
  - eexists. eexists. eexists. eexists.
    split; [apply parse_text_mono; vm_compute; reflexivity|]. split; [vm_compute; reflexivity|].
    split; [apply parse_text_mono; vm_compute; reflexivity|]. split; [vm_compute; reflexivity|]. discriminate.
  - eexists. eexists. eexists. eexists.
    split; [apply parse_text_mono; vm_compute; reflexivity|]. split; [vm_compute; reflexivity|].
    split; [apply parse_text_mono; vm_compute; reflexivity|]. split; [vm_compute; reflexivity|]. discriminate.
  - eexists. split; [apply parse_text_mono; vm_compute; reflexivity|]. apply parse_text_mono_err. vm_compute. reflexivity.
Qed.
Print Assumptions C06_pretty_roundtrip_text_refuted.

Theorem C06_parse_spelled_refuted : exists R s ss, parse_text as_is R 100 s = FOk ss /\ ~ src_spelled s /\ ~ spelled_block ss.
Proof.
  exists ex_R, w_string, [SExpr (Lit (LStr w_string))]. split; [vm_compute; reflexivity|]. split.
  - intros H. specialize (H [RStr w_string] eq_refl). inversion H as [|? ? [_ H1] _]. vm_compute in H1. discriminate.
  - intros H. specialize (H _ (or_introl eq_refl)). destruct H as [_ H1]. vm_compute in H1. discriminate.
Qed.
Print Assumptions C06_parse_spelled_refuted.

Theorem C06_parse_wf_refuted :
  (exists ss, parse_text as_is ex_R 100 w_target = FOk ss /\ src_spelled w_target /\ reg_ok as_is ex_R /\ ~ wf_block ex_R ss) /\
  (exists ss, parse_text as_is R_bun 100 w_nular = FOk ss /\ src_spelled w_nular /\ forallb tv_stmt ss = true /\ ~ wf_block R_bun ss).
Proof.
  split.
  - exists [SAssign (Lit (LNum [49%Z])) (Lit (LNum [50%Z]))]. split; [vm_compute; reflexivity|]. split; [|split].
    + intros ts H. vm_compute in H. injection H as <-. repeat (constructor; [split; [vm_compute; reflexivity|exact I]|]). constructor.
    + intros key. unfold ex_R. repeat (destruct (text_eqb key _); [cbn; intros; discriminate|]). cbn. intros; discriminate.
    + vm_compute. discriminate.
  - exists [SExpr (Nul w_nular)]. split; [vm_compute; reflexivity|]. split; [|split].
    + intros ts H. vm_compute in H. injection H as <-. repeat (constructor; [split; [vm_compute; reflexivity|exact I]|]). constructor.
    + reflexivity.
    + vm_compute. discriminate.
Qed.
Print Assumptions C06_parse_wf_refuted.

(* non-vacuity on a real text: ex_src meets the side conditions, and the conclusion computes
   (C06_pretty_roundtrip_computed above is the computed round trip of the same text) *)
Example C06_text_hypotheses_satisfiable :
  parse_text as_is ex_R 200 ex_src = FOk ex_prog /\ src_spelled ex_src /\ forallb tv_stmt ex_prog = true /\ reg_ok as_is ex_R.
Proof. exact ex_text_hyps. Qed.
Example C06_text_roundtrip_computed :
  match parse_text as_is ex_R 200 ex_src with
  | FOk p => parse_text as_is ex_R 200 (pieces_text (pretty_program p)) = FOk (map pnorm_stmt p) /\
             compile_block (map pnorm_stmt p) = option_map (map (mapl_i hexnorm)) (compile_block p) /\ compile_block p <> None
  | _ => False
  end.
Proof. vm_compute. repeat split; discriminate. Qed.

(* Every token the lexer model produces from ANY text reads back as itself, under a decidable condition on the token
   that only bites for strings (terminated: str_closed) and numbers (num_relex: the computed re-lex of the token
   text - the dangling-`e` shape `1e` of `1e+ 2` fails it; not characterised by shape).  Names, keywords, operators,
   brackets, separators, `=` and hexadecimal numbers need no condition. *)
Theorem C06_lex_token_idempotent : forall (s:text) (t:rtok) (rest:text),
  lex1 s = L1Tok t rest -> well_term t = true -> tok_ok t.
Proof. exact lex1_idem. Qed.
Print Assumptions C06_lex_token_idempotent.

(* so "every token of the text reads as itself" is the decidable text_well_terminated (both directions) *)
Theorem C06_well_terminated_spelled : forall s, text_well_terminated s = true -> src_spelled s.
Proof.
  unfold text_well_terminated, src_spelled. intros s H ts E. rewrite E in H. unfold lex in E. eapply lex_f_idem; eassumption.
Qed.
Print Assumptions C06_well_terminated_spelled.
Theorem C06_spelled_well_terminated : forall s, src_spelled s -> text_well_terminated s = true.
Proof.
  unfold text_well_terminated, src_spelled. intros s H. destruct (lex s) as [ts| | |]; try reflexivity.
  specialize (H ts eq_refl). apply forallb_forall. intros t Ht. rewrite Forall_forall in H. specialize (H t Ht).
  destruct t; try reflexivity; cbn [well_term].
  - destruct H as [_ H]. exact H.
  - destruct H as [H _]. cbn [rtok_text] in H. unfold num_relex. rewrite H.
    clear. induction s0 as [|x s0 IH]; [reflexivity|]. cbn [text_eqb]. rewrite Z.eqb_refl. exact IH.
Qed.
Print Assumptions C06_spelled_well_terminated.

(* the end-to-end theorems with decidable conditions on the text and the parsed tree only *)
Theorem C06_pretty_roundtrip_text_dec : forall (d:defects) (R:registry) (f1:nat) (s:text) (ss:list stmt),
  parse_text d R f1 s = FOk ss -> text_well_terminated s = true -> forallb tv_stmt ss = true -> reg_ok d R ->
  exists f0, forall f, (f0 <= f)%nat ->
    parse_text d R f (pieces_text (pretty_program ss)) = FOk (map pnorm_stmt ss) /\
    exists c, compile_block ss = Some c /\ compile_block (map pnorm_stmt ss) = Some (map (mapl_i hexnorm) c).
Proof. intros d R f1 s ss H Hw. apply (C06_pretty_roundtrip_text d R f1 s ss H). apply C06_well_terminated_spelled. exact Hw. Qed.
Print Assumptions C06_pretty_roundtrip_text_dec.

Theorem C06_code_roundtrip_text_dec : forall (d:defects) (R:registry) (show_lit:lit -> lit) (f1:nat) (s:text) (ss:list stmt),
  parse_text d R f1 s = FOk ss -> text_well_terminated s = true -> forallb tv_stmt ss = true -> reg_ok d R -> show_kind_ok show_lit ->
  exists c, compile_block ss = Some c /\
  exists ps, reconstruct show_lit c = Some ps /\
    (toks_ok ps ->
     exists f0, forall f, (f0 <= f)%nat ->
       exists ss', parse_text d R f (pieces_text ps) = FOk [SExpr (Code ss')] /\
                   compile_block ss' = Some (map (mapl_i show_lit) c)).
Proof. intros d R show_lit f1 s ss H Hw. apply (C06_code_roundtrip_text d R show_lit f1 s ss H). apply C06_well_terminated_spelled. exact Hw. Qed.
Print Assumptions C06_code_roundtrip_text_dec.

(* the worked text passes the decidable condition; the two lexical witnesses of the refutation fail it, the
   assignment witness passes it (it is excluded by tv_stmt) *)
Example C06_text_well_terminated_computed :
  text_well_terminated ex_src = true /\ text_well_terminated w_string = false /\ text_well_terminated w_number = false /\
  text_well_terminated w_target = true.
Proof. vm_compute. repeat split. Qed.

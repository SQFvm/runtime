(* C07 - equality is an equivalence consistent with hashing; HashMap is a finite map.
   Theorems only; proofs in Data/DataTree.v (value level), Data/DataBridge.v (the comparison on the heap
   is the one on values), Data/DataBucket.v (bucketed table refines the reference dictionary),
   Data/DataProofs.v + Data/DataFrame.v (operator level).
   The model (Data/DataDefs.v) is tied to the C++ by the correspondence runs of checks/C07.py
   and checks/C08.py.  tdeq inv = data::equals (inv: the `invariant` flag of ==), teq =
   value::operator==, t_iseq = isEqualTo, t_eqeq = ==. *)
From Coq Require Import ZArith List Bool.
Import ListNotations.
From SqfVerif Require Import Data.DataDefs Data.DataTree Data.DataBucket Data.DataBridge Data.DataHeap Data.DataStep Data.DataTerm
  Data.DataFrame Data.DataProofs.
Local Open Scope Z_scope.

(* isEqualTo is symmetric - on all values, nil and NaN included.  wf_tree is the container
   invariant of std::unordered_map (no two equal keys in one HashMap). *)
Theorem C07_veq_sym : forall a b, wf_tree a = true -> wf_tree b = true ->
  t_iseq a b = t_iseq b a /\ (forall inv, tdeq inv a b = tdeq inv b a).
Proof.
  intros a b Wa Wb. split; [|intros; apply tdeq_sym; auto].
  unfold t_iseq. rewrite (teq_sym a b Wa Wb). rewrite andb_comm. reflexivity.
Qed.
Print Assumptions C07_veq_sym.

(* reflexive on values containing neither nil nor NaN *)
Theorem C07_veq_refl : forall t, nil_nan_free t = true -> t_iseq t t = true.
Proof.
  intros t N. unfold t_iseq, teq. rewrite (nil_free_not_nil t (nil_nan_free_nil_free t N)). cbn.
  apply tdeq_refl; auto.
Qed.
Print Assumptions C07_veq_refl.

(* transitive - even on all values: a nil or a NaN can only make a comparison false *)
Theorem C07_veq_trans : forall a b c, t_iseq a b = true -> t_iseq b c = true -> t_iseq a c = true.
Proof.
  intros a b c. unfold t_iseq.
  destruct (tnil a) eqn:Na, (tnil b) eqn:Nb, (tnil c) eqn:Nc; cbn; try discriminate;
    try (intros H1 H2; eapply teq_trans; eauto; fail);
    unfold teq; rewrite ?Na, ?Nb, ?Nc; cbn; try discriminate; auto.
Qed.
Print Assumptions C07_veq_trans.

(* == (registered for scalars, strings, booleans) is isEqualTo of the lower-cased operands,
   and plain isEqualTo unless both operands are strings *)
Theorem C07_eq_vs_iseq : forall a b, eqeq_defined a b = true ->
  t_eqeq a b = t_iseq (tree_lower a) (tree_lower b) /\
  (t_eqeq a b = t_iseq a b \/ exists x y, a = TStr x /\ b = TStr y).
Proof. exact eq_vs_iseq. Qed.
Print Assumptions C07_eq_vs_iseq.

(* values that compare equal hash equally - for ANY leaf hashes that hash equal floats equally
   (libstdc++ does), with the instruction-wise code hash and the order-independent HashMap hash
   of /repo commit a94a5ab (proposed_fixes/C07-02-hash-consistency.diff) *)
Theorem C07_veq_hash : forall (hnum : scalar -> Z) (hbool : bool -> Z) (hstr : list Z -> Z) (hop : Z -> list Z -> Z)
  (mix : Z -> Z -> Z) (seed : Z),
  (forall a b, feq a b = true -> hnum a = hnum b) ->
  forall a b, wf_tree a = true -> wf_tree b = true -> teq a b = true ->
  vhash hd_repaired hnum hbool hstr hop mix seed a = vhash hd_repaired hnum hbool hstr hop mix seed b.
Proof. intros. apply teq_hash; auto. Qed.
Print Assumptions C07_veq_hash.

(* ... and with the hashes of the source before that commit they do not: { 0 } and { -0 } are equal
   code whose printed texts differ (d_code.h:91); two equal HashMaps whose entries iterate in
   different orders (ops_hashmap.h:41-50) *)
Theorem C07_veq_hash_refuted_code : exists hnum hbool hstr hop mix seed a b,
  (forall x y, feq x y = true -> hnum x = hnum y) /\ teq a b = true /\
  vhash hd_as_is hnum hbool hstr hop mix seed a <> vhash hd_as_is hnum hbool hstr hop mix seed b.
Proof.
  exists w_hnum, (fun _ => 0), w_hstr, (fun _ _ => 0), w_mix, 1,
         (TCode [IPushNum (SHalf 0)]), (TCode [IPushNum SNegZero]).
  split; [exact w_hnum_feq|]. split; [reflexivity|]. vm_compute. discriminate.
Qed.
Print Assumptions C07_veq_hash_refuted_code.
Theorem C07_veq_hash_refuted_map_order : exists hnum hbool hstr hop mix seed a b,
  (forall x y, feq x y = true -> hnum x = hnum y) /\ wf_tree a = true /\ wf_tree b = true /\ teq a b = true /\
  vhash hd_as_is hnum hbool hstr hop mix seed a <> vhash hd_as_is hnum hbool hstr hop mix seed b.
Proof.
  exists w_hnum, (fun _ => 0), w_hstr, (fun _ _ => 0), w_mix, 1,
         (TMap [(TNum (SHalf 2), TNum (SHalf 4)); (TNum (SHalf 6), TNum (SHalf 8))]),
         (TMap [(TNum (SHalf 6), TNum (SHalf 8)); (TNum (SHalf 2), TNum (SHalf 4))]).
  split; [exact w_hnum_feq|]. repeat (split; [reflexivity|]). vm_compute. discriminate.
Qed.
Print Assumptions C07_veq_hash_refuted_map_order.

(* The comparison the operators run on the heap (find, in, pushBackUnique, -, isEqualTo: veq, with
   the pointer short-cut of data::equals and explicit fuel) IS the comparison of the resolved
   values for which the laws above are proved - on values without nil and without HashMaps inside
   (with HashMaps inside the two are tied by the correspondence runs only). *)
Theorem C07_heap_comparison_is_value_comparison : forall g h a b r, veq g h a b = Ok r ->
  forall f f' ta tb, freeze f h a = Ok ta -> freeze f' h b = Ok tb ->
  nil_free_t ta = true -> map_free ta = true -> r = teq ta tb.
Proof. exact veq_is_teq. Qed.
Print Assumptions C07_heap_comparison_is_value_comparison.

(* A HashMap is a finite map keyed by isEqualTo: for every history of set / deleteAt (a
   createHashMapFromArray is a sequence of sets), a table of any number of buckets in which an
   entry lives in the bucket of its key's hash answers get / in for every key, and count, as
   the reference dictionary does - for any bucket index function and any leaf hashes as above. *)
Section C07_HashMap.
  Variables (hnum : scalar -> Z) (hbool : bool -> Z) (hstr : list Z -> Z) (hop : Z -> list Z -> Z) (mix : Z -> Z -> Z) (seed : Z).
  Variable V : Type.
  Variable bidx : Z -> nat -> nat.
  Hypothesis hnum_feq : forall a b, feq a b = true -> hnum a = hnum b.
  Hypothesis bidx_lt : forall h n, (0 < n)%nat -> (bidx h n < n)%nat.
  Let H := vhash hd_repaired hnum hbool hstr hop mix seed.
  Let good (k : tree) : Prop := wf_tree k = true.

  Theorem C07_hashmap_refines_dict : forall os t es,
    represents tree V teq H bidx good t es -> Forall (hgood tree V good) os ->
    exists t', brun tree V teq H bidx t os = BOk _ t' /\
               represents tree V teq H bidx good t' (drun tree V teq es os).
  Proof.
    apply hashmap_refines_dict; auto.
    - intros a b Ga Gb. apply teq_sym; auto.
    - intros a b c. apply teq_trans.
    - intros a b Ga Gb E. apply teq_hash; auto.
  Qed.
End C07_HashMap.
Print Assumptions C07_hashmap_refines_dict.

(* keys are captured by value at insertion: the entry is stored under the key's value at that
   moment, and no later history that does not work on the map itself - whatever it does to the
   array that served as key - loses or changes it *)
Theorem C07_keys_captured_by_value : forall st m k x, Inv st ->
  o_status (step repaired st (OpMapSet m k x)) = Done -> o_diags (step repaired st (OpMapSet m k x)) = [] ->
  let st' := o_state (step repaired st (OpMapSet m k x)) in
  exists a s1 s2 s3 kv xv kt es,
    eval_opnd st m = Some (s1, VRef a) /\ eval_opnd s1 k = Some (s2, kv) /\ eval_opnd s2 x = Some (s3, xv) /\
    key_of s3 kv = Ok kt /\ nth_error (st_heap s3) a = Some (CMap es) /\
    nth_error (st_heap st') a = Some (CMap (dict_set es kt (length (st_heap s3)) xv)) /\
    forall os, untouched repaired a st' os ->
      nth_error (st_heap (run repaired st' os)) a = Some (CMap (dict_set es kt (length (st_heap s3)) xv)).
Proof. exact keys_captured_by_value. Qed.
Print Assumptions C07_keys_captured_by_value.

(* a copy of a HashMap is independent of the original (and the original of the copy) *)
Theorem C07_copy_independent : forall st n a es dst, Inv st ->
  nth_error (st_vars st) n = Some (VRef a) -> nth_error (st_heap st) a = Some (CMap es) ->
  o_status (step repaired st (OpCopy dst (OVar n))) = Done ->
  let st' := o_state (step repaired st (OpCopy dst (OVar n))) in
  exists r, nth_error (st_vars st') dst = Some (VRef r) /\ r <> a /\
            nth_error (st_heap st') r = Some (CMap es) /\ nth_error (st_heap st') a = Some (CMap es) /\
            (forall os, untouched repaired r st' os -> nth_error (st_heap (run repaired st' os)) r = Some (CMap es)) /\
            (forall os, untouched repaired a st' os -> nth_error (st_heap (run repaired st' os)) a = Some (CMap es)).
Proof. exact copy_independent. Qed.
Print Assumptions C07_copy_independent.

(* ---- non-vacuity and cases that came from the real binary *)
Definition k12 : tree := TArr [TNum (SHalf 2); TNum (SHalf 4)].
Example ex_wf : wf_tree (TMap [(k12, TStr [97]); (TNum SNegZero, TArr [TNil])]) = true. Proof. reflexivity. Qed.
Example ex_nil_in_array : t_iseq (TArr [TNil]) (TArr [TNil]) = false. Proof. reflexivity. Qed.
Example ex_zero : t_iseq (TNum (SHalf 0)) (TNum SNegZero) = true. Proof. reflexivity. Qed.
Example ex_case : t_eqeq (TStr [97]) (TStr [65]) = true /\ t_iseq (TStr [97]) (TStr [65]) = false. Proof. split; reflexivity. Qed.
Example ex_code : t_iseq (TCode [IPushNum (SHalf 0)]) (TCode [IPushNum SNegZero]) = true. Proof. reflexivity. Qed.
Example ex_map_order : t_iseq (TMap [(TNum (SHalf 2), TBool true); (TStr [97], TNil)])
                              (TMap [(TStr [97], TNil); (TNum (SHalf 2), TBool true)]) = true.
Proof. reflexivity. Qed.
(* a history on the model: _k = [1]; _m = createHashMap; _m set [_k, 5]; _k pushBack 2; _m get [1]  -> 5 *)
Example ex_key_by_value :
  let st := run repaired (init_state 2)
                [OpAssign 0 (OLit (TArr [TNum (SHalf 2)])); OpNewMap 1; OpMapSet (OVar 1) (OVar 0) (OLit (TNum (SHalf 10)));
                 OpPushBack (OVar 0) (OLit (TNum (SHalf 4)))] in
  o_result (step repaired st (OpGet (OVar 1) (OLit (TArr [TNum (SHalf 2)])))) = VNum (SHalf 10) /\
  o_result (step repaired st (OpGet (OVar 1) (OVar 0))) = VNil.
Proof. split; vm_compute; reflexivity. Qed.

(* C14: line_sync, column_sync and line_file_macros stated against the byte-level tokenizer model. *)
From Coq Require Import ZArith List Bool Lia.
Import ListNotations.
From SqfVerif Require Import PP.Spec PP.Tracker PP.ReaderProofs PP.SyncProofs PP.TrackerProofs.
Local Open Scope Z_scope.

Lemma render_item_len : forall o, (1 <= length (render_item o))%nat.
Proof. destruct o; simpl; lia. Qed.

Lemma item_offset_lt : forall items i, (i < length items)%nat ->
  (item_offset items i < length (render items))%nat.
Proof.
  induction items as [|o r IH]; intros i H; simpl in H; [lia|].
  change (render (o :: r)) with (render_item o ++ render r). rewrite app_length.
  pose proof (render_item_len o).
  destruct i; simpl; [lia|]. specialize (IH i). lia.
Qed.

Lemma reported_agrees : forall path items i,
  recognises repaired (tk_init path) items = true -> (i < length items)%nat ->
  exists tk, reported repaired path items i = Some tk /\
             agree true (tk_pos tk) (itrack (tk_pos (tk_init path)) (firstn i items)).
Proof.
  intros path items i HR Li. unfold reported, track.
  destruct (nth_error (fst (fst (trackc repaired 0 (tk_init path) (render items) []))) (item_offset items i)) as [tk|] eqn:E.
  - exists tk. split; auto.
    apply (recognises_agree repaired true (fun _ => eq_refl) items (tk_init path)); auto. unfold agree; auto.
  - apply nth_error_None in E. rewrite trackc_length in E.
    pose proof (item_offset_lt items i Li). lia.
Qed.

(* line_sync: every output byte with provenance (f,l,c) is, for the tokenizer, in file f on line l.
   Hypotheses: the run reported no newline out of step (no continuation in plain text, no macro call
   spanning lines: both outside C14's quantifier) and the tokenizer recognises exactly the emitted
   '#line' texts (decidable on the output, evaluated by the correspondence on every case). *)
Theorem line_sync : forall fs file content path items tbl i b f l c,
  preprocess repaired fs file content = Ok (items, tbl, false) ->
  recognises repaired (tk_init path) items = true ->
  nth_error items i = Some (OChar b (PSrc f l c)) ->
  exists tk, reported repaired path items i = Some tk /\
             tp_file (tk_pos tk) = f /\ tp_line (tk_pos tk) = l.
Proof.
  intros fs file content path items tbl i b f l c HP HR HN.
  assert (Li: (i < length items)%nat) by (apply nth_error_Some; congruence).
  destruct (reported_agrees path items i HR Li) as (tk & Htk & A & B & _).
  destruct (line_sync_ideal fs file content items tbl i b f l c (tk_pos (tk_init path)) HP HN) as [C D].
  exists tk. repeat split; congruence.
Qed.

(* the items of the current output line (since the last newline or '#line') *)
Definition lp_step (acc:list oitem) (o:oitem) : list oitem :=
  match o with
  | OLine _ _ => []
  | OChar b _ => if b =? NL then [] else acc ++ [o]
  end.
Definition cur_line (pre:list oitem) : list oitem := fold_left lp_step pre [].
Fixpoint has_break (pre:list oitem) : bool :=
  match pre with
  | [] => false
  | OLine _ _ :: r => true
  | OChar b _ :: r => (b =? NL) || has_break r
  end.
(* the bytes are source bytes of line l of file f from column [k] on, one for one *)
Fixpoint verbatim_from (f:list byte) (l:Z) (k:Z) (its:list oitem) : Prop :=
  match its with
  | [] => True
  | OChar _ (PSrc f' l' c') :: r => f' = f /\ l' = l /\ c' = k /\ verbatim_from f l (k + 1) r
  | _ :: _ => False
  end.

Lemma itrack_col : forall pre acc p,
  tp_col (itrack p pre) =
  Z.of_nat (length (fold_left lp_step pre acc)) + (if has_break pre then 0 else tp_col p - Z.of_nat (length acc)).
Proof.
  induction pre as [|o r IH]; intros acc p.
  - simpl. lia.
  - unfold itrack in *. simpl fold_left. destruct o as [b pr|n f]; simpl has_break.
    + simpl lp_step. simpl istep. destruct (b =? NL) eqn:E; simpl orb.
      * rewrite (IH [] _). simpl. destruct (has_break r); lia.
      * rewrite (IH (acc ++ [OChar b pr]) _). simpl. rewrite app_length. simpl.
        destruct (has_break r); lia.
    + simpl. rewrite (IH [] _). simpl. destruct (has_break r); lia.
Qed.

Lemma verbatim_from_last : forall its f l k b c,
  verbatim_from f l k (its ++ [OChar b (PSrc f l c)]) -> c = k + Z.of_nat (length its).
Proof.
  induction its as [|o r IH]; intros f l k b c H; simpl in *.
  - destruct H as (_ & _ & H & _). lia.
  - destruct o as [b' [f' l' c'| |]|]; try contradiction.
    destruct H as (_ & _ & _ & H). apply IH in H. lia.
Qed.

(* column_sync: when the bytes of its line in front of a source byte reached the output one for one
   (no comment removed, nothing expanded, no continuation), the tokenizer reports its source column. *)
Theorem column_sync : forall fs file content path items tbl pre b f l c post,
  preprocess repaired fs file content = Ok (items, tbl, false) ->
  recognises repaired (tk_init path) items = true ->
  items = pre ++ OChar b (PSrc f l c) :: post ->
  has_break pre = true ->
  verbatim_from f l 0 (cur_line pre ++ [OChar b (PSrc f l c)]) ->
  exists tk, reported repaired path items (length pre) = Some tk /\ tp_col (tk_pos tk) = c.
Proof.
  intros fs file content path items tbl pre b f l c post HP HR HI HB HV.
  assert (Li: (length pre < length items)%nat) by (subst items; rewrite app_length; simpl; lia).
  destruct (reported_agrees path items (length pre) HR Li) as (tk & Htk & _ & _ & C).
  exists tk. split; auto.
  rewrite (C eq_refl). subst items. rewrite firstn_app, firstn_all, Nat.sub_diag. cbn [firstn]. rewrite app_nil_r.
  rewrite (itrack_col pre []), HB. fold (cur_line pre).
  apply verbatim_from_last in HV. lia.
Qed.

Lemma word_line_same : forall w L tl c d, w <> [] -> Forall wordc w ->
  lines_ok L (w ++ c :: tl) -> hid c = O -> pc_line c = pc_line (last w d).
Proof.
  intros w L tl c d N W LO Hc. destruct (exists_last N) as (w' & z & ->).
  rewrite last_last. rewrite <- app_assoc in LO. apply lines_ok_line_of in LO. destruct LO as [_ [A _]].
  apply Forall_app in W. destruct W as [_ W]. apply wordc_no_nl in W. simpl in W.
  destruct (pc_b z =? NL); [discriminate | lia].
Qed.

(* line_file_macros: a use of __LINE__ in plain text expands to the number of the line it is written
   on (the reader's line - whatever comments, multi-line defines, inactive branches and includes
   precede it), a use of __FILE__ to the quoted name of the file being processed. *)
Theorem line_file_macros : forall file eof dfuel st w t rest c cs L d,
  w <> [] -> Forall wordc w ->
  ltok_chars t = c :: cs -> hid c = O ->
  lines_ok L (w ++ ltoks_chars (t :: rest)) ->
  (lookup (ts_tbl st) (bytes w) = Some (mkmacro None [] (Some BLine)) ->
     exists st2, top_word file eof (S dfuel) st w (t :: rest)
                 = Ok (map mac (dec (pc_line (last w d))), O, st2)) /\
  (lookup (ts_tbl st) (bytes w) = Some (mkmacro None [] (Some BFile)) ->
     exists st2, top_word file eof (S dfuel) st w (t :: rest)
                 = Ok (map mac (QUOTE :: file ++ [QUOTE]), O, st2)).
Proof.
  intros file eof dfuel st w t rest c cs L d N W ET Hc LO.
  assert (LN: pc_line c = pc_line (last w d)).
  { change (ltoks_chars (t :: rest)) with (ltok_chars t ++ ltoks_chars rest) in LO.
    rewrite ET in LO. simpl in LO. eapply word_line_same; eauto. }
  split; intros HL; unfold top_word; rewrite HL; simpl.
  - unfold tok_line. rewrite ET. rewrite LN. eexists; reflexivity.
  - eexists; reflexivity.
Qed.

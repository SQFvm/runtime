(* C14: the emitted newlines and '#line' texts keep the tokenizer's (file, line) equal to the
   provenance of every source byte in the output (line_sync), for the repaired emission rule.
   At the end the three-line #define on which the rule of the unchanged code fails
   (Properties_C14.C14_line_sync_refuted_as_is). *)
From Coq Require Import ZArith List Bool Lia.
Import ListNotations.
From SqfVerif Require Import PP.Spec PP.ReaderProofs PP.TopProofs.
Local Open Scope Z_scope.

Fixpoint syncedf (p:tpos) (items:list oitem) : Prop :=
  match items with
  | [] => True
  | o :: r =>
      match o with
      | OChar _ (PSrc f l _) => tp_file p = f /\ tp_line p = l
      | _ => True
      end /\ syncedf (istep p o) r
  end.

Lemma itrack_app : forall a b p, itrack p (a ++ b) = itrack (itrack p a) b.
Proof. intros. unfold itrack. apply fold_left_app. Qed.

Lemma syncedf_app : forall a b p, syncedf p (a ++ b) <-> syncedf p a /\ syncedf (itrack p a) b.
Proof.
  induction a; intros; simpl.
  - tauto.
  - rewrite IHa. unfold itrack. simpl. tauto.
Qed.

Lemma syncedf_nth : forall items p i b f l c,
  syncedf p items -> nth_error items i = Some (OChar b (PSrc f l c)) ->
  tp_file (itrack p (firstn i items)) = f /\ tp_line (itrack p (firstn i items)) = l.
Proof.
  induction items; intros p i b f l c H N.
  - destruct i; discriminate.
  - destruct i; simpl in *.
    + inversion N; subst. destruct H as [H _]. exact H.
    + destruct H as [_ H]. unfold itrack. simpl. eapply IHitems; eauto.
Qed.

Lemma itrack_flush_line : forall n p,
  itrack p (repeat (OChar NL PSynth) n) = mktp (tp_file p) (tp_line p + Z.of_nat n) (if Nat.eqb n O then tp_col p else 0).
Proof.
  induction n; intros p.
  - simpl. destruct p; simpl. f_equal. lia.
  - change (repeat (OChar NL PSynth) (S n)) with (OChar NL PSynth :: repeat (OChar NL PSynth) n).
    unfold itrack. simpl fold_left. fold (itrack (mktp (tp_file p) (tp_line p + 1) 0) (repeat (OChar NL PSynth) n)).
    rewrite IHn. simpl. f_equal; try lia. destruct (Nat.eqb n 0); reflexivity.
Qed.

Lemma syncedf_flush : forall n p, syncedf p (repeat (OChar NL PSynth) n).
Proof. induction n; intros; simpl; auto. Qed.

Lemma sync_mac : forall x p, count_nl x = O ->
  syncedf p (map mac x) /\ tp_file (itrack p (map mac x)) = tp_file p /\ tp_line (itrack p (map mac x)) = tp_line p.
Proof.
  induction x as [|a x IH]; intros p H; [simpl; auto|].
  simpl in H. destruct (a =? NL) eqn:E; [discriminate|].
  destruct (IH (istep p (mac a)) H) as (A & B & C).
  change (itrack p (map mac (a :: x))) with (itrack (istep p (mac a)) (map mac x)).
  rewrite B, C. unfold mac, istep. rewrite E. simpl. auto.
Qed.

Lemma hid_sum_app : forall a b, hid_sum (a ++ b) = (hid_sum a + hid_sum b)%nat.
Proof. exact ReaderProofs.hid_sum_app. Qed.
Lemma nl_count_app : forall a b, nl_count (a ++ b) = (nl_count a + nl_count b)%nat.
Proof. induction a; intros; simpl; auto. destruct (pc_b a =? NL); rewrite IHa; lia. Qed.

Lemma filter_all : forall A (l:list A), filter (fun _ => true) l = l.
Proof. induction l; simpl; congruence. Qed.

Section Sync.
  Variable file : list byte.
  Variable eof_line : Z.
  Variable dfuel : nat.
  Variable incl : table -> list byte -> res (list oitem * table * bool).
  (* an included file that reports no hidden newline is in step from whatever position *)
  Hypothesis incl_synced : forall tbl path its tbl' h,
    incl tbl path = Ok (its, tbl', h) -> h = false -> forall p0, syncedf p0 its.

  Notation src := (src file).
  Notation topR := (top repaired file eof_line dfuel incl).

  (* the items [o] keep a tracker at [p] in step and leave it in this file, on the line of [rest] *)
  Definition in_step (p:tpos) (o:list oitem) (rest:list pchar) : Prop :=
    syncedf p o /\ tp_file (itrack p o) = file /\ lines_ok (tp_line (itrack p o)) rest.

  (* source characters written as they are; those that are left out are no newlines
     (all of a token in an active region, the newlines of a string in an inactive one) *)
  Lemma sync_src_filter : forall keep w p rest,
    (forall c, (pc_b c =? NL) = true -> keep c = true) ->
    lines_ok (tp_line p) (w ++ rest) -> hid_sum w = O -> tp_file p = file ->
    in_step p (map src (filter keep w)) rest.
  Proof.
    unfold in_step. induction w as [|a w IH]; intros p rest K L H F; simpl in *; [auto|].
    destruct L as [A B]. assert (Ha: hid a = O) by lia. rewrite Ha in A. simpl in A.
    destruct (keep a) eqn:Ka; simpl.
    - set (p' := istep p (Spec.src file a)).
      assert (tp_line p' = pc_line a + (if pc_b a =? NL then 1 else 0) /\ tp_file p' = file) as [P1 P2].
      { unfold p', Spec.src. simpl. destruct (pc_b a =? NL); simpl; split; auto; lia. }
      destruct (IH p' rest K) as (I1 & I2 & I3); auto; [rewrite P1; exact B | lia |].
      repeat split; auto. lia.
    - apply IH; auto; [|lia]. destruct (pc_b a =? NL) eqn:E; [rewrite (K a E) in Ka; discriminate|].
      replace (tp_line p) with (pc_line a + 0) by lia. exact B.
  Qed.

  Lemma sync_src_run : forall w p rest,
    lines_ok (tp_line p) (w ++ rest) -> hid_sum w = O -> tp_file p = file -> in_step p (map src w) rest.
  Proof. intros. rewrite <- (filter_all _ w). apply sync_src_filter; auto. Qed.

  Lemma in_step_nil : forall w p rest,
    lines_ok (tp_line p) (w ++ rest) -> hid_sum w = O -> nl_count w = O -> tp_file p = file -> in_step p [] rest.
  Proof. intros w p rest L H N F. repeat split; auto. eapply lines_ok_skip; eauto. Qed.

  (* the flag for newlines out of step is never taken back *)
  Definition hid_le (a b:tstate) : Prop := ts_hidden a = true -> ts_hidden b = true.
  Lemma hid_le_refl : forall a, hid_le a a. Proof. unfold hid_le; auto. Qed.
  Lemma hid_le_trans : forall a b c, hid_le a b -> hid_le b c -> hid_le a c.
  Proof. unfold hid_le; auto. Qed.
  Lemma hid_le_add_pend : forall st n b, hid_le st (add_pend st n b).
  Proof. unfold hid_le, add_pend; simpl; intros st n b H; rewrite H; reflexivity. Qed.
  Lemma hid_le_set_hidden : forall st b, hid_le st (set_hidden st b).
  Proof. unfold hid_le, set_hidden; simpl; intros st b H; rewrite H; reflexivity. Qed.
  Lemma hid_le_set_tbl : forall st t, hid_le st (set_tbl st t). Proof. unfold hid_le; auto. Qed.
  Lemma hid_le_set_conds : forall st c, hid_le st (set_conds st c). Proof. unfold hid_le; auto. Qed.
  Lemma hid_le_false : forall a b, hid_le a b -> ts_hidden b = false -> ts_hidden a = false.
  Proof. unfold hid_le. intros a b H F. destruct (ts_hidden a); auto. rewrite H in F; auto. Qed.

  Lemma top_word_hid : forall st w rest o k st2,
    top_word file eof_line dfuel st w rest = Ok (o, k, st2) -> hid_le st st2.
  Proof.
    intros st w rest o k st2 H.
    destruct (top_word_cases _ _ _ _ _ _ _ _ _ H) as [(_ & _ & ->)|(x & _ & ->)]; [apply hid_le_refl|].
    eapply hid_le_trans; [apply hid_le_add_pend | apply hid_le_set_hidden].
  Qed.

  Lemma top_directive_hid : forall d st h l nl o st2,
    top_directive d file eof_line incl st h l nl = Ok (o, st2) -> hid_le st st2.
  Proof.
    intros d st h l nl o st2 H. apply top_directive_ok in H.
    assert (S1: hid_le st (dir_state eof_line st h l nl)) by apply hid_le_add_pend.
    destruct H as [(cs & _ & _ & ->)|(path & its & tbl' & hd & _ & _ & _ & _ & ->)];
      (eapply hid_le_trans; [exact S1|]).
    - unfold hid_le; auto.
    - unfold hid_le; simpl. intros X; rewrite X; reflexivity.
  Qed.

  Lemma tok_step_hid : forall d st t rest o k st2,
    tok_step d file eof_line dfuel incl st t rest = Ok (o, k, st2) -> hid_le st st2.
  Proof.
    intros d st [w|s|c|h l nl] rest o k st2; simpl.
    - destruct (active _); intros H.
      + eapply hid_le_trans; [apply hid_le_add_pend | eapply top_word_hid; eauto].
      + injection H as <- <- <-. apply hid_le_add_pend.
    - intros H; injection H as <- <- <-. apply hid_le_add_pend.
    - destruct (pc_b c =? NL); intros H; injection H as <- <- <-; apply hid_le_add_pend.
    - intros H. apply bind_ok in H. destruct H as ([o' s'] & H & E). injection E as <- <- <-.
      eapply top_directive_hid; eauto.
  Qed.

  Lemma top_hid : forall d toks skip st items st',
    top d file eof_line dfuel incl st skip toks = Ok (items, st') -> hid_le st st'.
  Proof.
    induction toks as [|t rest IH]; intros skip st items st' H.
    - inversion H; subst. apply hid_le_refl.
    - destruct skip as [|k]; [|eapply IH; eauto].
      apply top_cons in H. destruct H as (o & k & st2 & items' & S & _ & H).
      eapply hid_le_trans; [eapply tok_step_hid; eauto | eapply IH; eauto].
  Qed.

  Lemma hidden_add_pend_false : forall st n, ts_hidden (add_pend st n true) = false ->
    n = O /\ ts_hidden st = false.
  Proof.
    intros st n. unfold add_pend; simpl. intros H. apply orb_false_elim in H. destruct H as [A B].
    split; auto. simpl in B. destruct n; auto. discriminate.
  Qed.
  Lemma hidden_set_false : forall st b, ts_hidden (set_hidden st b) = false -> b = false /\ ts_hidden st = false.
  Proof. intros st b. unfold set_hidden; simpl. intros H. apply orb_false_elim in H. tauto. Qed.

  Lemma top_word_sync : forall st w rest o k st2 p,
    top_word file eof_line dfuel st w rest = Ok (o, k, st2) ->
    ts_hidden st2 = false ->
    Forall wordc w -> hid_sum w = O -> tp_file p = file ->
    lines_ok (tp_line p) (w ++ ltoks_chars rest) ->
    in_step p o (ltoks_chars (skipn k rest)) /\ ts_pend st2 = ts_pend st.
  Proof.
    intros st w rest o k st2 p H Hh Ww Hw Fp L.
    destruct (top_word_cases _ _ _ _ _ _ _ _ _ H) as [(-> & -> & ->)|(x & -> & ->)].
    - split; auto. apply sync_src_run; auto.
    - apply hidden_set_false in Hh. destruct Hh as [Hb Hh].
      apply orb_false_elim in Hb. destruct Hb as [Hb1 Hb2].
      apply negb_false_iff, Nat.eqb_eq in Hb1. apply negb_false_iff, Nat.eqb_eq in Hb2.
      apply hidden_add_pend_false in Hh. destruct Hh as [Hu Hh].
      split; [|simpl; lia]. destruct (sync_mac x p Hb2) as (A & B & C).
      unfold in_step. rewrite B, C. repeat split; auto.
      apply (lines_ok_skip (ltoks_chars (firstn k rest))); auto.
      rewrite <- ltoks_chars_app, firstn_skipn.
      apply (lines_ok_skip w); auto using wordc_no_nl.
  Qed.

  Lemma top_directive_sync : forall st h l nl o st2 p rest,
    top_directive repaired file eof_line incl st h l nl = Ok (o, st2) ->
    ts_hidden st2 = false -> ts_pend st = O -> tp_file p = file ->
    wf_ltok (LD h l nl) -> (nl = None -> rest = []) ->
    lines_ok (tp_line p) (ltok_chars (LD h l nl) ++ rest) ->
    in_step p o rest /\ ts_pend st2 = O.
  Proof.
    intros st h l nl o st2 p rest H Hh P0 Fp [Wh Wn] LN L.
    apply top_directive_ok in H. cbv zeta in H. change (flush repaired) with (repeat (OChar NL PSynth)) in H.
    set (n := ts_pend (dir_state eof_line st h l nl)) in H.
    (* the line ends on line [tp_line p + n], and [rest] begins on the next *)
    assert (NLpos: lines_ok (tp_line p + Z.of_nat n + 1) rest /\
                   match nl with Some c => pc_line c = tp_line p + Z.of_nat n | None => True end).
    { destruct nl as [c|]; [|rewrite (LN eq_refl); simpl; auto]. cbn [ltok_chars] in L.
      replace ((h :: l ++ [c]) ++ rest) with ((h :: l) ++ c :: rest) in L
        by (simpl; rewrite <- app_assoc; reflexivity).
      apply lines_ok_line_of in L. destruct L as [A B]. rewrite Wn in B. simpl in A.
      apply Z.eqb_eq in Wh. assert ((pc_b h =? NL) = false) as E by (rewrite Wh; reflexivity). rewrite E in A.
      assert (pc_line c = tp_line p + Z.of_nat n) as <- by (unfold n; simpl; lia). auto. }
    destruct NLpos as [LR LC].
    pose proof (itrack_flush_line n p) as IF.
    destruct H as [(cs & _ & -> & ->)|(path & its & tbl' & hd & _ & _ & EI & -> & ->)]; (split; [|reflexivity]).
    - assert (IN: itrack p (repeat (OChar NL PSynth) n ++ [nl_item file nl]) = mktp (tp_file p) (tp_line p + Z.of_nat n + 1) 0).
      { rewrite itrack_app, IF. destruct nl as [c|]; simpl; [rewrite Wn|]; reflexivity. }
      unfold in_step. rewrite IN. repeat split; auto.
      apply syncedf_app. split; [apply syncedf_flush|]. rewrite IF.
      destruct nl as [c|]; simpl; auto.
    - apply hidden_set_false in Hh. destruct Hh as [-> _].
      set (f' := match its with OLine _ f :: _ => f | _ => [] end).
      set (ret := match nl with Some c => pc_line c | None => eof_line - 1 end).
      unfold in_step.
      replace (repeat (OChar NL PSynth) n ++ OLine 1 f' :: its ++ [OChar NL PSynth; OLine ret file])
        with ((repeat (OChar NL PSynth) n ++ OLine 1 f' :: its ++ [OChar NL PSynth]) ++ [OLine ret file])
        by (rewrite <- app_assoc; simpl; rewrite <- app_assoc; reflexivity).
      rewrite itrack_app. repeat split.
      + rewrite <- app_assoc. apply syncedf_app. split; [apply syncedf_flush|].
        split; auto. rewrite <- app_assoc. apply syncedf_app. split; [eapply incl_synced; eauto | simpl; auto].
      + destruct nl as [c|]; [|rewrite (LN eq_refl); exact I]. unfold ret. simpl. rewrite LC. exact LR.
  Qed.

  Lemma tok_step_sync : forall st t rest o k st2 p,
    tok_step repaired file eof_line dfuel incl st t rest = Ok (o, k, st2) ->
    ts_hidden st2 = false -> ts_pend st = O -> tp_file p = file ->
    wf_toks (t :: rest) ->
    lines_ok (tp_line p) (ltoks_chars (t :: rest)) ->
    in_step p o (ltoks_chars (skipn k rest)) /\ ts_pend st2 = O.
  Proof.
    intros st t rest o k st2 p H Hh P0 Fp (Wt & LN & _) L.
    change (ltoks_chars (t :: rest)) with (ltok_chars t ++ ltoks_chars rest) in L.
    (* text tokens: nothing was hidden in front of their characters *)
    assert (TXT: forall n, ts_hidden (add_pend st n true) = false -> n = O /\ ts_pend (add_pend st n true) = O).
    { intros n E. apply hidden_add_pend_false in E. destruct E as [-> _]. simpl. lia. }
    destruct t as [w|s|c|h l nl]; simpl in H.
    - destruct (active _).
      + destruct (TXT _ (hid_le_false _ _ (top_word_hid _ _ _ _ _ _ H) Hh)) as [Hw P1].
        destruct (top_word_sync _ _ _ _ _ _ p H Hh Wt Hw Fp L). split; auto. lia.
      + injection H as <- <- <-. destruct (TXT _ Hh) as [Hw P1]. split; auto.
        apply (in_step_nil w); auto using wordc_no_nl.
    - injection H as <- <- <-. destruct (TXT _ Hh) as [Hs P1]. split; auto.
      destruct (active _); [apply sync_src_run | apply sync_src_filter]; auto.
    - assert (H1: ts_hidden (add_pend st (hid c) true) = false)
        by (destruct (pc_b c =? NL); injection H as <- <- <-; exact Hh).
      destruct (TXT _ H1) as [Hc P1]. assert (Hc': hid_sum [c] = O) by (simpl; lia).
      destruct (pc_b c =? NL) eqn:ENL; injection H as <- <- <-; (split; [|auto]).
      + simpl in P1. rewrite P1. apply (sync_src_run [c]); auto.
      + destruct (active _); [apply (sync_src_run [c]); auto|].
        apply (in_step_nil [c]); auto. simpl. rewrite ENL. reflexivity.
    - apply bind_ok in H. destruct H as ([o' s'] & H & E). injection E as <- <- <-.
      eapply top_directive_sync; eauto. intros ->. simpl in LN. rewrite LN. reflexivity.
  Qed.

  (* line_sync for one file: every source byte that reaches the output is on the line the tokenizer counts *)
  Lemma top_synced : forall toks skip st p items st',
    topR st skip toks = Ok (items, st') ->
    ts_hidden st' = false ->
    ts_pend st = O -> tp_file p = file ->
    wf_toks toks ->
    lines_ok (tp_line p) (ltoks_chars (skipn skip toks)) ->
    syncedf p items.
  Proof.
    induction toks as [|t rest IH]; intros skip st p items st' H Hh P0 Fp W L.
    { inversion H; subst. exact I. }
    destruct skip as [|k]; [|apply (IH k st p items st'); auto; apply W].
    apply top_cons in H. destruct H as (o & k & st2 & items' & S & -> & H).
    pose proof (hid_le_false _ _ (top_hid _ _ _ _ _ _ H) Hh) as H2.
    destruct (tok_step_sync _ _ _ _ _ _ p S H2 P0 Fp W L) as ((A & B & C) & D).
    apply syncedf_app. split; auto. apply (IH k st2 _ items' st'); auto. apply W.
  Qed.
End Sync.

Theorem pp_file_synced : forall fuel fs stack tbl file content items tbl',
  pp_file fuel repaired fs stack tbl file content = Ok (items, tbl', false) ->
  forall p0, syncedf p0 items.
Proof.
  induction fuel as [|f IH]; intros fs stack tbl file content items tbl' H p0.
  { discriminate. }
  cbn [pp_file] in H.
  destruct (top repaired file _ _ _ _ 0 _) as [[items0 st]|] eqn:E; [|discriminate].
  destruct (ts_conds st); [|discriminate].
  injection H as <- _ Hh.
  split; [exact I|]. eapply (top_synced file) with (p := mktp file 1 0) in E; eauto.
  - intros tb path its tb' h HI -> q. cbv beta in HI.
    destruct (fs path) as [[phys cont]|]; [|discriminate].
    destruct (mem phys (file :: stack)); [discriminate|].
    eapply IH; eauto.
  - apply lex_wf. exact I.
  - simpl. rewrite lex_chars. apply read_lines_ok.
Qed.

(* Specification-side statement of line_sync: the position a tokenizer that recognises exactly the
   emitted '#line' texts has in front of output item i. *)
Theorem line_sync_ideal : forall fs file content items tbl i b f l c p0,
  preprocess repaired fs file content = Ok (items, tbl, false) ->
  nth_error items i = Some (OChar b (PSrc f l c)) ->
  tp_file (itrack p0 (firstn i items)) = f /\ tp_line (itrack p0 (firstn i items)) = l.
Proof.
  intros. eapply syncedf_nth; eauto. eapply pp_file_synced; eauto.
Qed.

(* #define A 1 \ NL 2 \ NL 3 NL x : under the rule of the unchanged code (one newline per directive,
   whatever it spans) the x of line 4 is reported on line 2 (Properties_C14.C14_line_sync_refuted_as_is). *)
Definition wit_define3 : list byte :=
  [35;100;101;102;105;110;101;32;65;32;49;32;92;10; 32;50;32;92;10; 32;51;10; 120].
Definition wit_file : list byte := [109].
(* the repaired rule on that text *)
Example line_sync_witness_repaired : exists items tbl,
  preprocess repaired (fun _ => None) wit_file wit_define3 = Ok (items, tbl, false) /\
  nth_error items 4 = Some (OChar 120 (PSrc wit_file 4 0)) /\
  tp_line (itrack (mktp wit_file 0 0) (firstn 4 items)) = 4.
Proof. eexists. eexists. split; [vm_compute; reflexivity|]. split; vm_compute; reflexivity. Qed.

(* C14: the byte-level model of the tokenizer's bookkeeping (PP/Tracker.v) agrees with the
   specification-side tracker [itrack] on every output that passes [recognises]. *)
From Coq Require Import ZArith List Bool Lia.
Import ListNotations.
From SqfVerif Require Import PP.Spec PP.Tracker PP.ReaderProofs.
Local Open Scope Z_scope.

Lemma beq_refl : forall a, beq a a = true.
Proof. intros a. destruct (beq_spec a a); congruence. Qed.

Lemma tpos_eqb_eq : forall p q, tpos_eqb p q = true -> p = q.
Proof.
  intros [f l c] [f' l' c']. unfold tpos_eqb; simpl. intros H.
  apply andb_prop in H. destruct H as [H C]. apply andb_prop in H. destruct H as [F L].
  destruct (beq_spec f f'); [|discriminate]. apply Z.eqb_eq in L. apply Z.eqb_eq in C. subst. reflexivity.
Qed.

Lemma trackc_app : forall d a b ctx k st,
  trackc d k st (a ++ b) ctx =
  let '(la, ea, ka) := trackc d k st a (b ++ ctx) in
  let '(lb, eb, kb) := trackc d ka ea b ctx in (la ++ lb, eb, kb).
Proof.
  induction a as [|c t IH]; intros b ctx k st.
  - simpl. destruct (trackc d k st b ctx) as [[lb eb] kb]. reflexivity.
  - simpl. destruct k as [|k].
    + rewrite <- app_assoc. destruct (tstep d st c (t ++ b ++ ctx)) as [st' k'].
      rewrite IH. destruct (trackc d k' st' t (b ++ ctx)) as [[la ea] ka].
      destruct (trackc d ka ea b ctx) as [[lb eb] kb]. reflexivity.
    + rewrite IH. destruct (trackc d k st t (b ++ ctx)) as [[la ea] ka].
      destruct (trackc d ka ea b ctx) as [[lb eb] kb]. reflexivity.
Qed.

Lemma trackc_length : forall d s ctx k st, length (fst (fst (trackc d k st s ctx))) = length s.
Proof.
  induction s as [|c t IH]; intros ctx k st; simpl; auto.
  destruct k as [|k].
  - destruct (tstep d st c (t ++ ctx)) as [st' k']. specialize (IH ctx k' st').
    destruct (trackc d k' st' t ctx) as [[l e] k2]. simpl in *. lia.
  - specialize (IH ctx k st). destruct (trackc d k st t ctx) as [[l e] k2]. simpl in *. lia.
Qed.

Lemma trackc_head : forall d s ctx st, s <> [] ->
  nth_error (fst (fst (trackc d O st s ctx))) O = Some st.
Proof.
  intros d [|c t] ctx st H; [congruence|]. simpl.
  destruct (tstep d st c (t ++ ctx)) as [st' k']. destruct (trackc d k' st' t ctx) as [[l e] k2]. reflexivity.
Qed.

(* agreement of two positions: file and line always, the column when [strict] *)
Definition agree (strict:bool) (p q:tpos) : Prop :=
  tp_file p = tp_file q /\ tp_line p = tp_line q /\ (strict = true -> tp_col p = tp_col q).

Lemma agree_trans : forall s p q r, agree s p q -> agree s q r -> agree s p r.
Proof. unfold agree. intros s p q r (A & B & C) (A' & B' & C'). repeat split; try congruence. intros X. rewrite C, C'; auto. Qed.
Lemma istep_agree : forall s p q o, agree s p q -> agree s (istep p o) (istep q o).
Proof.
  intros s p q o (A & B & C). destruct o as [b pr|n f]; simpl.
  - destruct (b =? NL); unfold agree; simpl; repeat split; auto; try lia. intros X. rewrite (C X). reflexivity.
  - unfold agree; simpl; auto.
Qed.
Lemma itrack_agree : forall s l p q, agree s p q -> agree s (itrack p l) (itrack q l).
Proof.
  induction l; intros p q H; simpl; auto. unfold itrack in *. simpl. apply IHl. apply istep_agree. auto.
Qed.

Lemma line_directive_len : forall r n f len, line_directive r = LDir n f len -> len <> O.
Proof.
  intros r n f len. unfold line_directive.
  destruct r as [|l0 [|i0 [|n0 [|e0 rest]]]];
    try (intros H; simpl in H; try match type of H with (if ?c then _ else _) = _ => destruct c end; discriminate).
  destruct (_ && _ && _ && _); [|discriminate].
  destruct rest as [|x rest']; [discriminate|]. destruct (is_letter x); [discriminate|].
  destruct (skip_to _ rest' 0%nat) as [numlen afternum]. destruct (take_digits rest' 0 0%nat) as [[v nd] r3].
  destruct nd; [discriminate|].
  destruct (skip_blanks afternum 0%nat) as [nb afterb]. destruct (skip_to _ afterb 0%nat) as [flen afterf].
  intros H; inversion H. discriminate.
Qed.

(* a branch of [tstep] whose answer is written out: read the new position off it *)
Local Ltac answer := let H := fresh in intros H; injection H as <-; auto.

(* One byte of text that is not the '#' of a '#line' moves the tokenizer as it moves the
   specification-side tracker - except that the unrepaired code does not count the first of two doubled quotes. *)
Lemma tstep_pos : forall d st b t st' pr, tstep d st b t = (st', O) ->
  tk_pos st' = istep (tk_pos st) (OChar b pr) \/
  (d_escquote_column d = true /\ (b =? NL) = false /\ tk_pos st' = tk_pos st).
Proof.
  intros d st b t st' pr. unfold tstep. cbn [istep]. fold (newline (tk_pos st)) (adv (tk_pos st)).
  destruct (tk_mode st), (b =? NL); try (answer; fail).
  - destruct (b =? QUOTE); [answer|]. destruct (b =? SQ); [answer|].
    destruct (b =? HASH).
    { destruct (line_directive t) as [| |n f len] eqn:ELD; try (answer; fail).
      intros H; inversion H; subst. apply line_directive_len in ELD. congruence. }
    destruct (b =? SLASH); [|answer].
    destruct t as [|x t']; [|destruct ((x =? SLASH) || (x =? STAR))]; answer.
  - destruct (b =? QUOTE); [|answer]. destruct t as [|x t']; [answer|].
    destruct (x =? QUOTE); [|answer]. destruct (d_escquote_column d); answer.
  - destruct (b =? SQ); [|answer]. destruct t as [|x t']; [answer|].
    destruct (x =? SQ); [|answer]. destruct (d_escquote_column d); answer.
Qed.

Lemma tstep_agree : forall d st b t st' pr s,
  tstep d st b t = (st', O) -> (s = true -> d_escquote_column d = false) ->
  agree s (tk_pos st') (istep (tk_pos st) (OChar b pr)).
Proof.
  intros d st b t st' pr s H S. destruct (tstep_pos d st b t st' pr H) as [->|(Dq & E & ->)].
  - unfold agree; auto.
  - unfold agree, istep. rewrite E. simpl. repeat split; auto. intros X. rewrite (S X) in Dq. discriminate.
Qed.

Lemma recognises_step : forall d s, (s = true -> d_escquote_column d = false) ->
  forall o r st q, agree s (tk_pos st) q -> recognises d st (o :: r) = true ->
  exists l e, trackc d O st (render_item o) (render r) = (l, e, O) /\
              agree s (tk_pos e) (istep q o) /\ recognises d e r = true.
Proof.
  intros d s HS o r st q A R. simpl in R.
  destruct (trackc d 0 st (render_item o) (render r)) as [[la e] k] eqn:E.
  destruct k; [|discriminate]. exists la, e. split; auto.
  destruct o as [b pr|n f].
  - split; auto. simpl in E. destruct (tstep d st b (render r)) as [st' k'] eqn:ET. inversion E; subst.
    eapply agree_trans; [eapply tstep_agree; eauto | apply istep_agree; auto].
  - destruct (tk_mode st); try discriminate. destruct (tk_mode e); try discriminate.
    apply andb_prop in R. destruct R as [R1 R2]. split; auto.
    apply tpos_eqb_eq in R1. rewrite R1. unfold agree; auto.
Qed.

(* The tokenizer in front of output item i is where the specification-side tracker is. *)
Lemma recognises_agree : forall d s, (s = true -> d_escquote_column d = false) ->
  forall items st q, agree s (tk_pos st) q -> recognises d st items = true ->
  forall i tk, nth_error (fst (fst (trackc d O st (render items) []))) (item_offset items i) = Some tk ->
  (i < length items)%nat ->
  agree s (tk_pos tk) (itrack q (firstn i items)).
Proof.
  intros d s HS. induction items as [|o r IH]; intros st q A R i tk N Li; [simpl in Li; lia|].
  destruct (recognises_step d s HS o r st q A R) as (la & e & E & AE & RE).
  change (render (o :: r)) with (render_item o ++ render r) in N.
  destruct i as [|i'].
  - rewrite trackc_head in N by (destruct o; discriminate). inversion N; subst. exact A.
  - simpl item_offset in N. rewrite trackc_app, app_nil_r, E in N.
    destruct (trackc d 0 e (render r) []) as [[lb eb] kb] eqn:E2. simpl in N.
    pose proof (trackc_length d (render_item o) (render r) 0%nat st) as LL. rewrite E in LL. simpl in LL.
    rewrite nth_error_app2 in N by lia.
    replace (length (render_item o) + item_offset r i' - length la)%nat with (item_offset r i') in N by lia.
    apply (IH e (istep q o) AE RE i' tk); [rewrite E2; exact N | simpl in Li; lia].
Qed.

(* the '#line' texts written by the preprocessor are read back exactly: up to line_directive_emitted *)
Fixpoint dval (a:Z) (ds:list Z) : Z := match ds with [] => a | c :: t => dval (a * 10 + (c - 48)) t end.
Lemma dval_app : forall x y a, dval a (x ++ y) = dval (dval a x) y.
Proof. induction x; intros; simpl; auto. Qed.

Lemma dec_go_spec : forall f n acc, 0 <= n -> n < 10 ^ Z.of_nat f -> (0 < f)%nat ->
  exists ds, dec_go f n acc = ds ++ acc /\ Forall (fun c => is_digit c = true) ds /\ ds <> [] /\
             forall a, dval a ds = a * 10 ^ Z.of_nat (length ds) + n.
Proof.
  induction f; intros n acc H0 H1 Hf; [lia|].
  cbn [dec_go].
  assert (D: is_digit (48 + n mod 10) = true).
  { unfold is_digit. pose proof (Z.mod_pos_bound n 10 ltac:(lia)). apply andb_true_intro. split; apply Z.leb_le; lia. }
  destruct (n <? 10) eqn:E.
  - apply Z.ltb_lt in E. exists [48 + n mod 10]. repeat split; auto; try discriminate.
    intros a. cbn [dval length]. change (Z.of_nat 1) with 1. rewrite Z.pow_1_r, Z.mod_small by lia. lia.
  - apply Z.ltb_ge in E.
    assert (Hf': (0 < f)%nat).
    { destruct f; [|lia]. simpl in H1. lia. }
    assert (H1': n / 10 < 10 ^ Z.of_nat f).
    { rewrite Nat2Z.inj_succ, Z.pow_succ_r in H1 by lia. apply Z.div_lt_upper_bound; lia. }
    destruct (IHf (n / 10) ((48 + n mod 10) :: acc) ltac:(apply Z.div_pos; lia) H1' Hf') as (ds & A & B & C & V).
    exists (ds ++ [48 + n mod 10]). split; [rewrite A, <- app_assoc; reflexivity|].
    split; [apply Forall_app; split; auto|]. split; [destruct ds; discriminate|].
    intros a. rewrite dval_app, V. cbn [dval]. rewrite app_length. cbn [length].
    rewrite Nat2Z.inj_add. change (Z.of_nat 1) with 1. rewrite Z.pow_add_r, Z.pow_1_r by lia.
    pose proof (Z.div_mod n 10 ltac:(lia)). lia.
Qed.

Lemma dec_spec : forall n, 0 <= n ->
  Forall (fun c => is_digit c = true) (dec n) /\ dec n <> [] /\ dval 0 (dec n) = n.
Proof.
  intros n H. unfold dec.
  assert (B: n < 10 ^ Z.of_nat (S (Z.to_nat (Z.log2 n)))).
  { rewrite Nat2Z.inj_succ, Z2Nat.id by apply Z.log2_nonneg.
    destruct (Z.eq_dec n 0) as [->|N]. { simpl. lia. }
    pose proof (Z.log2_spec n ltac:(lia)) as [_ L].
    eapply Z.lt_le_trans; [exact L|]. apply Z.pow_le_mono_l. pose proof (Z.log2_nonneg n). lia. }
  destruct (dec_go_spec _ n [] H B ltac:(lia)) as (ds & A & F & N & V).
  rewrite A, app_nil_r. repeat split; auto. rewrite V. lia.
Qed.

Lemma take_digits_app : forall ds rest a k, Forall (fun c => is_digit c = true) ds ->
  match rest with c :: _ => is_digit c = false | [] => True end ->
  take_digits (ds ++ rest) a k = (dval a ds, (k + length ds)%nat, rest).
Proof.
  induction ds as [|c t IH]; intros rest a k F R.
  - simpl. rewrite Nat.add_0_r. destruct rest as [|c r]; [reflexivity|]. simpl. rewrite R. reflexivity.
  - inversion F; subst. simpl. rewrite H1. rewrite IH by auto. simpl. rewrite <- Nat.add_succ_comm. reflexivity.
Qed.

Lemma skip_to_app : forall stop ds c rest k, Forall (fun x => stop x = false) ds -> stop c = true ->
  skip_to stop (ds ++ c :: rest) k = ((k + length ds)%nat, c :: rest).
Proof.
  induction ds as [|x t IH]; intros c rest k F S.
  - simpl. rewrite S, Nat.add_0_r. reflexivity.
  - inversion F; subst. simpl. rewrite H1. rewrite IH by auto. simpl. rewrite <- Nat.add_succ_comm. reflexivity.
Qed.

Lemma digit_not_stop : forall c, is_digit c = true -> ((c =? NL) || (c =? SP)) = false.
Proof.
  intros c H. unfold is_digit in H. apply andb_prop in H. destruct H as [A B].
  apply Z.leb_le in A. apply Z.leb_le in B.
  apply orb_false_intro; apply Z.eqb_neq; unfold NL, SP; lia.
Qed.

Lemma line_directive_emitted : forall n f ctx, 0 <= n -> ~ In NL f ->
  line_directive ([108;105;110;101;32] ++ dec n ++ [32;34] ++ f ++ [34;10] ++ ctx)
  = LDir n (Some f) (5 + length (dec n) + 1 + (length f + 2)).
Proof.
  intros n f ctx Hn Hf. destruct (dec_spec n Hn) as (FD & ND & VD).
  unfold line_directive. cbn [app]. cbn [lower Z.leb Z.eqb andb Z.compare Pos.compare Pos.compare_cont Z.add Pos.add Pos.succ].
  replace ((lower 108 =? 108) && (lower 105 =? 105) && (lower 110 =? 110) && (lower 101 =? 101)) with true by reflexivity.
  replace (is_letter 32) with false by reflexivity.
  assert (S1: skip_to (fun c => (c =? NL) || (c =? SP)) (dec n ++ 32 :: 34 :: f ++ 34 :: 10 :: ctx) 0
              = (length (dec n), 32 :: 34 :: f ++ 34 :: 10 :: ctx)).
  { rewrite skip_to_app; auto.
    eapply Forall_impl; [|exact FD]. intros. apply digit_not_stop; auto. }
  rewrite S1.
  rewrite (take_digits_app (dec n) (32 :: 34 :: f ++ 34 :: 10 :: ctx) 0 0%nat FD) by reflexivity.
  rewrite VD. simpl plus.
  destruct (length (dec n)) eqn:EL. { destruct (dec n); [congruence|discriminate]. }
  assert (S3: skip_blanks (32 :: 34 :: f ++ 34 :: 10 :: ctx) 0 = (1%nat, 34 :: f ++ 34 :: 10 :: ctx)) by reflexivity.
  rewrite S3.
  assert (S2: skip_to (fun c => c =? NL) (34 :: f ++ 34 :: 10 :: ctx) 0 = ((length f + 2)%nat, 10 :: ctx)).
  { replace (34 :: f ++ 34 :: 10 :: ctx) with ((34 :: f ++ [34]) ++ 10 :: ctx) by (simpl; rewrite <- app_assoc; reflexivity).
    rewrite skip_to_app.
    - f_equal. simpl. rewrite app_length. simpl. lia.
    - constructor; [reflexivity|]. apply Forall_app. split.
      + apply Forall_forall. intros x Hx. apply Z.eqb_neq. intros E. subst. auto.
      + constructor; [reflexivity|constructor].
    - reflexivity. }
  rewrite S2.
  assert (LE: (2 <=? length f + 2)%nat = true) by (apply Nat.leb_le; lia). rewrite LE.
  f_equal. f_equal.
  replace (length f + 2 - 2)%nat with (length f) by lia. simpl skipn.
  rewrite firstn_app, firstn_all, Nat.sub_diag. simpl. rewrite app_nil_r. reflexivity.
Qed.

Lemma trackc_skip : forall d s k st ctx, (length s <= k)%nat ->
  trackc d k st s ctx = (repeat st (length s), st, (k - length s)%nat).
Proof.
  induction s as [|c t IH]; intros k st ctx H; simpl.
  - f_equal. lia.
  - destruct k; [simpl in H; lia|]. rewrite IH by (simpl in H; lia). reflexivity.
Qed.

(* C13: laws of the reference expander - macro expansion part:
   termination with a stated fuel bound, balanced arguments, a string literal is one token. *)
From Coq Require Import ZArith List Bool Lia.
Import ListNotations.
From SqfVerif Require Import PP.Spec PP.ReaderProofs.
Local Open Scope Z_scope.

Lemma lookup_in_names : forall t n m, lookup t n = Some m -> In n (names t).
Proof.
  induction t as [|[k m'] r IH]; simpl; intros n m H; [discriminate|].
  destruct (beq_spec k n); [auto | right; eapply IH; eauto].
Qed.
Lemma mem_false_not_in : forall n l, mem n l = false -> ~ In n l.
Proof.
  induction l as [|k l IH]; simpl; intros H; auto. apply orb_false_elim in H. destruct H as [A B].
  intros [X|X]; [destruct (beq_spec k n); congruence | apply IH; auto].
Qed.

Definition fine {A} (r:res A) : Prop := r <> Err EOutOfFuel.

Lemma bind_fine : forall A B (x:res A) (f:A -> res B),
  fine x -> (forall a, x = Ok a -> fine (f a)) -> fine (bind x f).
Proof. intros A B [a|e] f Hx Hf; simpl; auto. unfold fine in *. congruence. Qed.

Lemma bind_ret_fine : forall A B (x:res A) (g:A -> B), fine x -> fine (bind x (fun a => Ok (g a))).
Proof. intros. apply bind_fine; auto. discriminate. Qed.

Lemma mapM_fine : forall A B (f:A -> res B) l, (forall a, In a l -> fine (f a)) -> fine (mapM f l).
Proof.
  induction l as [|a l IH]; intros H; simpl. { discriminate. }
  pose proof (H a (or_introl eq_refl)) as Ha.
  assert (Hl: fine (mapM f l)) by (apply IH; intros; apply H; right; auto).
  unfold fine in *. destruct (f a); [destruct (mapM f l)|]; congruence.
Qed.

(* the raw arguments of a call are never longer than the text they were cut from *)
Lemma split_go_len : forall toks r e c cur acc n args n' K,
  Forall (fun a => (length a <= K)%nat) acc -> (length cur + length toks <= K)%nat ->
  split_go r e c cur acc n toks = Some (args, n') ->
  Forall (fun a => (length a <= K)%nat) args.
Proof.
  induction toks as [|t rest IH]; intros r e c cur acc n args n' K HA HC H; simpl in H; [discriminate|].
  simpl in HC.
  assert (STEP: forall r e c n, split_go r e c (cur ++ [t]) acc n rest = Some (args, n') ->
                Forall (fun a => (length a <= K)%nat) args).
  { intros. eapply IH; eauto. rewrite app_length. simpl. lia. }
  destruct t as [w|s|b]; eauto.
  destruct (b =? LPAR); eauto.
  destruct (b =? RPAR).
  { destruct r; eauto. destruct e; [|discriminate]. destruct c; [|discriminate].
    inversion H; subst. apply Forall_app. split; auto. constructor; auto. lia. }
  destruct (b =? LBRK); eauto.
  destruct (b =? RBRK). { destruct e; [discriminate|]; eauto. }
  destruct (b =? LCUR); eauto.
  destruct (b =? RCUR). { destruct c; [discriminate|]; eauto. }
  destruct (b =? COMMA); eauto.
  destruct r; eauto. destruct e; eauto. destruct c; eauto.
  eapply IH; [| |exact H].
  - apply Forall_app. split; auto. constructor; auto. lia.
  - simpl. lia.
Qed.

Lemma split_args_len : forall np toks raw cnt, split_args np toks = Some (raw, cnt) ->
  Forall (fun a => (length a <= length toks)%nat) raw.
Proof.
  intros np toks raw cnt H. unfold split_args in H.
  destruct (split_go 0 0 0 [] [] 0 toks) as [[args n]|] eqn:E; [|discriminate].
  apply (split_go_len _ _ _ _ _ _ _ _ _ (length toks)) in E; auto.
  destruct np; inversion H; subst; auto.
  apply Forall_forall. intros a Ha. apply filter_In in Ha. destruct Ha as [Ha _].
  rewrite Forall_forall in E. auto.
Qed.

Section Fuel.
  Variable tbl : table.
  Variable callf : list byte -> macro -> list (list byte) -> res (list byte).
  Hypothesis callf_fine : forall w m args, lookup tbl w = Some m -> fine (callf w m args).

  Lemma do_call_fine : forall xa w m rest, lookup tbl w = Some m ->
    (forall a, (length a < length rest)%nat -> fine (xa a)) ->
    fine (do_call callf xa w m rest).
  Proof.
    intros xa w m rest HL HX. unfold do_call.
    destruct (callable m); [|apply bind_ret_fine; auto].
    destruct rest as [|[| |c] rest']; try discriminate.
    destruct (c =? LPAR); [|discriminate].
    destruct (split_args (nparams m) rest') as [[raw cnt]|] eqn:E; [|discriminate].
    apply bind_fine; [|intros; apply bind_ret_fine; auto].
    apply mapM_fine. intros a Ha. apply HX.
    apply split_args_len in E. rewrite Forall_forall in E. specialize (E a Ha). simpl. lia.
  Qed.

  Lemma xarg_go_fine : forall inner pm toks skip,
    (forall a, (length a < length toks)%nat -> fine (inner a)) ->
    fine (xarg_go tbl callf inner pm skip toks).
  Proof.
    induction toks as [|t rest IH]; intros skip HI; simpl. { discriminate. }
    assert (HI': forall a, (length a < length rest)%nat -> fine (inner a)) by (intros; apply HI; simpl; lia).
    destruct skip; auto.
    destruct t as [w|s|c]; try (apply bind_ret_fine; auto).
    destruct (lookup tbl w) as [m|] eqn:EL; [|destruct (plookup pm w); apply bind_ret_fine; auto].
    apply bind_fine; [apply do_call_fine; auto | intros; apply bind_ret_fine; auto].
  Qed.

  Lemma xarg_fine : forall n pm toks, (length toks < n)%nat -> fine (xarg tbl callf n pm toks).
  Proof.
    induction n; intros pm toks H; [lia|]. simpl.
    apply xarg_go_fine. intros a Ha. apply IHn. lia.
  Qed.

  Lemma word_value_fine : forall pm w rest, fine (word_value tbl callf pm w rest).
  Proof.
    intros. unfold word_value. destruct (plookup pm w); [discriminate|].
    destruct (lookup tbl w) eqn:E; [|discriminate].
    apply do_call_fine; auto. intros a Ha. apply xarg_fine. lia.
  Qed.

  Lemma hash_value_fine : forall pm rest, fine (hash_value tbl callf pm rest).
  Proof.
    intros. unfold hash_value. destruct (span_nonstop rest) as [cp1 k1].
    destruct (skipn k1 rest) as [|[w|s|c] r2]; try discriminate.
    - apply bind_ret_fine, word_value_fine.
    - destruct (c =? HASH); [|discriminate].
      destruct (span_nonstop r2) as [cp2 k2].
      destruct (skipn k2 r2) as [|[w|s|c'] r3]; try discriminate.
      apply bind_ret_fine, word_value_fine.
  Qed.

  Lemma xbody_fine : forall pm toks skip, fine (xbody tbl callf pm skip toks).
  Proof.
    induction toks as [|t rest IH]; intros skip; simpl. { discriminate. }
    destruct skip; auto.
    destruct t as [w|s|c]; [| |destruct (c =? HASH)]; try (apply bind_ret_fine; auto).
    - apply bind_fine; [apply word_value_fine | intros; apply bind_ret_fine; auto].
    - apply bind_fine; [apply hash_value_fine | intros; apply bind_ret_fine; auto].
  Qed.
End Fuel.

(* Termination with a stated bound: the depth fuel only has to exceed the number of macros that are
   not yet being expanded. A use of a macro that is already being expanded is reported as
   ERecursiveMacro, so that the nesting depth cannot exceed the size of the table. *)
Theorem call_fuel_enough : forall d tbl cfile cline stack name m args,
  NoDup stack -> incl stack (names tbl) -> lookup tbl name = Some m ->
  (length (names tbl) < d + length stack)%nat ->
  fine (call d tbl cfile cline stack name m args).
Proof.
  induction d; intros tbl cfile cline stack name m args ND IN HL HD.
  - exfalso. pose proof (NoDup_incl_length ND IN). simpl in HD. lia.
  - simpl. destruct (negb (Nat.eqb (length args) (nparams m))); [discriminate|].
    destruct (m_builtin m) as [[|]|]; try discriminate.
    destruct (mem name stack) eqn:EM; [discriminate|].
    apply xbody_fine. intros w m' args' HL'.
    apply IHd; auto.
    + constructor; auto. apply mem_false_not_in; auto.
    + intros x [X|X]; [subst; eapply lookup_in_names; eauto | auto].
    + simpl. lia.
Qed.

(* self- and mutually recursive macros are an error outcome *)
Definition m_A := mkmacro None [65] None.            (* #define A A *)
Definition m_AB := mkmacro None [66] None.           (* #define A B *)
Definition m_BA := mkmacro None [65] None.           (* #define B A *)
Example self_recursive : call 5 [([65], m_A)] [] 1 [] [65] m_A [] = Err ERecursiveMacro.
Proof. vm_compute. reflexivity. Qed.
Example mutually_recursive : call 5 [([65], m_AB); ([66], m_BA)] [] 1 [] [65] m_AB [] = Err ERecursiveMacro.
Proof. vm_compute. reflexivity. Qed.

Definition plain_tok (t:btok) : Prop :=
  match t with
  | BC c => c <> LPAR /\ c <> RPAR /\ c <> LBRK /\ c <> RBRK /\ c <> LCUR /\ c <> RCUR /\ c <> COMMA
  | _ => True       (* words and string literals: a string is one token, whatever it contains *)
  end.
(* properly nested text; [top]: commas only inside brackets *)
Inductive bal : bool -> list btok -> Prop :=
| bal_nil : forall top, bal top []
| bal_tok : forall top t l, plain_tok t -> bal top l -> bal top (t :: l)
| bal_comma : forall l, bal false l -> bal false (BC COMMA :: l)
| bal_par : forall top a l, bal false a -> bal top l -> bal top (BC LPAR :: a ++ BC RPAR :: l)
| bal_brk : forall top a l, bal false a -> bal top l -> bal top (BC LBRK :: a ++ BC RBRK :: l)
| bal_cur : forall top a l, bal false a -> bal top l -> bal top (BC LCUR :: a ++ BC RCUR :: l).

Lemma split_go_plain : forall t r e c cur acc n rest, plain_tok t ->
  split_go r e c cur acc n (t :: rest) = split_go r e c (cur ++ [t]) acc (S n) rest.
Proof.
  intros t r e c cur acc n rest P. simpl. destruct t as [w|s|b]; auto.
  destruct P as (P1 & P2 & P3 & P4 & P5 & P6 & P7).
  apply Z.eqb_neq in P1, P2, P3, P4, P5, P6, P7. rewrite P1, P2, P3, P4, P5, P6, P7. reflexivity.
Qed.

Lemma split_go_bal : forall top g, bal top g -> forall r e c cur acc n rest,
  (top = false -> (0 < r + e + c)%nat) ->
  split_go r e c cur acc n (g ++ rest) = split_go r e c (cur ++ g) acc (n + length g) rest.
Proof.
  induction 1 as [top|top t l P _ IH|l _ IH|top a l _ IHa _ IHl|top a l _ IHa _ IHl|top a l _ IHa _ IHl];
    intros r e c cur acc n rest D.
  (* a bracket: the opener raises its counter, [a] is scanned at positive depth, the closer lowers it again *)
  4-6: simpl; rewrite <- app_assoc, IHa by lia; simpl; rewrite IHl by auto.
  4-6: repeat rewrite <- app_assoc; simpl; f_equal; rewrite app_length; simpl; lia.
  - simpl. rewrite app_nil_r, Nat.add_0_r. reflexivity.
  - simpl app. rewrite split_go_plain, IH by auto.
    rewrite <- app_assoc. simpl. f_equal. lia.
  - specialize (D eq_refl). simpl app.
    assert (S1: split_go r e c cur acc n (BC COMMA :: l ++ rest) = split_go r e c (cur ++ [BC COMMA]) acc (S n) (l ++ rest)).
    { simpl. destruct r; [destruct e; [destruct c; [lia|]|]|]; reflexivity. }
    rewrite S1, IH by auto. rewrite <- app_assoc. simpl. f_equal. lia.
Qed.

(* the text  a1 , a2 , ... , an  of an argument list, without the closing parenthesis *)
Fixpoint join_args (args:list (list btok)) : list btok :=
  match args with
  | [] => []
  | [a] => a
  | a :: r => a ++ BC COMMA :: join_args r
  end.

Lemma split_go_args : forall r a cur acc n rest, Forall (bal true) (a :: r) ->
  exists n', split_go 0 0 0 cur acc n (join_args (a :: r) ++ BC RPAR :: rest) = Some (acc ++ (cur ++ a) :: r, n').
Proof.
  induction r as [|a2 r IH]; intros a cur acc n rest F; inversion F as [|x y Ba Fr]; subst.
  - simpl join_args. rewrite (split_go_bal true a Ba) by discriminate. simpl. eexists. reflexivity.
  - change (join_args (a :: a2 :: r)) with (a ++ BC COMMA :: join_args (a2 :: r)).
    rewrite <- app_assoc, (split_go_bal true a Ba) by discriminate.
    destruct (IH a2 [] (acc ++ [cur ++ a]) (S (n + length a)) rest Fr) as [n' E].
    (* the comma at depth 0 closes the argument: one step of [split_go] *)
    exists n'. rewrite <- app_assoc in E. exact E.
Qed.

(* args_balanced: commas inside () [] {} and inside strings do not split arguments *)
Theorem args_balanced : forall np args rest, args <> [] -> Forall (bal true) args -> np <> O ->
  exists n, split_args np (join_args args ++ BC RPAR :: rest) = Some (args, n).
Proof.
  intros np [|a r] rest NE F NP; [congruence|]. unfold split_args.
  destruct (split_go_args r a [] [] 0%nat rest F) as [n' E]. rewrite E.
  destruct np; [congruence|]. exists n'. reflexivity.
Qed.

(* a string literal is one token for the argument scanner, whatever is inside *)
Lemma blex_go_str : forall body rest acc, ~ In QUOTE body ->
  blex_go (BStr acc) (body ++ QUOTE :: rest) = BS (acc ++ body ++ [QUOTE]) :: blex_go BNorm rest.
Proof.
  induction body as [|c t IH]; intros rest acc NI; simpl.
  - reflexivity.
  - destruct (c =? QUOTE) eqn:E. { apply Z.eqb_eq in E. exfalso. apply NI. left. auto. }
    rewrite IH by (intros X; apply NI; right; auto). rewrite <- app_assoc. reflexivity.
Qed.

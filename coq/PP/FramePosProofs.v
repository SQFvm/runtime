From Coq Require Import List Arith Lia.
Import ListNotations.
From SqfVerif Require Import PP.FramePos.

Lemma fsteps_at : forall len m j, j <= len -> fsteps len m (PAt j) = PAt (Nat.min (j + m) len).
Proof.
  intros len m. induction m as [|m IH]; intros j Hj; cbn [fsteps fnext].
  - f_equal. lia.
  - destruct (Nat.eqb_spec j len) as [E|E]; rewrite IH by lia; f_equal; lia.
Qed.

Lemma fafter_S : forall len k, fafter len (S k) = PAt (Nat.min k len).
Proof. intros. unfold fafter. cbn [fsteps fnext]. apply fsteps_at. lia. Qed.

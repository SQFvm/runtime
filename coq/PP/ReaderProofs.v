(* Lemmas about the character reader [rd] and the lexical skeleton [lex]:
   line bookkeeping (every raw newline is accounted for exactly once: as a newline character or as a
   hidden newline in the gap of the following character), the lexer keeps every character and cuts
   well-formed tokens. In front of them the two facts about [beq] and [bind] every later file uses. *)
From Coq Require Import ZArith List Bool Lia.
Import ListNotations.
From SqfVerif Require Import PP.Spec.
Local Open Scope Z_scope.

Lemma beq_spec : forall a b, reflect (a = b) (beq a b).
Proof.
  induction a as [|x a IH]; destruct b as [|y b]; simpl; try (constructor; congruence).
  destruct (Z.eqb_spec x y) as [->|N]; simpl; [|constructor; congruence].
  destruct (IH b) as [->|N]; constructor; congruence.
Qed.

Lemma bind_ok : forall A B (x:res A) (f:A -> res B) b,
  bind x f = Ok b <-> exists a, x = Ok a /\ f a = Ok b.
Proof.
  intros A B [a|e] f b; simpl; split; eauto.
  - intros (a' & E & F). congruence.
  - discriminate.
  - intros (a' & E & _). discriminate.
Qed.

Lemma count_nl_app : forall a b, count_nl (a ++ b) = (count_nl a + count_nl b)%nat.
Proof. induction a; intros; simpl; auto. destruct (a =? NL); rewrite IHa; auto. Qed.
Lemma hid_sum_app : forall a b, hid_sum (a ++ b) = (hid_sum a + hid_sum b)%nat.
Proof. induction a; intros; simpl; auto. rewrite IHa. lia. Qed.

(* the line of every character = the line the reader is on, which moves by one per newline
   character and by the hidden newlines in front of a character *)
Fixpoint lines_ok (ln:Z) (cs:list pchar) : Prop :=
  match cs with
  | [] => True
  | c :: t => pc_line c = ln + Z.of_nat (hid c) /\
              lines_ok (pc_line c + (if pc_b c =? NL then 1 else 0)) t
  end.

Lemma lines_ok_app : forall a L b,
  lines_ok L (a ++ b) <-> lines_ok L a /\ lines_ok (L + Z.of_nat (hid_sum a + nl_count a)) b.
Proof.
  induction a as [|c a IH]; intros L b; simpl.
  - rewrite Z.add_0_r. tauto.
  - rewrite IH.
    assert (E: pc_line c = L + Z.of_nat (hid c) ->
               pc_line c + (if pc_b c =? NL then 1 else 0) + Z.of_nat (hid_sum a + nl_count a)
               = L + Z.of_nat (hid c + hid_sum a + (if pc_b c =? NL then S (nl_count a) else nl_count a)))
      by (destruct (pc_b c =? NL); lia).
    split; intros (A & B); [destruct B as (B & C) | destruct A as (A & A')];
      repeat split; auto; [rewrite <- E | rewrite E]; auto.
Qed.

Lemma lines_ok_skip : forall w L rest, hid_sum w = O -> nl_count w = O ->
  lines_ok L (w ++ rest) -> lines_ok L rest.
Proof. intros w L rest H1 H2 H. apply lines_ok_app in H. rewrite H1, H2, Z.add_0_r in H. tauto. Qed.

Lemma lines_ok_line_of : forall a L c rest, lines_ok L (a ++ c :: rest) ->
  pc_line c = L + Z.of_nat (hid_sum a + nl_count a + hid c) /\
  lines_ok (pc_line c + (if pc_b c =? NL then 1 else 0)) rest.
Proof. intros a L c rest H. apply lines_ok_app in H. simpl in H. split; [lia | tauto]. Qed.

Lemma rd_lines_ok : forall n s, (length s <= n)%nat -> forall m ln col gap,
  lines_ok (ln - Z.of_nat (count_nl gap)) (rd m ln col gap s).
Proof.
  induction n; intros [|c t] Hn m ln col gap; simpl in Hn; try exact I; [lia|].
  (* a step of [rd] either extends the gap by [g] and moves the line by the newlines in [g] ... *)
  assert (GAP: forall g m' ln' col' t', (length t' <= n)%nat -> ln' = ln + Z.of_nat (count_nl g) ->
            lines_ok (ln - Z.of_nat (count_nl gap)) (rd m' ln' col' (gap ++ g) t')).
  { intros g m' ln' col' t' Ht' ->.
    pose proof (IHn t' Ht' m' (ln + Z.of_nat (count_nl g)) col' (gap ++ g)) as P.
    rewrite count_nl_app in P.
    replace (ln + Z.of_nat (count_nl g) - Z.of_nat (count_nl gap + count_nl g)) with (ln - Z.of_nat (count_nl gap)) in P by lia.
    exact P. }
  (* ... or passes [c] on, with the gap collected so far, and starts an empty one *)
  assert (EMIT: forall m' ln' col', ln' = ln + (if c =? NL then 1 else 0) ->
            lines_ok (ln - Z.of_nat (count_nl gap)) (mkpc c ln col gap :: rd m' ln' col' [] t)).
  { intros m' ln' col' ->. split; [unfold hid; simpl; lia|].
    pose proof (IHn t ltac:(lia) m' (ln + (if c =? NL then 1 else 0)) col' []) as P.
    simpl in P. rewrite Z.sub_0_r in P. exact P. }
  cbn [rd].
  destruct (Z.eqb_spec c CR) as [->|_]. { apply GAP; simpl; lia. }
  destruct m.
  - destruct (Z.eqb_spec c SLASH) as [->|_].
    { destruct t as [|d t']; [apply EMIT; simpl; lia|]. simpl in Hn.
      destruct (Z.eqb_spec d STAR) as [->|_]. { apply GAP; simpl; lia. }
      destruct (d =? SLASH); [apply (GAP [SLASH]); simpl; lia | apply EMIT; simpl; lia]. }
    destruct (Z.eqb_spec c BSL) as [->|_].
    { destruct t as [|d t']; [apply EMIT; simpl; lia|]. simpl in Hn.
      destruct (Z.eqb_spec d NL) as [->|_]. { apply GAP; simpl; lia. }
      destruct (Z.eqb_spec d CR) as [->|_]; [|apply EMIT; simpl; lia].
      destruct t' as [|e t'']; [apply EMIT; simpl; lia|]. simpl in Hn.
      destruct (Z.eqb_spec e NL) as [->|_]; [apply GAP; simpl; lia | apply EMIT; simpl; lia]. }
    destruct (Z.eqb_spec c QUOTE) as [->|_]. { apply EMIT; simpl; lia. }
    destruct (c =? NL); apply EMIT; lia.
  - destruct (Z.eqb_spec c QUOTE) as [->|_]. { apply EMIT; simpl; lia. }
    destruct (c =? NL); apply EMIT; lia.
  - destruct (c =? NL) eqn:E; [apply EMIT; lia|].
    assert (C: count_nl [c] = O) by (simpl; rewrite E; reflexivity).
    destruct (c =? STAR); [|apply GAP; [|rewrite C]; lia].
    destruct t as [|d t']; [apply GAP; [|rewrite C]; simpl; lia|]. simpl in Hn.
    destruct (Z.eqb_spec d SLASH) as [->|_]; apply GAP; simpl; try rewrite E; lia.
  - destruct (c =? NL) eqn:E; [apply EMIT; lia|].
    apply GAP; [|simpl; rewrite E]; lia.
Qed.

Theorem read_lines_ok : forall s, lines_ok 1 (read s).
Proof. intros. apply (rd_lines_ok (length s) s (le_n _) RNormal 1 0 []). Qed.

Definition pending (m:lmode) : list pchar :=
  match m with
  | MNorm _ => []
  | MWord acc => acc
  | MStr acc _ => acc
  | MDir h acc _ => h :: acc
  end.

Lemma ltoks_chars_app : forall a b, ltoks_chars (a ++ b) = ltoks_chars a ++ ltoks_chars b.
Proof. intros. apply flat_map_app. Qed.

Lemma lex_norm_chars : forall bol c,
  ltoks_chars (fst (lex_norm bol c)) ++ pending (snd (lex_norm bol c)) = [c].
Proof.
  intros. unfold lex_norm.
  destruct (is_word (pc_b c)); [reflexivity|]. destruct (pc_b c =? QUOTE); [reflexivity|].
  destruct ((pc_b c =? HASH) && bol); [reflexivity|]. destruct (pc_b c =? NL); [reflexivity|].
  destruct (is_blank (pc_b c) || (pc_b c =? CR)); reflexivity.
Qed.

Lemma lex_step_chars : forall m c,
  ltoks_chars (fst (lex_step m c)) ++ pending (snd (lex_step m c)) = pending m ++ [c].
Proof.
  intros [bol|acc|acc bol|h acc esc] c; simpl.
  - apply lex_norm_chars.
  - destruct (is_word (pc_b c)); [reflexivity|].
    pose proof (lex_norm_chars false c) as E. destruct (lex_norm false c) as [o1 m1].
    unfold ltoks_chars in *. simpl in *. rewrite <- app_assoc, E. reflexivity.
  - destruct (pc_b c =? QUOTE); unfold ltoks_chars; simpl; rewrite ?app_nil_r; reflexivity.
  - destruct (pc_b c =? BSL); [reflexivity|]. destruct (pc_b c =? NL); [|reflexivity].
    destruct esc; unfold ltoks_chars; simpl; rewrite ?app_nil_r; reflexivity.
Qed.

Theorem lex_chars : forall cs m, ltoks_chars (lex m cs) = pending m ++ cs.
Proof.
  induction cs as [|c t IH]; intros m; simpl.
  - destruct m; unfold ltoks_chars; simpl; rewrite ?app_nil_r; reflexivity.
  - pose proof (lex_step_chars m c) as E. destruct (lex_step m c) as [o m'].
    rewrite ltoks_chars_app, IH, app_assoc. simpl in E. rewrite E, <- app_assoc. reflexivity.
Qed.

Definition wordc (c:pchar) : Prop := is_word (pc_b c) = true.
Definition wf_ltok (t:ltok) : Prop :=
  match t with
  | LW w => Forall wordc w
  | LD h _ nl => (pc_b h =? HASH) = true /\ match nl with Some c => (pc_b c =? NL) = true | None => True end
  | _ => True
  end.
(* well-formed tokens; a directive line without its newline can only be the last one *)
Fixpoint wf_toks (l:list ltok) : Prop :=
  match l with
  | [] => True
  | t :: r => wf_ltok t /\ match t with LD _ _ None => r = [] | _ => True end /\ wf_toks r
  end.
Definition wf_mode (m:lmode) : Prop :=
  match m with MWord acc => Forall wordc acc | MDir h _ _ => (pc_b h =? HASH) = true | _ => True end.
(* what a step of the lexer puts out may stand in front of well-formed tokens *)
Definition wf_step (r:list ltok * lmode) : Prop :=
  wf_mode (snd r) /\ forall rest, wf_toks rest -> wf_toks (fst r ++ rest).

Lemma wordc_no_nl : forall w, Forall wordc w -> nl_count w = O.
Proof.
  induction 1 as [|x w H _ IH]; simpl; auto. unfold wordc in H.
  destruct (pc_b x =? NL) eqn:E; auto. apply Z.eqb_eq in E. rewrite E in H. discriminate.
Qed.

Lemma lex_norm_wf : forall bol c, wf_step (lex_norm bol c).
Proof.
  intros. unfold lex_norm, wf_step.
  destruct (is_word (pc_b c)) eqn:W. { simpl. auto. }
  destruct (pc_b c =? QUOTE). { simpl. auto. }
  destruct ((pc_b c =? HASH) && bol) eqn:EH. { apply andb_prop in EH. simpl. tauto. }
  destruct (pc_b c =? NL). { simpl. auto. }
  destruct (is_blank (pc_b c) || (pc_b c =? CR)); simpl; auto.
Qed.

Lemma lex_step_wf : forall m c, wf_mode m -> wf_step (lex_step m c).
Proof.
  intros [bol|acc|acc bol|h acc esc] c Hm; simpl.
  - apply lex_norm_wf.
  - destruct (is_word (pc_b c)) eqn:W.
    { split; simpl; auto. apply Forall_app. auto. }
    destruct (lex_norm_wf false c) as [A B]. destruct (lex_norm false c) as [o1 m1].
    split; simpl in *; auto.
  - destruct (pc_b c =? QUOTE); split; simpl; auto.
  - destruct (pc_b c =? BSL). { split; simpl; auto. }
    destruct (pc_b c =? NL) eqn:ENL; [destruct esc|]; split; simpl; auto.
Qed.

Theorem lex_wf : forall cs m, wf_mode m -> wf_toks (lex m cs).
Proof.
  induction cs as [|c t IH]; intros m Hm; simpl.
  - destruct m; simpl in *; auto.
  - destruct (lex_step_wf m c Hm) as [A B]. destruct (lex_step m c) as [o m']. apply B, IH, A.
Qed.

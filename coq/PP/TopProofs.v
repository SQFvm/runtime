(* C13: laws of the reference expander - file level: the machine [top] one token at a time,
   passthrough, strings inviolate, whole identifiers, inactive branches, the macro table. *)
From Coq Require Import ZArith List Bool Lia.
Import ListNotations.
From SqfVerif Require Import PP.Spec PP.ReaderProofs.
Local Open Scope Z_scope.

(* characters of a text that the reader passes on unchanged: byte, position, empty gap *)
Fixpoint pos_chars (ln col:Z) (s:list byte) : list pchar :=
  match s with
  | [] => []
  | c :: t => mkpc c ln col [] :: (if c =? NL then pos_chars (ln + 1) 0 t else pos_chars ln (col + 1) t)
  end.
Fixpoint pos_end (ln col:Z) (s:list byte) : Z * Z :=
  match s with
  | [] => (ln, col)
  | c :: t => if c =? NL then pos_end (ln + 1) 0 t else pos_end ln (col + 1) t
  end.

Lemma bytes_pos_chars : forall s ln col, bytes (pos_chars ln col s) = s.
Proof. induction s; intros; simpl; auto. destruct (a =? NL); simpl; rewrite IHs; reflexivity. Qed.
Lemma hid_pos_chars : forall s ln col, hid_sum (pos_chars ln col s) = O.
Proof. induction s; intros; simpl; auto. destruct (a =? NL); simpl; rewrite IHs; reflexivity. Qed.
Lemma pos_chars_app : forall a b ln col,
  pos_chars ln col (a ++ b) = pos_chars ln col a ++ pos_chars (fst (pos_end ln col a)) (snd (pos_end ln col a)) b.
Proof.
  induction a; intros; simpl; auto. destruct (a =? NL); simpl; rewrite IHa; reflexivity.
Qed.

(* no CR, no comment start, no backslash-newline *)
Fixpoint plain (s:list byte) : Prop :=
  match s with
  | [] => True
  | c :: t =>
      c <> CR /\
      (c = SLASH -> match t with d :: _ => d <> SLASH /\ d <> STAR | [] => True end) /\
      (c = BSL -> match t with d :: _ => d <> NL /\ d <> CR | [] => True end) /\
      plain t
  end.

Lemma rd_plain : forall s m ln col, plain s -> m = RNormal \/ m = RString ->
  rd m ln col [] s = pos_chars ln col s.
Proof.
  induction s as [|c t IH]; intros m ln col P M; simpl; auto.
  simpl in P. destruct P as (P1 & P2 & P3 & P4).
  destruct (Z.eqb_spec c CR) as [|_]; [contradiction|].
  assert (N: forall ln col, rd RNormal ln col [] t = pos_chars ln col t) by (intros; apply IH; auto).
  assert (S: forall ln col, rd RString ln col [] t = pos_chars ln col t) by (intros; apply IH; auto).
  destruct M; subst m.
  - (* a slash or backslash is followed by nothing that makes a comment or a continuation of it *)
    destruct (Z.eqb_spec c SLASH) as [->|_].
    { destruct t as [|d t']; [reflexivity|]. destruct (P2 eq_refl) as [Q1 Q2].
      apply Z.eqb_neq in Q1, Q2. rewrite Q1, Q2, N. reflexivity. }
    destruct (Z.eqb_spec c BSL) as [->|_].
    { destruct t as [|d t']; [reflexivity|]. destruct (P3 eq_refl) as [Q1 Q2].
      apply Z.eqb_neq in Q1, Q2. rewrite Q1, Q2, N. reflexivity. }
    destruct (Z.eqb_spec c QUOTE) as [->|_]; [rewrite S; reflexivity|].
    destruct (c =? NL); rewrite N; reflexivity.
  - destruct (Z.eqb_spec c QUOTE) as [->|_]; [rewrite N; reflexivity|].
    destruct (c =? NL); rewrite S; reflexivity.
Qed.

(* the reader does not touch a string literal: no comment removal, no continuation *)
Lemma rd_in_string : forall body rest ln col, ~ In QUOTE body -> ~ In CR body ->
  rd RString ln col [] (body ++ QUOTE :: rest) =
  pos_chars ln col (body ++ [QUOTE]) ++
  rd RNormal (fst (pos_end ln col (body ++ [QUOTE]))) (snd (pos_end ln col (body ++ [QUOTE]))) [] rest.
Proof.
  induction body as [|c t IH]; intros rest ln col NQ NC; [reflexivity|].
  simpl in NQ, NC. simpl.
  destruct (Z.eqb_spec c CR) as [->|_]; [tauto|]. destruct (Z.eqb_spec c QUOTE) as [->|_]; [tauto|].
  destruct (c =? NL); rewrite IH by tauto; reflexivity.
Qed.

(* the lexer makes one token of a string literal, and one of an identifier *)
Lemma lex_str_acc : forall sc acc bol q rest, Forall (fun c => pc_b c <> QUOTE) sc -> pc_b q = QUOTE ->
  lex (MStr acc bol) (sc ++ q :: rest) = LS (acc ++ sc ++ [q]) :: lex (MNorm bol) rest.
Proof.
  induction sc as [|c t IH]; intros acc bol q rest F Q.
  - simpl. rewrite Q. simpl. reflexivity.
  - inversion F; subst. simpl. apply Z.eqb_neq in H1. rewrite H1.
    rewrite IH by auto. rewrite <- app_assoc. reflexivity.
Qed.
Lemma lex_word_acc : forall w acc c rest, Forall wordc w -> ~ wordc c ->
  lex (MWord acc) (w ++ c :: rest) = LW (acc ++ w) :: lex (MNorm false) (c :: rest).
Proof.
  induction w as [|a w' IH]; intros acc c rest W NC.
  - simpl. unfold wordc in NC. destruct (is_word (pc_b c)); [congruence|].
    rewrite app_nil_r. destruct (lex_norm false c) as [o m']. reflexivity.
  - inversion W; subst. simpl. unfold wordc in H1. rewrite H1. simpl.
    rewrite IH by auto. rewrite <- app_assoc. reflexivity.
Qed.

Lemma render_src : forall file cs, render (map (src file) cs) = bytes cs.
Proof. induction cs; simpl; auto. unfold render in *. simpl. rewrite IHcs. reflexivity. Qed.

Theorem lookup_remove_same : forall t n, lookup (remove t n) n = None.
Proof.
  induction t as [|[k m] r IH]; intros n; simpl; auto.
  destruct (beq k n) eqn:E; auto. simpl. rewrite E. auto.
Qed.
Theorem lookup_remove_other : forall t n k, n <> k -> lookup (remove t n) k = lookup t k.
Proof.
  induction t as [|[k0 m] r IH]; intros n k N; simpl; auto.
  destruct (beq_spec k0 n) as [->|]; simpl; [destruct (beq_spec n k); [congruence|auto] | destruct (beq k0 k); auto].
Qed.
Theorem lookup_define_same : forall t n m, lookup (define t n m) n = Some m.
Proof. intros. unfold define. simpl. destruct (beq_spec n n); congruence. Qed.
Theorem lookup_define_other : forall t n m k, n <> k -> lookup (define t n m) k = lookup t k.
Proof. intros. unfold define. simpl. destruct (beq_spec n k); [congruence | apply lookup_remove_other; auto]. Qed.

(* tokens that are written to the output as they are *)
Definition verbatim_tok (tbl:table) (t:ltok) : Prop :=
  match t with
  | LW w => lookup tbl (bytes w) = None
  | LS _ => True
  | LC _ => True
  | LD _ _ _ => False
  end.

Definition is_nl_item (o:oitem) : Prop := match o with OChar b _ => b = NL | OLine _ _ => False end.
Definition dir_of (t:ltok) : option directive :=
  match t with LD _ l _ => Some (parse_directive (bytes l)) | _ => None end.
(* tokens other than conditional directives (an unknown directive is an error everywhere: S8) *)
Definition quiet (t:ltok) : Prop :=
  match dir_of t with
  | None => True
  | Some (DDefine _ _) | Some (DUndef _) | Some (DInclude _) | Some DPragma => True
  | Some _ => False
  end.
Definition is_if (t:ltok) : Prop :=
  match dir_of t with Some (DIfdef _) | Some (DIfndef _) => True | _ => False end.
Definition is_else (t:ltok) : Prop := match dir_of t with Some DElse => True | _ => False end.
Definition is_endif (t:ltok) : Prop := match dir_of t with Some DEndif => True | _ => False end.

(* a stretch of a file in which every #ifdef/#ifndef has its #endif *)
Inductive inert : list ltok -> Prop :=
| inert_nil : inert []
| inert_tok : forall t l, wf_ltok t -> quiet t -> inert l -> inert (t :: l)
| inert_if : forall i a e l, wf_ltok i -> is_if i -> inert a -> wf_ltok e -> is_endif e -> inert l ->
    inert (i :: a ++ e :: l)
| inert_ifelse : forall i a el b e l, wf_ltok i -> is_if i -> inert a -> wf_ltok el -> is_else el ->
    inert b -> wf_ltok e -> is_endif e -> inert l ->
    inert (i :: a ++ el :: b ++ e :: l).

Definition apply_dir (t:table) (dir:directive) : table :=
  match dir with DDefine n m => define t n m | DUndef n => remove t n | _ => t end.
Definition dir_or_unknown (t:ltok) : directive := match dir_of t with Some x => x | None => DUnknown end.
Definition is_defundef (t:ltok) : Prop :=
  match dir_of t with Some (DDefine _ _) | Some (DUndef _) => True | _ => False end.

(* whether text is written under the condition stack [cs]: [active st] is [on (ts_conds st)] *)
Definition on (cs:list cond) : bool := match cs with [] => true | c :: _ => c_on c end.
Definition defined (tbl:table) (n:list byte) : bool :=
  match lookup tbl n with Some _ => true | None => false end.
(* the condition stack behind a directive line (None: the line is an error); an #include that is
   obeyed writes more than its line and is not meant *)
Definition dir_conds (act:bool) (tbl:table) (dir:directive) (cs:list cond) : option (list cond) :=
  match dir with
  | DIfdef n => Some (mkcond (act && defined tbl n) act :: cs)
  | DIfndef n => Some (mkcond (act && negb (defined tbl n)) act :: cs)
  | DElse => match cs with
             | c :: cs' => Some (mkcond (if c_parent c then negb (c_on c) else c_on c) (c_parent c) :: cs')
             | [] => None end
  | DEndif => match cs with _ :: cs' => Some cs' | [] => None end
  | DUnknown => None
  | DDefine _ _ | DUndef _ | DInclude _ | DPragma => Some cs
  end.

Section Top.
  Variable d : defects.
  Variable file : list byte.
  Variable eof_line : Z.
  Variable dfuel : nat.
  Variable incl : table -> list byte -> res (list oitem * table * bool).
  Notation topD := (top d file eof_line dfuel incl).
  Notation src := (src file).

  Lemma add_pend_0 : forall st b, add_pend st 0 b = st.
  Proof.
    intros [t c p h] b. unfold add_pend; simpl. rewrite Nat.add_0_r.
    rewrite andb_false_r, orb_false_r. reflexivity.
  Qed.

  Lemma flush_nl : forall n, Forall is_nl_item (flush d n).
  Proof.
    intros. unfold flush. destruct (d_missing_newlines d); [constructor|].
    induction n; simpl; constructor; simpl; auto.
  Qed.
  Lemma nl_only_nl : forall s, Forall is_nl_item (nl_only file s).
  Proof.
    induction s; unfold nl_only in *; simpl; [constructor|].
    destruct (pc_b a =? NL) eqn:E; simpl; auto. constructor; auto. simpl. apply Z.eqb_eq; auto.
  Qed.

  (* what [top] does with the token in front: the items it writes, how many of the following tokens
     it consumes with it (the arguments of a call), the next state *)
  Definition tok_step (st:tstate) (t:ltok) (rest:list ltok) : res (list oitem * nat * tstate) :=
    match t with
    | LW w => let st1 := add_pend st (hid_sum w) true in
              if active st1 then top_word file eof_line dfuel st1 w rest else Ok ([], O, st1)
    | LS s => let st1 := add_pend st (hid_sum s) true in
              Ok (if active st1 then map src s else if d_missing_newlines d then [] else nl_only file s, O, st1)
    | LC c => let st1 := add_pend st (hid c) true in
              if pc_b c =? NL then Ok (flush d (ts_pend st1) ++ [src c], O, clear_pend st1)
              else Ok (if active st1 then [src c] else [], O, st1)
    | LD h l nl => bind (top_directive d file eof_line incl st h l nl) (fun r => Ok (fst r, O, snd r))
    end.

  Lemma top_cons_eq : forall st t rest,
    topD st O (t :: rest) =
    bind (tok_step st t rest) (fun r =>
      bind (topD (snd r) (snd (fst r)) rest) (fun r2 => Ok (fst (fst r) ++ fst r2, snd r2))).
  Proof.
    intros st [w|s|c|h l nl] rest; simpl.
    - destruct (active _); [destruct (top_word _ _ _ _ w rest) as [[[o k] st2]|]; reflexivity|].
      simpl. destruct (topD _ 0 rest) as [[i s]|]; reflexivity.
    - reflexivity.
    - destruct (pc_b c =? NL); simpl.
      + destruct (topD _ 0 rest) as [[i s]|]; simpl; [rewrite <- app_assoc|]; reflexivity.
      + destruct (active _); [reflexivity|]. destruct (topD _ 0 rest) as [[i s]|]; reflexivity.
    - destruct (top_directive _ _ _ _ st h l nl) as [[o st2]|]; reflexivity.
  Qed.

  Lemma top_cons : forall st t rest items st',
    topD st O (t :: rest) = Ok (items, st') ->
    exists o k st2 items', tok_step st t rest = Ok (o, k, st2) /\ items = o ++ items' /\
                           topD st2 k rest = Ok (items', st').
  Proof.
    intros st t rest items st' H. rewrite top_cons_eq in H.
    apply bind_ok in H. destruct H as ([[o k] st2] & S & H).
    apply bind_ok in H. destruct H as ([items' s'] & T & H). inversion H; subst. exists o, k, st2, items'. auto.
  Qed.

  Lemma top_word_cases : forall st w rest o k st2,
    top_word file eof_line dfuel st w rest = Ok (o, k, st2) ->
    (o = map src w /\ k = O /\ st2 = st) \/
    (exists x, o = map mac x /\
       st2 = set_hidden (add_pend st (hid_sum (ltoks_chars (firstn k rest))) true)
                        (negb (Nat.eqb (nl_count (ltoks_chars (firstn k rest))) O) || negb (Nat.eqb (count_nl x) O))).
  Proof.
    intros st w rest o k st2. unfold top_word.
    destruct (lookup (ts_tbl st) (bytes w)) as [m|]; [|intros H; injection H as <- <- <-; auto].
    destruct (callable m).
    - destruct rest as [|[| |c|] rest']; try (intros H; injection H as <- <- <-; auto; fail).
      destruct (pc_b c =? LPAR); [|intros H; injection H as <- <- <-; auto].
      destruct (split_args (nparams m) (map ltok_btok rest')) as [[raw cnt]|]; [|discriminate].
      intros H. apply bind_ok in H. destruct H as (args & _ & H).
      apply bind_ok in H. destruct H as (x & _ & H). injection H as <- <- <-. right. exists x. auto.
    - intros H. apply bind_ok in H. destruct H as (x & _ & H). injection H as <- <- <-. right. exists x.
      simpl. rewrite add_pend_0. auto.
  Qed.

  (* the state in which a directive line is interpreted: the newlines the line has swallowed are pending *)
  Definition dir_state (st:tstate) (h:pchar) (l:list pchar) (nl:option pchar) : tstate :=
    add_pend st (hid h + (hid_sum l + nl_count l) +
                 match nl with
                 | Some c => hid c
                 | None => let z := last l h in
                           Z.to_nat (eof_line - pc_line z - (if pc_b z =? NL then 1 else 0))
                 end) false.
  Definition nl_item (nl:option pchar) : oitem :=
    match nl with Some c => src c | None => OChar NL PSynth end.

  Lemma nl_item_nl : forall h l nl, wf_ltok (LD h l nl) -> is_nl_item (nl_item nl).
  Proof. intros h l [c|] [_ W]; simpl; auto. apply Z.eqb_eq; auto. Qed.

  (* A directive line is answered by the pending newlines and its own; it changes the table (#define,
     #undef in an active region) or the condition stack, nothing else - unless it is an #include that
     is obeyed. *)
  Lemma top_directive_ok : forall st h l nl o st2,
    top_directive d file eof_line incl st h l nl = Ok (o, st2) ->
    let st1 := dir_state st h l nl in
    let dir := parse_directive (bytes l) in
    (exists cs, dir_conds (active st) (ts_tbl st1) dir (ts_conds st1) = Some cs /\
       o = flush d (ts_pend st1) ++ [nl_item nl] /\
       st2 = mkts (if active st then apply_dir (ts_tbl st1) dir else ts_tbl st1) cs O (ts_hidden st1)) \/
    (exists path its tbl' hd, dir = DInclude path /\ active st = true /\
       incl (ts_tbl st1) path = Ok (its, tbl', hd) /\
       o = flush d (ts_pend st1) ++ OLine 1 (match its with OLine _ f :: _ => f | _ => [] end)
             :: its ++ [OChar NL PSynth; OLine (match nl with Some c => pc_line c | None => eof_line - 1 end) file] /\
       st2 = set_hidden (clear_pend (set_tbl st1 tbl')) hd).
  Proof.
    intros st h l nl o st2. unfold top_directive, dir_state, nl_item. cbv zeta.
    set (st1 := add_pend st _ false).
    destruct (parse_directive (bytes l)) as [n m|n|n|n| | |path| |]; cbv beta iota.
    (* #define, #undef, #ifdef, #ifndef, #pragma: the plain answer, whatever the state *)
    1-4, 8: intros H; injection H as <- <-; left; destruct (active st); eexists; repeat split; reflexivity.
    (* #else, #endif: an error on an empty stack *)
    1-2: destruct (ts_conds st1); [discriminate|]; intros H; injection H as <- <-; left;
         destruct (active st); eexists; repeat split; reflexivity.
    - destruct (active st); [|intros H; injection H as <- <-; left; eexists; repeat split; reflexivity].
      intros H. apply bind_ok in H. destruct H as ([[its tbl'] hd] & EI & H). injection H as <- <-.
      right. exists path, its, tbl', hd. auto.
    - discriminate.
  Qed.

  Lemma top_verbatim : forall toks st, active st = true -> ts_pend st = O ->
    Forall (verbatim_tok (ts_tbl st)) toks -> hid_sum (ltoks_chars toks) = O ->
    topD st O toks = Ok (map src (ltoks_chars toks), st).
  Proof.
    induction toks as [|t rest IH]; intros st A P F H.
    { reflexivity. }
    inversion F as [|x y Ft Fr]; subst.
    change (ltoks_chars (t :: rest)) with (ltok_chars t ++ ltoks_chars rest) in *.
    rewrite hid_sum_app in H.
    assert (S: tok_step st t rest = Ok (map src (ltok_chars t), O, st)).
    { destruct t as [w|s|c|h l nl]; simpl in *.
      - replace (hid_sum w) with O by lia. rewrite add_pend_0, A. unfold top_word. rewrite Ft. reflexivity.
      - replace (hid_sum s) with O by lia. rewrite add_pend_0, A. reflexivity.
      - replace (hid c) with O by lia. rewrite add_pend_0, A, P.
        destruct (pc_b c =? NL); [|reflexivity].
        unfold flush. destruct (d_missing_newlines d), st; simpl in *; subst; reflexivity.
      - contradiction. }
    rewrite top_cons_eq, S. simpl. rewrite (IH st A P Fr) by lia. simpl. rewrite map_app. reflexivity.
  Qed.

  (* only the whole identifier is looked up: when it is no macro it is written as it is *)
  Theorem whole_identifier_only : forall st w rest,
    active (add_pend st (hid_sum w) true) = true ->
    lookup (ts_tbl st) (bytes w) = None ->
    topD st O (LW w :: rest) =
    bind (topD (add_pend st (hid_sum w) true) O rest) (fun r => Ok (map src w ++ fst r, snd r)).
  Proof.
    intros st w rest A L. simpl. rewrite A. unfold top_word. simpl. rewrite L. reflexivity.
  Qed.

  (* a stretch of a file that is answered by newlines only:
     [toks], met with table [tbl] and condition stack [cs], contribute newline bytes only, and
     processing goes on behind them with [tbl'] and [cs'] *)
  Definition nl_run (tbl:table) (cs:list cond) (toks:list ltok) (tbl':table) (cs':list cond) : Prop :=
    forall st rest items st', ts_tbl st = tbl -> ts_conds st = cs ->
    topD st O (toks ++ rest) = Ok (items, st') ->
    exists o st1 items', items = o ++ items' /\ Forall is_nl_item o /\
      ts_tbl st1 = tbl' /\ ts_conds st1 = cs' /\ topD st1 O rest = Ok (items', st').

  Lemma nl_run_nil : forall tbl cs, nl_run tbl cs [] tbl cs.
  Proof. intros tbl cs st rest items st' T C H. exists [], st, items. auto. Qed.

  Lemma nl_run_app : forall tbl cs a tbl1 cs1 b tbl2 cs2,
    nl_run tbl cs a tbl1 cs1 -> nl_run tbl1 cs1 b tbl2 cs2 -> nl_run tbl cs (a ++ b) tbl2 cs2.
  Proof.
    intros tbl cs a tbl1 cs1 b tbl2 cs2 Ra Rb st rest items st' T C H. rewrite <- app_assoc in H.
    destruct (Ra st _ items st' T C H) as (o1 & s1 & i1 & -> & N1 & T1 & C1 & H1).
    destruct (Rb s1 rest i1 st' T1 C1 H1) as (o2 & s2 & i2 & -> & N2 & T2 & C2 & H2).
    exists (o1 ++ o2), s2, i2. rewrite app_assoc. repeat split; auto. apply Forall_app; auto.
  Qed.

  Lemma nl_run_tok : forall tbl cs t tbl' cs',
    (forall st rest o k st1, ts_tbl st = tbl -> ts_conds st = cs -> tok_step st t rest = Ok (o, k, st1) ->
       k = O /\ Forall is_nl_item o /\ ts_tbl st1 = tbl' /\ ts_conds st1 = cs') ->
    nl_run tbl cs [t] tbl' cs'.
  Proof.
    intros tbl cs t tbl' cs' S st rest items st' T C H.
    apply top_cons in H. destruct H as (o & k & st1 & items' & E & -> & H).
    destruct (S st rest o k st1 T C E) as (-> & N & T1 & C1). exists o, st1, items'. auto.
  Qed.

  Lemma text_inactive : forall tbl cs t, on cs = false -> dir_of t = None -> nl_run tbl cs [t] tbl cs.
  Proof.
    intros tbl cs t A D. apply nl_run_tok. intros st rest o k st1 T C.
    assert (A1: forall n, active (add_pend st n true) = false) by (intros; unfold active; simpl; rewrite C; exact A).
    destruct t as [w|s|c|h l nl]; simpl; rewrite ?A1; try discriminate.
    - intros H; injection H as <- <- <-. auto.
    - intros H; injection H as <- <- <-. repeat split; auto.
      destruct (d_missing_newlines d); [constructor | apply nl_only_nl].
    - destruct (pc_b c =? NL) eqn:E; intros H; injection H as <- <- <-; repeat split; auto.
      apply Forall_app. split; [apply flush_nl|]. repeat constructor. apply Z.eqb_eq; auto.
  Qed.

  Lemma directive_run : forall tbl cs t dir cs', wf_ltok t -> dir_of t = Some dir ->
    (on cs = true -> forall path, dir <> DInclude path) ->
    dir_conds (on cs) tbl dir cs = Some cs' ->
    nl_run tbl cs [t] (if on cs then apply_dir tbl dir else tbl) cs'.
  Proof.
    intros tbl cs [| | |h l nl] dir cs' W D NI DC; inversion D; subst dir.
    apply nl_run_tok. intros st rest o k st1 T C H. simpl in H.
    apply bind_ok in H. destruct H as ([o' st2] & H & E). injection E as <- <- <-.
    apply top_directive_ok in H. change (active st) with (on (ts_conds st)) in H.
    destruct H as [(cs'' & DC' & -> & ->)|(path & _ & _ & _ & EP & A & _)].
    - simpl in DC'. subst tbl cs. rewrite DC in DC'. injection DC' as <-.
      repeat split; auto. apply Forall_app. split; [apply flush_nl|]. repeat constructor. eapply nl_item_nl; eauto.
    - subst cs. destruct (NI A path EP).
  Qed.

  Lemma directive_inactive : forall tbl cs t dir cs', on cs = false -> wf_ltok t -> dir_of t = Some dir ->
    dir_conds false tbl dir cs = Some cs' -> nl_run tbl cs [t] tbl cs'.
  Proof.
    intros tbl cs t dir cs' A W D DC. pose proof (directive_run tbl cs t dir cs' W D) as R.
    rewrite A in R. apply R; [discriminate | exact DC].
  Qed.

  Lemma quiet_run : forall tbl cs t, on cs = false -> wf_ltok t -> quiet t -> nl_run tbl cs [t] tbl cs.
  Proof.
    intros tbl cs t A W Q. unfold quiet in Q.
    destruct (dir_of t) as [[]|] eqn:D; try contradiction;
      [eapply directive_inactive; eauto; reflexivity .. | apply text_inactive; auto].
  Qed.
  Lemma if_run : forall tbl cs t, on cs = false -> wf_ltok t -> is_if t ->
    nl_run tbl cs [t] tbl (mkcond false false :: cs).
  Proof.
    intros tbl cs t A W I. unfold is_if in I.
    destruct (dir_of t) as [[]|] eqn:D; try contradiction; eapply directive_inactive; eauto; reflexivity.
  Qed.
  Lemma else_run : forall tbl cs t, wf_ltok t -> is_else t ->
    nl_run tbl (mkcond false false :: cs) [t] tbl (mkcond false false :: cs).
  Proof.
    intros tbl cs t W I. unfold is_else in I.
    destruct (dir_of t) as [[]|] eqn:D; try contradiction; eapply directive_inactive; eauto; reflexivity.
  Qed.
  Lemma endif_run : forall tbl c cs t, c_on c = false -> wf_ltok t -> is_endif t -> nl_run tbl (c :: cs) [t] tbl cs.
  Proof.
    intros tbl c cs t A W I. unfold is_endif in I.
    destruct (dir_of t) as [[]|] eqn:D; try contradiction; eapply directive_inactive; eauto; reflexivity.
  Qed.

  Lemma inert_run : forall toks, inert toks -> forall tbl cs, on cs = false -> nl_run tbl cs toks tbl cs.
  Proof.
    induction 1 as [|t l W Q _ IH|i a e l Wi Ii _ IHa We Ie _ IHl|i a el b e l Wi Ii _ IHa Wel Iel _ IHb We Ie _ IHl];
      intros tbl cs A.
    - apply nl_run_nil.
    - apply (nl_run_app _ _ [t] tbl cs); [apply quiet_run|]; auto.
    - eapply (nl_run_app _ _ [i]); [apply if_run; auto|].
      eapply nl_run_app; [apply IHa; reflexivity|].
      eapply (nl_run_app _ _ [e]); [apply endif_run|]; auto.
    - eapply (nl_run_app _ _ [i]); [apply if_run; auto|].
      eapply nl_run_app; [apply IHa; reflexivity|].
      eapply (nl_run_app _ _ [el]); [apply else_run; auto|].
      eapply nl_run_app; [apply IHb; reflexivity|].
      eapply (nl_run_app _ _ [e]); [apply endif_run|]; auto.
  Qed.

  (* inactive_never_emitted: a balanced stretch of an inactive branch - text, strings, macro uses,
     #define, #undef, #include, nested conditionals with their #else - contributes newlines only,
     leaves the macro table and the condition stack as they were, and processing goes on behind it. *)
  Theorem inactive_never_emitted : forall toks, inert toks ->
    forall st rest items st', active st = false ->
    topD st O (toks ++ rest) = Ok (items, st') ->
    exists o st1 items', items = o ++ items' /\ Forall is_nl_item o /\
      ts_tbl st1 = ts_tbl st /\ ts_conds st1 = ts_conds st /\ topD st1 O rest = Ok (items', st').
  Proof.
    intros toks I st rest items st' A H.
    exact (inert_run toks I (ts_tbl st) (ts_conds st) A st rest items st' eq_refl eq_refl H).
  Qed.

  Lemma defundef_run : forall ds tbl cs, on cs = true -> Forall wf_ltok ds -> Forall is_defundef ds ->
    nl_run tbl cs ds (fold_left apply_dir (map dir_or_unknown ds) tbl) cs.
  Proof.
    induction ds as [|t r IH]; intros tbl cs A W I; [apply nl_run_nil|].
    inversion W as [|x y Wt Wr]; inversion I as [|x' y' It Ir]; subst.
    apply (nl_run_app _ _ [t] (apply_dir tbl (dir_or_unknown t)) cs); [|apply IH; auto].
    unfold is_defundef, dir_or_unknown in *.
    destruct (dir_of t) as [dir|] eqn:D; [|contradiction].
    pose proof (directive_run tbl cs t dir cs Wt D) as R. rewrite A in R.
    apply R; destruct dir; try contradiction; try discriminate; reflexivity.
  Qed.

  (* define_undef_table: a sequence of #define / #undef lines in an active region leaves exactly the
     table that results from applying them in order (define replaces, undef removes; the four lookup
     laws above say what that means for every name), and each line is answered by newlines only. *)
  Theorem define_undef_table : forall ds st rest items st',
    active st = true -> Forall wf_ltok ds -> Forall is_defundef ds ->
    topD st O (ds ++ rest) = Ok (items, st') ->
    exists o st1 items', items = o ++ items' /\ Forall is_nl_item o /\
      ts_tbl st1 = fold_left apply_dir (map dir_or_unknown ds) (ts_tbl st) /\
      ts_conds st1 = ts_conds st /\ topD st1 O rest = Ok (items', st').
  Proof.
    intros ds st rest items st' A W I H.
    exact (defundef_run ds (ts_tbl st) (ts_conds st) A W I st rest items st' eq_refl eq_refl H).
  Qed.
End Top.

(* passthrough: a text with no comment, continuation or CR (plain), no directive and no macro name
   reaches the output byte for byte - behind the '#line 0' that opens the file. *)
Theorem passthrough : forall d fs file s,
  plain s ->
  Forall (verbatim_tok initial_table) (lex (MNorm true) (read s)) ->
  preprocess d fs file s = Ok (OLine 0 file :: map (src file) (read s), initial_table, false) /\
  render (map (src file) (read s)) = s.
Proof.
  intros d fs file s P F.
  assert (R: read s = pos_chars 1 0 s) by (apply rd_plain; auto).
  split.
  - unfold preprocess. cbn [pp_file].
    rewrite (top_verbatim d file _ _ _ _ (mkts initial_table [] 0 false)); auto.
    + simpl. rewrite lex_chars. reflexivity.
    + rewrite lex_chars. simpl. rewrite R. apply hid_pos_chars.
  - rewrite render_src, R. apply bytes_pos_chars.
Qed.

(* the directive lines of the property's grammar are read as intended *)
Definition str_define_A_1 := [100;101;102;105;110;101;32;65;32;49].             (* define A 1 *)
Definition str_define_F := [100;101;102;105;110;101;32;70;40;88;44;32;89;41;32;88;43;89]. (* define F(X, Y) X+Y *)
Example parse_object_like : parse_directive str_define_A_1 = DDefine [65] (mkmacro None [49] None).
Proof. vm_compute. reflexivity. Qed.
Example parse_function_like :
  parse_directive str_define_F = DDefine [70] (mkmacro (Some [[88];[89]]) [88;43;89] None).
Proof. vm_compute. reflexivity. Qed.
Example parse_undef : parse_directive [117;110;100;101;102;32;65;32] = DUndef [65].
Proof. vm_compute. reflexivity. Qed.

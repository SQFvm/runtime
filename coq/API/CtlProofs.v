(* C19 - proofs about runtime::execute(action) issued one after another (the sequential part):
   result/state table, the idle invariant, exactly-one-instruction steps, line steps. *)
From Coq Require Import String Ascii.
From Coq Require Import ZArith List Bool Lia.
From SqfVerif Require Import Gen.DiagCodes Gen.ResultMap VM.VmDefs VM.VmExec VM.C04Defs VM.C04Proofs API.CtlDefs.
Import ListNotations.
Local Open Scope list_scope.
Opaque frame_fuel exec_fuel.

Definition good (x:rresult) : Prop := x = ROk \/ x = REmpty \/ x = RRuntimeError.

Lemma do_iter_return_good : forall r x r', do_iter r = Ok (Return x r') -> good x.
Proof.
  intros r x r' H. apply do_iter_pass in H. remember (Return x r') as it eqn:E. unfold good.
  destruct H; try destruct b; inversion E; auto.
Qed.

Lemma execute_do_good : forall fuel r n x r', execute_do fuel r n = Ok (x, r') -> good x.
Proof.
  induction fuel as [|fuel IH]; intros r n x r' H; cbn [execute_do] in H; [discriminate|].
  destruct (r_exit_req r). { injection H as <- <-. left. reflexivity. }
  destruct n as [|n]. { injection H as <- <-. left. reflexivity. }
  destruct (do_iter r) as [it| | |] eqn:E; cbn [bindr] in H; try discriminate.
  destruct it as [r1|r1|x1 r1].
  - eapply IH; eassumption.
  - eapply IH; eassumption.
  - injection H as <- <-. eapply do_iter_return_good; eassumption.
Qed.

Definition pass_rt (p:passres) : rt := match p with PassDone _ r => r | PassExit _ r => r end.

Lemma sp_step_good : forall r0 c x r', sp_step r0 c = Ok (x, r') -> good x.
Proof.
  intros r0 c x r' H. unfold sp_step in H. destruct (c_suspended c).
  - destruct (now r0) as [t r1]. destruct (Z.leb (c_wakeup c) t).
    + eapply execute_do_good; eassumption.
    + match type of H with (let '(_, _) := ?d in _) = _ => destruct d as [expired r2] end.
      destruct expired; injection H as <- _; [right; right; reflexivity|left; reflexivity].
  - eapply execute_do_good; eassumption.
Qed.

Lemma visit_good : forall r i x1 r2, visit r i x1 r2 -> good x1.
Proof. intros r i x1 r2 [c00 [_ Es]]. exact (sp_step_good _ _ _ _ Es). Qed.

(* a pass ends with the result of its last visit, or with the result it was given if it visits nothing *)
Lemma visits_good : forall r i x0 p, visits r i x0 p -> good x0 \/ i < length (r_ctxs r) -> good (pass_res p).
Proof.
  induction 1 as [r i x Hi|r i x x1 r2 V Ee|r i x x1 r2 V Ee N1 N2|r i x r2 V Ee Er|r i x r2 p V Ee Er _ IH|r i x r2 p V Ee _ IH];
    intros Hg; cbn [pass_res].
  - destruct Hg as [Hg|Hg]; [exact Hg|lia].
  - exact (visit_good _ _ _ _ V).
  - exact (visit_good _ _ _ _ V).
  - right. left. reflexivity.
  - apply IH. left. right. left. reflexivity.
  - apply IH. left. left. reflexivity.
Qed.

Lemma start_loop_good : forall fuel r x0 x r', start_loop fuel r x0 = Ok (x, r') ->
  (good x0 \/ r_ctxs r <> []) -> good x.
Proof.
  intros fuel r x0 x r' H Hg.
  refine (start_loop_rule (fun x1 r1 => good x1 \/ r_ctxs r1 <> []) (fun x1 _ => good x1) _ _ fuel x0 r x r' Hg H).
  - intros x1 r1 [G|G] E; [exact G|contradiction].
  - intros x1 r1 p _ Hne V. apply visits_good in V; [|right; destruct (r_ctxs r1); [contradiction|cbn; lia]].
    destruct p; [left; exact V|exact V].
Qed.

Section Loops.
Variable d : cdefects.
Variable dg : code -> nat -> nat * nat.

Lemma line_loop_good : forall fuel r dinf x0 x r', line_loop d dg fuel r dinf x0 = Ok (x, r') ->
  (good x0 \/ loop_on r = true) -> good x.
Proof.
  induction fuel as [|fuel IH]; intros r dinf x0 x r' H Hg; cbn [line_loop] in H; [discriminate|].
  destruct (loop_on r) eqn:El; cbn [negb] in H.
  2:{ injection H as <- <-. destruct Hg as [Hg|Hg]; [exact Hg|discriminate]. }
  match type of H with bindr ?a _ = _ => destruct a as [[r0 dinf1]| | |] eqn:E0 end; cbn [bindr] in H; try discriminate.
  destruct (execute_do exec_fuel (resolve_active r0) 1) as [[x1 r1]| | |] eqn:Ed; cbn [bindr] in H; try discriminate.
  apply execute_do_good in Ed.
  destruct x1; try (injection H as <- <-; exact Ed).
  (* the pass returns ok, or the loop goes on with ok *)
  assert (Next : forall r2, line_loop d dg fuel r2 dinf1 ROk = Ok (x, r') -> good x).
  { intros r2 G. eapply IH; [exact G|left; exact Ed]. }
  destruct dinf1 as [d0|]; [|exact (Next _ H)].
  destruct (look d r1) as [[r2 top]| | |]; cbn [bindr] in H; try discriminate.
  destruct top as [f|]; [|exact (Next _ H)].
  destruct (peek_pos d dg f) as [[d1|]| | |]; cbn [bindr] in H; try discriminate; [|exact (Next _ H)].
  destruct (differs d d0 d1); [injection H as <- <-; exact Ed|exact (Next _ H)].
Qed.

Lemma leave_loop_good : forall fuel r scope x0 x r', leave_loop fuel r scope x0 = Ok (x, r') ->
  (good x0 \/ loop_on r = true) -> good x.
Proof.
  induction fuel as [|fuel IH]; intros r scope x0 x r' H Hg; cbn [leave_loop] in H; [discriminate|].
  destruct (loop_on r) eqn:El; cbn [negb] in H.
  2:{ injection H as <- <-. destruct Hg as [Hg|Hg]; [exact Hg|discriminate]. }
  destruct (execute_do exec_fuel (resolve_active r) 1) as [[x1 r1]| | |] eqn:Ed; cbn [bindr] in H; try discriminate.
  apply execute_do_good in Ed.
  destruct x1; try (injection H as <- <-; exact Ed).
  destruct (cur r1) as [c|]; [|discriminate].
  destruct scope as [n|]. 2:{ injection H as <- <-. exact Ed. }
  destruct (Nat.leb (length (c_frames c)) n).
  - injection H as <- <-. exact Ed.
  - eapply IH; [exact H|left; exact Ed].
Qed.
End Loops.

Definition table (x:rresult) : rstate :=
  match x with REmpty => StEmpty | ROk => StHalted | RInvalid | RActionError | RRuntimeError => StHaltedError end.

Lemma state_of_result_table : forall x r, r_state (state_of_result x r) = table x.
Proof. intros x r. destruct x; reflexivity. Qed.

Definition result_name (x:rresult) : string :=
  match x with RInvalid => "invalid" | REmpty => "empty" | ROk => "ok" | RActionError => "action_error" | RRuntimeError => "runtime_error" end.
Definition state_name (s:rstate) : string :=
  match s with StEmpty => "empty" | StHalted => "halted" | StRunning => "running" | StHaltedError => "halted_error" end.
Definition all_results : list rresult := [RInvalid; REmpty; ROk; RActionError; RRuntimeError].
Definition model_switch : list (string * string) := map (fun x => (result_name x, state_name (table x))) all_results.

Definition pair_eqb (a b:string * string) : bool := andb (String.eqb (fst a) (fst b)) (String.eqb (snd a) (snd b)).
Fixpoint list_eqb {A} (e:A -> A -> bool) (a b:list A) : bool :=
  match a, b with [], [] => true | x :: a', y :: b' => andb (e x y) (list_eqb e a' b') | _, _ => false end.
Lemma list_eqb_eq : forall a b, list_eqb pair_eqb a b = true -> a = b.
Proof.
  induction a as [|[a1 a2] a IH]; destruct b as [|[b1 b2] b]; cbn; intros H; try discriminate; [reflexivity|].
  apply andb_prop in H. destruct H as [H1 H2]. unfold pair_eqb in H1. cbn in H1. apply andb_prop in H1. destruct H1 as [Ha Hb].
  apply String.eqb_eq in Ha. apply String.eqb_eq in Hb. subst. f_equal. apply IH. exact H2.
Qed.

(* every `switch (res)` block of runtime::execute that assigns m_state is the model's table, and each of the four
   executing actions has one *)
Definition switches_ok : bool :=
  andb (forallb (fun blk => list_eqb pair_eqb (snd blk) model_switch) state_switches)
       (forallb (fun a => existsb (fun blk => String.eqb (fst blk) a) state_switches)
                ["start"; "assembly_step"; "line_step"; "leave_scope"]%string).

Lemma switches_ok_spec : switches_ok = true ->
  (forall blk, In blk state_switches -> snd blk = model_switch) /\
  (forall a, In a ["start"; "assembly_step"; "line_step"; "leave_scope"]%string -> exists t, In (a, t) state_switches).
Proof.
  unfold switches_ok. intros H. apply andb_prop in H. destruct H as [H1 H2]. split.
  - intros blk Hin. rewrite forallb_forall in H1. apply list_eqb_eq. apply H1. exact Hin.
  - intros a Hin. rewrite forallb_forall in H2. specialize (H2 a Hin). apply existsb_exists in H2.
    destruct H2 as [[n t] [Hb He]]. cbn in He. apply String.eqb_eq in He. subst. exists t. exact Hb.
Qed.

(* numeric values of the enumerators, as the harness and sqfvm_status report them *)
Definition result_num (x:rresult) : Z := match x with RInvalid => -2 | REmpty => -1 | ROk => 0 | RActionError => 1 | RRuntimeError => 2 end.
Definition state_num (s:rstate) : Z := match s with StEmpty => 0 | StHalted => 1 | StRunning => 2 | StHaltedError => 3 end.
Fixpoint zassoc (k:string) (l:list (string * Z)) : option Z :=
  match l with [] => None | (k', v) :: r => if String.eqb k k' then Some v else zassoc k r end.
Definition enums_ok : bool :=
  andb (forallb (fun x => match zassoc (result_name x) result_enum with Some v => Z.eqb v (result_num x) | None => false end) all_results)
       (forallb (fun s => match zassoc (state_name s) state_enum with Some v => Z.eqb v (state_num s) | None => false end)
                [StEmpty; StHalted; StRunning; StHaltedError]).

Definition executing (a:action) : bool :=
  match a with AStart | AAssemblyStep | ALineStep | ALeaveScope => true | AStop | AAbort => false end.

Lemma loop_on_true : forall r, r_exit_req r = false -> r_halt_req r = false -> r_ctxs r <> [] -> loop_on r = true.
Proof. intros r E H C. unfold loop_on. rewrite E, H. destruct (r_ctxs r); [congruence|reflexivity]. Qed.

(* what an executing action that got the run flag returns, whatever loop it runs *)
Definition exec_outcome (x:rresult) (r':rt) : Prop :=
  good x /\ r_run r' = false /\
  r_state r' = (if r_exit_req r' then StEmpty else table x) /\
  (r_exit_req r' = true -> r_ctxs r' = [] /\ r_active r' = None).

Lemma finish_outcome : forall x r, good x -> exec_outcome x (finish_action x r).
Proof.
  intros x r Hg. destruct (finish_action_fields x r) as [H1 [H2 [_ [_ [A B]]]]]. unfold exec_outcome.
  split; [exact Hg|]. split; [exact H1|]. rewrite H2. destruct (r_exit_req r).
  - destruct (A eq_refl) as [Hs [Hc Ha]]. auto.
  - destruct (B eq_refl) as [Hs _]. rewrite Hs, state_of_result_table. split; [reflexivity|discriminate].
Qed.

Section Table.
Variable dg : code -> nat -> nat * nat.
Notation exec := (execute_ctl ctl_repaired dg).

Lemma first_res_repaired : forall r, good (first_res ctl_repaired r) \/ r_ctxs r <> [].
Proof. intros r. unfold first_res. cbn. destruct (r_ctxs r); [left; right; left; reflexivity|right; discriminate]. Qed.

(* set_state (enter r) StRunning is C04Proofs.entry_state r *)
Lemma loop_on_entered : forall r, r_ctxs r <> [] -> loop_on (set_state (enter r) StRunning) = true.
Proof.
  intros r H. destruct (entry_state_fields r) as [E1 [E2 [_ [E4 _]]]]. apply loop_on_true; [exact E1|exact E2|].
  change (r_ctxs (entry_state r) <> []). rewrite E4. exact H.
Qed.

Lemma scope_num_flags : forall r r0 scope, scope_num ctl_repaired r = Ok (r0, scope) ->
  r_exit_req r0 = r_exit_req r /\ r_halt_req r0 = r_halt_req r.
Proof.
  intros r r0 scope H. unfold scope_num in H. cbn [d_null_active ctl_repaired] in H.
  destruct (r_ctxs r); [injection H as <- _; auto|].
  destruct (cur (resolve_active r)); [|discriminate]. injection H as <- _.
  destruct (resolve_active_fields r) as [_ [_ [F1 [F2 _]]]]. auto.
Qed.

(* every executing action is: prologue (enter); its loop; finish_action on what the loop returned *)
Theorem executing_outcome : forall a r x r', executing a = true -> r_run r = false ->
  exec a r = Ok (x, r') -> exec_outcome x r'.
Proof.
  intros a r x r' Ha Hrun H. destruct (entry_state_fields r) as [E1 [E2 _]].
  destruct a; try discriminate Ha; cbn [execute_ctl execute] in H; rewrite Hrun in H.
  - destruct (start_loop exec_fuel _ _) as [[x1 r1]| | |] eqn:E; cbn [bindr] in H; try discriminate.
    injection H as <- <-. apply finish_outcome. eapply start_loop_good; [exact E|apply first_res_repaired].
  - destruct (execute_do exec_fuel _ 1) as [[x1 r1]| | |] eqn:E; cbn [bindr] in H; try discriminate.
    injection H as <- <-. apply finish_outcome. eapply execute_do_good; exact E.
  - destruct (line_loop _ _ exec_fuel _ None _) as [[x1 r1]| | |] eqn:E; cbn [bindr] in H; try discriminate.
    injection H as <- <-. apply finish_outcome. eapply line_loop_good; [exact E|].
    destruct (first_res_repaired (set_state (enter r) StRunning)) as [Hg|Hg]; [left; exact Hg|].
    right. apply loop_on_true; [exact E1|exact E2|exact Hg].
  - destruct (scope_num ctl_repaired (enter r)) as [[r0 scope]| | |] eqn:Es; cbn [bindr] in H; try discriminate.
    destruct (leave_loop exec_fuel _ scope _) as [[x1 r2]| | |] eqn:E; cbn [bindr] in H; try discriminate.
    cbn [d_leave_keeps_active ctl_repaired andb] in H. injection H as <- <-. apply finish_outcome.
    eapply leave_loop_good; [exact E|].
    destruct (first_res_repaired (set_state r0 StRunning)) as [Hg|Hg]; [left; exact Hg|].
    destruct (scope_num_flags _ _ _ Es) as [F1 F2].
    right. apply loop_on_true; [cbn; rewrite F1; exact E1|cbn; rewrite F2; exact E2|exact Hg].
Qed.

Lemma busy_rejected : forall a r, executing a = true -> r_run r = true -> exec a r = Ok (RActionError, r).
Proof. intros a r Ha Hrun. destruct a; try discriminate Ha; cbn [execute_ctl execute]; rewrite Hrun; reflexivity. Qed.

(* sequential_table: result and next state of every action from every state *)
Theorem sequential_table : forall a r x r', exec a r = Ok (x, r') ->
  match a with
  | AStop =>
      match r_state r, r_run r with
      | StRunning, true => x = ROk /\ r' = set_exit_req r true
      | _, _ => x = RActionError /\ r' = r end
  | AAbort =>
      match r_state r, r_run r with
      | StRunning, true => x = ROk /\ r' = set_exit_req r true
      | StHalted, false | StHaltedError, false =>
          x = ROk /\ r_state r' = StEmpty /\ r_ctxs r' = [] /\ r_active r' = None /\ r_run r' = false
      | _, _ => x = RActionError /\ r' = r end
  | _ =>
      if r_run r then x = RActionError /\ r' = r
      else exec_outcome x r'
  end.
Proof.
  intros a r x r' H. destruct (executing a) eqn:Ha.
  - assert (T : if r_run r then x = RActionError /\ r' = r else exec_outcome x r').
    { destruct (r_run r) eqn:Hrun.
      - rewrite (busy_rejected a r Ha Hrun) in H. injection H as <- <-. auto.
      - exact (executing_outcome a r x r' Ha Hrun H). }
    destruct a; try discriminate Ha; exact T.
  - (* stop and abort only test and set fields *)
    destruct a; try discriminate Ha; cbn [execute_ctl execute] in H;
      destruct (r_state r); destruct (r_run r); injection H as <- <-; cbn; auto.
Qed.

Theorem abort_on_halted_clears : forall r x r', r_run r = false -> (r_state r = StHalted \/ r_state r = StHaltedError) ->
  exec AAbort r = Ok (x, r') -> x = ROk /\ r_ctxs r' = [] /\ r_active r' = None /\ r_state r' = StEmpty /\ r_run r' = false.
Proof.
  intros r x r' Hrun Hs H. apply sequential_table in H. rewrite Hrun in H.
  destruct Hs as [Hs|Hs]; rewrite Hs in H; destruct H as [A [B [C [D E]]]]; auto.
Qed.

Definition idle (r:rt) : Prop := r_run r = false /\ r_state r <> StRunning.

Lemma outcome_idle : forall x r', exec_outcome x r' -> idle r'.
Proof.
  intros x r' [Hg [Hrun [Hst _]]]. split; [exact Hrun|]. rewrite Hst.
  destruct (r_exit_req r'); [discriminate|]. destruct Hg as [-> | [-> | ->]]; discriminate.
Qed.

Theorem idle_preserved : forall a r x r', idle r -> exec a r = Ok (x, r') -> idle r'.
Proof.
  intros a r x r' [Hrun Hst] H. destruct (executing a) eqn:Ha.
  - exact (outcome_idle x r' (executing_outcome a r x r' Ha Hrun H)).
  - (* stop is refused; abort is refused or empties the runtime *)
    destruct a; try discriminate Ha; cbn [execute_ctl execute] in H; rewrite Hrun in H;
      destruct (r_state r) eqn:Es; try congruence; injection H as <- <-; split; cbn; congruence.
Qed.

Inductive history : rt -> list (action * rresult) -> rt -> Prop :=
| h_nil r : history r [] r
| h_cons r a x r1 l r2 : exec a r = Ok (x, r1) -> history r1 l r2 -> history r ((a, x) :: l) r2.

(* a history replayed: the machine it ends in, if every action returned the result listed for it *)
Fixpoint replay (r:rt) (l:list (action * rresult)) : option rt :=
  match l with
  | [] => Some r
  | (a, x) :: l' => match exec a r with
                    | Ok (x', r1) => if Z.eqb (result_num x') (result_num x) then replay r1 l' else None
                    | _ => None end end.

Lemma replay_history : forall l r r', replay r l = Some r' -> history r l r'.
Proof.
  induction l as [|[a x] l IH]; intros r r' H; cbn [replay] in H; [injection H as <-; apply h_nil|].
  destruct (exec a r) as [[x' r1]| | |] eqn:E; try discriminate.
  destruct (Z.eqb (result_num x') (result_num x)) eqn:Ex; [|discriminate].
  assert (x' = x) as -> by (destruct x', x; try discriminate Ex; reflexivity).
  eapply h_cons; [exact E|apply IH; exact H].
Qed.

Theorem always_accepting : forall r l r', idle r -> history r l r' ->
  idle r' /\
  (forall a x r'', executing a = true -> exec a r' = Ok (x, r'') -> x <> RActionError) /\
  (r_state r' = StHalted \/ r_state r' = StHaltedError -> exec AAbort r' = Ok (ROk, set_run (set_state (set_active (set_ctxs r' []) None) StEmpty) false)).
Proof.
  intros r l r' Hi Hh. induction Hh as [r|r a x r1 l r2 He Hh IH].
  - split; [exact Hi|]. destruct Hi as [Hrun Hst]. split.
    + intros a x r'' Ha H. apply executing_outcome in H; [|exact Ha|exact Hrun]. destruct H as [[G|[G|G]] _]; rewrite G; discriminate.
    + intros Hs. cbn [execute_ctl execute]. rewrite Hrun. destruct Hs as [-> | ->]; reflexivity.
  - apply IH. eapply idle_preserved; eassumption.
Qed.
End Table.

(* passes of the execute_do loop that execute no instruction: frame completions and recovered behaviour errors *)
Inductive conts : rt -> rt -> Prop :=
| c_refl r : conts r r
| c_step r r1 r2 : r_exit_req r = false -> do_iter r = Ok (Continue r1) -> conts r1 r2 -> conts r r2.

Inductive one_step (r:rt) (x:rresult) (r':rt) : Prop :=
| os_exit rk : conts r rk -> r_exit_req rk = true -> x = ROk -> r' = rk -> one_step r x r'            (* stop/abort/exit seen first: no instruction *)
| os_return rk : conts r rk -> r_exit_req rk = false -> do_iter rk = Ok (Return x r') -> one_step r x r'   (* finished / suspended / failed: no further instruction *)
| os_executed rk : conts r rk -> r_exit_req rk = false -> do_iter rk = Ok (Executed r') -> x = ROk -> one_step r x r'.   (* exactly one *)

Lemma conts_trans_step : forall r r1, r_exit_req r = false -> do_iter r = Ok (Continue r1) -> forall x r', one_step r1 x r' -> one_step r x r'.
Proof.
  intros r r1 He Hd x r' H. destruct H as [rk Hc A B C|rk Hc A B|rk Hc A B C].
  - eapply os_exit; eauto. eapply c_step; eauto.
  - eapply os_return; eauto. eapply c_step; eauto.
  - eapply os_executed; eauto. eapply c_step; eauto.
Qed.

Theorem execute_do_one : forall fuel r x r', execute_do fuel r 1 = Ok (x, r') -> one_step r x r'.
Proof.
  induction fuel as [|fuel IH]; intros r x r' H; cbn [execute_do] in H; [discriminate|].
  destruct (r_exit_req r) eqn:Ee. { injection H as <- <-. eapply os_exit; [apply c_refl|exact Ee|reflexivity|reflexivity]. }
  destruct (do_iter r) as [it| | |] eqn:E; cbn [bindr] in H; try discriminate.
  destruct it as [r1|r1|x1 r1].
  - eapply conts_trans_step; [exact Ee|exact E|]. apply IH. exact H.
  - (* the instruction was executed; exit_after is 0 now: the next pass of the loop returns ok *)
    destruct fuel as [|fuel']; cbn [execute_do] in H; [discriminate|].
    assert (R : x = ROk /\ r' = r1) by (destruct (r_exit_req r1); injection H as <- <-; auto).
    destruct R as [-> ->]. eapply os_executed; [apply c_refl|exact Ee|exact E|reflexivity].
  - injection H as <- <-. eapply os_return; [apply c_refl|exact Ee|exact E].
Qed.

Theorem assembly_step_one : forall dg r x r', r_run r = false ->
  execute_ctl ctl_repaired dg AAssemblyStep r = Ok (x, r') ->
  exists r1, one_step (resolve_active (set_state (enter r) StRunning)) x r1 /\ r' = finish_action x r1.
Proof.
  intros dg r x r' Hrun H. cbn [execute_ctl execute] in H. rewrite Hrun in H.
  destruct (execute_do exec_fuel _ 1) as [[x1 r1]| | |] eqn:E; cbn [bindr] in H; try discriminate.
  injection H as <- <-. exists r1. split; [|reflexivity]. eapply execute_do_one. exact E.
Qed.

Section Line.
Variable dg : code -> nat -> nat * nat.

(* line of the instruction the next step executes in the innermost scope; None at the end of that scope *)
Definition next_line (r:rt) : option nat :=
  match look ctl_repaired r with
  | Ok (_, Some f) => match peek_pos ctl_repaired dg f with Ok (Some p) => Some (fst p) | _ => None end
  | _ => None end.

(* the instruction steps of one line step that began on line l0: every intermediate stop is still on l0 (or at the end of a
   scope, where the step continues in the caller), the last one is the first with another line in view - unless the run
   ended, failed, or was stopped *)
Inductive line_steps (l0:nat) : rt -> rresult -> rt -> Prop :=
| ls_done r x r' : execute_do exec_fuel (resolve_active r) 1 = Ok (x, r') -> x <> ROk -> line_steps l0 r x r'
| ls_line r r1 l : execute_do exec_fuel (resolve_active r) 1 = Ok (ROk, r1) -> next_line r1 = Some l -> l <> l0 ->
    line_steps l0 r ROk (resolve_active r1)
| ls_flag r r1 : execute_do exec_fuel (resolve_active r) 1 = Ok (ROk, r1) -> (next_line r1 = Some l0 \/ next_line r1 = None) ->
    loop_on (resolve_active r1) = false -> line_steps l0 r ROk (resolve_active r1)
| ls_more r r1 x r' : execute_do exec_fuel (resolve_active r) 1 = Ok (ROk, r1) -> (next_line r1 = Some l0 \/ next_line r1 = None) ->
    loop_on (resolve_active r1) = true -> line_steps l0 (resolve_active r1) x r' -> line_steps l0 r x r'.

Lemma resolve_active_some : forall r, exists i, r_active (resolve_active r) = Some i.
Proof. intros r. unfold resolve_active. destruct (r_active r) eqn:E; [exists n; exact E|]. destruct (r_ctxs r); cbn; eauto. Qed.
Lemma resolve_idem : forall r, resolve_active (resolve_active r) = resolve_active r.
Proof. intros r. destruct (resolve_active_some r) as [i E]. unfold resolve_active at 1. rewrite E. reflexivity. Qed.

Lemma look_repaired : forall r r0 top, look ctl_repaired r = Ok (r0, top) -> r0 = resolve_active r.
Proof. intros r r0 top H. unfold look in H. cbn [d_null_active ctl_repaired] in H. destruct (cur (resolve_active r)); [|discriminate]. injection H as <- _. reflexivity. Qed.

Lemma next_line_resolve : forall r, next_line (resolve_active r) = next_line r.
Proof. intros r. unfold next_line, look. cbn [d_null_active ctl_repaired]. rewrite resolve_idem. reflexivity. Qed.

Lemma line_loop_steps : forall fuel r p0 x0 x r', loop_on r = true ->
  line_loop ctl_repaired dg fuel r (Some p0) x0 = Ok (x, r') -> line_steps (fst p0) (resolve_active r) x r'.
Proof.
  induction fuel as [|fuel IH]; intros r p0 x0 x r' Hl H; cbn [line_loop] in H; [discriminate|].
  rewrite Hl in H. cbn [negb d_null_active ctl_repaired bindr] in H.
  destruct (execute_do exec_fuel _ 1) as [[x1 r1]| | |] eqn:Ed; cbn [bindr] in H; try discriminate.
  destruct x1; try (injection H as <- <-; apply ls_done; [exact Ed|discriminate]).
  (* a pass that stays on the line, or sees the end of a scope, enters the loop again: for another pass, or to find the
     loop condition false *)
  assert (Again : next_line r1 = Some (fst p0) \/ next_line r1 = None ->
            line_loop ctl_repaired dg fuel (resolve_active r1) (Some p0) ROk = Ok (x, r') -> line_steps (fst p0) (resolve_active r) x r').
  { intros N G. destruct (loop_on (resolve_active r1)) eqn:L2.
    - eapply ls_more; [exact Ed|exact N|exact L2|]. rewrite <- (resolve_idem r1). eapply IH; eassumption.
    - destruct fuel as [|fuel']; cbn [line_loop] in G; [discriminate|]. rewrite L2 in G.
      injection G as <- <-. eapply ls_flag; [exact Ed|exact N|exact L2]. }
  destruct (look ctl_repaired r1) as [[r2 top]| | |] eqn:El; cbn [bindr] in H; try discriminate.
  pose proof (look_repaired _ _ _ El) as ->.
  destruct top as [f|]; [destruct (peek_pos ctl_repaired dg f) as [[p1|]| | |] eqn:Ep; cbn [bindr] in H; try discriminate|].
  - assert (N : next_line r1 = Some (fst p1)) by (unfold next_line; rewrite El, Ep; reflexivity).
    change (differs ctl_repaired p0 p1) with (negb (Nat.eqb (fst p0) (fst p1))) in H.
    destruct (Nat.eqb (fst p0) (fst p1)) eqn:En; cbn [negb] in H.
    + apply Nat.eqb_eq in En. apply Again; [left; congruence|exact H].
    + apply Nat.eqb_neq in En. injection H as <- <-. eapply ls_line; [exact Ed|exact N|congruence].
  - apply Again; [right; unfold next_line; rewrite El, Ep; reflexivity|exact H].
  - apply Again; [right; unfold next_line; rewrite El; reflexivity|exact H].
Qed.

(* the step that returns ok without having been stopped ends with another line in view *)
Lemma line_steps_end : forall l0 r x r', line_steps l0 r x r' -> x = ROk -> loop_on r' = true ->
  exists l, next_line r' = Some l /\ l <> l0.
Proof.
  intros l0 r x r' H. induction H as [r x r' Ed Hx|r r1 l Ed Hn Hl|r r1 Ed Hn Hf|r r1 x r' Ed Hn Hf Hs IH]; intros Hx' Hon.
  - congruence.
  - exists l. rewrite next_line_resolve. auto.
  - congruence.
  - apply IH; assumption.
Qed.

(* the first pass of the loop takes the line: from there on it is the loop with the line fixed *)
Lemma line_loop_first : forall fuel r f p0 x0, loop_on r = true ->
  look ctl_repaired r = Ok (resolve_active r, Some f) -> peek_pos ctl_repaired dg f = Ok (Some p0) ->
  line_loop ctl_repaired dg fuel r None x0 = line_loop ctl_repaired dg fuel r (Some p0) x0.
Proof.
  intros fuel r f p0 x0 Hl Hlook Hpeek. destruct fuel; [reflexivity|].
  cbn [line_loop]. rewrite Hl, Hlook. cbn [negb bindr]. rewrite Hpeek. reflexivity.
Qed.

Theorem line_step_stops_at_line_change : forall r x r' p0, r_run r = false -> r_ctxs r <> [] ->
  execute_ctl ctl_repaired dg ALineStep r = Ok (x, r') ->
  (exists f, look ctl_repaired (set_state (enter r) StRunning) = Ok (resolve_active (set_state (enter r) StRunning), Some f) /\
             peek_pos ctl_repaired dg f = Ok (Some p0)) ->
  exists r1, line_steps (fst p0) (resolve_active (set_state (enter r) StRunning)) x r1 /\ r' = finish_action x r1 /\
    (x = ROk -> loop_on r1 = true -> exists l, next_line r1 = Some l /\ l <> fst p0).
Proof.
  intros r x r' p0 Hrun Hc H [f [Hlook Hpeek]]. cbn [execute_ctl] in H. rewrite Hrun in H.
  destruct (line_loop ctl_repaired dg exec_fuel _ None _) as [[x1 r1]| | |] eqn:E; cbn [bindr] in H; try discriminate.
  injection H as <- <-. exists r1.
  pose proof (loop_on_entered r Hc) as L. rewrite (line_loop_first _ _ f p0 _ L Hlook Hpeek) in E.
  apply line_loop_steps in E; [|exact L].
  split; [exact E|]. split; [reflexivity|]. intros Hx Hon. eapply line_steps_end; eassumption.
Qed.
End Line.

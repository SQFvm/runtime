(* Executing never removes a script: no instruction, exit behaviour or error handler of the shared VM model shortens
   the context list (contexts are appended by spawn, updated in place, flagged by terminate; only the scheduler loop
   of action::start erases them).  Needed by C18 (a finished sqfvm_call leaves no script) and C19.
   The fact itself is part of what a slice does to the machine (VM/SchedIter.v); here it is stated for the shared
   execute_do as the preorder `length (r_ctxs r) <= length (r_ctxs r')`. *)
From Coq Require Import String Ascii.
From Coq Require Import ZArith List Bool Lia.
From SqfVerif Require Import Gen.DiagCodes VM.VmDefs VM.VmExec VM.VmFacts VM.SchedDefs VM.SchedOps VM.SchedBase VM.SchedIter VM.SchedEquiv.
Import ListNotations.
Local Open Scope list_scope.
Opaque frame_fuel exec_fuel.

Definition lenle (r r':rt) : Prop := length (r_ctxs r) <= length (r_ctxs r').

Lemma lenle_refl : forall r, lenle r r. Proof. intros r. unfold lenle. lia. Qed.
Lemma lenle_trans : forall a b c, lenle a b -> lenle b c -> lenle a c. Proof. unfold lenle. intros. lia. Qed.
Lemma lenle_same : forall r a b, r_ctxs b = r_ctxs a -> lenle r a -> lenle r b.
Proof. unfold lenle. intros r a b E H. rewrite E. exact H. Qed.
Lemma lenle_logmsg : forall r a d, lenle r a -> lenle r (logmsg a d).
Proof. intros r a d. apply lenle_same, ctxs_logmsg. Qed.
Lemma lenle_set_msgs : forall r a x, lenle r a -> lenle r (set_msgs a x). Proof. intros r a x. apply lenle_same. reflexivity. Qed.
Lemma lenle_set_errflag : forall r a x, lenle r a -> lenle r (set_errflag a x). Proof. intros r a x. apply lenle_same. reflexivity. Qed.
Lemma lenle_set_exit_req : forall r a x, lenle r a -> lenle r (set_exit_req a x). Proof. intros r a x. apply lenle_same. reflexivity. Qed.
Lemma lenle_set_active : forall r a x, lenle r a -> lenle r (set_active a x). Proof. intros. eapply lenle_same; [reflexivity|assumption]. Qed.
Lemma lenle_upd_cur : forall r a c, lenle r a -> lenle r (upd_cur a c).
Proof.
  intros r a c H. unfold lenle. rewrite length_upd_cur. exact H.
Qed.

Lemma now_lenle : forall r t r1, now r = (t, r1) -> lenle r r1.
Proof. intros r t r1 [= _ <-]. apply (lenle_same r r); [reflexivity|apply lenle_refl]. Qed.

Lemma deadline_len : forall r1 e r2,
  (if Z.eqb (r_max_runtime r1) 0 then (false, r1) else let (t, r') := now r1 in (Z.ltb (r_max_runtime r1 + r_run_ts r1) t, r')) = (e, r2) ->
  lenle r1 r2.
Proof. intros r1 e r2 H. exact (reach_len _ _ (deadline_test_reach r1 e r2 H)). Qed.

Theorem execute_do_len : forall fuel r n x r', execute_do fuel r n = Ok (x, r') -> lenle r r'.
Proof.
  intros fuel r n x r' H. rewrite <- (execute_do2_shared fuel r n 0 0) in H.
  destruct (execute_do2 false fuel r n 0 0) as [[[x0 r0] k]| | |] eqn:E; try discriminate.
  injection H as _ <-. exact (execute_do2_len _ _ _ _ _ _ _ _ _ E).
Qed.

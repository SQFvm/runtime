(* C20 - determinism and (non-)interference through the process state. *)
From Coq Require Import String Ascii.
From Coq Require Import ZArith List Bool Lia.
From SqfVerif Require Import Gen.Statics VM.VmDefs API.IsoDefs.
Import ListNotations.
Local Open Scope list_scope.

Theorem deterministic : forall d g p o1 g1 o2 g2, run d g p = (o1, g1) -> run d g p = (o2, g2) -> o1 = o2 /\ g1 = g2.
Proof. intros d g p o1 g1 o2 g2 H1 H2. rewrite H1 in H2. injection H2 as <- <-. auto. Qed.

Lemma mem_app : forall c a b, mem_comp c (a ++ b) = orb (mem_comp c a) (mem_comp c b).
Proof. intros c a b. unfold mem_comp. apply existsb_app. Qed.

Lemma op_step_agree : forall d R g g' i o, agree R g g' -> (forall c, mem_comp c (reads_op d o) = true -> mem_comp c R = true) ->
  let '(g1, i1, o1) := op_step d g i o in let '(g2, i2, o2) := op_step d g' i o in
  i1 = i2 /\ o1 = o2 /\ agree R g1 g2.
Proof.
  intros [dd dc] R g g' i o [Ad Ac] Hr.
  destruct o; destruct dd, dc; cbn in *; unfold agree; cbn;
    try (pose proof (Ad (Hr Dec eq_refl)) as Ed); try (pose proof (Ac (Hr Ctr eq_refl)) as Ec);
    try rewrite Ed; try rewrite Ec; repeat split; auto.
Qed.

Lemma run_from_agree : forall d R p g g' i, agree R g g' -> (forall c, mem_comp c (reads d p) = true -> mem_comp c R = true) ->
  let '(g1, i1, o1) := run_from d g i p in let '(g2, i2, o2) := run_from d g' i p in
  i1 = i2 /\ o1 = o2 /\ agree R g1 g2.
Proof.
  intros d R p. induction p as [|o p IH]; intros g g' i Ha Hr; cbn [run_from]; [auto|].
  assert (Hro : forall c, mem_comp c (reads_op d o) = true -> mem_comp c R = true).
  { intros c Hc. apply Hr. unfold reads. cbn [flat_map]. rewrite mem_app, Hc. reflexivity. }
  assert (Hrp : forall c, mem_comp c (reads d p) = true -> mem_comp c R = true).
  { intros c Hc. apply Hr. unfold reads. cbn [flat_map]. rewrite mem_app. unfold reads in Hc. rewrite Hc. apply orb_true_r. }
  pose proof (op_step_agree d R g g' i o Ha Hro) as S.
  destruct (op_step d g i o) as [[g1 i1] o1]. destruct (op_step d g' i o) as [[g2 i2] o2]. destruct S as [<- [<- Ha1]].
  pose proof (IH g1 g2 i1 Ha1 Hrp) as S2.
  destruct (run_from d g1 i1 p) as [[g3 i3] o3]. destruct (run_from d g2 i1 p) as [[g4 i4] o4]. destruct S2 as [<- [<- Ha2]].
  auto.
Qed.

Theorem outputs_depend_on_reads_only : forall d p g g', agree (reads d p) g g' -> out_of d g p = out_of d g' p.
Proof.
  intros d p g g' Ha. unfold out_of, run. pose proof (run_from_agree d (reads d p) p g g' fresh Ha (fun c H => H)) as S.
  destruct (run_from d g fresh p) as [[g1 i1] o1]. destruct (run_from d g' fresh p) as [[g2 i2] o2]. destruct S as [_ [<- _]]. reflexivity.
Qed.

Lemma op_step_keeps : forall d g i o, let '(g1, _, _) := op_step d g i o in
  (mem_comp Dec (writes_op d o) = false -> g_dec g1 = g_dec g) /\ (mem_comp Ctr (writes_op d o) = false -> g_ctr g1 = g_ctr g).
Proof.
  intros [dd dc] g i o. destruct o; cbn [op_step writes_op]; unfold set_dec, set_ctr; cbn [d_dec_global d_ctr_global];
    try (destruct dd); try (destruct dc); cbn; split; auto; discriminate.
Qed.

Lemma run_from_keeps : forall d p g i, let '(g1, _, _) := run_from d g i p in
  (mem_comp Dec (writes d p) = false -> g_dec g1 = g_dec g) /\ (mem_comp Ctr (writes d p) = false -> g_ctr g1 = g_ctr g).
Proof.
  intros d p. induction p as [|o p IH]; intros g i; cbn [run_from]; [auto|].
  pose proof (op_step_keeps d g i o) as K. destruct (op_step d g i o) as [[g1 i1] o1].
  pose proof (IH g1 i1) as K2. destruct (run_from d g1 i1 p) as [[g2 i2] o2].
  unfold writes in *. cbn [flat_map]. split; intros H; rewrite mem_app in H; apply orb_false_elim in H; destruct H as [H1 H2].
  - destruct K as [K _]. destruct K2 as [K2 _]. rewrite (K2 H2). apply K. exact H1.
  - destruct K as [_ K]. destruct K2 as [_ K2]. rewrite (K2 H2). apply K. exact H1.
Qed.

Lemma disjoint_spec : forall a b c, disjoint a b = true -> mem_comp c a = true -> mem_comp c b = false.
Proof.
  intros a b c H Hc. unfold disjoint in H. rewrite forallb_forall in H. unfold mem_comp in Hc. apply existsb_exists in Hc.
  destruct Hc as [x [Hin He]]. specialize (H x Hin). destruct c, x; try discriminate; apply negb_true_iff in H; exact H.
Qed.

(* noninterference_modulo: what P prints in a fresh VM is the same whether or not Q ran before it in the same process,
   provided Q writes no shared component that P reads *)
Theorem noninterference_modulo : forall d p q g, disjoint (reads d p) (writes d q) = true ->
  out_of d (after d g q) p = out_of d g p.
Proof.
  intros d p q g H. apply outputs_depend_on_reads_only. unfold after, run.
  pose proof (run_from_keeps d q g fresh) as K. destruct (run_from d g fresh q) as [[g1 i1] o1]. cbn [snd]. destruct K as [Kd Kc].
  split; intros Hm.
  - apply Kd. eapply disjoint_spec; eassumption.
  - apply Kc. eapply disjoint_spec; eassumption.
Qed.

Lemma disjoint_reads : forall d p b, (forall o c, In o p -> In c (reads_op d o) -> mem_comp c b = false) -> disjoint (reads d p) b = true.
Proof.
  intros d p b H. unfold disjoint. rewrite forallb_forall. intros c Hin. apply in_flat_map in Hin.
  destruct Hin as [o [Hop Ho]]. rewrite (H o c Hop Ho). reflexivity.
Qed.

(* with the counter in the runtime (repair C20-01) only the print mode is left *)
Definition prints_number (o:gop) : bool := match o with GPrint _ | GCounter => true | _ => false end.
Definition prints (p:list gop) : bool := existsb prints_number p.
Definition sets_mode (q:list gop) : bool := existsb (fun o => match o with GToFixed _ => true | _ => false end) q.

Theorem noninterference_refuted :
  (exists p q, out_of iso_as_is (after iso_as_is g0 q) p <> out_of iso_as_is g0 p /\ p = [GPrint 3] /\ q = [GToFixed 2]) /\
  (exists p q, out_of iso_as_is (after iso_as_is g0 q) p <> out_of iso_as_is g0 p /\ p = [GCounter] /\ q = [GCounter]).
Proof.
  split.
  - exists [GPrint 3], [GToFixed 2]. split; [vm_compute; discriminate|auto].
  - exists [GCounter], [GCounter]. split; [vm_compute; discriminate|auto].
Qed.

Fixpoint sl_eqb (a b:list string) : bool :=
  match a, b with [], [] => true | x :: a', y :: b' => andb (String.eqb x y) (sl_eqb a' b') | _, _ => false end.
Lemma sl_eqb_eq : forall a b, sl_eqb a b = true -> a = b.
Proof.
  induction a as [|x a IH]; destruct b as [|y b]; cbn; intros H; try discriminate; [reflexivity|].
  apply andb_prop in H. destruct H as [H1 H2]. apply String.eqb_eq in H1. subst. f_equal. apply IH. exact H2.
Qed.
Definition statics_ok : bool := sl_eqb statics (map fst modelled_G).

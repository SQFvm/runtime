(* C19 - two threads using runtime::execute(action) at the same time: a small-step interleaving model.
   Atomic steps are the accesses to the shared fields of the runtime (runtime.cpp:328-666):
     m_run_atomic (compare_exchange / store), m_state, m_is_exit_requested, m_is_halt_requested, the context list,
   and one pass of the execute_do loop (runtime.cpp:92-325), whose effect on the VM is left open: each pass
   nondeterministically executes an instruction, pops a frame, finishes, fails, suspends, expires, or asks for exit itself.
   The shared fields are sequentially consistent registers here (DESIGN Appendix B, C19).  That is what std::atomic gives:
   m_run_atomic is one; m_state / m_is_exit_requested / m_is_halt_requested become atomic with proposed_fixes/C19-05
   (as plain fields their concurrent use is a C++ data race, which no model can describe).
   Two agents interleave arbitrarily.  All theorems are proved by a certified reachability computation: the list of reachable
   states is computed (vm_compute), checked to contain the initial states and to be closed under every step, and the
   property is evaluated on every element - an inductive invariant found by the machine and checked by the kernel.
   The model is of the code WITH the proposed repairs C19-01..04 (res = empty without scripts; they do not change any
   shared access).  The scheduler loop's shortcut for a sleeping script (no execute_do call, time limit tested) is covered by
   the outcomes `suspended` / `max_runtime reached` of a pass. *)
From Coq Require Import PArith NArith List Bool Lia MSets.MSetPositive.
Import ListNotations.
Local Open Scope list_scope.

Inductive kind := KStart | KStep | KLine | KLeave.
Inductive xres := XInv | XEmp | XOk | XErr.                       (* the local variable res *)
Inductive mstate := SEmpty | SHalted | SRunning | SHaltedError.   (* m_state (evaluating is not modelled) *)
Inductive ghost := GNone | GReq0 | GReq1 | GBad | GLate.

Inductive pc :=
| Idle
(* an executing action of kind k: start / assembly_step / line_step / leave_scope *)
| XCas (k:kind)                (* m_run_atomic.compare_exchange(false, true) *)
| XBegin (k:kind)              (* begin_run_if_empty(): reads m_state *)
| XClrExit (k:kind)            (* m_is_exit_requested = false *)
| XClrHalt (k:kind)            (* m_is_halt_requested = false *)
| XSetRun (k:kind)             (* m_state = running *)
| XLoop (k:kind) (x:xres)      (* loop head of the action *)
| XDoHead (k:kind)             (* execute_do: if (runtime.is_exit_requested()) return ok *)
| XDoState (k:kind)            (* execute_do: if (runtime_state() != running) return ok *)
| XInstr (k:kind)              (* execute_do: the rest of one pass *)
| XAfterDo (k:kind) (x:xres)   (* back in execute(): tests after execute_do returned x *)
| XExitEmpty (k:kind) (x:xres) (* start: contexts cleared, m_state = empty to be stored, then start_loop_exit *)
| XSwitch (k:kind) (x:xres)    (* switch (res): m_state = ... *)
| XExitChk (k:kind) (x:xres)   (* if (m_is_exit_requested) *)
| XExitSet (k:kind) (x:xres)   (* ... m_state = empty *)
| XRelease (k:kind) (x:xres)   (* m_run_atomic = false *)
(* stop *)
| SState | SRun | SWrite
(* abort *)
| AState | ARun | AWrite | ACas | AClear | ASetEmpty | ARelease.

Record sys := {
  run : bool; state : mstate; ex : bool; ha : bool; cx : bool;   (* cx: the context list is not empty *)
  pc0 : pc; pc1 : pc;
  used0 : bool;       (* restricted system: agent 0 has issued its one action *)
  g : ghost }.        (* a stop/abort of agent 1 was accepted while agent 0 executed; instructions agent 0 executed since *)

Definition table (x:xres) : mstate := match x with XEmp => SEmpty | XOk => SHalted | XInv | XErr => SHaltedError end.

Definition in_cs (p:pc) : bool :=
  match p with
  | XBegin _ | XClrExit _ | XClrHalt _ | XSetRun _ | XLoop _ _ | XDoHead _ | XDoState _ | XInstr _ | XAfterDo _ _
  | XExitEmpty _ _ | XSwitch _ _ | XExitChk _ _ | XExitSet _ _ | XRelease _ _ | AClear | ASetEmpty | ARelease => true
  | _ => false end.

Definition upd (s:sys) (r:bool) (st:mstate) (e h c:bool) : sys :=
  {| run := r; state := st; ex := e; ha := h; cx := c; pc0 := pc0 s; pc1 := pc1 s; used0 := used0 s; g := g s |}.
Definition w_run s b := upd s b (state s) (ex s) (ha s) (cx s).
Definition w_state s x := upd s (run s) x (ex s) (ha s) (cx s).
Definition w_ex s b := upd s (run s) (state s) b (ha s) (cx s).
Definition w_ha s b := upd s (run s) (state s) (ex s) b (cx s).
Definition w_cx s b := upd s (run s) (state s) (ex s) (ha s) b.
Definition w_g s x := {| run := run s; state := state s; ex := ex s; ha := ha s; cx := cx s; pc0 := pc0 s; pc1 := pc1 s; used0 := used0 s; g := x |}.

Definition mstate_eqb (a b:mstate) : bool :=
  match a, b with SEmpty, SEmpty | SHalted, SHalted | SRunning, SRunning | SHaltedError, SHaltedError => true | _, _ => false end.

(* what one agent can do next: list of (its new pc, new system without the pc update, executed an instruction?, accepted stop?) *)
Definition moves (p:pc) (s:sys) : list (pc * sys * bool * bool) :=
  let plain := fun (p':pc) (s':sys) => (p', s', false, false) in
  match p with
  | Idle => []     (* choosing the next action is done by the caller *)
  | XCas k => if run s then [plain Idle s] else [plain (XBegin k) (w_run s true)]
  | XBegin k => [plain (XClrExit k) s]
  | XClrExit k => [plain (XClrHalt k) (w_ex s false)]
  | XClrHalt k => [plain (XSetRun k) (w_ha s false)]
  | XSetRun k => [plain (XLoop k (if cx s then XInv else XEmp)) (w_state s SRunning)]
  | XLoop k x =>
      match k with
      | KStart => if cx s then [plain (XDoHead k) s] else [plain (XSwitch k x) s]
      | KStep => [plain (XDoHead k) s]
      | KLine | KLeave => if andb (negb (ex s)) (andb (negb (ha s)) (cx s)) then [plain (XDoHead k) s] else [plain (XSwitch k x) s] end
  | XDoHead k => if ex s then [plain (XAfterDo k XOk) s] else [plain (XDoState k) s]
  | XDoState k => if mstate_eqb (state s) SRunning then [plain (XInstr k) s] else [plain (XAfterDo k XOk) s]
  | XInstr k =>
      (* executed an instruction, budget left (only the slice of start has more than one) *)
      (match k with KStart => [(XDoHead k, s, true, false); (XDoHead k, w_ex s true, true, false)] | _ => [] end) ++
      [ (XAfterDo k XOk, s, true, false);            (* executed, exit_after reached 0 *)
        (XAfterDo k XOk, w_ex s true, true, false);  (* executed an operator that asked for exit itself (halt, exit__) *)
        (XDoHead k, s, false, false);                (* a frame was completed / an error was recovered: no instruction *)
        (XAfterDo k XEmp, s, false, false);          (* context empty *)
        (XAfterDo k XErr, s, false, false);          (* runtime error *)
        (XAfterDo k XErr, s, true, false);           (* runtime error raised by the instruction *)
        (XAfterDo k XOk, s, false, false);           (* suspended *)
        (XAfterDo k XOk, w_ha s true, false, false); (* breakpoint hit *)
        (XAfterDo k XErr, w_ex s true, false, false) (* max_runtime reached: runtime.exit(0) *) ]
  | XAfterDo k x =>
      match k with
      | KStart =>
          if ex s then [plain (XExitEmpty k x) (w_cx s false)]
          else match x with
               | XEmp => [plain (XSwitch k x) (w_cx s false); plain (XDoHead k) s]    (* erase: list now empty / not *)
               | XOk => [plain (XDoHead k) s]
               | XInv | XErr => [plain (XSwitch k x) s] end
      | KStep => [plain (XSwitch k x) s]
      | KLine | KLeave =>
          match x with
          | XOk => [plain (XSwitch k x) s; plain (XLoop k x) s]   (* line changed / scope left, or once more *)
          | _ => [plain (XSwitch k x) s] end end
  | XExitEmpty k x => [plain (XSwitch k x) (w_state s SEmpty)]
  | XSwitch k x => [plain (XExitChk k x) (w_state s (table x))]
  | XExitChk k x => if ex s then [plain (XExitSet k x) (w_cx s false)] else [plain (XRelease k x) s]
  | XExitSet k x => [plain (XRelease k x) (w_state s SEmpty)]
  | XRelease k x => [plain Idle (w_run s false)]
  | SState => if mstate_eqb (state s) SRunning then [plain SRun s] else [plain Idle s]
  | SRun => if run s then [plain SWrite s] else [plain Idle s]
  | SWrite => [(Idle, w_ex s true, false, true)]
  | AState => match state s with SRunning => [plain ARun s] | SHalted | SHaltedError => [plain ACas s] | SEmpty => [plain Idle s] end
  | ARun => if run s then [plain AWrite s] else [plain Idle s]
  | AWrite => [(Idle, w_ex s true, false, true)]
  | ACas => if run s then [plain Idle s] else [plain AClear (w_run s true)]
  | AClear => [plain ASetEmpty (w_cx s false)]
  | ASetEmpty => [plain ARelease (w_state s SEmpty)]
  | ARelease => [plain Idle (w_run s false)]
  end.

Definition set_pc0 (s:sys) (p:pc) : sys :=
  {| run := run s; state := state s; ex := ex s; ha := ha s; cx := cx s; pc0 := p; pc1 := pc1 s; used0 := used0 s; g := g s |}.
Definition set_pc1 (s:sys) (p:pc) : sys :=
  {| run := run s; state := state s; ex := ex s; ha := ha s; cx := cx s; pc0 := pc0 s; pc1 := p; used0 := used0 s; g := g s |}.
Definition set_used0 (s:sys) : sys :=
  {| run := run s; state := state s; ex := ex s; ha := ha s; cx := cx s; pc0 := pc0 s; pc1 := pc1 s; used0 := true; g := g s |}.

Definition kinds := [KStart; KStep; KLine; KLeave].
Definition ghost_count (x:ghost) : ghost := match x with GNone => GNone | GReq0 => GReq1 | GReq1 => GBad | GBad => GBad | GLate => GLate end.

(* steps of agent 0.  restricted: it issues exactly one executing action (the executor of the property) *)
Definition steps0 (restricted:bool) (s:sys) : list sys :=
  match pc0 s with
  | Idle =>
      if andb restricted (used0 s) then []
      else map (fun k => w_g (set_used0 (set_pc0 s (XCas k))) GNone) kinds ++
           (if restricted then [] else [w_g (set_pc0 s SState) GNone; w_g (set_pc0 s AState) GNone])
  | p => map (fun m : pc * sys * bool * bool =>
                let '(p', s', counted, _) := m in
                let s1 := set_pc0 s' p' in if counted then w_g s1 (ghost_count (g s1)) else s1) (moves p s)
  end.

(* steps of agent 1 (the controller): any action at any time *)
Definition steps1 (s:sys) : list sys :=
  match pc1 s with
  | Idle => map (fun k => set_pc1 s (XCas k)) kinds ++ [set_pc1 s SState; set_pc1 s AState]
  | p => map (fun m : pc * sys * bool * bool =>
                let '(p', s', _, accepted) := m in
                let s1 := set_pc1 s' p' in
                if andb accepted (in_cs (pc0 s))
                then (match g s1 with
                      | GNone => w_g s1 (match pc0 s with XRelease _ _ => GLate | _ => GReq0 end)   (* after the executor's last test: too late *)
                      | _ => s1 end)
                else s1) (moves p s)
  end.

Definition succs (restricted:bool) (s:sys) : list sys := steps0 restricted s ++ steps1 s.

(* initial states: nobody acts; the runtime is idle in any of its resting states, with or without scripts *)
Definition init (st:mstate) (c e:bool) : sys :=
  {| run := false; state := st; ex := e; ha := false; cx := c; pc0 := Idle; pc1 := Idle; used0 := false; g := GNone |}.
Definition inits : list sys :=
  flat_map (fun st => flat_map (fun c => [init st c false; init st c true]) [true; false]) [SEmpty; SHalted; SHaltedError].

Inductive reachable (restricted:bool) : sys -> Prop :=
| r_init s : In s inits -> reachable restricted s
| r_step s s' : reachable restricted s -> In s' (succs restricted s) -> reachable restricted s'.

(* the reachable set as a set of numbers, for reach_size below *)
Definition kind_idx k := match k with KStart => 0 | KStep => 1 | KLine => 2 | KLeave => 3 end.
Definition xres_idx x := match x with XInv => 0 | XEmp => 1 | XOk => 2 | XErr => 3 end.
Definition mstate_idx x := match x with SEmpty => 0 | SHalted => 1 | SRunning => 2 | SHaltedError => 3 end.
Definition ghost_idx x := match x with GNone => 0 | GReq0 => 1 | GReq1 => 2 | GBad => 3 | GLate => 4 end.
Definition bool_idx (b:bool) := if b then 1 else 0.

(* pc: constructor number * 16 + kind * 4 + res *)
Definition pc_idx (p:pc) : nat :=
  match p with
  | Idle => 0
  | XCas k => 16 + 4 * kind_idx k | XBegin k => 32 + 4 * kind_idx k | XClrExit k => 48 + 4 * kind_idx k
  | XClrHalt k => 64 + 4 * kind_idx k | XSetRun k => 80 + 4 * kind_idx k
  | XLoop k x => 96 + 4 * kind_idx k + xres_idx x
  | XDoHead k => 112 + 4 * kind_idx k | XDoState k => 128 + 4 * kind_idx k | XInstr k => 144 + 4 * kind_idx k
  | XAfterDo k x => 160 + 4 * kind_idx k + xres_idx x
  | XExitEmpty k x => 176 + 4 * kind_idx k + xres_idx x
  | XSwitch k x => 192 + 4 * kind_idx k + xres_idx x
  | XExitChk k x => 208 + 4 * kind_idx k + xres_idx x
  | XExitSet k x => 224 + 4 * kind_idx k + xres_idx x
  | XRelease k x => 240 + 4 * kind_idx k + xres_idx x
  | SState => 256 | SRun => 257 | SWrite => 258
  | AState => 259 | ARun => 260 | AWrite => 261 | ACas => 262 | AClear => 263 | ASetEmpty => 264 | ARelease => 265
  end.
Lemma pc_idx_bound : forall p, pc_idx p < 512.
Proof. destruct p as [|k|k|k|k|k|k x|k|k|k|k x|k x|k x|k x|k x|k x| | | | | | | | | |]; try destruct k; try destruct x; cbn; lia. Qed.
Local Open Scope N_scope.
Definition pack (a:N) (b:N) (c:nat) : N := a * b + N.of_nat c.
Lemma unpack : forall a b c, N.of_nat c < b -> pack a b c / b = a /\ N.to_nat (pack a b c mod b) = c.
Proof.
  intros a b c H. unfold pack. assert (Hb : b <> 0) by lia. split.
  - rewrite N.div_add_l by exact Hb. rewrite N.div_small by exact H. lia.
  - rewrite N.add_comm, N.mod_add by exact Hb. rewrite N.mod_small by exact H. apply Nat2N.id.
Qed.
Definition enc_n (s:sys) : N :=
  pack (pack (pack (pack (pack (pack (pack (pack (N.of_nat (bool_idx (run s))) 4 (mstate_idx (state s))) 2 (bool_idx (ex s))) 2 (bool_idx (ha s)))
    2 (bool_idx (cx s))) 512 (pc_idx (pc0 s))) 512 (pc_idx (pc1 s))) 2 (bool_idx (used0 s))) 8 (ghost_idx (g s)).
Definition enc (s:sys) : positive := N.succ_pos (enc_n s).
Local Close Scope N_scope.

Definition visit (restricted:bool) (acc:PositiveSet.t * list sys) (s:sys) : PositiveSet.t * list sys :=
  fold_left (fun (a:PositiveSet.t * list sys) s' =>
               let '(seen, next) := a in
               let c := enc s' in
               if PositiveSet.mem c seen then (seen, next) else (PositiveSet.add c seen, s' :: next))
            (succs restricted s) acc.

Fixpoint bfs (restricted:bool) (fuel:nat) (frontier:list sys) (seen:PositiveSet.t) : PositiveSet.t :=
  match fuel with
  | O => seen
  | S fuel' =>
      match frontier with
      | [] => seen
      | _ => let '(seen', next) := fold_left (visit restricted) frontier (seen, []) in
             bfs restricted fuel' next seen' end
  end.

Definition reach_set (restricted:bool) : PositiveSet.t :=
  bfs restricted 2000 inits (fold_left (fun acc s => PositiveSet.add (enc s) acc) inits PositiveSet.empty).

(* A state's key is a positive built from constructors alone, innermost field last: the kernel computes it without any arithmetic.
   (enc above works in unary numbers; coqchk, which has no bytecode machine, needs minutes for it.) *)
Definition kbool (b:bool) (k:positive) : positive := if b then k~1 else k~0.
Definition kkind (x:kind) (k:positive) : positive :=
  match x with KStart => k~0~0 | KStep => k~0~1 | KLine => k~1~0 | KLeave => k~1~1 end.
Definition kxres (x:xres) (k:positive) : positive :=
  match x with XInv => k~0~0 | XEmp => k~0~1 | XOk => k~1~0 | XErr => k~1~1 end.
Definition kmstate (x:mstate) (k:positive) : positive :=
  match x with SEmpty => k~0~0 | SHalted => k~0~1 | SRunning => k~1~0 | SHaltedError => k~1~1 end.
Definition kghost (x:ghost) (k:positive) : positive :=
  match x with GNone => k~0~0~0 | GReq0 => k~0~0~1 | GReq1 => k~0~1~0 | GBad => k~0~1~1 | GLate => k~1~0~0 end.
Definition kpc (p:pc) (k:positive) : positive :=
  match p with
  | Idle => k~0~0~0~0~0
  | XCas x => (kkind x k)~0~0~0~0~1 | XBegin x => (kkind x k)~0~0~0~1~0 | XClrExit x => (kkind x k)~0~0~0~1~1
  | XClrHalt x => (kkind x k)~0~0~1~0~0 | XSetRun x => (kkind x k)~0~0~1~0~1
  | XLoop x y => (kkind x (kxres y k))~0~0~1~1~0
  | XDoHead x => (kkind x k)~0~0~1~1~1 | XDoState x => (kkind x k)~0~1~0~0~0 | XInstr x => (kkind x k)~0~1~0~0~1
  | XAfterDo x y => (kkind x (kxres y k))~0~1~0~1~0 | XExitEmpty x y => (kkind x (kxres y k))~0~1~0~1~1
  | XSwitch x y => (kkind x (kxres y k))~0~1~1~0~0 | XExitChk x y => (kkind x (kxres y k))~0~1~1~0~1
  | XExitSet x y => (kkind x (kxres y k))~0~1~1~1~0 | XRelease x y => (kkind x (kxres y k))~0~1~1~1~1
  | SState => k~1~0~0~0~0 | SRun => k~1~0~0~0~1 | SWrite => k~1~0~0~1~0
  | AState => k~1~0~0~1~1 | ARun => k~1~0~1~0~0 | AWrite => k~1~0~1~0~1 | ACas => k~1~0~1~1~0 | AClear => k~1~0~1~1~1
  | ASetEmpty => k~1~1~0~0~0 | ARelease => k~1~1~0~0~1
  end.
Definition key (s:sys) : positive :=
  kpc (pc0 s) (kpc (pc1 s) (kghost (g s) (kmstate (state s)
    (kbool (run s) (kbool (ex s) (kbool (ha s) (kbool (cx s) (kbool (used0 s) xH)))))))).

Lemma kbool_inj a b k l : kbool a k = kbool b l -> a = b /\ k = l.
Proof. destruct a, b; cbn; intros H; inversion H; auto. Qed.
Lemma kkind_inj a b k l : kkind a k = kkind b l -> a = b /\ k = l.
Proof. destruct a, b; cbn; intros H; inversion H; auto. Qed.
Lemma kxres_inj a b k l : kxres a k = kxres b l -> a = b /\ k = l.
Proof. destruct a, b; cbn; intros H; inversion H; auto. Qed.
Lemma kmstate_inj a b k l : kmstate a k = kmstate b l -> a = b /\ k = l.
Proof. destruct a, b; cbn; intros H; inversion H; auto. Qed.
Lemma kghost_inj a b k l : kghost a k = kghost b l -> a = b /\ k = l.
Proof. destruct a, b; cbn; intros H; inversion H; auto. Qed.
(* the five outer digits are the constructor; the kind and the result follow *)
Lemma kpc_inj p q k l : kpc p k = kpc q l -> p = q /\ k = l.
Proof.
  destruct p, q; cbn; intros H; try discriminate H; injection H as H;
    repeat match goal with
    | H : kkind _ _ = kkind _ _ |- _ => apply kkind_inj in H; destruct H as [-> H]
    | H : kxres _ _ = kxres _ _ |- _ => apply kxres_inj in H; destruct H as [-> H]
    end; auto.
Qed.
Lemma key_inj s t : key s = key t -> s = t.
Proof.
  destruct s, t; unfold key; cbn. intros H.
  apply kpc_inj in H; destruct H as [-> H]. apply kpc_inj in H; destruct H as [-> H].
  apply kghost_inj in H; destruct H as [-> H]. apply kmstate_inj in H; destruct H as [-> H].
  repeat (apply kbool_inj in H; destruct H as [-> H]). reflexivity.
Qed.

(* breadth-first search that also keeps the states it found *)
Definition keys (l:list sys) (acc:PositiveSet.t) : PositiveSet.t := fold_left (fun a s => PositiveSet.add (key s) a) l acc.
Definition discover (restricted:bool) (acc:PositiveSet.t * list sys) (s:sys) : PositiveSet.t * list sys :=
  fold_left (fun (a:PositiveSet.t * list sys) s' =>
               if PositiveSet.mem (key s') (fst a) then a else (PositiveSet.add (key s') (fst a), s' :: snd a))
            (succs restricted s) acc.
Fixpoint search (restricted:bool) (fuel:nat) (frontier found:list sys) (seen:PositiveSet.t) : list sys :=
  match fuel, frontier with
  | S fuel', _ :: _ => let (seen', next) := fold_left (discover restricted) frontier (seen, []) in
                       search restricted fuel' next (rev_append next found) seen'
  | _, _ => found end.
Definition states (restricted:bool) : list sys := search restricted 200 inits inits (keys inits PositiveSet.empty).

(* l holds the initial states, is closed under every step, and P holds of each of its elements: whatever l is, that makes P
   an invariant.  Membership is tested through the keys. *)
Definition certify (restricted:bool) (P:sys -> bool) (l:list sys) : bool :=
  let R := keys l PositiveSet.empty in
  let known s := PositiveSet.mem (key s) R in
  andb (forallb known inits) (forallb (fun s => andb (P s) (forallb known (succs restricted s))) l).

Lemma keys_mem c : forall l acc, PositiveSet.mem c (keys l acc) = true ->
  PositiveSet.mem c acc = true \/ exists s, In s l /\ key s = c.
Proof.
  induction l as [|s l IH]; cbn; intros acc H; [auto|].
  destruct (IH _ H) as [M|(t & I & E)]; [|eauto].
  apply PositiveSet.mem_spec, PositiveSet.add_spec in M. destruct M as [->|M]; [eauto|].
  left. apply PositiveSet.mem_spec. exact M.
Qed.

Theorem certify_sound restricted P l : certify restricted P l = true ->
  forall s, reachable restricted s -> P s = true.
Proof.
  unfold certify. intros H. apply andb_prop in H. destruct H as [Hi Hc].
  rewrite forallb_forall in Hi, Hc.
  assert (K : forall s, PositiveSet.mem (key s) (keys l PositiveSet.empty) = true -> In s l).
  { intros s M. destruct (keys_mem _ _ _ M) as [M0|(t & I & E)]; [discriminate M0|]. apply key_inj in E. subst t. exact I. }
  assert (R : forall s, reachable restricted s -> In s l).
  { induction 1 as [s I|s s' _ IH I]; [exact (K _ (Hi _ I))|].
    apply Hc, andb_prop, proj2 in IH. rewrite forallb_forall in IH. exact (K _ (IH _ I)). }
  intros s Hs. exact (proj1 (andb_prop _ _ (Hc _ (R _ Hs)))).
Qed.

(* at most one agent is between a successful compare_exchange and the store of false, and the flag says so *)
Definition p_mutex (s:sys) : bool :=
  andb (negb (andb (in_cs (pc0 s)) (in_cs (pc1 s)))) (Bool.eqb (run s) (orb (in_cs (pc0 s)) (in_cs (pc1 s)))).
(* when nobody is inside execute() the flag is free and the state is not `running`: the runtime accepts actions again *)
Definition p_quiescent (s:sys) : bool :=
  match pc0 s, pc1 s with
  | Idle, Idle => andb (negb (run s)) (negb (mstate_eqb (state s) SRunning))
  | _, _ => true end.
(* no agent is ever stuck inside execute(): whatever the other one did, its next atomic step is enabled *)
Definition p_progress (s:sys) : bool :=
  andb (match pc0 s with Idle => true | p => match moves p s with [] => false | _ => true end end)
       (match pc1 s with Idle => true | p => match moves p s with [] => false | _ => true end end).
(* the ghost counter: instructions agent 0 executed after agent 1's stop/abort was accepted *)
Definition p_bounded (s:sys) : bool := match g s with GBad => false | _ => true end.
(* an accepted stop/abort discards all scripts: when the stopped action hands the flag back the runtime is empty *)
Definition p_discards (s:sys) : bool :=
  match pc0 s, g s with
  | XRelease _ _, GReq0 | XRelease _ _, GReq1 => andb (mstate_eqb (state s) SEmpty) (negb (cx s))
  | _, _ => true end.
Definition p_all_general (s:sys) : bool := andb (p_mutex s) (andb (p_quiescent s) (p_progress s)).
Definition p_all_restricted (s:sys) : bool := andb (p_all_general s) (andb (p_bounded s) (p_discards s)).

Lemma certified_restricted : certify true p_all_restricted (states true) = true.
Proof. vm_compute. reflexivity. Qed.
Lemma certified_general : certify false p_all_general (states false) = true.
Proof. vm_compute. reflexivity. Qed.

(* sizes of the two reachable sets (for the evidence; not used by any proof) *)
Definition reach_size (restricted:bool) : nat := length (PositiveSet.elements (reach_set restricted)).

Lemma general_invariant b s : reachable b s -> p_mutex s = true /\ p_quiescent s = true /\ p_progress s = true.
Proof.
  intros H. assert (Q : p_all_general s = true).
  { destruct b; [|exact (certify_sound _ _ _ certified_general s H)].
    exact (proj1 (andb_prop _ _ (certify_sound _ _ _ certified_restricted s H))). }
  apply andb_prop in Q. destruct Q as [A Q]. apply andb_prop in Q. tauto.
Qed.

Theorem mutual_exclusion : forall b s, reachable b s ->
  (in_cs (pc0 s) = true -> in_cs (pc1 s) = true -> False) /\ run s = orb (in_cs (pc0 s)) (in_cs (pc1 s)).
Proof.
  intros b s H. destruct (general_invariant b s H) as (P & _). apply andb_prop in P. destruct P as [A B]. split.
  - intros H0 H1. rewrite H0, H1 in A. discriminate.
  - apply Bool.eqb_prop. exact B.
Qed.

Theorem never_stuck : forall b s, reachable b s ->
  (pc0 s <> Idle -> moves (pc0 s) s <> []) /\ (pc1 s <> Idle -> moves (pc1 s) s <> []) /\
  (pc0 s = Idle -> pc1 s = Idle -> run s = false /\ state s <> SRunning).
Proof.
  intros b s H. destruct (general_invariant b s H) as (_ & Pq & Pp).
  apply andb_prop in Pp. destruct Pp as [P0 P1]. repeat split.
  - intros Hn He. destruct (pc0 s) eqn:Ep; [congruence| rewrite He in P0; discriminate ..].
  - intros Hn He. destruct (pc1 s) eqn:Ep; [congruence| rewrite He in P1; discriminate ..].
  - unfold p_quiescent in Pq. rewrite H0, H1 in Pq. apply andb_prop in Pq. destruct Pq as [A _]. destruct (run s); [discriminate|reflexivity].
  - unfold p_quiescent in Pq. rewrite H0, H1 in Pq. apply andb_prop in Pq. destruct Pq as [_ A]. intros E. rewrite E in A. discriminate.
Qed.

(* one executing action of agent 0, anything from agent 1: after a stop/abort of agent 1 has been accepted (its store of the
   exit request, made after it saw state = running and the run flag set) agent 0 executes at most one more instruction,
   and - if the store came before agent 0's last test of the request - when it hands the run flag back all scripts are gone
   and the state is empty *)
Theorem stop_abort_bounded : forall s, reachable true s ->
  g s <> GBad /\
  (forall k x, pc0 s = XRelease k x -> (g s = GReq0 \/ g s = GReq1) -> state s = SEmpty /\ cx s = false).
Proof.
  intros s H. pose proof (certify_sound true _ _ certified_restricted s H) as Q. unfold p_all_restricted in Q.
  apply andb_prop in Q. destruct Q as [_ Q]. apply andb_prop in Q. destruct Q as [Qb Qd]. split.
  - unfold p_bounded in Qb. intros E. rewrite E in Qb. discriminate.
  - intros k x Hp Hg. unfold p_discards in Qd. rewrite Hp in Qd.
    assert (Q : andb (mstate_eqb (state s) SEmpty) (negb (cx s)) = true) by (destruct Hg as [Hg|Hg]; rewrite Hg in Qd; exact Qd).
    apply andb_prop in Q. destruct Q as [A B]. split; [destruct (state s); try discriminate; reflexivity|destruct (cx s); [discriminate|reflexivity]].
Qed.

Fixpoint follow (restricted:bool) (s:sys) (path:list nat) : option sys :=
  match path with
  | [] => Some s
  | n :: rest => match nth_error (succs restricted s) n with Some s' => follow restricted s' rest | None => None end end.

Lemma follow_reachable : forall b path s s', reachable b s -> follow b s path = Some s' -> reachable b s'.
Proof.
  intros b path. induction path as [|n rest IH]; intros s s' Hr H; cbn in H; [injection H as <-; exact Hr|].
  destruct (nth_error (succs b s) n) as [s1|] eqn:E; [|discriminate]. eapply IH; [|exact H].
  eapply r_step; [exact Hr|]. eapply nth_error_In. exact E.
Qed.

(* general system: agent 0 issues a second action while agent 1 is between its reads (state = running, run flag set)
   and its store of the exit request; the store lands before the new action's own reset of the flag and is erased by it:
   stop returned ok, yet the executor never sees it and runs on without bound. *)
Definition lost_path : list nat :=
  [1; 0; 0; 0; 0; 0; 5; 1; 1; 0; 0; 0; 0; 0; 0; 0; 0; 0; 0; 1; 0; 0; 0; 0; 0; 0; 0; 0; 0; 0; 0; 0; 0; 0].
(* agent 0: assembly_step up to m_state = running | agent 1: stop reads running, reads the run flag | agent 0: finishes the
   step, issues start, wins the compare_exchange | agent 1: stores the exit request, stop returns ok | agent 0: resets the
   request (prologue of start) and executes instruction after instruction *)
Theorem stop_lost_across_actions_refuted :
  exists s, reachable false s /\ g s = GBad /\ ex s = false /\ pc1 s = Idle.
Proof.
  destruct (follow false (init SEmpty true false) lost_path) as [s|] eqn:E; [|vm_compute in E; discriminate].
  exists s. split.
  - eapply follow_reachable; [|exact E]. apply r_init. vm_compute. tauto.
  - vm_compute in E. injection E as <-. cbn. auto.
Qed.

Definition late_path : list nat := [1; 0; 0; 0; 0; 0; 6; 1; 1; 0; 0; 0; 0; 0; 0; 0; 1; 0].
(* agent 0: assembly_step | agent 1: abort reads running and the run flag | agent 0: executes its instruction, stores halted,
   tests the request (not set), is about to release | agent 1: stores the request, abort returns ok | agent 0: releases.
   The accepted abort discarded nothing: halted, scripts still loaded, a stale request left behind. *)
Theorem accepted_abort_can_miss_refuted :
  exists s, reachable true s /\ g s = GLate /\ pc0 s = Idle /\ pc1 s = Idle /\ state s = SHalted /\ cx s = true /\ ex s = true.
Proof.
  destruct (follow true (init SEmpty true false) late_path) as [s|] eqn:E; [|vm_compute in E; discriminate].
  exists s. split.
  - eapply follow_reachable; [|exact E]. apply r_init. vm_compute. tauto.
  - vm_compute in E. injection E as <-. cbn. repeat split; reflexivity.
Qed.

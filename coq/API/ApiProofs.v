(* C18 - proofs about the model of the exported C functions. *)
From Coq Require Import String Ascii.
From Coq Require Import ZArith List Bool Lia.
From SqfVerif Require Import Gen.DiagCodes Gen.ResultMap VM.VmDefs VM.VmExec VM.VmFacts VM.C04Defs VM.C04Shape VM.C04Proofs
  API.CtlDefs API.CtlProofs API.VmLen API.ApiDefs.
Import ListNotations.
Local Open Scope list_scope.
Opaque frame_fuel exec_fuel.

(* how a loop result relates to what is left: an exit request (everything is cleared by the epilogue), a failure,
   or `empty` with an empty context list *)
Definition settled (x:rresult) (r:rt) : Prop := r_exit_req r = true \/ x = RRuntimeError \/ (x = REmpty /\ r_ctxs r = []).

Lemma sp_step_len : forall r0 c x r', sp_step r0 c = Ok (x, r') -> lenle r0 r'.
Proof.
  intros r0 c x r' H. unfold sp_step in H. destruct (c_suspended c).
  - destruct (now r0) as [t r1] eqn:En. apply now_lenle in En. destruct (Z.leb (c_wakeup c) t).
    + apply execute_do_len in H. eapply lenle_trans; [exact En|]. eapply lenle_trans; [|exact H]. apply lenle_upd_cur, lenle_refl.
    + destruct (deadline_test r1) as [expired r2] eqn:Ed. apply deadline_len in Ed.
      pose proof (lenle_trans _ _ _ En Ed) as L.
      destruct expired; injection H as _ <-; [|exact L].
      unfold idle_expired_machine. apply lenle_set_msgs, lenle_set_errflag, lenle_set_exit_req, lenle_logmsg. exact L.
  - eapply execute_do_len. exact H.
Qed.

Lemma visit_keeps_ctxs : forall r i x1 r2, visit r i x1 r2 -> r_ctxs r <> [] -> r_ctxs r2 <> [].
Proof.
  intros r i x1 r2 [c00 [_ Es]] Hne. apply sp_step_len in Es. unfold lenle in Es. rewrite length_upd_cur in Es.
  change (length (r_ctxs r) <= length (r_ctxs r2)) in Es.
  destruct (r_ctxs r); [congruence|]. destruct (r_ctxs r2); [cbn in Es; lia|discriminate].
Qed.

Lemma visits_shape : forall r i x0 p, visits r i x0 p -> r_ctxs r <> [] ->
  match p with
  | PassExit x r' => settled x r'
  | PassDone x r' => r_ctxs r' <> [] end.
Proof.
  induction 1 as [r i x Hi|r i x x1 r2 V Ee|r i x x1 r2 V Ee N1 N2|r i x r2 V Ee Er|r i x r2 p V Ee Er _ IH|r i x r2 p V Ee _ IH];
    intros Hne.
  - exact Hne.
  - left. exact Ee.
  - right. left. destruct (visit_good _ _ _ _ V) as [-> | [-> | ->]]; congruence.
  - right. right. split; [reflexivity|exact Er].
  - apply IH. exact Er.
  - apply IH. exact (visit_keeps_ctxs _ _ _ _ V Hne).
Qed.

Lemma start_loop_shape : forall fuel r x0 x r', start_loop fuel r x0 = Ok (x, r') -> r_ctxs r <> [] -> settled x r'.
Proof.
  intros fuel r x0 x r' H Hne. refine (start_loop_rule (fun _ r1 => r_ctxs r1 <> []) settled _ _ fuel x0 r x r' Hne H).
  - intros x1 r1 N E. contradiction.
  - intros x1 r1 p N _ V. exact (visits_shape _ _ _ _ V N).
Qed.

Definition rt_idle (r:rt) : Prop := r_state r = StEmpty /\ r_run r = false /\ r_ctxs r = [] /\ r_err r = false.

Lemma load_fields : forall r c, r_state (load r c) = r_state r /\ r_run (load r c) = r_run r /\ r_ctxs (load r c) <> [].
Proof. intros r c. unfold load. cbn. repeat split. destruct (r_ctxs r); discriminate. Qed.

(* the run of one call, and the machine r2 the call leaves: after the abort sqfvm_call issues when the run failed *)
Theorem call_run : forall r c x r1, rt_idle r -> execute AStart (load r c) = Ok (x, r1) ->
  good x /\ r_err r1 = false /\
  (exists s, r_out r1 = s ++ r_out r /\ (x = RRuntimeError -> failure_explained s)) /\
  exists r2, rt_idle r2 /\ (if aborts_after x then exists xa, execute AAbort r1 = Ok (xa, r2) else r2 = r1).
Proof.
  intros r c x r1 [Hs [Hrun [Hc He]]] H.
  destruct (load_fields r c) as [L1 [L2 L5]].
  assert (Hev : exists s, r_out r1 = s ++ r_out (load r c) /\ r_err r1 = false /\ (x = RRuntimeError -> failure_explained s)).
  { eapply execute_on_empty_events; [congruence|congruence|left; reflexivity|exact H]. }
  destruct Hev as [s [Ho [He1 Hx]]]. rewrite (proj1 (load_out r c)) in Ho.
  cbn [execute] in H. rewrite L2, Hrun in H. fold (entry_state (load r c)) in H.
  destruct (start_loop exec_fuel _ RInvalid) as [[x1 ra]| | |] eqn:E; cbn [bindr] in H; try discriminate.
  injection H as <- <-.
  assert (L6 : r_ctxs (entry_state (load r c)) <> []).
  { destruct (entry_state_fields (load r c)) as [_ [_ [_ [Ec _]]]]. rewrite Ec. exact L5. }
  assert (Hg : good x1). { eapply start_loop_good; [exact E|right; exact L6]. }
  assert (Hsh : settled x1 ra). { eapply start_loop_shape; [exact E|exact L6]. }
  destruct (finish_action_fields x1 ra) as [F1 [_ [_ [_ [F4 F5]]]]].
  split; [exact Hg|]. split; [exact He1|]. split; [exists s; auto|].
  unfold rt_idle. destruct (r_exit_req ra) eqn:Ee.
  - (* an exit request: the epilogue cleared everything, and an abort finds the state empty *)
    destruct (F4 eq_refl) as [A [B _]].
    destruct (aborts_after x1); [|exists (finish_action x1 ra); auto].
    eexists. split; [|eexists; cbn [execute]; rewrite A; reflexivity]. auto.
  - destruct (F5 eq_refl) as [A [B _]]. destruct Hsh as [Hex|[->|[-> Hb]]]; [congruence| |]; cbn [aborts_after].
    + (* runtime error: halted_error, the abort discards the script *)
      eexists. split; [|eexists; cbn [execute]; rewrite A, F1; reflexivity]. cbn. auto.
    + exists (finish_action REmpty ra). rewrite A, B. auto.
Qed.

Definition tagged (i:inst) (cd:calldata) (l:list cbrec) : Prop := Forall (fun r => cb_user r = a_user i /\ cb_call r = cd) l.

Lemma tag_tagged : forall i l, tagged i (a_cd i) (tag i l).
Proof. intros i l. unfold tagged, tag. apply Forall_forall. intros r Hin. apply in_map_iff in Hin. destruct Hin as [x [<- _]]. cbn. auto. Qed.

Lemma records_tagged : forall i l, tagged i (a_cd i) (records_of i l).
Proof.
  intros i l. induction l as [|e rest IH]; [constructor|].
  destruct e as [lvl code|s]; cbn [records_of]; [constructor; [cbn; auto|exact IH]|exact IH].
Qed.

(* severities of the messages in a list of events / of the records made from it: every message is delivered, in order *)
Fixpoint levels (l:list event) : list Z := match l with [] => [] | EDiag lvl _ :: r => lvl :: levels r | EMark _ :: r => levels r end.
Lemma records_levels : forall i l, map cb_sev (records_of i l) = levels l.
Proof.
  intros i l. induction l as [|e rest IH]; [reflexivity|].
  destruct e as [lvl code|s]; cbn [records_of levels map cb_sev]; [f_equal; exact IH|exact IH].
Qed.

Lemma new_events_complete : forall before after s, r_out after = s ++ r_out before -> new_events before after = rev s.
Proof.
  intros before after s H. unfold new_events. rewrite H, app_length, Nat.add_sub. rewrite firstn_app, firstn_all, Nat.sub_diag. cbn. rewrite app_nil_r. reflexivity.
Qed.

Lemma tagged_app : forall i cd a b, tagged i cd a -> tagged i cd b -> tagged i cd (a ++ b).
Proof. intros. apply Forall_app. auto. Qed.

Definition inst_ok (i:inst) : Prop := rt_idle (a_rt i).

Section Call.
Notation call := (api_call api_repaired).

(* the one case in which a call does more than answer: the text parsed and the type executes *)
Lemma call_executes : forall i cd ty f code i' recs, inst_ok i -> call i cd ty f = Ok (code, i', recs) ->
  match f with
  | FOk d1 d2 c _ => ty_executes ty = true ->
      let i1 := set_cd i (CdVal cd) in
      exists x r1 r2, execute AStart (load (a_rt i) c) = Ok (x, r1) /\ rt_idle r2 /\
        code = code_of_result x /\ i' = set_rt i1 r2 /\ recs = tag i1 d1 ++ tag i1 d2 ++ delivered i1 (load (a_rt i) c) r1
  | _ => True end.
Proof.
  intros i cd ty f code i' recs Hok H. destruct f as [d1|d1 d2|d1 d2 c pp]; try exact I. intros Ex i1.
  unfold api_call in H. rewrite (proj1 Hok), Ex in H. cbn [is_empty_state negb a_rt set_cd] in H.
  destruct (execute AStart (load (a_rt i) c)) as [[x r1]| | |] eqn:E; cbn [bindr] in H; try discriminate.
  destruct (call_run (a_rt i) c x r1 Hok E) as [_ [_ [_ [r2 [Hi Hab]]]]]. exists x, r1, r2.
  destruct (aborts_after x); [destruct Hab as [xa Ea]; rewrite Ea in H; cbn [bindr] in H|subst r2];
    injection H as <- <- <-; auto.
Qed.

(* codes_truthful: which code a call returns, case by case, and what that code means for the run *)
Theorem codes_truthful : forall i cd ty f code i' recs, inst_ok i -> call i cd ty f = Ok (code, i', recs) ->
  match f with
  | FPpFail _ => code = preprocessing_failed
  | FParseFail _ _ =>
      if ty_parses ty then code = parsing_failed
      else if Z.eqb ty ty_p then code = result_ok else code = invalid_type
  | FOk _ _ c _ =>
      if ty_executes ty then
        exists x r1 s, execute AStart (load (a_rt i) c) = Ok (x, r1) /\ r_out r1 = s ++ r_out (a_rt i) /\
          ((code = result_ok /\ (x = REmpty \/ x = ROk) /\ r_err r1 = false) \/
           (code = result_failed /\ x = RRuntimeError /\ failure_explained s))
      else if orb (Z.eqb ty ty_1) (Z.eqb ty ty_p) then code = result_ok
      else code = invalid_type
  end.
Proof.
  intros i cd ty f code i' recs Hok H. pose proof (call_executes _ _ _ _ _ _ _ Hok H) as Run.
  unfold api_call in H. rewrite (proj1 Hok) in H. cbn [is_empty_state negb] in H.
  destruct f as [d1|d1 d2|d1 d2 c pp].
  - cbn [d_pp_deref api_repaired] in H. injection H as <- _ _. reflexivity.
  - destruct (ty_parses ty); [injection H as <- _ _; reflexivity|].
    destruct (Z.eqb ty ty_p); injection H as <- _ _; reflexivity.
  - destruct (ty_executes ty).
    + destruct (Run eq_refl) as [x [r1 [r2 [E [_ [-> _]]]]]].
      destruct (call_run (a_rt i) c x r1 Hok E) as [Hg [He [[s [Ho Hx]] _]]].
      exists x, r1, s. split; [exact E|]. split; [exact Ho|].
      destruct Hg as [-> | [-> | ->]]; cbn [code_of_result]; auto.
    + destruct (Z.eqb ty ty_1); [injection H as <- _ _; reflexivity|].
      destruct (Z.eqb ty ty_p); injection H as <- _ _; reflexivity.
Qed.

(* all_diagnostics_delivered_tagged: every callback invocation of the call carries the user data of the instance and the
   call data of this call, and the messages of the run are all there, in the order they were logged *)
Theorem all_diagnostics_delivered_tagged : forall i cd ty f code i' recs, inst_ok i -> call i cd ty f = Ok (code, i', recs) ->
  tagged i (CdVal cd) recs /\
  match f with
  | FOk d1 d2 c _ =>
      if ty_executes ty then
        exists x r1 s, execute AStart (load (a_rt i) c) = Ok (x, r1) /\ r_out r1 = s ++ r_out (a_rt i) /\
          map cb_sev recs = map fst d1 ++ map fst d2 ++ levels (rev s)
      else True
  | _ => True end.
Proof.
  intros i cd ty f code i' recs Hok H. pose proof (call_executes _ _ _ _ _ _ _ Hok H) as Run.
  unfold api_call in H. rewrite (proj1 Hok) in H. cbn [is_empty_state negb] in H.
  set (i1 := set_cd i (CdVal cd)) in *.
  (* every record is made by `tag`, by `records_of`, or is the record that carries the preprocessed text, all three for i1 *)
  assert (T : forall l, tagged i (CdVal cd) (tag i1 l)) by (intros l; apply (tag_tagged i1 l)).
  assert (R : forall l, tagged i (CdVal cd) (records_of i1 l)) by (intros l; apply (records_tagged i1 l)).
  assert (P : forall t, tagged i (CdVal cd) [{| cb_user := a_user i1; cb_call := a_cd i1; cb_sev := -1; cb_text := t |}]).
  { intros t. constructor; [cbn; auto|constructor]. }
  destruct f as [d1|d1 d2|d1 d2 c pp].
  - cbn [d_pp_deref api_repaired] in H. injection H as _ _ <-. auto.
  - destruct (ty_parses ty); [injection H as _ _ <-; auto using tagged_app|].
    destruct (Z.eqb ty ty_p); injection H as _ _ <-; auto using tagged_app.
  - destruct (ty_executes ty).
    + destruct (Run eq_refl) as [x [r1 [r2 [E [_ [_ [_ ->]]]]]]]. fold i1.
      split; [unfold delivered; auto using tagged_app|].
      destruct (call_run (a_rt i) c x r1 Hok E) as [_ [_ [[s [Ho _]] _]]].
      exists x, r1, s. split; [exact E|]. split; [exact Ho|].
      rewrite !map_app. unfold tag. rewrite !map_map. cbn [cb_sev]. f_equal. f_equal.
      unfold delivered. rewrite records_levels. f_equal. apply new_events_complete.
      rewrite (proj1 (load_out (a_rt i) c)). exact Ho.
    + destruct (Z.eqb ty ty_1); [injection H as _ _ <-; auto using tagged_app|].
      destruct (Z.eqb ty ty_p); injection H as _ _ <-; auto using tagged_app.
Qed.

(* idle_after_every_call and C18_only_globals_and_config_persist (Properties_C18.v), for one call *)
Theorem call_leaves_idle : forall i cd ty f code i' recs, inst_ok i -> call i cd ty f = Ok (code, i', recs) ->
  inst_ok i' /\ api_status i' = 0%Z /\
  a_cfg i' = a_cfg i /\ a_user i' = a_user i /\ a_live i' = a_live i /\
  (* nothing but what the script stored: without an executed script the namespaces are untouched *)
  (match f with FOk _ _ _ _ => if ty_executes ty then True else r_nss (a_rt i') = r_nss (a_rt i) | _ => r_nss (a_rt i') = r_nss (a_rt i) end).
Proof.
  intros i cd ty f code i' recs Hok H. pose proof (call_executes _ _ _ _ _ _ _ Hok H) as Run.
  unfold api_call in H. rewrite (proj1 Hok) in H. cbn [is_empty_state negb] in H.
  (* a call that executes nothing only sets the call data *)
  assert (Same : forall c0 r0, Ok (c0, set_cd i (CdVal cd), r0) = Ok (code, i', recs) ->
            inst_ok i' /\ api_status i' = 0%Z /\ a_cfg i' = a_cfg i /\ a_user i' = a_user i /\ a_live i' = a_live i /\
            r_nss (a_rt i') = r_nss (a_rt i)).
  { intros c0 r0 E. injection E as _ <- _. unfold api_status. cbn. rewrite (proj1 Hok). auto 6. }
  destruct f as [d1|d1 d2|d1 d2 c pp].
  - cbn [d_pp_deref api_repaired] in H. apply Same in H. tauto.
  - destruct (ty_parses ty); [apply Same in H; tauto|]. destruct (Z.eqb ty ty_p); apply Same in H; tauto.
  - destruct (ty_executes ty).
    + destruct (Run eq_refl) as [x [r1 [r2 [_ [Hi [_ [-> _]]]]]]].
      unfold inst_ok, api_status. cbn. rewrite (proj1 Hi). auto 6.
    + destruct (Z.eqb ty ty_1); [apply Same in H; tauto|]. destruct (Z.eqb ty ty_p); apply Same in H; tauto.
Qed.
End Call.

Theorem load_codes_and_tags : forall i f code i' recs, api_load api_repaired i f = Ok (code, i', recs) ->
  (match f with CPpFail _ => code = preprocessing_failed | CParseFail _ _ => code = parsing_failed | COk _ _ _ => code = result_ok end) /\
  tagged i CdNull recs /\ a_rt i' = a_rt i /\ a_user i' = a_user i /\ a_live i' = a_live i /\
  (match f with COk _ _ cl => a_cfg i' = a_cfg i ++ cl | _ => a_cfg i' = a_cfg i end).
Proof.
  intros i f code i' recs H. unfold api_load in H. cbn [d_load_calldata d_pp_deref api_repaired] in H.
  assert (T : forall l, tagged i CdNull (tag (set_cd i CdNull) l)) by (intros l; apply (tag_tagged (set_cd i CdNull) l)).
  destruct f as [d1|d1 d2|d1 d2 cl]; injection H as <- <- <-; cbn; repeat split; auto; try (apply tagged_app; apply T).
Qed.

Definition world_ok (w:world) : Prop := Forall inst_ok (w_insts w).

Lemma Forall_list_set : forall {A} (P:A -> Prop) l n x, Forall P l -> P x -> Forall P (list_set l n x).
Proof.
  intros A P l. induction l as [|a l IH]; intros n x Hl Hx; [constructor|].
  inversion Hl; subst. destruct n; cbn; constructor; auto.
Qed.
Lemma nth_list_set_other : forall {A} (l:list A) n m x, n <> m -> nth_error (list_set l n x) m = nth_error l m.
Proof.
  intros A l. induction l as [|a l IH]; intros n m x Hn; [destruct n, m; reflexivity|].
  destruct n, m; cbn; try reflexivity; try congruence. apply IH. congruence.
Qed.

Lemma with_clock_idle : forall r t, rt_idle r -> rt_idle (with_clock r t).
Proof. intros r t H. exact H. Qed.

Lemma create_at_idle : forall t tick mr, rt_idle (create_at t tick mr).
Proof. intros. unfold rt_idle. cbn. auto. Qed.

Definition handle_of (o:aop) : option handle :=
  match o with OCreate _ _ => None | ODestroy h | OStatus h | OLoad h _ | OCall h _ _ _ | OProbe h _ _ => Some h end.

(* every operation on an instance goes through the same wrapper (on_inst in `step`): an invalid handle changes nothing;
   a valid one sets the clock of instance n, runs the operation k and puts the instance back.  So it is enough that k
   keeps an instance idle. *)
Lemma step_keeps_ok : forall w o ret recs w', world_ok w -> step api_repaired w o = Ok (ret, recs, w') ->
  world_ok w' /\ (forall n m, handle_of o = Some (HInst n) -> m <> n -> nth_error (w_insts w') m = nth_error (w_insts w) m).
Proof.
  intros w o ret recs w' Hw H.
  assert (On : forall h inv (k:nat -> inst -> res (Z * inst * list cbrec)),
            (forall n i0 r i1 rc, inst_ok i0 -> k n i0 = Ok (r, i1, rc) -> inst_ok i1) ->
            match h with
            | HNull | HBogus => Ok (inv, [], w)
            | HInst n => match nth_error (w_insts w) n with
                         | None => UB "handle that was never returned"
                         | Some i => if negb (a_live i) then UB "use of a destroyed instance (freed memory)"
                                     else bindr (k n (set_rt i (with_clock (a_rt i) (w_clock w)))) (fun '(ret, i1, recs) =>
                                            Ok (ret, recs, {| w_insts := list_set (w_insts w) n i1; w_clock := r_clock (a_rt i1); w_tick := w_tick w |})) end end
            = Ok (ret, recs, w') ->
            world_ok w' /\ (forall n m, Some h = Some (HInst n) -> m <> n -> nth_error (w_insts w') m = nth_error (w_insts w) m)).
  { intros h inv k Hk E. destruct h as [| |n]; try (injection E as _ _ <-; split; [exact Hw|discriminate]).
    destruct (nth_error (w_insts w) n) as [i|] eqn:En; [|discriminate].
    destruct (negb (a_live i)); [discriminate|].
    destruct (k n _) as [[[r1 i1] rc]| | |] eqn:Ek; cbn [bindr] in E; try discriminate.
    injection E as _ _ <-. cbn [w_insts]. split.
    - apply Forall_list_set; [exact Hw|]. eapply Hk; [|exact Ek].
      unfold world_ok in Hw. rewrite Forall_forall in Hw. apply nth_error_In in En. exact (Hw i En).
    - intros n0 m Hh Hm. injection Hh as <-. apply nth_list_set_other. congruence. }
  destruct o as [user mr|h|h|h f|h cd ty f|h cd cls]; cbn [step handle_of] in *.
  - injection H as _ _ <-. split; [|discriminate].
    apply Forall_app. split; [exact Hw|]. constructor; [apply create_at_idle|constructor].
  - (* with the repair, destroying through an invalid handle is the wrapper's answer too *)
    refine (On h 0%Z (fun _ i => Ok (0%Z, set_live i false, [])) _ _); [|destruct h; exact H].
    intros n0 i0 r i1 rc Hi E. injection E as _ <- _. exact Hi.
  - refine (On h instance_invalid (fun _ i => Ok (api_status i, i, [])) _ H).
    intros n0 i0 r i1 rc Hi E. injection E as _ <- _. exact Hi.
  - refine (On h instance_invalid (fun _ i => api_load api_repaired i f) _ H).
    intros n0 i0 r i1 rc Hi E. apply load_codes_and_tags in E. destruct E as [_ [_ [Er _]]]. unfold inst_ok. rewrite Er. exact Hi.
  - refine (On h instance_invalid (fun _ i => api_call api_repaired i cd ty f) _ H).
    intros n0 i0 r i1 rc Hi E. eapply call_leaves_idle in E; [|exact Hi]. apply E.
  - refine (On h instance_invalid (fun _ i => api_call api_repaired i cd ty_s (FOk [] [] (probe_code (existsb (String.eqb cls) (a_cfg i))) ""%string)) _ H).
    intros n0 i0 r i1 rc Hi E. eapply call_leaves_idle in E; [|exact Hi]. apply E.
Qed.

(* idle_after_every_call: whatever the API call was, every instance is idle (status 0) when it returns, and instances other
   than the one addressed are not touched at all *)
Theorem idle_after_every_call : forall w o ret recs w', world_ok w -> step api_repaired w o = Ok (ret, recs, w') ->
  world_ok w' /\
  (forall n i, nth_error (w_insts w') n = Some i -> api_status i = 0%Z) /\
  (forall h, (o = ODestroy h \/ o = OStatus h \/ (exists f, o = OLoad h f) \/ (exists cd ty f, o = OCall h cd ty f) \/ (exists cd c, o = OProbe h cd c)) ->
     forall n m, h = HInst n -> m <> n -> nth_error (w_insts w') m = nth_error (w_insts w) m).
Proof.
  intros w o ret recs w' Hw H. destruct (step_keeps_ok w o ret recs w' Hw H) as [A B]. split; [exact A|]. split.
  - intros n i Hn. unfold world_ok in A. rewrite Forall_forall in A. apply nth_error_In in Hn.
    unfold api_status. rewrite (proj1 (A i Hn)). reflexivity.
  - intros h Ho n m -> Hm. apply (B n); [|exact Hm].
    destruct Ho as [->|[->|[[f ->]|[[cd [ty [f ->]]]|[cd [c ->]]]]]]; reflexivity.
Qed.

Definition str_eqb := String.eqb.
Fixpoint sassoc {A} (k:string) (l:list (string * A)) : option A :=
  match l with [] => None | (k', v) :: r => if String.eqb k k' then Some v else sassoc k r end.
Definition const_is (k:string) (v:Z) (l:list (string * Z)) : bool := match sassoc k l with Some x => Z.eqb x v | None => false end.

Definition model_result_table : list (string * string) :=
  map (fun x => (result_name x, if Z.eqb (code_of_result x) result_ok then "result_ok" else "result_failed")%string) all_results
  ++ [("default", "result_failed")%string].
Definition model_aborts : list string := map result_name (filter aborts_after all_results).
Definition slist_eqb (a b:list string) : bool := list_eqb String.eqb a b.

Definition type_entry_ok (e:string * (string * bool * list (string * string) * list string * string * bool)) : bool :=
  let '(ch, (pf, ex, tab, ab, plain, emits)) := e in
  if orb (String.eqb ch "s") (String.eqb ch "a") then
    andb (String.eqb pf "parsing_failed") (andb ex (andb (list_eqb pair_eqb tab model_result_table) (andb (slist_eqb ab model_aborts) (String.eqb plain ""))))
  else if String.eqb ch "p" then andb (String.eqb pf "") (andb (negb ex) (andb (String.eqb plain "result_ok") emits))
  else if String.eqb ch "1" then andb (String.eqb pf "parsing_failed") (andb (negb ex) (andb (String.eqb plain "result_ok") (negb emits)))
  else if String.eqb ch "default" then andb (negb ex) (String.eqb plain "invalid_type")
  else false.

Definition api_tables_ok : bool :=
  andb (forallb type_entry_ok call_types)
  (andb (slist_eqb (map fst call_types) ["a"; "s"; "p"; "1"; "default"]%string)
  (andb (const_is "instance_invalid" instance_invalid call_consts)
  (andb (const_is "preprocessing_failed" preprocessing_failed call_consts)
  (andb (const_is "parsing_failed" parsing_failed call_consts)
  (andb (const_is "instance_running" instance_running call_consts)
  (andb (const_is "invalid_type" invalid_type call_consts)
  (andb (const_is "result_ok" result_ok call_consts)
  (andb (const_is "result_failed" result_failed call_consts)
  (andb (String.eqb call_invalid_handle "instance_invalid")
  (andb (String.eqb call_busy "instance_running")
  (andb (String.eqb call_pp_fail "preprocessing_failed")
  (andb (const_is load_invalid_handle instance_invalid load_consts)
  (andb (const_is load_pp_fail preprocessing_failed load_consts)
  (andb (const_is load_parse_fail parsing_failed load_consts)
  (andb (const_is load_ok result_ok load_consts)
        (Z.eqb status_invalid_handle instance_invalid)))))))))))))))).

(* every documented code that names one of the constants has that constant's value; status documents the state numbers *)
Definition documented_ok : bool :=
  andb (forallb (fun e => let '(n, k, _) := e in if String.eqb k "" then true else const_is k n call_consts) documented_call)
  (andb (forallb (fun e => let '(n, k, _) := e in if String.eqb k "" then true else const_is k n load_consts) documented_load)
        (forallb (fun s => existsb (fun e => let '(n, _, _) := e in Z.eqb n (ApiDefs.state_num s)) documented_status)
                 [StEmpty; StHalted; StRunning; StHaltedError])).

(* the source carries the repairs the model assumes (C18-01, C18-02) *)
Definition source_repaired : bool :=
  andb (negb call_pp_fail_derefs) (andb (negb load_pp_fail_derefs) (andb load_resets_call_data call_sets_call_data)).

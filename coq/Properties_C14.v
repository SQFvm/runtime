(* C14 - diagnostics name the true source file and line (and column) of the culprit.
   The theorems; the lemmas they rest on are in PP/ReaderProofs.v, PP/SyncProofs.v, PP/TrackerProofs.v,
   PP/LineSync.v, PP/FramePosProofs.v.
   Models: PP/Spec.v (reference expander with provenance on every output byte and the emission rules
   of default.cpp under the defect switch d_missing_newlines), PP/Tracker.v (the SQF tokenizer's
   m_line / m_column / path bookkeeping incl. '#line', tokenizer.hpp). Both are tied to the C++ by the
   correspondence run of checks/C14.py. *)
From Coq Require Import ZArith List Bool Lia.
Import ListNotations.
From SqfVerif Require Import PP.Spec PP.Tracker PP.ReaderProofs PP.SyncProofs PP.TrackerProofs PP.LineSync PP.TopProofs.
From SqfVerif Require Import PP.FramePos PP.FramePosProofs.
Local Open Scope Z_scope.

(* Reader: every raw newline is accounted for exactly once - as a newline character or as a hidden
   newline in front of the next character - so a character's line is its physical line
   (comment blocks, continuations, CRLF, strings, any text). *)
Theorem C14_reader_lines : forall s, lines_ok 1 (read s).
Proof. exact read_lines_ok. Qed.
Print Assumptions C14_reader_lines.

(* line_sync, repaired emission rule (swallowed newlines are answered before the next newline):
   for ANY file tree - comments, single- and multi-line defines, conditionals, includes entering and
   returning, CRLF - every output byte with provenance (f,l,c) is for the tokenizer in file f on line l.
   Hypotheses: the run reports no newline out of step (flag false: no continuation in plain text and no
   macro call spanning lines - outside C14's quantifier), and the tokenizer recognises exactly the
   '#line' texts that were written (decidable on the output; evaluated by the correspondence). *)
Theorem C14_line_sync : forall fs file content path items tbl i b f l c,
  preprocess repaired fs file content = Ok (items, tbl, false) ->
  recognises repaired (tk_init path) items = true ->
  nth_error items i = Some (OChar b (PSrc f l c)) ->
  exists tk, reported repaired path items i = Some tk /\
             tp_file (tk_pos tk) = f /\ tp_line (tk_pos tk) = l.
Proof. exact line_sync. Qed.
Print Assumptions C14_line_sync.

(* the same against the specification-side tracker, without the recognition hypothesis *)
Theorem C14_line_sync_ideal : forall fs file content items tbl i b f l c p0,
  preprocess repaired fs file content = Ok (items, tbl, false) ->
  nth_error items i = Some (OChar b (PSrc f l c)) ->
  tp_file (itrack p0 (firstn i items)) = f /\ tp_line (itrack p0 (firstn i items)) = l.
Proof. exact line_sync_ideal. Qed.
Print Assumptions C14_line_sync_ideal.

(* The byte-level tokenizer model is where the specification-side tracker is, for every output that
   passes [recognises]; with the repaired string rule the column agrees as well. *)
Theorem C14_tokenizer_agrees : forall d s, (s = true -> d_escquote_column d = false) ->
  forall items st q, agree s (tk_pos st) q -> recognises d st items = true ->
  forall i tk, nth_error (fst (fst (trackc d O st (render items) []))) (item_offset items i) = Some tk ->
  (i < length items)%nat ->
  agree s (tk_pos tk) (itrack q (firstn i items)).
Proof. exact recognises_agree. Qed.
Print Assumptions C14_tokenizer_agrees.

(* ... and the '#line n "f"' text the preprocessor writes is read back by the tokenizer model as
   file f, next line n+1, column 0, whenever the tokenizer is in normal mode in front of it (n >= 0, no
   newline in the name). What [recognises] still has to check per output is only that no string literal
   is open at such a point and that no other text looks like a '#line'. *)
Theorem C14_emitted_line_recognised : forall d st n f ctx,
  tk_mode st = TN -> 0 <= n -> ~ In NL f ->
  exists l, trackc d O st (render_item (OLine n f)) ctx = (l, mktk TN (mktp f (n + 1) 0) (tk_ub st), O).
Proof.
  intros d st n f ctx M Hn Hf.
  unfold render_item, s_line.
  set (body := [108;105;110;101;32] ++ dec n ++ [32;34] ++ f ++ [34]).
  assert (E: [35; 108; 105; 110; 101] ++ SP :: dec n ++ SP :: QUOTE :: f ++ [QUOTE; NL] = 35 :: body ++ [10]).
  { unfold body, SP, QUOTE, NL. cbn [app]. repeat (rewrite <- app_assoc; cbn [app]). reflexivity. }
  rewrite E. cbn [trackc].
  assert (LD: line_directive ((body ++ [10]) ++ ctx) = LDir n (Some f) (length body)).
  { unfold body. repeat rewrite <- app_assoc.
    replace ([108; 105; 110; 101; 32] ++ dec n ++ [32; 34] ++ f ++ [34] ++ [10] ++ ctx)
      with ([108; 105; 110; 101; 32] ++ dec n ++ [32; 34] ++ f ++ [34; 10] ++ ctx) by reflexivity.
    rewrite line_directive_emitted by auto. f_equal.
    repeat rewrite app_length. simpl. lia. }
  unfold tstep. rewrite M.
  replace (35 =? NL) with false by reflexivity. replace (35 =? QUOTE) with false by reflexivity.
  replace (35 =? SQ) with false by reflexivity. replace (35 =? HASH) with true by reflexivity.
  rewrite LD.
  rewrite trackc_app. rewrite trackc_skip by lia. rewrite Nat.sub_diag.
  cbn [trackc]. unfold tstep. cbn [tk_mode]. replace (10 =? NL) with true by reflexivity.
  cbn [tk_pos tk_ub]. eexists. unfold newline. cbn [tp_file tp_line]. reflexivity.
Qed.
Print Assumptions C14_emitted_line_recognised.

(* the emission rule of the unchanged code is refuted: after the three-line #define of the witness
   the x of line 4 is reported on line 2 (DESIGN section 8) *)
Theorem C14_line_sync_refuted_as_is : exists items tbl i b f l c,
  preprocess as_is (fun _ => None) wit_file wit_define3 = Ok (items, tbl, false) /\
  nth_error items i = Some (OChar b (PSrc f l c)) /\
  l = 4 /\ tp_line (itrack (mktp wit_file 0 0) (firstn i items)) = 2.
Proof.
  eexists. eexists. exists 2%nat. eexists. eexists. eexists. eexists.
  split; [vm_compute; reflexivity|]. split; [vm_compute; reflexivity|]. split; vm_compute; reflexivity.
Qed.
Print Assumptions C14_line_sync_refuted_as_is.

(* column_sync: a source byte whose line reached the output one for one in front of it (no comment
   removed, nothing expanded, no continuation) is reported at its source column.
   FULL STATEMENT of the property ("the correct column for tokens on lines not produced by macro
   expansion") is stronger: it also covers lines on which a comment was removed in front of the token.
   That part is refuted for the code as it is (next theorem) and recorded as a finding. *)
Theorem C14_column_sync_partial : forall fs file content path items tbl pre b f l c post,
  preprocess repaired fs file content = Ok (items, tbl, false) ->
  recognises repaired (tk_init path) items = true ->
  items = pre ++ OChar b (PSrc f l c) :: post ->
  has_break pre = true ->
  verbatim_from f l 0 (cur_line pre ++ [OChar b (PSrc f l c)]) ->
  exists tk, reported repaired path items (length pre) = Some tk /\ tp_col (tk_pos tk) = c.
Proof. exact column_sync. Qed.
Print Assumptions C14_column_sync_partial.

(* ... and such lines exist: tokens that are neither directive nor macro, without swallowed bytes,
   are written character for character (any defect setting) *)
Theorem C14_verbatim_lines_exist : forall d file eof_line dfuel incl toks st,
  active st = true -> ts_pend st = O ->
  Forall (verbatim_tok (ts_tbl st)) toks -> hid_sum (ltoks_chars toks) = O ->
  top d file eof_line dfuel incl st 0 toks = Ok (map (src file) (ltoks_chars toks), st).
Proof. exact top_verbatim. Qed.
Print Assumptions C14_verbatim_lines_exist.

(* The hypothesis of column_sync cannot be dropped for the code as it is: behind a block comment the
   reported column is the column in the preprocessed text.   /* c */ x   - x is source column 8. *)
Theorem C14_column_sync_refuted_after_comment : exists items tbl i b f l c tk,
  preprocess repaired (fun _ => None) wit_file [47;42;32;99;32;42;47;32;120] = Ok (items, tbl, false) /\
  nth_error items i = Some (OChar b (PSrc f l c)) /\ c = 8 /\
  reported repaired wit_file items i = Some tk /\ tp_col (tk_pos tk) = 1.
Proof.
  eexists. eexists. exists 2%nat. eexists. eexists. eexists. eexists. eexists.
  split; [vm_compute; reflexivity|]. split; [vm_compute; reflexivity|]. split; [vm_compute; reflexivity|].
  split; vm_compute; reflexivity.
Qed.
Print Assumptions C14_column_sync_refuted_after_comment.

(* The unrepaired tokenizer counts a doubled quote inside a string as one column:  "a""b" x  *)
Theorem C14_column_sync_refuted_doubled_quote : exists items tbl i b f l c tk,
  preprocess as_is (fun _ => None) wit_file [34;97;34;34;98;34;32;120] = Ok (items, tbl, false) /\
  nth_error items i = Some (OChar b (PSrc f l c)) /\ c = 7 /\
  reported as_is wit_file items i = Some tk /\ tp_col (tk_pos tk) = 6.
Proof.
  eexists. eexists. exists 8%nat. eexists. eexists. eexists. eexists. eexists.
  split; [vm_compute; reflexivity|]. split; [vm_compute; reflexivity|]. split; [vm_compute; reflexivity|].
  split; vm_compute; reflexivity.
Qed.
Print Assumptions C14_column_sync_refuted_doubled_quote.

Theorem C14_line_file_macros : forall file eof dfuel st w t rest c cs L d,
  w <> [] -> Forall wordc w ->
  ltok_chars t = c :: cs -> hid c = O ->
  lines_ok L (w ++ ltoks_chars (t :: rest)) ->
  (lookup (ts_tbl st) (bytes w) = Some (mkmacro None [] (Some BLine)) ->
     exists st2, top_word file eof (S dfuel) st w (t :: rest)
                 = Ok (map mac (dec (pc_line (last w d))), O, st2)) /\
  (lookup (ts_tbl st) (bytes w) = Some (mkmacro None [] (Some BFile)) ->
     exists st2, top_word file eof (S dfuel) st w (t :: rest)
                 = Ok (map mac (QUOTE :: file ++ [QUOTE]), O, st2)).
Proof. exact line_file_macros. Qed.
Print Assumptions C14_line_file_macros.

(* ---- runtime side: the instruction a frame names (PP/FramePos.v mirrors frame::next and frame::diag_info_from_position,
   frame.h:187-201,256-260; tied to the C++ by the 'framepos' run of checks/C14.py).  A runtime diagnostic that is not raised by an
   instruction itself, and every stack-trace entry, takes its location from a frame: *)
(* while it runs, a frame names the instruction it is executing: after k+1 steps instruction k *)
Theorem C14_frame_names_executing_instruction : forall len k,
  (k < len)%nat -> fdiag len (fafter len (S k)) = DIndex k.
Proof.
  intros len k Hk. rewrite fafter_S, Nat.min_l by lia. cbn [fdiag].
  destruct (Nat.eqb_spec k len); [lia|]. destruct (Nat.ltb_spec k len); [reflexivity|lia].
Qed.
Print Assumptions C14_frame_names_executing_instruction.

(* once its block has run to the end (however often it is stepped again), a frame names the block's LAST instruction: this is the
   location of the diagnostics an exit behaviour raises about the value the block left (while / waitUntil / count / select / findIf / ...) *)
Theorem C14_finished_frame_names_last_instruction : forall len m,
  (0 < len)%nat -> (len < m)%nat -> fdiag len (fafter len m) = DIndex (len - 1).
Proof.
  intros len [|k] Hl Hm; [lia|]. rewrite fafter_S, Nat.min_r by lia. cbn [fdiag].
  rewrite Nat.eqb_refl. destruct (Nat.eqb_spec len 0); [lia|reflexivity].
Qed.
Print Assumptions C14_finished_frame_names_last_instruction.

(* whatever the number of steps: the unchecked dereference of diag_info_from_position is never reached, and what is named is an
   instruction of the frame's own set (a frame without instructions names nothing) *)
Theorem C14_frame_location_is_an_instruction : forall len m,
  fdiag len (fafter len m) <> DUB /\ (forall i, fdiag len (fafter len m) = DIndex i -> (i < len)%nat).
Proof.
  intros len [|k]; [|rewrite fafter_S]; cbn [fafter fsteps fdiag].
  - destruct (Nat.eqb_spec len 0); split; try discriminate; intros i Hi; inversion Hi; lia.
  - destruct (Nat.eqb_spec (Nat.min k len) len), (Nat.eqb_spec len 0), (Nat.ltb_spec (Nat.min k len) len);
      try lia; split; try discriminate; intros i Hi; inversion Hi; lia.
Qed.
Print Assumptions C14_frame_location_is_an_instruction.

(* ---- non-vacuity ---- *)
(*  /* c NL c */ NL #ifdef Q NL junk NL #endif NL #include "/v/i" NL x   with i = a NL b NL  *)
Definition ex_main : list Z :=
  [47;42;32;99;10;32;99;32;42;47;10; 35;105;102;100;101;102;32;81;10; 106;117;110;107;10;
   35;101;110;100;105;102;10; 35;105;110;99;108;117;100;101;32;34;47;118;47;105;34;10; 120].
Definition ex_fs : fsys := fun p => if beq p [47;118;47;105] then Some ([47;84;47;105], [97;10;98;10]) else None.
Example ex_layout : exists items tbl,
  preprocess repaired ex_fs [109] ex_main = Ok (items, tbl, false) /\
  recognises repaired (tk_init [109]) items = true /\
  (* the x of line 7 of m, behind the include *)
  exists i tk, nth_error items i = Some (OChar 120 (PSrc [109] 7 0)) /\
               reported repaired [109] items i = Some tk /\ tk_pos tk = mktp [109] 7 0.
Proof.
  eexists. eexists. split; [vm_compute; reflexivity|]. split; [vm_compute; reflexivity|].
  exists 14%nat. eexists. split; [vm_compute; reflexivity|]. split; vm_compute; reflexivity.
Qed.

(* a block of three instructions: standing on the second one, and behind the last one *)
Example ex_frame_running : fdiag 3 (fafter 3 2) = DIndex 1.
Proof. reflexivity. Qed.
Example ex_frame_finished : fdiag 3 (fafter 3 4) = DIndex 2 /\ fdiag 3 (fafter 3 9) = DIndex 2.
Proof. split; reflexivity. Qed.

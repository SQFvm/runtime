(* C06, value half: what `str` prints for a value (Num/NumDefs.v) reads back as that value: strings, booleans,
   %g numbers as one number token, nested arrays. *)
From Coq Require Import ZArith List Bool Lia SpecFloat.
From SqfVerif Require Import Num.NumDefs Num.NumFloat.
Import ListNotations.
Local Open Scope Z_scope.

Lemma skip_ws_nonws : forall c r, is_ws c = false -> skip_ws (c :: r) = c :: r.
Proof. intros c r H. cbn [skip_ws]. now rewrite H. Qed.

Lemma next_tok_comma : forall df r, next_tok df (44 :: r) = (TComma, r). Proof. reflexivity. Qed.
Lemma next_tok_rbr : forall df r, next_tok df (93 :: r) = (TRBr, r). Proof. reflexivity. Qed.
Lemma next_tok_lbr : forall df r, next_tok df (91 :: r) = (TLBr, r). Proof. reflexivity. Qed.
Lemma next_tok_minus : forall df r, next_tok df (45 :: r) = (TMinus, r). Proof. reflexivity. Qed.
Lemma next_tok_nil : forall df, next_tok df [] = (TEof, []). Proof. reflexivity. Qed.
Lemma next_tok_quote : forall df r, next_tok df (34 :: r) = let '(a, b) := lex_str 34 r in (TStr (34 :: a), b).
Proof. reflexivity. Qed.

Lemma esc_nil : forall s, esc s = [] -> s = [].
Proof. intros [|c t]; [reflexivity|]. cbn [esc]. destruct (c =? 34); discriminate. Qed.

Lemma unq_cons2 : forall st c d r',
  unq st (c :: d :: r') = if (c =? st) && (d =? st) then c :: unq st r' else c :: unq st (d :: r').
Proof. reflexivity. Qed.

Lemma unq_esc : forall s, unq 34 (esc s ++ [34]) = s.
Proof.
  induction s as [|c t IH]; [reflexivity|].
  cbn [esc]. destruct (c =? 34) eqn:Hc.
  - apply Z.eqb_eq in Hc. subst c. cbn [app]. rewrite unq_cons2, Z.eqb_refl. cbn [andb]. now rewrite IH.
  - cbn [app]. destruct (esc t ++ [34]) as [|d r'] eqn:Hr.
    + now destruct (esc t).
    + rewrite unq_cons2, Hc. cbn [andb]. now rewrite IH.
Qed.

(* for every byte string, NUL included: std::string carries it *)
Theorem string_roundtrip : forall s, from_sqf (to_sqf s) = Some s.
Proof.
  intro s. unfold from_sqf, to_sqf. rewrite Z.eqb_refl. cbn [orb negb].
  destruct (len (34 :: esc s ++ [34]) =? 2) eqn:Hl.
  - apply Z.eqb_eq in Hl. unfold len in Hl. cbn [length] in Hl. rewrite app_length in Hl. cbn [length] in Hl.
    destruct (esc s) eqn:He; [|cbn [length] in Hl; lia]. now rewrite (esc_nil s He).
  - now rewrite unq_esc.
Qed.

(* a quote right behind the closing one would be taken for a doubled quote *)
Definition not_quote_next (rest : list byte) : Prop := match rest with c :: _ => c <> 34 | [] => True end.

Lemma lex_str_esc : forall s rest, not_quote_next rest ->
  lex_str 34 (esc s ++ 34 :: rest) = (esc s ++ [34], rest).
Proof.
  induction s as [|c t IH]; intros rest Hr.
  - cbn [esc app lex_str]. rewrite Z.eqb_refl. destruct rest as [|d r']; [reflexivity|].
    cbn in Hr. destruct (d =? 34) eqn:Hd; [apply Z.eqb_eq in Hd; contradiction|reflexivity].
  - cbn [esc]. destruct (c =? 34) eqn:Hc.
    + apply Z.eqb_eq in Hc. subst c. cbn [app lex_str]. rewrite Z.eqb_refl. now rewrite IH.
    + cbn [app lex_str]. rewrite Hc. now rewrite IH.
Qed.

Theorem lex_to_sqf : forall df s rest, not_quote_next rest ->
  next_tok df (to_sqf s ++ rest) = (TStr (to_sqf s), rest).
Proof.
  intros df s rest Hr. unfold to_sqf. cbn [app]. rewrite next_tok_quote, <- app_assoc. cbn [app].
  now rewrite lex_str_esc.
Qed.

Definition isdig (d : Z) : Prop := 0 <= d <= 9.
Definition dvalz (l : list Z) : Z := fold_left (fun a d => 10 * a + d) l 0.
Definition nondigit_head (rest : list byte) : Prop :=
  match rest with c :: _ => is_digit c = false | [] => True end.

Lemma is_digit_dch : forall d, isdig d -> is_digit (48 + d) = true.
Proof. intros d Hd. unfold is_digit, isdig in *. lia. Qed.

Lemma dch_cons : forall d t, dch (d :: t) = (48 + d) :: dch t.
Proof. reflexivity. Qed.
Lemma dch_app : forall a b, dch (a ++ b) = dch a ++ dch b.
Proof. intros. apply map_app. Qed.
Lemma isnil_dch : forall l, isnil (dch l) = isnil l.
Proof. now intros [|]. Qed.

Lemma span_dch : forall l rest, Forall isdig l -> nondigit_head rest ->
  span is_digit (dch l ++ rest) = (dch l, rest).
Proof.
  induction l as [|d t IH]; intros rest Hl Hr.
  - destruct rest as [|c r]; [reflexivity|]. cbn in *. now rewrite Hr.
  - inversion Hl as [|? ? Hd Ht]; subst. rewrite dch_cons. cbn [app span].
    rewrite is_digit_dch by assumption. now rewrite IH.
Qed.

Lemma dval_dch : forall l, dval (dch l) = dvalz l.
Proof.
  intro l. unfold dval, dvalz. generalize 0.
  induction l as [|d t IH]; intro a; [reflexivity|]. rewrite dch_cons. cbn [fold_left]. rewrite IH. f_equal. lia.
Qed.

Lemma len_app : forall A (a b : list A), len (a ++ b) = len a + len b.
Proof. intros. unfold len. rewrite app_length. lia. Qed.
Lemma len_repeat : forall A (x : A) j, len (repeat x j) = Z.of_nat j.
Proof. intros. unfold len. now rewrite repeat_length. Qed.
Lemma len_nonneg : forall A (l : list A), 0 <= len l.
Proof. intros. unfold len. lia. Qed.
Lemma len_dch : forall l, len (dch l) = len l.
Proof. intro l. unfold len, dch. now rewrite map_length. Qed.

Lemma dvalz_app : forall a b, dvalz (a ++ b) = dvalz a * 10 ^ len b + dvalz b.
Proof.
  intros a b. unfold dvalz. rewrite fold_left_app. generalize (fold_left (fun a d => 10 * a + d) a 0).
  induction b as [|d t IH]; intro x.
  - cbn. lia.
  - cbn [fold_left]. rewrite IH, (IH (10 * 0 + d)).
    replace (len (d :: t)) with (len t + 1) by (unfold len; cbn [length]; lia).
    rewrite Z.pow_add_r by (pose proof (len_nonneg _ t); lia). lia.
Qed.
Lemma dvalz_zeros : forall j, dvalz (repeat 0 j) = 0.
Proof. induction j as [|j IH]; [reflexivity|]. exact IH. Qed.
Lemma isdig_zeros : forall j, Forall isdig (repeat 0 j).
Proof. intro j. apply Forall_forall. intros d Hd. apply repeat_spec in Hd. subst d. unfold isdig. lia. Qed.

Lemma digs_isdig : forall k n, Forall isdig (digs k n).
Proof.
  induction k as [|k IH]; intro n; cbn [digs]; constructor; [|apply IH].
  unfold isdig. pose proof (Z.mod_pos_bound (n / 10 ^ Z.of_nat k) 10). lia.
Qed.
Lemma len_digs : forall k n, len (digs k n) = Z.of_nat k.
Proof. induction k as [|k IH]; intro n; unfold len in *; cbn [digs length]; [reflexivity|]. specialize (IH n). lia. Qed.

Lemma dvalz_digs : forall k n, dvalz (digs k n) = n mod 10 ^ Z.of_nat k.
Proof.
  induction k as [|k IH]; intro n.
  - cbn. now rewrite Z.mod_1_r.
  - cbn [digs]. change ((n / 10 ^ Z.of_nat k) mod 10 :: digs k n) with ([(n / 10 ^ Z.of_nat k) mod 10] ++ digs k n).
    rewrite dvalz_app, IH, len_digs. unfold dvalz. cbn [fold_left].
    rewrite Nat2Z.inj_succ, Z.pow_succ_r by lia.
    assert (0 < 10 ^ Z.of_nat k) as Hp by (apply Z.pow_pos_nonneg; lia).
    rewrite (Z.mul_comm 10 (10 ^ Z.of_nat k)), Z.rem_mul_r by lia. lia.
Qed.

Lemma strip0_spec : forall l, exists j, l = strip0 l ++ repeat 0 j.
Proof.
  induction l as [|d t [j IH]].
  - exists 0%nat. reflexivity.
  - cbn [strip0]. destruct (strip0 t) as [|x t'] eqn:Hs.
    + destruct (d =? 0) eqn:Hd.
      * apply Z.eqb_eq in Hd. subst d. exists (S j). cbn [app repeat]. now rewrite IH at 1.
      * exists j. cbn [app]. now rewrite IH at 1.
    + exists j. cbn [app]. now rewrite IH at 1.
Qed.

Definition etext (eo : option (bool * list Z)) : list byte :=
  match eo with None => [] | Some (neg, ed) => 101 :: (if neg : bool then 45 else 43) :: dch ed end.
Definition eval_exp (eo : option (bool * list Z)) : Z :=
  match eo with None => 0 | Some (neg, ed) => if neg : bool then - dvalz ed else dvalz ed end.
Definition ntext (ip fp : list Z) (eo : option (bool * list Z)) : list byte := dch ip ++ frac fp ++ etext eo.
Definition exp_ok (eo : option (bool * list Z)) : Prop :=
  match eo with None => True | Some (_, ed) => ed <> [] /\ Forall isdig ed end.

(* t spells the decimal D * 10^X *)
Definition spells (t : list byte) (D X : Z) : Prop :=
  exists ip fp eo, t = ntext ip fp eo /\ ip <> [] /\ Forall isdig (ip ++ fp) /\ exp_ok eo /\
                   D = dvalz (ip ++ fp) /\ X = eval_exp eo - len fp.

(* what may follow a decimal text without changing its token *)
Definition numstop (rest : list byte) : Prop :=
  match rest with c :: _ => is_digit c = false /\ (c =? 46) = false /\ is_e c = false | [] => True end.

Lemma ntext_None : forall ip fp, ntext ip fp None = dch ip ++ frac fp.
Proof. intros. unfold ntext. cbn [etext]. now rewrite app_nil_r. Qed.

Lemma etext_head : forall eo rest, numstop rest -> nondigit_head (etext eo ++ rest).
Proof. intros [[neg ed]|] [|c r] Hr; cbn in *; tauto. Qed.
Lemma frac_head : forall fp R, nondigit_head R -> nondigit_head (frac fp ++ R).
Proof. intros [|d t] R H; cbn [frac app]; [assumption|reflexivity]. Qed.

(* lex_num and dec_of read a number in three stages: integer digits, fraction, exponent. The two later stages
   of each are named here, so that each has a lemma of its own. *)
Definition lex_frac (r1 : list byte) : list byte * list byte :=
  match r1 with
  | c :: r => if c =? 46 then
                let '(ds, r') := span is_digit r in
                if isnil ds then ([], r1) else (46 :: ds, r')
              else ([], r1)
  | [] => ([], r1)
  end.
Definition lex_exp (r2 : list byte) : list byte * list byte :=
  match r2 with
  | e :: r =>
      if is_e e then
        let '(sg, ra) := match r with
                         | s :: r'' => if is_sign s then ([s], r'') else ([], r)
                         | [] => ([], r)
                         end in
        let '(ds, rb) := span is_digit ra in
        if isnil ds then (if isnil sg then ([], r2) else ([e], r)) else (e :: sg ++ ds, rb)
      else ([], r2)
  | [] => ([], r2)
  end.
Definition dec_frac (r1 : list byte) : list byte * list byte :=
  match r1 with c :: r => if c =? 46 then span is_digit r else ([], r1) | [] => ([], r1) end.
Definition dec_exp (r2 : list byte) : Z :=
  match r2 with
  | e :: r =>
      if is_e e then
        match r with
        | s :: r' => if s =? 45 then - dval (fst (span is_digit r'))
                     else if s =? 43 then dval (fst (span is_digit r'))
                     else dval (fst (span is_digit r))
        | [] => 0
        end
      else 0
  | [] => 0
  end.

Lemma lex_num_stages : forall l ip r1 fp r2 ep r3,
  span is_digit l = (ip, r1) -> ip <> [] -> lex_frac r1 = (fp, r2) -> lex_exp r2 = (ep, r3) ->
  lex_num l = (ip ++ fp ++ ep, r3).
Proof.
  intros l ip r1 fp r2 ep r3 Hs Hne Hf He. unfold lex_num, lex_frac, lex_exp in *.
  assert (match l with c :: _ => c =? 46 | [] => false end = false) as Hdot.
  { destruct l as [|c l']; [reflexivity|]. cbn [span] in Hs. unfold is_digit in Hs.
    destruct (c =? 46) eqn:Hc; [|reflexivity]. apply Z.eqb_eq in Hc. subst c. now injection Hs as <-. }
  rewrite Hdot, Hs. destruct ip; [contradiction|]. cbn [negb andb isnil]. now rewrite Hf, He.
Qed.

Lemma dec_of_stages : forall t ip r1 fp r2,
  span is_digit t = (ip, r1) -> dec_frac r1 = (fp, r2) -> dec_of t = (dval (ip ++ fp), dec_exp r2 - len fp).
Proof. intros t ip r1 fp r2 Hs Hf. unfold dec_of, dec_frac, dec_exp in *. now rewrite Hs, Hf. Qed.

Lemma lex_frac_ntext : forall fp eo rest, Forall isdig fp -> numstop rest ->
  lex_frac (frac fp ++ etext eo ++ rest) = (frac fp, etext eo ++ rest).
Proof.
  intros [|f fp] eo rest Hfp Hr.
  - destruct eo as [[neg ed]|]; [reflexivity|]. destruct rest as [|c r]; [reflexivity|].
    cbn in *. destruct Hr as (_ & -> & _). reflexivity.
  - cbn [frac app lex_frac]. change (46 =? 46) with true. cbn match.
    rewrite span_dch by (auto using etext_head). now rewrite isnil_dch.
Qed.

Lemma lex_exp_etext : forall eo rest, exp_ok eo -> numstop rest -> lex_exp (etext eo ++ rest) = (etext eo, rest).
Proof.
  intros [[neg ed]|] rest He Hr.
  - destruct He as [Hne Hd]. cbn [etext app lex_exp]. change (is_e 101) with true. cbn match.
    replace (is_sign (if neg then 45 else 43)) with true by now destruct neg.
    rewrite span_dch by (destruct rest; cbn in *; tauto). rewrite isnil_dch.
    destruct ed; [contradiction|]. reflexivity.
  - destruct rest as [|c r]; [reflexivity|]. cbn in *. destruct Hr as (_ & _ & ->). reflexivity.
Qed.

Lemma dec_frac_ntext : forall fp eo, Forall isdig fp -> dec_frac (frac fp ++ etext eo) = (dch fp, etext eo).
Proof.
  intros [|f fp] eo Hfp.
  - now destruct eo as [[neg ed]|].
  - cbn [frac app dec_frac]. change (46 =? 46) with true. cbn match.
    apply span_dch; [assumption|]. now destruct eo as [[]|].
Qed.

Lemma dec_exp_etext : forall eo, exp_ok eo -> dec_exp (etext eo) = eval_exp eo.
Proof.
  intros [[neg ed]|] He; [|reflexivity]. destruct He as [_ Hd].
  assert (span is_digit (dch ed) = (dch ed, [])) as Hsp.
  { rewrite <- (app_nil_r (dch ed)) at 1. now apply span_dch. }
  destruct neg; cbn [etext dec_exp eval_exp]; rewrite Hsp; cbn [fst]; rewrite dval_dch; reflexivity.
Qed.

Theorem spells_lex_num : forall t D X rest, spells t D X -> numstop rest -> lex_num (t ++ rest) = (t, rest).
Proof.
  intros t D X rest (ip & fp & eo & -> & Hne & Hd & He & _) Hr.
  apply Forall_app in Hd. destruct Hd as [Hip Hfp]. unfold ntext. rewrite <- !app_assoc.
  apply (lex_num_stages _ _ (frac fp ++ etext eo ++ rest) _ (etext eo ++ rest)).
  - apply span_dch; auto using frac_head, etext_head.
  - now destruct ip.
  - now apply lex_frac_ntext.
  - now apply lex_exp_etext.
Qed.

Theorem spells_dec_of : forall t D X, spells t D X -> dec_of t = (D, X).
Proof.
  intros t D X (ip & fp & eo & -> & _ & Hd & He & -> & ->).
  apply Forall_app in Hd. destruct Hd as [Hip Hfp]. unfold ntext.
  rewrite (dec_of_stages _ (dch ip) (frac fp ++ etext eo) (dch fp) (etext eo)).
  - now rewrite <- dch_app, dval_dch, dec_exp_etext, len_dch.
  - apply span_dch; [assumption|]. apply frac_head. now destruct eo as [[]|].
  - now apply dec_frac_ntext.
Qed.

(* what follows a printed value inside `str` output: nothing, a comma or a closing bracket *)
Definition vstop (rest : list byte) : Prop := match rest with [] => True | c :: _ => c = 44 \/ c = 93 end.

Lemma vstop_numstop : forall rest, vstop rest -> numstop rest.
Proof. intros [|c r] H; [exact I|]. cbn in *. destruct H; subst c; repeat split. Qed.
Lemma vstop_not_quote : forall rest, vstop rest -> not_quote_next rest.
Proof. intros [|c r] H; [exact I|]. cbn in *. destruct H; subst c; discriminate. Qed.

Lemma next_tok_bool : forall df (b : bool) rest, vstop rest ->
  next_tok df ((if b then kw_true else kw_false) ++ rest) = (if b then TTrue else TFalse, rest).
Proof.
  intros df b [|c r] H; [|destruct H; subst c]; destruct b, df as [x []]; reflexivity.
Qed.

(* a digit is none of the chars next_tok dispatches on before it tries a number; after a leading 0 it first
   looks for the x of a hexadecimal literal. No x can follow here: lex_num would stop in front of it, so it would
   be the head of rest *)
Lemma next_tok_num : forall df c t' rest,
  is_digit c = true -> vstop rest -> lex_num (c :: t' ++ rest) = (c :: t', rest) ->
  next_tok df (c :: t' ++ rest) = (TNum (c :: t'), rest).
Proof.
  intros df c t' rest Hc Hr Hlex.
  assert (forall k, k < 48 \/ 57 < k -> (c =? k) = false) as Hne.
  { unfold is_digit in Hc. intros k Hk. apply Z.eqb_neq. lia. }
  unfold next_tok. rewrite skip_ws_nonws by (unfold is_ws; now rewrite !Hne by lia).
  rewrite !Hne by lia. cbn [orb].
  destruct (c =? 48) eqn:H48.
  - apply Z.eqb_eq in H48. subst c. unfold lex_hex. change (48 =? 36) with false. cbn match.
    destruct (t' ++ rest) as [|x r] eqn:Ht; [|destruct (x =? 120) eqn:Hx].
    + cbn [isnil]. now rewrite Hlex.
    + apply Z.eqb_eq in Hx. subst x. change (lex_num (48 :: 120 :: r)) with ([48], 120 :: r) in Hlex.
      injection Hlex as <- <-. cbn in Hr. lia.
    + cbn [isnil]. now rewrite Hlex.
  - rewrite Hc. cbn [orb]. now rewrite Hlex.
Qed.

Theorem spells_tok : forall df t D X rest, spells t D X -> vstop rest ->
  next_tok df (t ++ rest) = (TNum t, rest).
Proof.
  intros df t D X rest Hs Hr. pose proof (spells_lex_num t D X rest Hs (vstop_numstop _ Hr)) as Hlex.
  destruct Hs as (ip & fp & eo & -> & Hne & Hd & _). destruct ip as [|d0 ip']; [contradiction|].
  inversion Hd as [|? ? Hd0 _]; subst. unfold ntext in *. rewrite dch_cons in *. cbn [app] in *.
  apply next_tok_num; [now apply is_digit_dch|exact Hr|exact Hlex].
Qed.

(* the decimal (D, Xd) read from a text equals q * 10^ex up to j trailing zeros removed by printf *)
Definition same_dec (D Xd q ex : Z) : Prop := exists j, 0 <= j /\ q = D * 10 ^ j /\ Xd = ex + j.

Lemma same_dec_R : forall D Xd q ex, same_dec D Xd q ex -> dec_R D Xd = dec_R q ex.
Proof.
  intros D Xd q ex (j & Hj & Hq & HX). subst q Xd. unfold dec_R.
  rewrite (Flocq.Core.Float_prop.F2R_change_exp radix10 ex D (ex + j)) by lia.
  replace (ex + j - ex) with j by lia. reflexivity.
Qed.

Lemma same_dec_nearest32 : forall D Xd q ex, same_dec D Xd q ex -> 0 < q ->
  nearest32_dec D Xd = nearest32_dec q ex.
Proof.
  intros D Xd q ex H Hq. apply nearest32_dec_ext; [|assumption|now apply same_dec_R].
  destruct H as (j & Hj & -> & _). assert (0 < 10 ^ j) by (apply Z.pow_pos_nonneg; lia). nia.
Qed.

(* the shape of all three branches of print_g *)
Lemma spells_point : forall ds n eo q ex,
  Forall isdig ds -> (1 <= n <= length ds)%nat -> exp_ok eo -> dvalz ds = q ->
  eval_exp eo - (len ds - Z.of_nat n) = ex ->
  exists D X, spells (ntext (firstn n ds) (strip0 (skipn n ds)) eo) D X /\ same_dec D X q ex.
Proof.
  intros ds n eo q ex Hd Hn He Hq Hex. set (ip := firstn n ds). set (fp := strip0 (skipn n ds)).
  destruct (strip0_spec (skipn n ds)) as [j Hj]. fold fp in Hj.
  assert (ds = (ip ++ fp) ++ repeat 0 j) as Hds by (rewrite <- app_assoc, <- Hj; symmetry; apply firstn_skipn).
  assert (len ip = Z.of_nat n) as Hip by (unfold len, ip; rewrite firstn_length; lia).
  rewrite Hds in Hd, Hq, Hex. apply Forall_app in Hd. rewrite dvalz_app, dvalz_zeros, len_repeat in Hq.
  rewrite !len_app, len_repeat, Hip in Hex.
  exists (dvalz (ip ++ fp)), (eval_exp eo - len fp). split.
  - exists ip, fp, eo. repeat split; try tauto. intro E. rewrite E in Hip. cbn in Hip. lia.
  - exists (Z.of_nat j). lia.
Qed.

Lemma print_g_spells : forall q ex, 100000 <= q < 1000000 -> -100 < ex + 5 < 100 ->
  exists D X, spells (print_g q ex) D X /\ same_dec D X q ex.
Proof.
  intros q ex Hq HX. unfold print_g. set (X := ex + 5) in *. set (ds := digs 6 q).
  pose proof (digs_isdig 6 q : Forall isdig ds) as Hds. pose proof (len_digs 6 q : len ds = 6) as Hl.
  assert (dvalz ds = q) as Hv by (unfold ds; rewrite dvalz_digs; apply Z.mod_small; cbn; lia).
  destruct ((X <? -4) || (6 <=? X)) eqn:Hstyle.
  - apply (spells_point ds 1 (Some (X <? 0, digs 2 (Z.abs X)))); [assumption|cbn; lia| |assumption|].
    + split; [discriminate|apply digs_isdig].
    + cbn [eval_exp]. rewrite dvalz_digs, Z.mod_small by (cbn; lia). destruct (Z.ltb_spec X 0); lia.
  - destruct (0 <=? X) eqn:Hpos.
    + rewrite <- ntext_None. apply spells_point; [assumption|unfold len in Hl; lia|exact I|assumption|cbn [eval_exp]; lia].
    + (* zeros in front of the six digits, the point after the first of them *)
      set (z := Z.to_nat (- X - 1)). rewrite <- (ntext_None [0]).
      apply (spells_point (repeat 0 (S z) ++ ds) 1 None); [|cbn; lia|exact I| |].
      * apply Forall_app. split; [apply isdig_zeros|assumption].
      * rewrite dvalz_app, dvalz_zeros. lia.
      * rewrite len_app, len_repeat, Hl. cbn [eval_exp]. lia.
Qed.

Lemma printed : forall q ex, 100000 <= q < 1000000 -> -100 < ex + 5 < 100 ->
  (forall df rest, vstop rest -> next_tok df (print_g q ex ++ rest) = (TNum (print_g q ex), rest)) /\
  same_dec (fst (dec_of (print_g q ex))) (snd (dec_of (print_g q ex))) q ex.
Proof.
  intros q ex Hq HX. destruct (print_g_spells q ex Hq HX) as (D & X & Hs & Hsame). split.
  - intros df rest Hr. now apply (spells_tok df _ D X).
  - now rewrite (spells_dec_of _ D X Hs).
Qed.

(* DESIGN.md Appendix B: a number is printable when it is finite and the nearest binary32 of its
   six-digit decimal (what %g prints) is the number itself *)
Definition printable_num (x : spec_float) : Prop :=
  match x with
  | S754_zero _ => True
  | S754_finite s m e => nearest32_dec (fst (dec6_of m e)) (snd (dec6_of m e)) = S754_finite false m e
  | _ => False
  end.

Lemma fmt_g6_finite : forall s m e,
  fmt_g6 (S754_finite s m e) = sgn s ++ print_g (fst (dec6_of m e)) (snd (dec6_of m e)).
Proof. intros. cbn [fmt_g6]. now destruct (dec6_of m e). Qed.

Lemma lit_num_repaired : forall t,
  lit_num repaired t =
  match nearest32_dec (fst (dec_of t)) (snd (dec_of t)) with S754_infinity _ => (S754_nan, true) | y => (y, false) end.
Proof. intro t. unfold lit_num. now destruct (dec_of t). Qed.

(* shaped after read_value: the minus is a token of its own, and the parser negates the literal behind it *)
Lemma fmt_g6_printable : forall x, printable_num x ->
  exists s t y, fmt_g6 x = sgn s ++ t /\ x = (if s then SFopp y else y) /\
    (forall df rest, vstop rest -> next_tok df (t ++ rest) = (TNum t, rest)) /\
    lit_num repaired t = (y, false).
Proof.
  intros [s|s| |s m e] Hp; try contradiction.
  - exists s, [48], (S754_zero false). repeat split; [now destruct s|].
    intros df rest Hr. apply (spells_tok df _ 0 0); [|assumption].
    exists [0], [], None. repeat split; try discriminate. repeat constructor; unfold isdig; lia.
  - destruct (printable_range m e Hp) as (Hq & HX). destruct (printed _ _ Hq HX) as [Htok Hsame].
    exists s, (print_g (fst (dec6_of m e)) (snd (dec6_of m e))), (S754_finite false m e). repeat split.
    + apply fmt_g6_finite.
    + now destruct s.
    + exact Htok.
    + rewrite lit_num_repaired, (same_dec_nearest32 _ _ _ _ Hsame), Hp by lia. reflexivity.
Qed.

Section value_ind.
  Variable P : value -> Prop.
  Hypothesis Hb : forall b, P (VBool b).
  Hypothesis Hs : forall s, P (VStr s).
  Hypothesis Hn : forall x, P (VNum x).
  Hypothesis Ha : forall l, Forall P l -> P (VArr l).
  Fixpoint value_ind' (v : value) : P v :=
    match v with
    | VBool b => Hb b | VStr s => Hs s | VNum x => Hn x
    | VArr l => Ha l ((fix go (l : list value) : Forall P l :=
                         match l with [] => Forall_nil P | a :: t => Forall_cons a (value_ind' a) (go t) end) l)
    end.
End value_ind.

Fixpoint printable (v : value) : Prop :=
  match v with
  | VNum x => printable_num x
  | VArr l => (fix all (l : list value) : Prop := match l with [] => True | a :: t => printable a /\ all t end) l
  | _ => True
  end.
Lemma printable_arr : forall l, printable (VArr l) <-> Forall printable l.
Proof.
  induction l as [|a t IH].
  - split; intro; [constructor|exact I].
  - change (printable (VArr (a :: t))) with (printable a /\ printable (VArr t)). rewrite IH.
    split; [intros [Ha Ht]; now constructor|intro H; now inversion H].
Qed.

(* fuel that read_value needs for str_value v *)
Fixpoint vfuel (v : value) : nat :=
  match v with
  | VArr l => S ((fix ef (l : list value) : nat := match l with [] => O | a :: t => S (vfuel a + ef t) end) l)
  | _ => 1%nat
  end.
Definition efuel (l : list value) : nat :=
  (fix ef (l : list value) : nat := match l with [] => O | a :: t => S (vfuel a + ef t) end) l.
Lemma vfuel_arr : forall l, vfuel (VArr l) = S (efuel l). Proof. reflexivity. Qed.
Lemma efuel_cons : forall a t, efuel (a :: t) = S (vfuel a + efuel t). Proof. reflexivity. Qed.

Fixpoint join (l : list (list byte)) : list byte :=
  match l with [] => [] | a :: t => match t with [] => a | _ => a ++ 44 :: join t end end.

Lemma concat_join : forall l, l <> [] -> concat (map (fun t => t ++ [44]) l) = join l ++ [44].
Proof.
  induction l as [|a t IH]; intro H; [contradiction|]. cbn [map concat].
  destruct t as [|b t'].
  - cbn. now rewrite app_nil_r.
  - rewrite IH by discriminate. cbn [join]. rewrite <- !app_assoc. reflexivity.
Qed.

(* the stringstream trick of d_array::to_string_sqf yields the comma-separated list in brackets *)
Theorem arr_text_join : forall l, arr_text l = 91 :: join l ++ [93].
Proof.
  intros [|a t]; [reflexivity|]. unfold arr_text.
  rewrite concat_join by discriminate.
  change (91 :: join (a :: t) ++ [44]) with ((91 :: join (a :: t)) ++ [44]).
  now rewrite removelast_last.
Qed.

(* inside the brackets every element is followed by a separator *)
Lemma join_cons_stop : forall a t rest, exists rest', vstop rest' /\ join (a :: t) ++ 93 :: rest = a ++ rest'.
Proof.
  intros a [|b t] rest; [exists (93 :: rest)|exists (44 :: join (b :: t) ++ 93 :: rest)]; (split; [cbn; auto|]).
  - reflexivity.
  - cbn [join]. now rewrite <- app_assoc.
Qed.

Definition reads_back (v : value) : Prop :=
  forall fuel rest, (vfuel v <= fuel)%nat -> vstop rest ->
  read_value repaired fuel (str_value v ++ rest) = Ok (v, rest).

Lemma reads_back_nonempty : forall v, reads_back v -> str_value v <> [].
Proof.
  intros v Hv E. specialize (Hv (S (vfuel v)) [] ltac:(lia) I). cbn [read_value] in Hv. rewrite E in Hv. discriminate.
Qed.
Lemma reads_back_not_rbr : forall v rest r', reads_back v -> vstop rest ->
  next_tok repaired (str_value v ++ rest) <> (TRBr, r').
Proof.
  intros v rest r' Hv Hr E. specialize (Hv (S (vfuel v)) rest ltac:(lia) Hr). cbn [read_value] in Hv. rewrite E in Hv.
  discriminate.
Qed.

Lemma sgn_app : forall s t rest, (sgn s ++ t) ++ rest = sgn s ++ t ++ rest.
Proof. intros. now rewrite app_assoc. Qed.

Lemma reads_back_num : forall x, printable_num x -> reads_back (VNum x).
Proof.
  intros x Hp fuel rest Hf Hr. destruct fuel as [|f]; [cbn in Hf; lia|]. cbn [read_value].
  destruct (fmt_g6_printable x Hp) as (s & t & y & Hfmt & -> & Htok & Hlit).
  cbn [str_value]. rewrite Hfmt, sgn_app. destruct s; cbn [sgn app].
  - rewrite next_tok_minus, Htok, Hlit by assumption. reflexivity.
  - rewrite Htok, Hlit by assumption. reflexivity.
Qed.

Lemma read_elems_join : forall l, l <> [] -> Forall reads_back l ->
  forall fuel acc rest, (efuel l <= fuel)%nat ->
  read_elems repaired fuel (join (map str_value l) ++ 93 :: rest) acc = Ok (VArr (rev acc ++ l), rest).
Proof.
  induction l as [|v t IH]; intros Hne Hall fuel acc rest Hf; [contradiction|].
  inversion Hall as [|? ? Hv Ht]; subst.
  rewrite efuel_cons in Hf. destruct fuel as [|f]; [lia|]. cbn [read_elems].
  destruct t as [|w t'].
  - cbn [map join]. rewrite (Hv f (93 :: rest)) by (try lia; cbn; auto).
    rewrite next_tok_rbr. cbn [rev]. reflexivity.
  - change (join (map str_value (v :: w :: t'))) with (str_value v ++ 44 :: join (map str_value (w :: t'))).
    rewrite <- app_assoc. cbn [app].
    rewrite (Hv f (44 :: join (map str_value (w :: t')) ++ 93 :: rest)) by (try lia; cbn; auto).
    rewrite next_tok_comma. rewrite IH; try discriminate; try assumption; [|lia].
    cbn [rev]. now rewrite <- app_assoc.
Qed.

(* str of a printable value compiles and evaluates to that very value, for values of any size and depth *)
Theorem read_str_value : forall v, printable v -> reads_back v.
Proof.
  induction v as [b|s|x|l IHl] using value_ind'; intro Hp.
  - intros fuel rest Hf Hr. destruct fuel as [|f]; [cbn in Hf; lia|]. cbn [read_value].
    cbn [str_value]. rewrite next_tok_bool by assumption. now destruct b.
  - intros fuel rest Hf Hr. destruct fuel as [|f]; [cbn in Hf; lia|]. cbn [read_value].
    cbn [str_value]. rewrite lex_to_sqf by now apply vstop_not_quote. now rewrite string_roundtrip.
  - now apply reads_back_num.
  - intros fuel rest Hf Hr. rewrite vfuel_arr in Hf. destruct fuel as [|f]; [lia|]. cbn [read_value].
    cbn [str_value]. rewrite arr_text_join. cbn [app]. rewrite next_tok_lbr, <- app_assoc. cbn [app].
    apply printable_arr in Hp.
    assert (Forall reads_back l) as Hall by (rewrite Forall_forall in *; auto).
    destruct l as [|v t]; [reflexivity|].
    pose proof (read_elems_join (v :: t) ltac:(discriminate) Hall f [] rest ltac:(lia)) as HE.
    (* the first token of a printed element is never the closing bracket *)
    destruct (join_cons_stop (str_value v) (map str_value t) rest) as (rest' & Hst & Hj).
    pose proof (fun r' => reads_back_not_rbr v rest' r' (Forall_inv Hall) Hst) as Hnr.
    cbn [map] in *. rewrite <- Hj in Hnr.
    destruct (next_tok repaired (join (str_value v :: map str_value t) ++ 93 :: rest)) as [tk r'].
    destruct tk; try exact HE. now elim (Hnr r').
Qed.

Lemma length_join_ge : forall (a : list byte) t, (length a <= length (join (a :: t)))%nat.
Proof. intros a [|b t]; cbn [join]; [lia|]. rewrite app_length. lia. Qed.
Lemma length_join_cons : forall (a b : list byte) t,
  length (join (a :: b :: t)) = (length a + 1 + length (join (b :: t)))%nat.
Proof. intros. cbn [join]. rewrite app_length. cbn [length]. lia. Qed.

Lemma vfuel_bound : forall v, printable v -> (vfuel v < 2 * length (str_value v))%nat.
Proof.
  assert (forall v, printable v -> (1 <= length (str_value v))%nat) as Hlen.
  { intros v Hp. pose proof (reads_back_nonempty v (read_str_value v Hp)). destruct (str_value v); [contradiction|cbn; lia]. }
  induction v as [b|s|x|l IHl] using value_ind'; intro Hp; try (specialize (Hlen _ Hp); cbn [vfuel]; lia).
  apply printable_arr in Hp. rewrite vfuel_arr. cbn [str_value]. rewrite arr_text_join. cbn [length].
  rewrite app_length. cbn [length].
  assert (efuel l <= 2 * length (join (map str_value l)))%nat as HE.
  { clear -IHl Hp. induction l as [|v t IH]; [cbn; lia|].
    inversion IHl as [|? ? Hv Ht]; inversion Hp as [|? ? Hpv Hpt]; subst.
    specialize (IH Ht Hpt). specialize (Hv Hpv). rewrite efuel_cons.
    destruct t as [|w t'].
    - cbn [map join efuel] in *. lia.
    - cbn [map]. rewrite length_join_cons. cbn [map] in IH. lia. }
  lia.
Qed.

Theorem read_all_str_value : forall v, printable v -> read_all repaired (str_value v) = Ok v.
Proof.
  intros v Hp. unfold read_all.
  pose proof (read_str_value v Hp (2 * length (str_value v) + 2)%nat [] ltac:(pose proof (vfuel_bound v Hp); lia) I) as H.
  rewrite app_nil_r in H. rewrite H. reflexivity.
Qed.

Lemma bytes_eqb_refl : forall l, bytes_eqb l l = true.
Proof. induction l as [|c t IH]; [reflexivity|]. cbn [bytes_eqb]. now rewrite Z.eqb_refl, IH. Qed.

Lemma feq_refl : forall x, printable_num x -> feq x x = true.
Proof.
  intros [s|s| |s m e] H; try contradiction; [reflexivity|].
  unfold feq, SFcompare. rewrite Z.compare_refl, Pos.compare_cont_refl. now destruct s.
Qed.

(* isEqualTo is reflexive on printable values (no NaN inside) *)
Theorem veq_refl : forall v, printable v -> veq v v = true.
Proof.
  induction v as [b|s|x|l IHl] using value_ind'; intro Hp.
  - cbn. now destruct b.
  - cbn. apply bytes_eqb_refl.
  - cbn. now apply feq_refl.
  - apply printable_arr in Hp. cbn [veq].
    induction l as [|a t IH]; [reflexivity|].
    inversion IHl; inversion Hp; subst. apply andb_true_intro. split; auto.
Qed.

(* (call compile str v) isEqualTo v, in the model with the literal rule repaired *)
Theorem value_roundtrip : forall v, printable v ->
  exists v', read_all repaired (str_value v) = Ok v' /\ veq v' v = true /\ v' = v.
Proof. intros v Hp. exists v. repeat split; [now apply read_all_str_value|now apply veq_refl]. Qed.

Theorem string_value_roundtrip : forall s, read_all repaired (str_value (VStr s)) = Ok (VStr s).
Proof. intro s. now apply read_all_str_value. Qed.

(* what d_scalar::to_string_sqf prints for a finite non-zero binary32 (after the sign) is ONE number
   token for the tokenizer, and the decimal that token spells is round6 x: the six-significant-digit decimal
   nearest to |x| (ties to even) *)
Theorem g6_relex : forall df s m e rest,
  valid_binary 24 128 (S754_finite s m e) = true -> vstop rest ->
  let q := fst (round6 (S754_finite s m e)) in let ex := snd (round6 (S754_finite s m e)) in
  fmt_g6 (S754_finite s m e) = sgn s ++ print_g q ex /\
  next_tok df (print_g q ex ++ rest) = (TNum (print_g q ex), rest) /\
  dec_R (fst (dec_of (print_g q ex))) (snd (dec_of (print_g q ex))) = dec_R q ex /\
  dec_R q ex = Flocq.Core.Generic_fmt.round radix10 (Flocq.Core.FLX.FLX_exp 6) Flocq.Core.Round_NE.ZnearestE
                 (Flocq.Core.Defs.F2R (Flocq.Core.Defs.Float Flocq.Core.Zaux.radix2 (Zpos m) e)).
Proof.
  intros df s m e rest Hv Hr. cbn [round6].
  destruct (dec6_of_range s m e Hv) as [Hq HX].
  destruct (printed _ _ Hq HX) as [Htok Hsame].
  destruct (dec6_of_spec m e) as (Hspec & _ & _).
  repeat split.
  - apply fmt_g6_finite.
  - now apply Htok.
  - now apply same_dec_R.
  - exact Hspec.
Qed.

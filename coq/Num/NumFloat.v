(* C06, value half: the number conversions of Num/NumDefs.v meet the IEEE-754 / printf specification
   (Flocq's generic rounding on real numbers). *)
From Coq Require Import ZArith List Bool Lia Reals SpecFloat.
From Flocq Require Import Core Bracket Div Round BinarySingleNaN.
From SqfVerif Require Import Num.NumDefs.
Import ListNotations.
Local Open Scope Z_scope.

Lemma F2R_int : forall (beta : radix) n, F2R (Float beta n 0) = IZR n.
Proof. intros. unfold F2R. simpl. ring. Qed.

Lemma Fdiv_int_correct : forall (beta : radix) fexp p q, 0 < p -> 0 < q ->
  let '(m, e, l) := Fdiv fexp (Float beta p 0) (Float beta q 0) in
  e <= cexp beta fexp (IZR p / IZR q) /\ inbetween_float beta m e (IZR p / IZR q) l.
Proof.
  intros beta fexp p q Hp Hq.
  pose proof (@Fdiv_correct beta fexp (Float beta p 0) (Float beta q 0)) as H.
  rewrite !F2R_int in H. exact (H (IZR_lt _ _ Hp) (IZR_lt _ _ Hq)).
Qed.

(* the fraction n/d that ratio_of (radix 10) and dec6_of (radix 2) build from a mantissa and an exponent *)
Lemma ratio_spec : forall (beta : radix) M e, 0 < M ->
  let '(n, d) := if 0 <=? e then (M * beta ^ e, 1) else (M, beta ^ (- e)) in
  0 < n /\ 0 < d /\ (IZR n / IZR d)%R = F2R (Float beta M e).
Proof.
  intros beta M e HM. pose proof (radix_gt_0 beta) as Hb. unfold F2R. cbn [Fnum Fexp].
  destruct (0 <=? e) eqn:He; [apply Z.leb_le in He|apply Z.leb_gt in He].
  - assert (0 < beta ^ e) by (apply Z.pow_pos_nonneg; lia).
    split; [lia|split; [lia|]]. rewrite mult_IZR, IZR_Zpower by assumption. field.
  - assert (0 < beta ^ (- e)) by (apply Z.pow_pos_nonneg; lia).
    split; [lia|split; [lia|]]. rewrite IZR_Zpower by lia.
    rewrite <- (Z.opp_involutive e) at 2. rewrite (bpow_opp beta (- e)). reflexivity.
Qed.

(* round_ratio in a form that is cheap to evaluate on long operands where the VM is not used (coqchk): the binary
   digit count stands in place of Flocq's radix-generic Zdigits, which is quadratic, and a proposed quotient m is
   checked by one multiplication in place of the division. A wrong m falls back on round_ratio itself. *)
Definition round_ratio_guess (prec emax p q m : Z) : spec_float :=
  let e' := Digits.Zdigits2 p - Digits.Zdigits2 q in
  let e := Z.min (Z.min (SpecFloat.fexp prec emax e') (SpecFloat.fexp prec emax (e' + 1))) 0 in
  let r := p * 2 ^ (- e) - q * m in
  if (0 <=? r) && (r <? q) then binary_round_aux prec emax mode_NE false m e (new_location q r loc_Exact)
  else round_ratio prec emax p q.

Lemma round_ratio_guess_eq : forall prec emax p q m, round_ratio prec emax p q = round_ratio_guess prec emax p q m.
Proof.
  intros. unfold round_ratio_guess. cbn zeta. set (e := Z.min _ 0). set (a := p * 2 ^ (- e)).
  destruct ((0 <=? a - q * m) && (a - q * m <? q)) eqn:Hr; [|reflexivity].
  assert (Z.div_eucl a q = (m, a - q * m)) as Hdiv.
  { pose proof (Z_div_mod a q ltac:(lia)) as E. destruct (Z.div_eucl a q) as [m' r']. destruct E as [E B].
    destruct (Z.div_mod_unique q m' m r' (a - q * m)) as [-> ->]; [lia|lia|lia|reflexivity]. }
  unfold round_ratio, Fdiv, Fdiv_core. rewrite <- !Digits.Zdigits2_Zdigits, !Z.add_0_r. cbn zeta.
  change (0 - 0) with 0. fold e. rewrite (proj2 (Z.leb_le e 0)), Z.sub_0_l by lia.
  change (Zpower radix2 (- e)) with (2 ^ (- e)). fold a. now rewrite Hdiv.
Qed.

Section Rounding.
Variable prec emax : Z.
Context (prec_gt_0_ : Prec_gt_0 prec).
Context (prec_lt_emax_ : Prec_lt_emax prec emax).

Notation fexpb := (SpecFloat.fexp prec emax).
Notation RN := (round radix2 fexpb ZnearestE).

(* z is the positive real x correctly rounded to the format: nearest, ties to even; +infinity iff the
   rounded value does not fit *)
Definition rounds_to (x : R) (z : spec_float) : Prop :=
  valid_binary prec emax z = true /\
  if Rlt_bool (Rabs (RN x)) (bpow radix2 emax) then
    SF2R radix2 z = RN x /\ is_finite_SF z = true /\ sign_SF z = false
  else z = S754_infinity false.

Theorem round_ratio_correct : forall p q, 0 < p -> 0 < q ->
  rounds_to (IZR p / IZR q) (round_ratio prec emax p q).
Proof.
  intros p q Hp Hq. set (x := (IZR p / IZR q)%R).
  assert (0 < x)%R as Hx by (apply Rdiv_lt_0_compat; now apply IZR_lt).
  pose proof (Fdiv_int_correct radix2 fexpb p q Hp Hq) as HD. fold x in HD.
  unfold round_ratio. destruct (Fdiv fexpb (Float radix2 p 0) (Float radix2 q 0)) as [[m e] l].
  destruct HD as [He Hb].
  pose proof (binary_round_aux_correct' prec emax _ _ mode_NE x m e l) as HR.
  rewrite Rabs_pos_eq in HR by now apply Rlt_le.
  specialize (HR (Rgt_not_eq _ _ Hx) Hb He).
  rewrite Rlt_bool_false in HR by now apply Rlt_le.
  exact HR.
Qed.

(* valid finite spec_floats are determined by their real value and sign (Flocq's B2R_Bsign_inj) *)
Lemma rounds_to_inj : forall x z1 z2, rounds_to x z1 -> rounds_to x z2 -> z1 = z2.
Proof.
  intros x z1 z2 [V1 C1] [V2 C2].
  destruct (Rlt_bool (Rabs (RN x)) (bpow radix2 emax)); [|congruence].
  destruct C1 as (R1 & F1 & S1). destruct C2 as (R2 & F2 & S2).
  rewrite <- (B2SF_SF2B prec emax z1 V1), <- (B2SF_SF2B prec emax z2 V2). f_equal.
  apply B2R_Bsign_inj; rewrite ?is_finite_SF2B, ?B2R_SF2B, ?Bsign_SF2B; congruence.
Qed.
End Rounding.

Global Instance prec24 : Prec_gt_0 24 := eq_refl.
Global Instance prec24_emax : Prec_lt_emax 24 128 := eq_refl.
Global Instance prec53 : Prec_gt_0 53 := eq_refl.
Global Instance prec53_emax : Prec_lt_emax 53 1024 := eq_refl.

Lemma pow10_pos : forall k, 0 < 10 ^ k \/ k < 0.
Proof. intro k. destruct (Z_lt_le_dec k 0); [now right|left]. apply Z.pow_pos_nonneg; lia. Qed.

Definition dec_R (D X : Z) : R := F2R (Float radix10 D X).

Lemma ratio_of_spec : forall D X, 0 < D ->
  0 < fst (ratio_of D X) /\ 0 < snd (ratio_of D X) /\
  (IZR (fst (ratio_of D X)) / IZR (snd (ratio_of D X)))%R = dec_R D X.
Proof.
  intros D X HD. pose proof (ratio_spec radix10 D X HD) as H. unfold ratio_of.
  destruct (0 <=? X); exact H.
Qed.

(* strtof: the binary32 nearest to the spelled decimal (ties to even), +infinity when that does not fit *)
Theorem nearest32_dec_spec : forall D X, 0 < D -> rounds_to 24 128 (dec_R D X) (nearest32_dec D X).
Proof.
  intros D X HD. unfold nearest32_dec. rewrite (proj2 (Z.leb_gt D 0) HD).
  destruct (ratio_of_spec D X HD) as (Hp & Hq & <-). destruct (ratio_of D X) as [p q]. now apply round_ratio_correct.
Qed.

(* the result depends on the number spelled, not on the spelling: trailing zeros of the digit string may move
   into the exponent *)
Theorem nearest32_dec_ext : forall D1 X1 D2 X2, 0 < D1 -> 0 < D2 ->
  dec_R D1 X1 = dec_R D2 X2 -> nearest32_dec D1 X1 = nearest32_dec D2 X2.
Proof.
  intros D1 X1 D2 X2 H1 H2 HR. apply (rounds_to_inj 24 128 (dec_R D1 X1)).
  - now apply nearest32_dec_spec.
  - rewrite HR. now apply nearest32_dec_spec.
Qed.

(* DESIGN section 8: the rule of the code as it stands (std::stod, then conversion to float) does not give the
   nearest binary32: the decimal below lies just above the midpoint of 1 and 1+2^-23, stod rounds it to the
   midpoint exactly, the conversion to float rounds the tie to even, i.e. down to 1. *)
Definition witness_double_rounding : list byte :=
  (* 1.00000005960464477539062500000001 *)
  [49;46;48;48;48;48;48;48;48;53;57;54;48;52;54;52;52;55;55;53;51;57;48;54;50;53;48;48;48;48;48;48;48;49].
(* a decimal below the smallest normal double: stod reports ERANGE, the literal becomes NaN; the nearest binary32 is 0 *)
Definition witness_tiny : list byte := [49;101;45;51;50;48].      (* 1e-320 *)

Local Notation RN10 := (round radix10 (FLX_exp 6) ZnearestE).
Global Instance prec6 : Prec_gt_0 6 := eq_refl.

Lemma bpow10_F2R : forall e k, 0 <= k -> bpow radix10 (e + k) = F2R (Float radix10 (10 ^ k) e).
Proof.
  intros e k Hk. unfold F2R. cbn [Fnum Fexp]. rewrite bpow_plus, <- (IZR_Zpower radix10 k Hk). apply Rmult_comm.
Qed.

(* printf's digit generation at precision 6; ex is one more than mag10(x) - 6 after a carry to 10^6 *)
Theorem dec6_of_spec : forall m e,
  let x := F2R (Float radix2 (Zpos m) e) in
  let q := fst (dec6_of m e) in let ex := snd (dec6_of m e) in
  F2R (Float radix10 q ex) = RN10 x /\ 100000 <= q < 1000000 /\
  (ex = mag radix10 x - 6 \/ ex = mag radix10 x - 6 + 1).
Proof.
  intros m e x. unfold dec6_of.
  assert (0 < x)%R as Hx by now apply F2R_gt_0.
  pose proof (ratio_spec radix2 (Zpos m) e eq_refl) as HB. cbn [radix_val radix2] in HB.
  destruct (if 0 <=? e then (Zpos m * 2 ^ e, 1) else (Zpos m, 2 ^ (- e))) as [n d].
  destruct HB as (Hn & Hd & HR). fold x in HR.
  pose proof (Fdiv_int_correct radix10 (FLX_exp 6) n d Hn Hd) as HD. rewrite HR in HD.
  destruct (Fdiv (FLX_exp 6) (Float radix10 n 0) (Float radix10 d 0)) as [[mq eq] l].
  destruct HD as [He Hb].
  pose proof (round_trunc_NE_correct' radix10 (FLX_exp 6) x mq eq l (Rlt_le _ _ Hx) Hb (or_introl He)) as HRN.
  pose proof (truncate_correct_partial' radix10 (FLX_exp 6) x mq eq l Hx Hb He) as HT.
  destruct (truncate radix10 (FLX_exp 6) (mq, eq, l)) as [[m' e'] l'].
  destruct HT as [Hb' He'].
  (* 10^5 <= m' < 10^6 *)
  assert (e' = mag radix10 x - 6) as Hmag by (rewrite He'; reflexivity).
  pose proof (inbetween_float_bounds _ _ _ _ _ Hb') as [Hlo Hhi].
  assert (x <> 0%R) as Hx0 by now apply Rgt_not_eq.
  pose proof (bpow_mag_gt radix10 x) as Hgt. pose proof (bpow_mag_le radix10 x Hx0) as Hle.
  rewrite Rabs_pos_eq in Hgt, Hle by now apply Rlt_le.
  assert (m' < 1000000) as Hm1.
  { apply (lt_F2R radix10 e' m' (10 ^ 6)). rewrite <- bpow10_F2R by lia. replace (e' + 6) with (mag radix10 x : Z) by lia.
    eapply Rle_lt_trans; eassumption. }
  assert (100000 < m' + 1) as Hm0.
  { apply (lt_F2R radix10 e' (10 ^ 5)). rewrite <- bpow10_F2R by lia. replace (e' + 5) with (mag radix10 x - 1) by lia.
    eapply Rle_lt_trans; eassumption. }
  set (q0 := cond_incr (round_N (negb (Z.even m')) l') m') in *.
  assert (m' <= q0 <= m' + 1) as Hq0 by (unfold q0, cond_incr; destruct (round_N _ _); lia).
  destruct (q0 =? 1000000) eqn:Hc; cbn [fst snd].
  - apply Z.eqb_eq in Hc. split; [|split; [lia|right; lia]].
    rewrite HRN, Hc. unfold F2R. cbn [Fnum Fexp]. rewrite bpow_plus. simpl (bpow radix10 1). ring.
  - apply Z.eqb_neq in Hc. split; [now rewrite HRN|split; [lia|left; lia]].
Qed.

Lemma bpow2_128_lt : (bpow radix2 128 < bpow radix10 39)%R.
Proof. simpl. apply IZR_lt. apply Z.ltb_lt. vm_compute. reflexivity. Qed.
Lemma bpow10_m45_le : (bpow radix10 (-45) <= bpow radix2 (-149))%R.
Proof.
  change (-45) with (- (45)). change (-149) with (- (149)). rewrite !bpow_opp.
  apply Rinv_le_contravar; [apply bpow_gt_0|]. simpl. apply IZR_le. apply Z.leb_le. vm_compute. reflexivity.
Qed.

Lemma valid_binary32_bounds : forall s m e, valid_binary 24 128 (S754_finite s m e) = true ->
  Zpos m < 2 ^ 24 /\ -149 <= e <= 104.
Proof.
  intros s m e H. cbn [valid_binary] in H. unfold bounded, canonical_mantissa in H.
  apply andb_prop in H. destruct H as [Hc Hb]. apply Zeq_bool_eq in Hc. apply Z.leb_le in Hb.
  unfold SpecFloat.fexp, SpecFloat.emin in Hc.
  rewrite Digits.Zpos_digits2_pos in Hc.
  pose proof (Digits.Zdigits_correct radix2 (Zpos m)) as Hd. cbn [Z.abs] in Hd.
  set (d := Digits.Zdigits radix2 (Zpos m)) in *.
  assert (d <= 24) by lia.
  split; [|lia].
  eapply Z.lt_le_trans; [apply Hd|]. change (Zpower radix2 d) with (2 ^ d). apply Z.pow_le_mono_r; lia.
Qed.

(* every binary32 (mantissa below 2^24, exponent -149..104) has a decimal exponent of at most two digits *)
Theorem dec6_of_range : forall s m e, valid_binary 24 128 (S754_finite s m e) = true ->
  100000 <= fst (dec6_of m e) < 1000000 /\ -100 < snd (dec6_of m e) + 5 < 100.
Proof.
  intros s m e Hv. destruct (valid_binary32_bounds s m e Hv) as [Hm He].
  destruct (dec6_of_spec m e) as (_ & Hq & Hex). split; [exact Hq|].
  set (x := F2R (Float radix2 (Zpos m) e)) in *.
  assert (0 < x)%R as Hx by now apply F2R_gt_0.
  assert (x <> 0%R) as Hx0 by now apply Rgt_not_eq.
  assert (mag radix10 x <= 39) as Hup.
  { apply mag_le_bpow; [assumption|]. eapply Rlt_trans; [|apply bpow2_128_lt].
    apply F2R_lt_bpow. cbn [Fnum Fexp Z.abs]. eapply Z.lt_le_trans; [exact Hm|].
    change (Zpower radix2 (128 - e)) with (2 ^ (128 - e)). apply Z.pow_le_mono_r; lia. }
  assert (-44 <= mag radix10 x) as Hlo.
  { apply mag_ge_bpow. change (-44 - 1) with (-45). rewrite Rabs_pos_eq by now apply Rlt_le.
    eapply Rle_trans; [apply bpow10_m45_le|]. eapply Rle_trans; [apply (bpow_le radix2 (-149) e); lia|].
    rewrite <- (F2R_bpow radix2 e). apply F2R_le. lia. }
  lia.
Qed.

(* the hypothesis makes (m, e) a valid binary32 *)
Lemma printable_range : forall m e,
  nearest32_dec (fst (dec6_of m e)) (snd (dec6_of m e)) = S754_finite false m e ->
  100000 <= fst (dec6_of m e) < 1000000 /\ -100 < snd (dec6_of m e) + 5 < 100.
Proof.
  intros m e H. destruct (dec6_of_spec m e) as (_ & Hq & _).
  destruct (nearest32_dec_spec (fst (dec6_of m e)) (snd (dec6_of m e)) ltac:(lia)) as [Hv _].
  rewrite H in Hv. exact (dec6_of_range _ _ _ Hv).
Qed.

Global Instance fexp32_valid : Valid_exp (SpecFloat.fexp 24 128) := fexp_correct 24 128 prec24.

(* the conversions to float (d_scalar's constructors): binary_round gives the nearest binary32, ties to even, as
   long as that is finite *)
Lemma binary_round32_correct : forall s m e,
  let y := round radix2 (SpecFloat.fexp 24 128) ZnearestE (SF2R radix2 (S754_finite s m e)) in
  (Rabs y < bpow radix2 128)%R ->
  valid_binary 24 128 (binary_round 24 128 mode_NE s m e) = true /\
  SF2R radix2 (binary_round 24 128 mode_NE s m e) = y /\ is_finite_SF (binary_round 24 128 mode_NE s m e) = true.
Proof.
  intros s m e y Hfit. pose proof (binary_round_correct 24 128 _ _ mode_NE s m e) as [Hv HB]. cbn zeta in HB.
  change (round radix2 _ _ _) with y in HB. rewrite Rlt_bool_true in HB by exact Hfit. tauto.
Qed.

(* std::stod, when it does not throw: the binary64 nearest to the decimal *)
Lemma stod_spec : forall D X dbl, 0 < D -> stod D X = Some dbl ->
  SF2R radix2 dbl = round radix2 (SpecFloat.fexp 53 1024) ZnearestE (dec_R D X).
Proof.
  intros D X dbl HD Hs. unfold stod in Hs. rewrite (proj2 (Z.leb_gt D 0) HD) in Hs.
  destruct (ratio_of_spec D X HD) as (Hp & Hq & HR).
  destruct (ratio_of D X) as [p q]. cbn [fst snd] in *.
  destruct (round_ratio_correct 53 1024 _ _ p q Hp Hq) as [_ HC]. rewrite HR in HC.
  destruct (round_ratio 53 1024 p q) as [s0|s0| |s m e]; try discriminate.
  assert (dbl = S754_finite s m e) as -> by (revert Hs; destruct (andb _ _); [discriminate|now injection 1]).
  destruct (Rlt_bool _ _); [now destruct HC|discriminate].
Qed.

Lemma cast32_spec : forall d,
  (Rabs (round radix2 (SpecFloat.fexp 24 128) ZnearestE (SF2R radix2 d)) < bpow radix2 128 ->
   SF2R radix2 (cast32 d) = round radix2 (SpecFloat.fexp 24 128) ZnearestE (SF2R radix2 d))%R.
Proof.
  intros [s|s| |s m e] Hfit; [symmetry; apply round_0; auto with typeclass_instances..|].
  now apply binary_round32_correct.
Qed.

Definition hex_int (t : list byte) : Z :=
  fold_left (fun a c => 16 * a + hexval c) (match t with c0 :: r0 => if c0 =? 36 then r0 else tl r0 | [] => [] end) 0.

(* a positive integer below 2^63 (what std::stol accepts) converted to float *)
Lemma float_of_int63 : forall p, Zpos p < 2 ^ 63 ->
  valid_binary 24 128 (binary_round 24 128 mode_NE false p 0) = true /\
  SF2R radix2 (binary_round 24 128 mode_NE false p 0) = round radix2 (SpecFloat.fexp 24 128) ZnearestE (IZR (Zpos p)) /\
  is_finite_SF (binary_round 24 128 mode_NE false p 0) = true.
Proof with auto with typeclass_instances.
  intros p H63. pose proof (binary_round32_correct false p 0) as HB. cbn zeta in HB.
  change (SF2R radix2 (S754_finite false p 0)) with (F2R (Float radix2 (Zpos p) 0)) in HB. rewrite F2R_int in HB.
  apply HB.
  (* at most 2^63, itself a binary32 *)
  eapply Rle_lt_trans; [|apply (bpow_lt radix2 63 128); lia].
  apply abs_round_le_generic...
  - apply generic_format_bpow. unfold SpecFloat.fexp, SpecFloat.emin. lia.
  - rewrite <- abs_IZR. change (bpow radix2 63) with (IZR (2 ^ 63)). apply IZR_le. lia.
Qed.

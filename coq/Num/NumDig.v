(* C06, value half: the classical FLT_DIG fact for binary32 - a decimal of at most six significant digits
   survives the trip decimal -> nearest binary32 -> six-digit decimal (what str prints). *)
From Coq Require Import ZArith Lia Reals Lra SpecFloat.
From Flocq Require Import Core.
From SqfVerif Require Import Num.NumDefs Num.NumFloat.
Local Open Scope Z_scope.

Local Notation F10 := (FLX_exp 6).
Local Notation F2 := (FLT_exp (-149) 24).

Lemma bpow2_m23 : bpow radix2 (-23) = (/ 8388608)%R.
Proof. reflexivity. Qed.

Theorem survives_R : forall d : R,
  generic_format radix10 F10 d -> (bpow radix2 (-126) <= d)%R ->
  round radix10 F10 ZnearestE (round radix2 F2 ZnearestE d) = d.
Proof with auto with typeclass_instances.
  intros d Fd Hd.
  assert (0 < d)%R as Hpos by (eapply Rlt_le_trans; [apply (bpow_gt_0 radix2 (-126))|exact Hd]).
  assert (d <> 0%R) as Hd0 by now apply Rgt_not_eq.
  set (y := round radix2 F2 ZnearestE d).
  (* binary side: |y - d| <= d * 2^-24 *)
  set (E := mag radix2 d : Z).
  assert (-125 <= E) as HE.
  { unfold E. apply mag_ge_bpow. rewrite Rabs_pos_eq by lra. exact Hd. }
  pose proof (bpow_mag_le radix2 d Hd0) as HEle. rewrite Rabs_pos_eq in HEle by lra. fold E in HEle.
  assert (ulp radix2 F2 d = bpow radix2 (E - 24)) as Hulp2.
  { rewrite ulp_neq_0 by assumption. unfold cexp. fold E. f_equal. unfold FLT_exp. lia. }
  pose proof (error_le_half_ulp radix2 F2 (fun x => negb (Z.even x)) d) as Herr. fold y in Herr.
  rewrite Hulp2 in Herr.
  replace (E - 24) with ((E - 1) + (-23)) in Herr by lia. rewrite bpow_plus, bpow2_m23 in Herr.
  apply Rabs_le_inv in Herr.
  (* decimal side: the neighbours of d are at least d * 10^-6 away (10^(M-7) below d when d is a power of ten),
     and 2^-24 < 10^-6 / 2 *)
  set (M := mag radix10 d : Z).
  pose proof (bpow_mag_le radix10 d Hd0) as HMle. rewrite Rabs_pos_eq in HMle by lra. fold M in HMle.
  pose proof (bpow_mag_gt radix10 d) as HMgt. rewrite Rabs_pos_eq in HMgt by lra. fold M in HMgt.
  assert (ulp radix10 F10 d = bpow radix10 (M - 6)) as Hulp10.
  { rewrite ulp_neq_0 by assumption. unfold cexp. fold M. reflexivity. }
  assert (bpow radix10 M = 1000000 * bpow radix10 (M - 6))%R as HM6.
  { replace M with ((M - 6) + 6) at 1 by lia. rewrite bpow_plus. simpl (bpow radix10 6). ring. }
  assert (bpow radix10 (M - 1) = 1000000 * bpow radix10 (M - 7))%R as HM7.
  { replace (M - 1) with ((M - 7) + 6) at 1 by lia. rewrite bpow_plus. simpl (bpow radix10 6). ring. }
  pose proof (bpow_gt_0 radix10 (M - 6)) as Hb6. pose proof (bpow_gt_0 radix10 (M - 7)) as Hb7.
  pose proof (bpow_gt_0 radix2 (E - 1)) as HbE.
  apply Rle_antisym.
  - apply round_N_le_midp... rewrite succ_eq_pos by lra. rewrite Hulp10. lra.
  - apply round_N_ge_midp... rewrite pred_eq_pos by lra. unfold pred_pos. fold M.
    case Req_bool_spec; intro Hpow.
    + replace (F10 (M - 1)) with (M - 7) by (unfold FLX_exp; lia). lra.
    + rewrite Hulp10. lra.
Qed.

(* a decimal n*10^k of at most six significant digits whose nearest binary32 y is a normal
   number: str y spells n*10^k again (as a value), so the text compiles back to y. Below 2^-126 (subnormal
   results) the statement is false in general and is not claimed. *)
Theorem dec6_survives : forall n k m e,
  0 < n < 1000000 -> (bpow radix2 (-126) <= dec_R n k)%R ->
  nearest32_dec n k = S754_finite false m e ->
  dec_R (fst (dec6_of m e)) (snd (dec6_of m e)) = dec_R n k /\
  nearest32_dec (fst (dec6_of m e)) (snd (dec6_of m e)) = S754_finite false m e.
Proof.
  intros n k m e Hn Hlow Hy.
  set (d := dec_R n k) in *.
  assert (generic_format radix10 F10 d) as Fd.
  { apply generic_format_FLX. apply (FLX_spec radix10 6 d (Float radix10 n k)); [reflexivity|].
    cbn [Fnum]. rewrite Z.abs_eq by lia. change (Zpower radix10 6) with 1000000. lia. }
  destruct (nearest32_dec_spec n k ltac:(lia)) as [_ Hs]. fold d in Hs. rewrite Hy in Hs.
  destruct (Rlt_bool (Rabs (round radix2 (SpecFloat.fexp 24 128) ZnearestE d)) (bpow radix2 128)); [|discriminate].
  destruct Hs as (HR & _ & _). change (F2R (Float radix2 (Zpos m) e) = round radix2 F2 ZnearestE d) in HR.
  destruct (dec6_of_spec m e) as (Hspec & Hq & _).
  rewrite HR, (survives_R d Fd Hlow) in Hspec. change (dec_R (fst (dec6_of m e)) (snd (dec6_of m e)) = d) in Hspec.
  split; [exact Hspec|].
  rewrite <- Hy. apply nearest32_dec_ext; try lia. exact Hspec.
Qed.

(* C10 - totality of the two tokenizers (repaired setting) for every buffer and every position:
   every scanner loop ends within (bytes left) + c steps without leaving defined behaviour, every
   token lies inside the buffer, the token loop ends after at most (bytes left) + 1 tokens which tile
   the input from the start position on. *)
From Coq Require Import ZArith NArith List Bool Lia.
Import ListNotations.
From SqfVerif Require Import Front.Machine Front.Tok.
Local Open Scope N_scope.

Section Proofs.
Variable get : N -> option byte.
Variable len : N.
Hypothesis ok : buf_ok get len.

Notation at_ := (isat get).

Lemma at2_inside : forall p q i, at_ p i && at_ q (N.succ i) = true -> i + 2 <= len.
Proof. intros p q i E. apply andb_prop in E. destruct E as (_ & E). apply (isat_inside get len ok) in E. lia. Qed.

Theorem lc_total : forall i0, i0 < len ->
  exists n r, (n <= N.to_nat (len - i0) + 1)%nat /\ iter (lc_step repaired get len) n i0 = Fin r /\ i0 < r /\ r <= len.
Proof.
  intros i0 H0.
  apply (measure_total N N (lc_step repaired get len) (fun i => i0 <= i /\ i < len) (fun i => N.to_nat (len - i))
           (fun r => i0 < r /\ r <= len)); [|lia].
  intros i (Hlo & Hhi). unfold lc_step. cbn [d_comment_past_end repaired].
  destruct ((N.succ i <? len) && negb (at_ (eqb NL) (N.succ i))) eqn:E; [|lia].
  apply andb_prop in E. destruct E as (E & _). apply N.ltb_lt in E. lia.
Qed.

Theorem bc_total : forall i0, i0 <= len ->
  exists n r, (n <= N.to_nat (len - i0) + 1)%nat /\ iter (bc_step repaired get len) n i0 = Fin r /\ i0 <= r /\ r <= len.
Proof.
  intros i0 H0.
  apply (measure_total N N (bc_step repaired get len) (fun i => i0 <= i /\ i <= len) (fun i => N.to_nat (len - i))
           (fun r => i0 <= r /\ r <= len)); [|lia].
  intros i (Hlo & Hhi). unfold bc_step. cbn [d_comment_past_end repaired].
  destruct ((i <? len) && negb (bc_at_close get i)) eqn:E; [|lia].
  apply andb_prop in E. destruct E as (E & _). apply N.ltb_lt in E. lia.
Qed.

Lemma bc_close_le : forall d r, r <= len -> r <= bc_close d get r /\ bc_close d get r <= len.
Proof.
  intros d r Hr. unfold bc_close, bc_at_close.
  destruct (d_block_close_left d); destruct (at_ _ r && at_ _ (N.succ r)) eqn:E; try lia; apply at2_inside in E; lia.
Qed.

Theorem str_total : forall q i0, i0 <= len ->
  exists n r, (n <= N.to_nat (len - i0) + 1)%nat /\ iter (str_step get len q true) n i0 = Fin r /\ i0 <= r /\ r <= len.
Proof.
  intros q i0 H0.
  apply (measure_total N N (str_step get len q true) (fun i => i0 <= i /\ i <= len) (fun i => N.to_nat (len - i))
           (fun r => i0 <= r /\ r <= len)); [|lia].
  intros i (Hlo & Hhi). unfold str_step, str_tail.
  destruct (at_ (eqb q) i && at_ (eqb q) (N.succ i)) eqn:E.
  - apply at2_inside in E. destruct (N.succ i =? len) eqn:E2; [apply N.eqb_eq in E2|]; lia.
  - destruct (at_ (eqb q) i) eqn:E1; [apply (isat_inside get len ok) in E1; lia|].
    destruct (i =? len) eqn:E2; [apply N.eqb_eq in E2|apply N.eqb_neq in E2]; lia.
Qed.

Lemma kw_go_le : forall kw i j c, i <= len -> kw_go get kw i = Some (j, c) -> i <= j /\ j <= len /\ (c = true -> j = i + N.of_nat (length kw)).
Proof.
  induction kw as [|k kw IH]; intros i j c Hi H; simpl in H.
  - injection H as <- <-. simpl. lia.
  - destruct (get i) eqn:G.
    + destruct (Z.eqb (lowc z) k); [|discriminate].
      pose proof (get_inside get len ok _ _ G).
      apply IH in H; [|lia]. destruct H as (A & B & C). repeat split; try lia.
      intros Hc. rewrite (C Hc). simpl length. lia.
    + injection H as <- <-. repeat split; try lia.
Qed.

Lemma lim_le : forall d l kw i, i <= len -> i + len_ident_match d get l kw i <= len.
Proof.
  intros d l kw i Hi. unfold len_ident_match.
  destruct (kw_go get kw i) as [[j c]|] eqn:E; [|lia].
  apply kw_go_le in E; [|exact Hi]. destruct E as (A & B & _).
  destruct (negb c && negb match l with LSqf => false | LCfg => d_cfg_kw_prefix d end); [lia|].
  destruct (at_ (ident_follow l) j); lia.
Qed.

Lemma lim_complete : forall l kw i, i <= len -> len_ident_match repaired get l kw i <> 0 ->
  len_ident_match repaired get l kw i = N.of_nat (length kw) /\ i + N.of_nat (length kw) <= len.
Proof.
  intros l kw i Hi. unfold len_ident_match.
  destruct (kw_go get kw i) as [[j c]|] eqn:E; [|congruence].
  apply kw_go_le in E; [|exact Hi]. destruct E as (A & B & C).
  destruct c.
  - simpl. specialize (C eq_refl). destruct (at_ (ident_follow l) j); [congruence|]. intros _. split; lia.
  - simpl. destruct l; simpl; congruence.
Qed.

Lemma one_le : forall c i, i <= len -> i + one get c i <= len.
Proof.
  intros c i Hi. unfold one. destruct (at_ (eqb c) i) eqn:E; [apply (isat_inside get len ok) in E|]; lia.
Qed.

Variable fl : nat.
Hypothesis Hfl : (N.to_nat len + 2 <= fl)%nat.

Lemma spanf_ok : forall p i, exists r, span get p fl i = Done r /\ span_post get len p i r.
Proof. intros p i. apply (span_done get len ok p fl i). lia. Qed.

Lemma spanf_le : forall p i, i <= len -> exists r, span get p fl i = Done r /\ i <= r /\ r <= len.
Proof.
  intros p i Hi. destruct (spanf_ok p i) as (r & E & (A & B & _)). exists r. split; [exact E|]. lia.
Qed.

Lemma lc_run : forall i, i < len -> exists r, run (lc_step repaired get len) fl i = Done r /\ i < r /\ r <= len.
Proof. intros i Hi. eapply run_of_total; [exact (lc_total i Hi)|lia]. Qed.
Lemma bc_run : forall i, i <= len -> exists r, run (bc_step repaired get len) fl i = Done r /\ i <= r /\ r <= len.
Proof. intros i Hi. eapply run_of_total; [exact (bc_total i Hi)|lia]. Qed.
Lemma str_run : forall q i, i <= len -> exists r, run (str_step get len q true) fl i = Done r /\ i <= r /\ r <= len.
Proof. intros q i Hi. eapply run_of_total; [exact (str_total q i Hi)|lia]. Qed.

Lemma addsub_le : forall i c, i <= len -> c <= len -> i + (c - i) <= len.
Proof. intros. lia. Qed.

Lemma rep2_ok : forall c i, exists b, rep2 get fl c i = Done b /\ (b = true -> i + 2 <= len).
Proof.
  intros c i. unfold rep2. eapply bind_ok; [apply spanf_ok|]. intros r (A & B & _).
  apply done_ok. intros H. apply N.leb_le in H. lia.
Qed.

(* an operator has one byte, or two where a second byte was found: op_len is a chain of tests of three kinds,
   and each kind hands the bound on to the rest of the chain *)
Lemma op_len_ok : forall i, i < len -> exists n, op_len get fl i = Done n /\ i + n <= len.
Proof.
  intros i Hi. unfold op_len.
  set (inside := fun X : res N => exists n, X = Done n /\ i + n <= len).
  assert (REP : forall c X, inside X -> inside (rbind (rep2 get fl c i) (fun two => if two then Done 2 else X))).
  { intros c X HX. eapply bind_ok; [apply rep2_ok|]. intros [|] H; [apply done_ok; auto|exact HX]. }
  assert (AT2 : forall p q X, inside X -> inside (if at_ p i && at_ q (N.succ i) then Done 2 else X)).
  { intros p q X HX. destruct (at_ p i && at_ q (N.succ i)) eqn:A; [apply at2_inside in A; apply done_ok; lia|exact HX]. }
  assert (AT1 : forall p X, inside X -> inside (if at_ p i then Done 1 else X)).
  { intros p X HX. destruct (at_ p i); [apply done_ok; lia|exact HX]. }
  apply REP, AT2, AT1, AT2, REP, AT1, AT1, AT2, AT1, REP.
  eapply bind_ok; [apply rep2_ok|]. intros [|] H; apply done_ok; [auto|lia].
Qed.

Lemma hex_len_ok : forall i, i < len -> exists n, hex_len get fl i = Done n /\ i + n <= len.
Proof.
  intros i Hi. unfold hex_len. destruct (get_some get len ok i Hi) as (b & G). rewrite G.
  destruct (Z.eqb b DOLLAR).
  - eapply bind_ok; [apply spanf_le; lia|]. intros r (A & B). apply done_ok. destruct (r =? N.succ i); lia.
  - destruct (at_ (eqb 120%Z) (N.succ i)) eqn:X; [|apply done_ok; lia].
    apply (isat_inside get len ok) in X.
    eapply bind_ok; [apply spanf_le; lia|]. intros r (A & B). apply done_ok. destruct (r =? i + 2); lia.
Qed.

Lemma num_frac_ok : forall a, a <= len -> exists b, num_frac get fl a = Done b /\ a <= b /\ b <= len.
Proof.
  intros a Ha. unfold num_frac. destruct (at_ (eqb DOT) a) eqn:X; [|apply done_ok; lia].
  apply (isat_inside get len ok) in X.
  eapply bind_ok; [apply spanf_le; lia|]. intros r (A & B). apply done_ok. destruct (r =? N.succ a); lia.
Qed.

Lemma num_exp_ok : forall b, b <= len -> exists c, num_exp get fl b = Done c /\ b <= c /\ c <= len.
Proof.
  intros b Hb. unfold num_exp. destruct (at_ is_e b) eqn:X; [|apply done_ok; lia].
  apply (isat_inside get len ok) in X.
  set (j2 := if at_ is_sign (N.succ b) then N.succ (N.succ b) else N.succ b).
  assert (Hj : N.succ b <= j2 /\ j2 <= len).
  { unfold j2. destruct (at_ is_sign (N.succ b)) eqn:Y; [apply (isat_inside get len ok) in Y|]; lia. }
  eapply bind_ok; [apply spanf_le; lia|]. intros r (A & B). apply done_ok. destruct (r =? j2); lia.
Qed.

(* fraction and exponent behind the integer part or the leading dot at a; [k] is what the caller makes of the two cursors *)
Lemma frac_exp_ok : forall i a (k:N -> N -> N), a <= len -> (forall b c, a <= b -> b <= c -> c <= len -> i + k b c <= len) ->
  exists n, rbind (num_frac get fl a) (fun b => rbind (num_exp get fl b) (fun c => Done (k b c))) = Done n /\ i + n <= len.
Proof.
  intros i a k Ha Hk. eapply bind_ok; [exact (num_frac_ok a Ha)|]. intros b (B1 & B2).
  eapply bind_ok; [exact (num_exp_ok b B2)|]. intros c (C1 & C2). apply done_ok. apply Hk; assumption.
Qed.

Lemma num_sqf_ok : forall i, i < len -> exists n, num_len_sqf get fl i = Done n /\ i + n <= len.
Proof.
  intros i Hi. unfold num_len_sqf.
  apply bind_ok with (P := fun oa => match oa with Some a => i <= a /\ a <= len | None => True end).
  - destruct (at_ (eqb DOT) i); [apply done_ok; lia|].
    eapply bind_ok; [apply spanf_le; lia|]. intros r (A & B). apply done_ok. destruct (r =? i); [exact I|lia].
  - intros [a|] P; [|apply done_ok; lia]. apply frac_exp_ok; [apply P|]. intros b c ? ? ?. lia.
Qed.

Lemma num_cfg_ok : forall d i, i < len -> exists n, num_len_cfg d get fl i = Done n /\ i + n <= len.
Proof.
  intros d i Hi. unfold num_len_cfg.
  set (s := if at_ is_sign i then N.succ i else i).
  assert (Hs : i <= s /\ s <= len) by (unfold s; destruct (at_ is_sign i); lia).
  apply bind_ok with (P := fun oa => match oa with Some (a, _) => i <= a /\ a <= len | None => True end).
  - destruct (at_ (eqb DOT) s); [apply done_ok; lia|].
    eapply bind_ok; [apply spanf_le; lia|]. intros r (A & B). apply done_ok. destruct (r =? s); [exact I|lia].
  - intros [[a g]|] P; [|apply done_ok; lia]. apply frac_exp_ok; [apply P|]. intros b c ? ? ?. destruct (_ && _); lia.
Qed.

Lemma line_tail_ok : forall i k, i <= k -> k <= len -> exists n, line_tail get fl i k = Done n /\ i + n <= len.
Proof.
  intros i k Hik Hk. unfold line_tail.
  eapply bind_ok; [exact (spanf_le is_blank k Hk)|]. intros k2 (A2 & B2).
  eapply bind_ok; [exact (spanf_le not_nl k2 B2)|]. intros k3 (A3 & B3). apply done_ok. lia.
Qed.

Lemma mline_ok : forall l i, i < len -> exists n, mline_len repaired get len fl l i = Done n /\ i + n <= len.
Proof.
  intros l i Hi. unfold mline_len.
  destruct (len_ident_match repaired get l kw_line i =? 0) eqn:E0; [apply done_ok; lia|].
  apply N.eqb_neq in E0. apply lim_complete in E0; [|lia]. destruct E0 as (_ & E0). simpl length in E0.
  cbn [d_line_directive repaired].
  destruct (len <? i + 5) eqn:L; [apply N.ltb_lt in L; lia|].
  set (j' := if i + 5 =? len then i + 5 else N.succ (i + 5)).
  assert (Hj : i <= j' /\ j' <= len).
  { unfold j'. destruct (i + 5 =? len) eqn:Q; [lia|]. apply N.eqb_neq in Q. lia. }
  eapply bind_ok; [apply spanf_le; lia|]. intros k (A & B).
  destruct ((k =? j') || at_ not_nl_sp k); [apply done_ok; lia|]. apply line_tail_ok; lia.
Qed.

Theorem matcher_ok : forall l t i, i < len -> exists n, matcher repaired get len fl l t i = Done n /\ i + n <= len.
Proof.
  intros l t i Hi.
  (* a scanner started at or behind i that ends at r inside the buffer: the token is [i, r) *)
  assert (UPTO : forall x i', i <= i' -> (exists r, x = Done r /\ i' <= r /\ r <= len) ->
            exists n, rbind x (fun r => Done (r - i)) = Done n /\ i + n <= len).
  { intros x i' Hi' H. eapply bind_ok; [exact H|]. intros r (A & B). apply done_ok. lia. }
  assert (EC : forall q, str_endcheck repaired l q = true) by (intros q; destruct l; [|cbn; destruct (q =? SQ)%Z]; reflexivity).
  (* the kinds without a loop return at once: one byte, a keyword, or a constant *)
  destruct t; cbn [matcher]; try (apply done_ok; first [apply one_le|apply lim_le|idtac]; lia).
  - (* MLine *) apply mline_ok; exact Hi.
  - (* CLine *) eapply bind_ok; [apply rep2_ok|]. intros [|] _; [|apply done_ok; lia].
    apply (UPTO _ i); [lia|]. destruct (lc_run i Hi) as (r & E & A & B). exists r. split; [exact E|lia].
  - (* CBlock *) destruct (at_ (eqb SLASH) i && at_ (eqb STAR) (N.succ i)) eqn:E; [|apply done_ok; lia].
    apply at2_inside in E. eapply bind_ok; [exact (bc_run (i + 2) E)|]. intros r (A & B).
    apply done_ok. destruct (bc_close_le repaired r B). lia.
  - (* Ws *) apply (UPTO _ i); [lia|apply spanf_le; lia].
  - (* Op *) apply op_len_ok; exact Hi.
  - (* StrD *) rewrite EC. apply (UPTO _ (N.succ i)); [lia|apply str_run; lia].
  - (* StrS *) rewrite EC. apply (UPTO _ (N.succ i)); [lia|apply str_run; lia].
  - (* Ident *) apply (UPTO _ i); [lia|apply spanf_le; lia].
  - (* Num *) destruct l; [apply num_sqf_ok|apply num_cfg_ok]; exact Hi.
  - (* Hex *) apply hex_len_ok; exact Hi.
Qed.

Theorem try_match_ok : forall l ts i, i < len ->
  exists t n, try_match repaired get len fl l ts i = Done (t, n) /\ i + n <= len /\ (n = 0 -> t = Invalid) /\ (n <> 0 -> In t ts).
Proof.
  induction ts as [|t ts IH]; intros i Hi; cbn [try_match].
  - exists Invalid, 0. repeat split; [lia|congruence].
  - destruct (matcher_ok l t i Hi) as (n & E & B). rewrite E. cbn [rbind].
    destruct (n =? 0) eqn:Z.
    + destruct (IH i Hi) as (t' & n' & E' & B' & Z' & I'). exists t', n'. repeat split; auto. intros H. right. auto.
    + apply N.eqb_neq in Z. exists t, n. repeat split; auto; [congruence|]. intros _. left. reflexivity.
Qed.

Lemma dispatch_not_final : forall l b t, In t (dispatch l b) -> final_tt t = false.
Proof.
  intros l b t H. apply negb_true_iff. revert t H. apply forallb_forall.
  destruct l; unfold dispatch, dispatch_sqf, dispatch_cfg;
  repeat match goal with |- forallb _ (if ?c then _ else _) = true => destruct c; [reflexivity|] end; reflexivity.
Qed.

Theorem next_ok : forall l i, i <= len ->
  exists t n, next repaired get len fl l i = Done (t, n) /\ i + n <= len /\ (n = 0 <-> final_tt t = true).
Proof.
  intros l i Hi. unfold next. destruct (i =? len) eqn:E.
  - exists Eof, 0. apply N.eqb_eq in E. repeat split; auto; lia.
  - apply N.eqb_neq in E. assert (Hlt : i < len) by lia.
    destruct (get_some get len ok i Hlt) as (b & G). rewrite G.
    destruct (try_match_ok l (dispatch l b) i Hlt) as (t & n & Et & B & Z & I).
    exists t, n. repeat split; auto.
    + intros H. rewrite (Z H). reflexivity.
    + intros H. destruct (N.eq_dec n 0) as [|NZ]; [assumption|].
      rewrite (dispatch_not_final l b t (I NZ)) in H. discriminate.
Qed.

Inductive tiles : N -> list (tt * N * N) -> Prop :=
| tiles_last : forall i t k, final_tt t = true -> k = 0 -> i <= len -> tiles i [(t, i, k)]
| tiles_cons : forall i t k r, final_tt t = false -> 1 <= k -> i + k <= len -> tiles (i + k) r -> tiles i ((t, i, k) :: r).

Theorem tokens_ok : forall l n i, i <= len -> (N.to_nat (len - i) + 1 <= n)%nat ->
  exists ts, tokens repaired get len fl l n i = Done ts /\ tiles i ts /\ (length ts <= N.to_nat (len - i) + 1)%nat.
Proof.
  induction n as [|n IH]; intros i Hi Hn; [lia|]. cbn [tokens].
  destruct (next_ok l i Hi) as (t & k & E & B & Z). rewrite E. cbn [rbind].
  destruct (final_tt t) eqn:F.
  - exists [(t, i, k)]. split; [reflexivity|]. split; [|simpl; lia].
    apply tiles_last; auto. apply Z. reflexivity.
  - assert (K : 1 <= k). { destruct (N.eq_dec k 0) as [K0|]; [|lia]. apply Z in K0. congruence. }
    destruct (IH (i + k)) as (ts & Et & T & L); [lia|lia|]. rewrite Et. cbn [rbind].
    exists ((t, i, k) :: ts). split; [reflexivity|]. split; [apply tiles_cons; auto|]. simpl. lia.
Qed.

Theorem lexer_total : forall l, exists ts, lex repaired get len fl l = Done ts /\ tiles 0 ts /\ (length ts <= N.to_nat len + 1)%nat.
Proof.
  intros l. unfold lex. destruct (tokens_ok l fl 0) as (ts & E & T & L); [lia|lia|].
  exists ts. split; [exact E|]. split; [exact T|]. rewrite N.sub_0_r in L. exact L.
Qed.

End Proofs.

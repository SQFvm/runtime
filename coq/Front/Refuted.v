(* C10 - what the faithful models of the code at /repo HEAD 382ec7b (before the C10 repairs) do on the
   witnesses that were replayed on the real code: the statements of the totality theorems fail there. *)
From Coq Require Import ZArith NArith List Bool Lia.
Import ListNotations.
From SqfVerif Require Import Front.Machine Front.Tok Front.Reader.
Local Open Scope N_scope.

Definition bytes_of (l:list Z) : list byte := l.
Definition lex_as_is (l:lang) (inp:list byte) : res (list (tt * N * N)) := lex as_is (lget inp) (llen inp) (length inp + 2) l.
Definition lex_repaired (l:lang) (inp:list byte) : res (list (tt * N * N)) := lex repaired (lget inp) (llen inp) (length inp + 2) l.

(* 1 // x      the line comment scanner walks off the end: compile never returned *)
Definition w_line_comment : list byte := [49;32;47;47;32;120]%Z.
(* 1 /* x      the block comment scanner likewise *)
Definition w_block_comment : list byte := [49;32;47;42;32;120]%Z.
(* #line       iter += 6 is behind the end *)
Definition w_line_short : list byte := [35;108;105;110;101]%Z.
(* #line x NL  std::stoul throws std::invalid_argument out of the parser *)
Definition w_line_text : list byte := [35;108;105;110;101;32;120;10]%Z.
(* #line 99999999999999999999999 NL   std::stoul throws std::out_of_range *)
Definition w_line_huge : list byte := ([35;108;105;110;101;32] ++ repeat 57 23 ++ [10])%Z.
(* x = 'abc    config: the single-quote scanner has no end test *)
Definition w_cfg_squote : list byte := [120;32;61;32;39;97;98;99]%Z.
(* #li         config: a keyword cut short by the end of the input counts as the keyword, then iter += 6 *)
Definition w_cfg_line_prefix : list byte := [35;108;105]%Z.
(* +.          config: NUMBER token with the text + : std::stod throws std::invalid_argument in config_parser.cpp *)
Definition w_cfg_sign_dot : list byte := [43;46]%Z.

Theorem line_comment_refuted : lex_as_is LSqf w_line_comment = Failed BUb /\ lex_as_is LCfg w_line_comment = Failed BUb.
Proof. split; vm_compute; reflexivity. Qed.
Theorem block_comment_refuted : lex_as_is LSqf w_block_comment = Failed BUb /\ lex_as_is LCfg w_block_comment = Failed BUb.
Proof. split; vm_compute; reflexivity. Qed.
Theorem line_directive_refuted :
  lex_as_is LSqf w_line_short = Failed BUb /\ lex_as_is LSqf w_line_text = Failed BThrow /\ lex_as_is LSqf w_line_huge = Failed BThrow /\
  lex_as_is LCfg w_line_short = Failed BUb /\ lex_as_is LCfg w_line_text = Failed BThrow.
Proof. repeat split; vm_compute; reflexivity. Qed.
Theorem cfg_single_quote_refuted : lex_as_is LCfg w_cfg_squote = Failed BUb.
Proof. vm_compute; reflexivity. Qed.
Theorem cfg_keyword_prefix_refuted : lex_as_is LCfg w_cfg_line_prefix = Failed BUb.
Proof. vm_compute; reflexivity. Qed.
(* the token is a NUMBER whose text std::stod cannot convert; repaired: two `any` tokens *)
Theorem cfg_sign_dot_refuted :
  lex_as_is LCfg w_cfg_sign_dot = Done [(Num, 0, 1); (Any, 1, 1); (Eof, 2, 0)] /\ stod_finds_number [43%Z] = false /\
  lex_repaired LCfg w_cfg_sign_dot = Done [(Any, 0, 1); (Any, 1, 1); (Eof, 2, 0)].
Proof. repeat split; vm_compute; reflexivity. Qed.
(* the closing marker of a block comment stays in the token stream: 1/**/2 gives 1 * / 2 *)
Definition w_block_closed : list byte := [49;47;42;42;47;50]%Z.
Theorem block_close_left_refuted :
  lex (mkdef false true false false false false) (lget w_block_closed) (llen w_block_closed) 8 LSqf
    = Done [(Num, 0, 1); (CBlock, 1, 2); (Op, 3, 1); (Op, 4, 1); (Num, 5, 1); (Eof, 6, 0)] /\
  lex_repaired LSqf w_block_closed = Done [(Num, 0, 1); (CBlock, 1, 4); (Num, 5, 1); (Eof, 6, 0)].
Proof. split; vm_compute; reflexivity. Qed.

Example witnesses_repaired :
  lex_repaired LSqf w_line_comment = Done [(Num, 0, 1); (Ws, 1, 1); (CLine, 2, 4); (Eof, 6, 0)] /\
  lex_repaired LSqf w_block_comment = Done [(Num, 0, 1); (Ws, 1, 1); (CBlock, 2, 4); (Eof, 6, 0)] /\
  lex_repaired LSqf w_line_short = Done [(Op, 0, 1); (Ident, 1, 4); (Eof, 5, 0)] /\
  lex_repaired LCfg w_line_short = Done [(Invalid, 0, 0)] /\
  lex_repaired LCfg w_cfg_squote = Done [(Ident, 0, 1); (Ws, 1, 1); (Equal, 2, 1); (Ws, 3, 1); (StrS, 4, 4); (Eof, 8, 0)].
Proof. repeat split; vm_compute; reflexivity. Qed.

(* the reader as it stood recurses once per carriage return (and per comment / continuation in a row):
   for EVERY stack budget there is an input, one byte longer than the budget, that exhausts it *)
Definition cr_get (b:N) (i:N) : option byte := if i <? b + 1 then Some CR else None.
Lemma cr_buf_ok : forall b, buf_ok (cr_get b) (b + 1).
Proof. intros b i. unfold cr_get. destruct (i <? b + 1) eqn:E; [apply N.ltb_lt in E|apply N.ltb_ge in E]; split; intros; try lia; congruence. Qed.

(* one step at offset j, j carriage returns deep: the next one is consumed, by one more re-entry *)
Lemma cr_step : forall b j, j <= b -> next_step ras_is b (cr_get b) (mkn P0 (mkr j false false) 0 j) =
  if b <? N.succ j then Bad BStack else Run (mkn P0 (mkr (N.succ j) false false) 0 (N.succ j)).
Proof.
  intros b j H. unfold next_step. cbn [n_st r_off r_str r_blk n_cr n_ph n_depth d_reader_recursion ras_is andb].
  unfold cr_get. replace (j <? b + 1) with true by (symmetry; apply N.ltb_lt; lia). reflexivity.
Qed.

Lemma cr_run : forall b k j, N.of_nat k + j = b ->
  iter (next_step ras_is b (cr_get b)) (S k) (mkn P0 (mkr j false false) 0 j) = Bad BStack.
Proof.
  intros b k. induction k as [|k IH]; intros j H; cbn [iter]; rewrite cr_step by lia.
  - replace (b <? N.succ j) with true by (symmetry; apply N.ltb_lt; lia). reflexivity.
  - replace (b <? N.succ j) with false by (symmetry; apply N.ltb_ge; lia). apply IH. lia.
Qed.

Theorem reader_recursion_unbounded : forall budget, exists get len, buf_ok get len /\ len = budget + 1 /\
  forall fl, (N.to_nat budget + 1 <= fl)%nat -> next_char ras_is budget get fl (mkr 0 false false) = Failed BStack.
Proof.
  intros b. exists (cr_get b), (b + 1). split; [apply cr_buf_ok|]. split; [reflexivity|].
  intros fl Hfl. unfold next_char, run.
  replace fl with (S (N.to_nat b) + (fl - S (N.to_nat b)))%nat by lia.
  rewrite (iter_end_mono _ _ _ _ _ _ (cr_run b (N.to_nat b) 0 ltac:(lia))) by discriminate. reflexivity.
Qed.

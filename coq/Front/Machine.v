(* C10 - loop-level transition systems.

   Every scanning loop of the front ends is written as a step function on a small state whose
   cursor is a NUMBER (an index into the input, not a list suffix).  A step either goes on
   ([Run s']), ends the loop ([Fin r]) or leaves defined behaviour ([Bad b]):
     BUb     the C++ reads a byte at an index >= |input| without a bounds test, or moves an
             iterator beyond one-past-the-end
     BThrow  a C++ exception leaves the front end (std::stoul / std::stod on a malformed text)
     BStack  the recursion depth of the C++ exceeds the stack budget given to the model
   [iter n] runs at most n steps; [Run _] after n steps means "not finished yet".  A total-
   correctness statement has the shape
        exists n r, n <= measure + c /\ iter n s = Fin r /\ post r
   which is at the same time the termination claim, the linear step bound (the measure is the
   number of bytes left) and, because Bad is a different constructor, the no-UB claim.
   [run] is [iter] for callers: OutOfFuel is a distinct outcome, excluded by the proved bounds. *)
From Coq Require Import ZArith List Bool Lia Arith.
Import ListNotations.

Notation byte := Z (only parsing).

Inductive bad := BUb | BThrow | BStack.
Inductive res (A:Type) := Done (a:A) | Failed (b:bad) | OutOfFuel.
Arguments Done {A} a. Arguments Failed {A} b. Arguments OutOfFuel {A}.

Definition rbind {A B} (x:res A) (f:A -> res B) : res B :=
  match x with Done a => f a | Failed b => Failed b | OutOfFuel => OutOfFuel end.

Lemma done_ok : forall A (P:A -> Prop) (a:A), P a -> exists r, Done a = Done r /\ P r.
Proof. intros A P a H. exists a. split; [reflexivity|exact H]. Qed.

Lemma bind_ok : forall A B (x:res A) (f:A -> res B) (P:A -> Prop) (Q:B -> Prop),
  (exists a, x = Done a /\ P a) -> (forall a, P a -> exists b, f a = Done b /\ Q b) -> exists b, rbind x f = Done b /\ Q b.
Proof. intros A B x f P Q (a & -> & Ha) H. exact (H a Ha). Qed.

Section Machine.
Variables (S R : Type).
Inductive out := Run (s:S) | Fin (r:R) | Bad (b:bad).
Variable step : S -> out.

Fixpoint iter (n:nat) (s:S) : out :=
  match n with
  | O => Run s
  | Datatypes.S n' => match step s with Run s' => iter n' s' | o => o end
  end.

Definition run (fuel:nat) (s:S) : res R :=
  match iter fuel s with Run _ => OutOfFuel | Fin r => Done r | Bad b => Failed b end.

Lemma iter_end_mono : forall n s o, iter n s = o -> (forall s', o <> Run s') -> forall k, iter (n + k) s = o.
Proof.
  induction n as [|n IH]; intros s o H Ho k; simpl in *; [symmetry in H; elim (Ho s H)|].
  destruct (step s); auto.
Qed.

Lemma iter_fin_le : forall n m s r, iter n s = Fin r -> (n <= m)%nat -> iter m s = Fin r.
Proof. intros n m s r H L. replace m with (n + (m - n))%nat by lia. apply iter_end_mono; [exact H|discriminate]. Qed.

Lemma run_of_iter : forall n m s r, iter n s = Fin r -> (n <= m)%nat -> run m s = Done r.
Proof. intros n m s r H L. unfold run. now rewrite (iter_fin_le n m s r H L). Qed.

Lemma run_of_total : forall (Q : R -> Prop) b fuel s,
  (exists n r, (n <= b)%nat /\ iter n s = Fin r /\ Q r) -> (b <= fuel)%nat -> exists r, run fuel s = Done r /\ Q r.
Proof.
  intros Q b fuel s (n & r & Hn & Hit & Hq) Hf. exists r. split; [|exact Hq].
  apply (run_of_iter n); [exact Hit|lia].
Qed.

Variables (I : S -> Prop) (mu : S -> nat) (P : R -> Prop).
Hypothesis step_ok : forall s, I s ->
  match step s with
  | Run s' => I s' /\ (mu s' < mu s)%nat
  | Fin r => P r
  | Bad _ => False
  end.

Theorem measure_total : forall s, I s -> exists n r, (n <= mu s + 1)%nat /\ iter n s = Fin r /\ P r.
Proof.
  intros s. remember (mu s) as m eqn:Em. revert s Em.
  induction m as [m IH] using lt_wf_ind. intros s Em Hs.
  pose proof (step_ok s Hs) as H. destruct (step s) eqn:E.
  - destruct H as [Hi Hl]. destruct (IH (mu s0)) with (s := s0) as (n & r & Hn & Hit & Hp); [lia|reflexivity|exact Hi|].
    exists (Datatypes.S n), r. split; [lia|]. split; [simpl; now rewrite E|exact Hp].
  - exists 1%nat, r. split; [lia|]. split; [simpl; now rewrite E|exact H].
  - contradiction.
Qed.

Corollary run_total : forall s fuel, I s -> (mu s + 1 <= fuel)%nat -> exists r, run fuel s = Done r /\ P r.
Proof. intros s fuel Hs Hf. exact (run_of_total P _ fuel s (measure_total s Hs) Hf). Qed.
End Machine.

Arguments Run {S R} s. Arguments Fin {S R} r. Arguments Bad {S R} b.
Arguments iter {S R} step n s. Arguments run {S R} step fuel s.

(* The input buffer: a length and a read function on indices.  The models are parametric in them
   (the extracted code is handed an O(1) accessor of the very byte string the implementation gets,
   the theorems instantiate them with an arbitrary list of bytes: [lget]).  [buf_ok] is all that
   is known about a buffer.  The only ways a model obtains a byte:
     [get i]  an unguarded read ( *it, content[i] ): None is the out-of-bounds read, callers turn
              it into Bad BUb
     [isat]   is_match<...>(iterator) of both tokenizers (tokenizer.hpp:79-80): the test
              value < m_end comes first, nothing is read at or behind the end *)
Definition buf_ok (get:N -> option byte) (len:N) : Prop := forall i, (i < len)%N <-> get i <> None.

Definition lget (inp:list byte) (i:N) : option byte := nth_error inp (N.to_nat i).
Definition llen (inp:list byte) : N := N.of_nat (length inp).
Lemma list_buf_ok : forall inp, buf_ok (lget inp) (llen inp).
Proof.
  intros inp i. unfold lget, llen. rewrite nth_error_Some. lia.
Qed.

Section Buf.
Variable get : N -> option byte.
Variable len : N.
Hypothesis ok : buf_ok get len.

Definition isat (p:byte -> bool) (i:N) : bool := match get i with Some b => p b | None => false end.

Lemma get_inside : forall i b, get i = Some b -> (i < len)%N.
Proof. intros i b H. apply ok. congruence. Qed.
Lemma get_beyond : forall i, (len <= i)%N -> get i = None.
Proof. intros i H. destruct (get i) eqn:E; auto. assert (i < len)%N by (apply ok; congruence). lia. Qed.
Lemma get_some : forall i, (i < len)%N -> exists b, get i = Some b.
Proof. intros i H. apply ok in H. destruct (get i); [eauto|congruence]. Qed.
Lemma isat_inside : forall p i, isat p i = true -> (i < len)%N.
Proof. intros p i H. unfold isat in H. destruct (get i) eqn:E; [|discriminate]. eapply get_inside; eauto. Qed.
Lemma isat_beyond : forall p i, (len <= i)%N -> isat p i = false.
Proof. intros p i H. unfold isat. now rewrite get_beyond. Qed.

(* The span loop:  while (it < m_end && p(it[0])) ++it;   (len_match<...>, tokenizer.hpp:89-95, the
   whitespace loop :214-227, the digit / blank / to-end-of-line loops of the #line handling) *)
Variable p : byte -> bool.
Definition span_step (i:N) : out N N := if isat p i then Run (N.succ i) else Fin i.

Definition span_post (i0 r:N) : Prop :=
  (i0 <= r)%N /\ (r <= N.max i0 len)%N /\ isat p r = false /\ (forall j, (i0 <= j < r)%N -> isat p j = true).

Theorem span_total : forall i, exists n r, (n <= N.to_nat (len - i) + 1)%nat /\ iter span_step n i = Fin r /\ span_post i r.
Proof.
  intros i0.
  apply (measure_total N N span_step
           (fun i => (i0 <= i)%N /\ (i <= N.max i0 len)%N /\ forall j, (i0 <= j < i)%N -> isat p j = true)
           (fun i => N.to_nat (len - i)) (span_post i0)).
  - intros i (Hlo & Hhi & Hall). unfold span_step. destruct (isat p i) eqn:E.
    + pose proof (isat_inside _ _ E). split; [|lia]. repeat split; try lia.
      intros j Hj. destruct (N.eq_dec j i); [subst; exact E|apply Hall; lia].
    + repeat split; auto.
  - repeat split; lia.
Qed.

(* the loop as a function, for the straight-line code around it *)
Definition span (fl:nat) (i:N) : res N := run span_step fl i.

Lemma span_done : forall fl i, (N.to_nat len + 1 <= fl)%nat -> exists r, span fl i = Done r /\ span_post i r.
Proof. intros fl i Hf. apply (run_of_total N N span_step _ _ fl i (span_total i)). lia. Qed.
End Buf.

(* C10 - totality of the index-walking loops of Front/Scan.v (repaired setting), the witnesses that
   refute it for the code as it stood, and the two recursion guards. *)
From Coq Require Import ZArith NArith List Bool Lia.
Import ListNotations.
From SqfVerif Require Import Front.Machine Front.Tok Front.Reader Front.ReaderProofs Front.Scan.
Local Open Scope N_scope.

Lemma iter_stuck : forall (S R:Type) (step:S -> out S R) s, step s = Run s -> forall n, iter step n s = Run s.
Proof. intros S R step s H n. induction n as [|n IH]; simpl; [reflexivity|]. now rewrite H. Qed.

Lemma iter_reach_stuck : forall (S R:Type) (step:S -> out S R) k s0 s, iter step k s0 = Run s -> step s = Run s ->
  forall n r, iter step n s0 <> Fin r.
Proof.
  intros S R step k. induction k as [|k IH]; intros s0 s H Hs n r.
  - simpl in H. injection H as ->. rewrite (iter_stuck _ _ step s Hs). discriminate.
  - simpl in H. destruct n as [|n]; [simpl; discriminate|]. simpl.
    destruct (step s0) eqn:E; try discriminate. eapply IH; eauto.
Qed.

Lemma find_from_spec : forall p l i, find_from p l i = NPOS \/ (i <= find_from p l i /\ find_from p l i < i + N.of_nat (length l)).
Proof.
  intros p l. induction l as [|c t IH]; intros i; simpl; [left; reflexivity|].
  destruct (p c); [right; lia|]. destruct (IH (N.succ i)) as [H|H]; [left; exact H|right; lia].
Qed.

Section Define.
Variable line : list byte.

Lemma find_c_spec : forall c start, find_c line c start = NPOS \/ (start <= find_c line c start /\ find_c line c start < LL line).
Proof.
  intros c start. unfold find_c. destruct (LL line <? start) eqn:E; [left; reflexivity|]. apply N.ltb_ge in E.
  destruct (find_from_spec (eqb c) (skipn (N.to_nat start) line) start) as [H|H]; [left; exact H|right].
  rewrite skipn_length in H. unfold LL, llen in *. lia.
Qed.

Hypothesis Hsize : llen line < W64.          (* a std::string is shorter than 2^64 *)

Theorem define_args_total : forall be start, (be = NPOS \/ be < LL line) -> start <= LL line ->
  exists n r, (n <= N.to_nat (LL line - start) + 1)%nat /\ iter (args_step rrepaired line be) n (start, []) = Fin r /\ fst r <= LL line.
Proof.
  intros be start0 Hbe H0.
  assert (Hwbe : wadd be 1 <= LL line).
  { unfold wadd. destruct Hbe as [->|Hb]; [replace ((NPOS + 1) mod W64) with 0 by (vm_compute; reflexivity); lia|].
    rewrite N.mod_small; [lia|]. unfold LL in *. lia. }
  apply (measure_total (N * list (list byte)) (N * list (list byte)) (args_step rrepaired line be)
           (fun s => fst s <= LL line) (fun s => N.to_nat (LL line - fst s)) (fun r => fst r <= LL line))
    with (s := (start0, @nil (list byte))); [|exact H0].
  intros [st acc] Hs. cbn [fst] in Hs. unfold args_step. cbn [d_define_empty_param rrepaired negb andb].
  unfold substr_s. destruct (LL line <? st) eqn:E; [apply N.ltb_lt in E; lia|].
  pose proof (find_c_spec 44%Z st) as Hai. set (ai0 := find_c line 44%Z st) in *.
  destruct ((ai0 =? NPOS) || (be <? ai0)) eqn:En.
  - (* the last parameter: the cursor goes behind the closing bracket or stays *)
    destruct (trim_l _); cbn [fst snd negb]; lia.
  - (* a comma in front of the bracket: the cursor goes behind it *)
    apply orb_false_iff in En. destruct En as (E1 & E2). apply N.eqb_neq in E1. apply N.ltb_ge in E2.
    destruct Hai as [Hn|(Hlo & Hhi)]; [congruence|].
    assert (Hw : wadd ai0 1 = ai0 + 1).
    { unfold wadd. apply N.mod_small. unfold LL in *. lia. }
    destruct (trim_l _); cbn [fst snd negb]; rewrite Hw; split; lia.
Qed.
End Define.

(* the code as it stood: an empty parameter name is met again and again *)
Definition define_witness : list byte := [70;40;97;44;44;98;41;32;120]%Z.     (* F(a,,b) x *)
Theorem define_args_refuted : forall n r,
  iter (args_step ras_is define_witness (find_c define_witness 41%Z 0)) n (wadd (find_c define_witness 40%Z 0) 1, []) <> Fin r.
Proof.
  intros n r. eapply (iter_reach_stuck _ _ _ 1%nat); vm_compute; reflexivity.
Qed.

Section Body.
Variable budget : N.
Variable get : N -> option byte.
Variable len : N.
Hypothesis ok : buf_ok get len.
Hypothesis no_cr : forall i, get i <> Some CR.     (* a body comes out of get_line: next() never returns a carriage return *)
Variable fl : nat.
Hypothesis Hfl : (2 * N.to_nat len + 4 <= fl)%nat.

Theorem skip_total : forall n st ins out, r_off st <= len -> (N.to_nat (len - r_off st) + 2 <= n)%nat ->
  exists st' out', skip_loop rrepaired budget get fl n st ins out = Done (st', out') /\ r_off st <= r_off st' /\ r_off st' <= len.
Proof.
  induction n as [|n IH]; intros st ins out Hst Hn; [lia|]. cbn [skip_loop].
  assert (REC : forall st' ins' out', r_off st < r_off st' -> r_off st' <= len ->
            exists s2 o2, skip_loop rrepaired budget get fl n st' ins' out' = Done (s2, o2) /\ r_off st <= r_off s2 /\ r_off s2 <= len).
  { intros st' ins' out' A B. destruct (IH st' ins' out') as (s2 & o2 & E2 & A2 & B2); [exact B|lia|]. exists s2, o2. split; [exact E2|lia]. }
  destruct ins.
  - destruct (next_char_adv budget get len ok fl Hfl st Hst) as (c & st' & E & A & B & C). rewrite E. cbn [rbind].
    cbn [d_skip_string_end rrepaired negb]. rewrite andb_true_r.
    destruct (c =? 0)%Z; [eexists; eexists; split; [reflexivity|lia]|]. apply REC; [apply C; reflexivity|exact B].
  - destruct (skip_stop (peek get (r_off st) 0)) eqn:S; [eexists; eexists; split; [reflexivity|lia]|].
    destruct (peek get (r_off st) 0 =? CR)%Z eqn:Q.
    { exfalso. apply Z.eqb_eq in Q. unfold peek in Q. rewrite N.add_0_r in Q. destruct (get (r_off st)) eqn:G; [|discriminate].
      subst. exact (no_cr _ G). }
    (* the byte in front is not NUL, so there is one, and next() consumes it *)
    assert (Hlt : r_off st + 0 < len).
    { apply (peek_in get len ok _ _ _ (Z.eqb_refl _)). intros H0. unfold skip_stop in S. rewrite H0 in S. cbn in S. discriminate. }
    rewrite N.add_0_r in Hlt.
    destruct (next_char_ok budget get len ok fl Hfl st Hst) as ([c st'] & E & (A & B & C & _)). rewrite E. cbn [rbind].
    apply REC; [exact (C Hlt)|exact B].
Qed.

Theorem wordend_total : forall n st start, r_off st <= len -> (N.to_nat (len - r_off st) + 1 <= n)%nat ->
  exists r, wordend_loop rrepaired budget get fl n st start = Done r.
Proof.
  induction n as [|n IH]; intros st start Hst Hn; [lia|]. cbn [wordend_loop].
  destruct (next_char_adv budget get len ok fl Hfl st Hst) as (c & st' & E & A & B & C). rewrite E. cbn [rbind].
  destruct (c =? 0)%Z eqn:Z; [apply Z.eqb_eq in Z; subst c; eexists; reflexivity|].
  destruct (is_wordc c); [|eexists; reflexivity].
  destruct (C eq_refl) as (Hadv & _). apply IH; [exact B|lia].
Qed.

(* move_back never passes a byte that is not a carriage return *)
Lemma move_back_ge : forall off p x, off <= len -> p < off -> get p = Some x -> x <> CR ->
  exists o, move_back rrepaired budget get fl off = Done o /\ p <= o /\ o <= off.
Proof.
  intros off p x H0 Hp G Hx. destruct (move_back_run budget get len ok fl Hfl off H0) as (o & E & Ho & Hcr).
  exists o. split; [exact E|]. split; [|lia].
  destruct (N.le_gt_cases p o) as [L|L]; [exact L|]. rewrite (Hcr p) in G by lia. congruence.
Qed.

Lemma move_back_one : forall off c, 1 <= off -> get (off - 1) = Some c -> c <> CR ->
  move_back rrepaired budget get fl off = Done (off - 1).
Proof.
  intros off c H1 G Hc. unfold move_back, run. destruct fl as [|f]; [lia|]. cbn [iter]. unfold mb_step.
  destruct (off =? 0) eqn:E; [apply N.eqb_eq in E; lia|]. rewrite G.
  destruct (c =? CR)%Z eqn:Q; [apply Z.eqb_eq in Q; congruence|]. reflexivity.
Qed.

Theorem split_total : forall n st s, r_off st <= len -> (N.to_nat (len - r_off st) + 1 <= n)%nat ->
  exists st' args, split_loop rrepaired budget get fl n st s = Done (st', args) /\ r_off st' <= len.
Proof.
  induction n as [|n IH]; intros st s Hst Hn; [lia|]. cbn [split_loop].
  destruct (next_char_adv budget get len ok fl Hfl st Hst) as (c & st' & E & A & B & C). rewrite E. cbn [rbind].
  destruct (c =? 0)%Z; [eexists; eexists; split; [reflexivity|exact B]|].
  destruct (C eq_refl) as (Hadv & NC & LB).
  assert (REC : forall s', exists st2 args, split_loop rrepaired budget get fl n st' s' = Done (st2, args) /\ r_off st2 <= len).
  { intros s'. apply IH; [exact B|lia]. }
  (* every character but a delimiter only changes the counters *)
  repeat match goal with
  | |- context [if ?x then _ else _] =>
      lazymatch x with
      | (_ =? 41)%Z || (_ =? 44)%Z => fail
      | _ => destruct x; [apply REC|]
      end
  end.
  destruct ((c =? 41)%Z || (c =? 44)%Z); [|apply REC].
  destruct ((sp_rb s =? 0) && (sp_eb s =? 0) && (sp_cb s =? 0)).
  - (* a delimiter at nesting 0 is un-read (it is no carriage return: exactly one byte back) and read again *)
    rewrite (move_back_one (r_off st') c) by (lia || assumption). cbn [rbind].
    destruct (next_char_ok budget get len ok fl Hfl (mkr (r_off st' - 1) (r_str st') (r_blk st'))) as ([c2 st2] & E2 & (A2 & B2 & C2 & _)); [cbn; lia|].
    rewrite E2. cbn [rbind snd]. cbn [snd fst r_off] in A2, B2, C2.
    destruct (c =? 41)%Z; [eexists; eexists; split; [reflexivity|exact B2]|].
    apply IH; [exact B2|]. assert (r_off st' - 1 < len) by lia. specialize (C2 H). lia.
  - destruct (c =? 41)%Z; [eexists; eexists; split; [reflexivity|exact B]|apply REC].
Qed.

Section Arg.
Variable lookup : list byte -> option bool.
Variable hm : rst -> res (rst * bool).
Hypothesis hm_ok : forall st, r_off st <= len -> exists st' e, hm st = Done (st', e) /\ r_off st <= r_off st' /\ r_off st' <= len.

Definition amu (s:argst) : nat := (2 * N.to_nat (len - r_off (a_st s)) + if a_inword s then 1 else 0)%nat.

Theorem arg_total : forall n endindex s, r_off (a_st s) <= len -> (amu s + 1 <= n)%nat ->
  exists st', arg_loop rrepaired budget get fl lookup hm n endindex s = Done st' /\ r_off st' <= len.
Proof.
  induction n as [|n IH]; intros endindex [st inw instr word] Hst Hn; [lia|].
  unfold amu in Hn. cbn [a_st a_inword] in Hst, Hn. cbn [arg_loop a_st a_inword a_str a_word].
  destruct (r_off st =? endindex); [eexists; split; [reflexivity|exact Hst]|].
  destruct (next_char_adv budget get len ok fl Hfl st Hst) as (c & st1 & E & A & B & C). rewrite E. cbn [rbind].
  destruct (c =? 0)%Z; [eexists; split; [reflexivity|exact B]|].
  destruct (C eq_refl) as (Hadv & NC & LB).
  (* going round again is covered by the induction when the reader has advanced (two units of [amu], which pays
     for any change of the word flag), or when it has not gone back and the flag is cleared *)
  assert (FWD : forall st' inw' instr' word', r_off st < r_off st' -> r_off st' <= len ->
            exists st2, arg_loop rrepaired budget get fl lookup hm n endindex (mka st' inw' instr' word') = Done st2 /\ r_off st2 <= len).
  { intros st' inw' instr' word' H1 H2. apply IH; [exact H2|]. unfold amu. cbn [a_st a_inword]. destruct inw', inw; lia. }
  assert (CLR : inw = true -> forall st' instr' word', r_off st <= r_off st' -> r_off st' <= len ->
            exists st2, arg_loop rrepaired budget get fl lookup hm n endindex (mka st' false instr' word') = Done st2 /\ r_off st2 <= len).
  { intros -> st' instr' word' H1 H2. apply IH; [exact H2|]. unfold amu. cbn [a_st a_inword]. lia. }
  destruct instr; [apply FWD; assumption|].
  destruct (is_wordc c && negb (r_off st1 =? endindex)); [apply FWD; assumption|].
  destruct (inw || is_wordc c) eqn:IW; [|apply FWD; assumption].
  (* The branch behind a word.  A character is un-read only if it is not part of a word, so the word was open
     before; move_back stops at that character at the latest, because it is no carriage return. *)
  assert (RR : (negb (is_wordc c) && negb (c =? DQ)%Z) = true -> inw = true).
  { intros H. destruct (is_wordc c); [discriminate|]. rewrite orb_false_r in IW. exact IW. }
  assert (BACK : forall x, r_off st1 <= r_off x -> r_off x <= len ->
            exists o, move_back rrepaired budget get fl (r_off x) = Done o /\ r_off st <= o /\ o <= r_off x).
  { intros x H1 H2. destruct (move_back_ge (r_off x) (r_off st1 - 1) c H2) as (o & Eo & O1 & O2); [lia|exact LB|exact NC|].
    exists o. split; [exact Eo|lia]. }
  destruct (lookup _) as [[|]|].
  - destruct (negb (is_wordc c) && negb (c =? DQ)%Z); cbn [negb]; [|apply FWD; assumption].
    destruct (BACK st1) as (o & Eo & O1 & O2); [lia|exact B|]. rewrite Eo. cbn [rbind].
    destruct (hm_ok (mkr o (r_str st1) (r_blk st1))) as (st3 & e & Eh & H1 & H2); [cbn; lia|]. rewrite Eh. cbn [rbind]. cbn [r_off] in H1.
    destruct e; [eexists; split; [reflexivity|exact H2]|]. apply (CLR (RR eq_refl)); [lia|exact H2].
  - destruct (hm_ok st1 B) as (st3 & e & Eh & H1 & H2). rewrite Eh. cbn [rbind].
    destruct e; [eexists; split; [reflexivity|exact H2]|].
    destruct (negb (is_wordc c) && negb (c =? DQ)%Z); [|apply FWD; [lia|exact H2]].
    destruct (BACK st3 H1 H2) as (o & Eo & O1 & O2). rewrite Eo. cbn [rbind]. apply (CLR (RR eq_refl)); cbn [r_off]; lia.
  - destruct (negb (is_wordc c) && negb (c =? DQ)%Z); [|apply FWD; assumption].
    destruct (BACK st1) as (o & Eo & O1 & O2); [lia|exact B|]. rewrite Eo. cbn [rbind]. apply (CLR (RR eq_refl)); cbn [r_off]; lia.
Qed.
End Arg.
End Body.

(* the code as it stood: a body that ends inside a string literal - the loop appends NUL for ever *)
Definition skip_witness : list byte := [34;97;98;99]%Z.                       (* a double quote, then abc *)
Theorem skip_refuted : forall budget n out,
  skip_loop ras_is budget (lget skip_witness) 20 n (mkr 4 true false) true out = OutOfFuel.
Proof.
  intros budget n. induction n as [|n IH]; intros out; [reflexivity|].
  cbn [skip_loop].
  assert (E : next_char ras_is budget (lget skip_witness) 20 (mkr 4 true false) = Done (0%Z, mkr 4 true false)) by (vm_compute; reflexivity).
  rewrite E. cbn [rbind]. cbn [d_skip_string_end ras_is negb andb Z.eqb]. apply IH.
Qed.
(* ... and that state is where replace_skip arrives from the start of the body *)
Example skip_refuted_reached : forall budget,
  skip_loop ras_is budget (lget skip_witness) 20 5 (mkr 0 false false) false [] = skip_loop ras_is budget (lget skip_witness) 20 0 (mkr 4 true false) true [0%Z; 99%Z; 98%Z; 97%Z; 34%Z].
Proof. intros budget. vm_compute. reflexivity. Qed.

Section CodeSegment.
Variable get : N -> option byte.
Variable len : N.
Hypothesis ok : buf_ok get len.

Theorem code_segment_total : forall fl off length, off <= len -> (N.to_nat len + 2 <= fl)%nat ->
  exists i ln sp, code_segment get len fl off length = Done (i, ln, sp) /\ i <= off /\ sp = off - i.
Proof.
  intros fl off length Hoff Hfl. unfold code_segment.
  set (i0 := if off <? 15 then 0 else off - 15).
  assert (Hi0 : i0 <= off) by (unfold i0; destruct (off <? 15); lia).
  destruct (run_total (N * N * N) (N * N) (cs_step get len off)
              (fun s => snd (fst s) <= off) (fun s => N.to_nat (len - fst (fst s)))
              (fun r => fst r <= off)) with (s := (i0, i0, wadd 30 length)) (fuel := fl) as ([i' ln'] & E & Hp).
  - intros [[j i] ln] A. cbn [fst snd] in *. unfold cs_step.
    destruct ((j <? wadd i ln) && (j <? len)) eqn:E; [|exact A].
    apply andb_prop in E. destruct E as (_ & E). apply N.ltb_lt in E.
    destruct (get_some get len ok j E) as (wc & G). rewrite G.
    destruct (wc =? NL)%Z.
    + destruct (j <? off) eqn:J; [apply N.ltb_lt in J; cbn [fst snd]; lia|exact A].
    + cbn [fst snd]. lia.
  - exact Hi0.
  - cbn [fst]. lia.
  - rewrite E. cbn [rbind]. cbn [fst] in Hp.
    destruct (off <? i') eqn:X; [apply N.ltb_lt in X; lia|].
    destruct (len <? i') eqn:Y; [apply N.ltb_lt in Y; lia|].
    exists i', ln', (off - i'). split; [reflexivity|]. split; [exact Hp|reflexivity].
Qed.
End CodeSegment.

Section Guard.
Variable name : Type.
Variable name_eqb : name -> name -> bool.
Hypothesis eqb_spec : forall a b, name_eqb a b = true <-> a = b.
Variable uses : list name -> name -> list name.
Variable names : list name.                       (* the defined macros / the files that exist *)
Hypothesis uses_in : forall st x y, In y (uses st x) -> In y names.

Lemma memb_in : forall x l, memb name name_eqb x l = true <-> In x l.
Proof.
  intros x l. induction l as [|y r IH]; simpl; [split; [discriminate|tauto]|].
  rewrite orb_true_iff, IH, eqb_spec. tauto.
Qed.

Theorem guard_reports_cycle : forall n stack x, In x stack -> visit name name_eqb uses n stack x = GRecursive name x.
Proof.
  intros n stack x H. destruct n; simpl; rewrite (proj2 (memb_in x stack) H); reflexivity.
Qed.

Lemma NoDup_incl_length_lt : forall (stack:list name) x, NoDup stack -> incl stack names -> In x names -> ~ In x stack ->
  (length stack < length names)%nat.
Proof.
  intros stack x ND INC Hx Hn.
  assert (L : (length (x :: stack) <= length names)%nat).
  { apply NoDup_incl_length; [constructor; assumption|]. intros y [<-|Hy]; [exact Hx|apply INC; exact Hy]. }
  simpl in L. lia.
Qed.

Theorem guard_terminates : forall n stack x, NoDup stack -> incl stack names -> In x names ->
  (length names - length stack <= n)%nat ->
  (exists d, visit name name_eqb uses n stack x = GOk name d /\ (d <= length names)%nat) \/
  (exists y, visit name name_eqb uses n stack x = GRecursive name y).
Proof.
  induction n as [|n IH]; intros stack x ND INC Hx Hn; simpl;
    (destruct (memb name name_eqb x stack) eqn:M; [right; eauto|]);
    assert (Hnin : ~ In x stack) by (intro H; apply memb_in in H; congruence);
    pose proof (NoDup_incl_length_lt stack x ND INC Hx Hnin) as HL; [lia|].
  (* x joins the stack; the names it uses are visited one after the other, with the fuel that is left *)
  assert (ND' : NoDup (x :: stack)) by (constructor; assumption).
  assert (INC' : incl (x :: stack) names) by (intros y [<-|Hy]; [exact Hx|apply INC; exact Hy]).
  pose proof (uses_in stack x) as Hl. revert Hl.
  assert (Hd : (S (length stack) <= length names)%nat) by lia. revert Hd.
  generalize (uses stack x) as l, (S (length stack)) as deep.
  induction l as [|y r IHl]; intros deep Hd Hl.
  - left. exists deep. split; [reflexivity|exact Hd].
  - destruct (IH (x :: stack) y ND' INC' (Hl y (or_introl eq_refl))) as [(d & E & Ld)|(z & E)]; [simpl; lia| |]; rewrite E.
    + apply IHl; [lia|intros z Hz; apply Hl; right; exact Hz].
    + right. exists z. reflexivity.
Qed.
End Guard.

(* C10 - totality of the preprocessor's character reader (repaired setting): next(), move_back(),
   get_word(), get_line(true) end within a number of steps linear in the bytes left, stay inside
   the content and make progress. *)
From Coq Require Import ZArith NArith List Bool Lia.
Import ListNotations.
From SqfVerif Require Import Front.Machine Front.Tok Front.Reader.
Local Open Scope N_scope.

Section Proofs.
Variable budget : N.
Variable get : N -> option byte.
Variable len : N.
Hypothesis ok : buf_ok get len.

Lemma peek_in : forall o k c, (peek get o k =? c)%Z = true -> c <> 0%Z -> o + k < len.
Proof.
  intros o k c H Hc. unfold peek in H. destruct (get (o + k)) eqn:G.
  - eapply get_inside; eauto.
  - apply Z.eqb_eq in H. congruence.
Qed.

Lemma get_none_ge : forall i, get i = None -> len <= i.
Proof. intros i G. destruct (N.lt_ge_cases i len) as [H|H]; [|exact H]. apply ok in H. congruence. Qed.

Definition nmu (s:nst) : nat := (2 * N.to_nat (len - r_off (n_st s)) + match n_ph s with P0 => 1 | _ => 0 end)%nat.

Definition next_post (off0:N) (r:byte * rst) : Prop :=
  off0 <= r_off (snd r) /\ r_off (snd r) <= len /\ (off0 < len -> off0 < r_off (snd r)) /\ fst r <> CR /\
  (fst r <> 0%Z -> 1 <= r_off (snd r) /\ get (r_off (snd r) - 1) = Some (fst r)).

(* the obligation of [measure_total] for one step of next() that was started at off0 *)
Definition good (off0:N) (s:nst) (o:out nst (byte * rst)) : Prop :=
  match o with
  | Run s' => (off0 <= r_off (n_st s') /\ r_off (n_st s') <= len) /\ (nmu s' < nmu s)%nat
  | Fin r => next_post off0 r
  | Bad _ => False
  end.

Lemma fin_post : forall off0 off c str blk, off0 <= off -> get off = Some c -> c <> CR ->
  next_post off0 (c, mkr (N.succ off) str blk).
Proof.
  intros off0 off c str blk H0 G Hc. pose proof (get_inside get len ok _ _ G).
  unfold next_post. cbn [fst snd r_off]. replace (N.succ off - 1) with off by lia.
  repeat split; try lia. exact G.
Qed.

(* the end of next() behind the byte c read at off: a line continuation goes on at the top behind the
   newline, which is inside the content because peek found it there; everything else returns c *)
Lemma tail_good : forall off0 s c str blk, off0 <= r_off (n_st s) -> get (r_off (n_st s)) = Some c -> c <> CR ->
  good off0 s (tail rrepaired budget get s c (N.succ (r_off (n_st s))) str blk).
Proof.
  intros off0 s c str blk H0 G Hc. pose proof (get_inside get len ok _ _ G) as Hin.
  unfold tail, deeper, good, nmu. cbn [d_reader_recursion rrepaired].
  destruct ((c =? BSL)%Z && negb str); [|apply fin_post; assumption].
  destruct ((peek get _ 0 =? CR)%Z && (peek get _ 1 =? NL)%Z) eqn:E1.
  { apply andb_prop in E1. destruct E1 as (_ & E1). apply peek_in in E1; [|discriminate]. cbn [n_st n_ph r_off]. lia. }
  destruct (peek get _ 0 =? NL)%Z eqn:E2; [|apply fin_post; assumption].
  apply peek_in in E2; [|discriminate]. cbn [n_st n_ph r_off]. lia.
Qed.

(* Every step that goes on either consumes a byte or (at the top, inside a block comment whose text has
   ended) changes to the comment loop: the offset counts twice in [nmu], the phase P0 once. *)
Lemma next_step_ok : forall off0 s, off0 <= r_off (n_st s) /\ r_off (n_st s) <= len ->
  good off0 s (next_step rrepaired budget get s).
Proof.
  intros off0 s (Hlo & Hhi). unfold good, nmu, next_step, deeper. cbn [d_reader_recursion rrepaired andb].
  destruct (get (r_off (n_st s))) as [c|] eqn:G.
  - pose proof (get_inside get len ok _ _ G) as Hin.
    destruct (c =? CR)%Z eqn:Ec; [cbn [n_st n_ph r_off]; lia|].
    apply Z.eqb_neq in Ec. assert (TL := fun str blk => tail_good off0 s c str blk Hlo G Ec). unfold good, nmu in TL.
    destruct (n_ph s).
    + destruct (negb (r_str (n_st s)) && ((c =? SLASH)%Z || r_blk (n_st s))); [|apply TL].
      destruct (c =? NL)%Z; [apply fin_post; assumption|].
      destruct (r_blk (n_st s) && (c =? STAR)%Z && (peek get _ 0 =? SLASH)%Z) eqn:E1.
      { apply andb_prop in E1. destruct E1 as (_ & E1). apply peek_in in E1; [|discriminate]. cbn [n_st n_ph r_off]. lia. }
      destruct ((peek get _ 0 =? STAR)%Z || r_blk (n_st s)) eqn:E2.
      { destruct (r_blk (n_st s)); [cbn [n_st n_ph r_off]; lia|].
        rewrite orb_false_r in E2. apply peek_in in E2; [|discriminate]. cbn [n_st n_ph r_off]. lia. }
      destruct (peek get _ 0 =? SLASH)%Z; [cbn [n_st n_ph r_off]; lia|apply TL].
    + destruct (c =? 0)%Z; [apply TL|]. destruct (c =? NL)%Z; [apply TL|].
      destruct ((c =? STAR)%Z && (peek get _ 0 =? SLASH)%Z) eqn:E1; [|cbn [n_st n_ph r_off]; lia].
      apply andb_prop in E1. destruct E1 as (_ & E1). apply peek_in in E1; [|discriminate]. cbn [n_st n_ph r_off]. lia.
    + destruct ((c =? 0)%Z || (c =? NL)%Z); [apply TL|cbn [n_st n_ph r_off]; lia].
  - (* at the end: NUL is returned and nothing consumed; [tail] computes, NUL being no backslash *)
    pose proof (get_none_ge _ G) as Hge.
    assert (FIN : forall str blk, next_post off0 (0%Z, mkr (r_off (n_st s)) str blk)).
    { intros str blk. unfold next_post. cbn [fst snd r_off]. repeat split; try lia. discriminate. }
    destruct (n_ph s); [|apply FIN|apply FIN].
    destruct (negb (r_str (n_st s)) && r_blk (n_st s)); [|apply FIN].
    cbn [n_st n_ph r_off]. lia.
Qed.

Theorem next_total : forall st, r_off st <= len ->
  exists n r, (n <= 2 * N.to_nat (len - r_off st) + 2)%nat /\
              iter (next_step rrepaired budget get) n (mkn P0 st 0 0) = Fin r /\ next_post (r_off st) r.
Proof.
  intros st Hst.
  destruct (measure_total nst (byte * rst) (next_step rrepaired budget get)
              (fun s => r_off st <= r_off (n_st s) /\ r_off (n_st s) <= len) nmu (next_post (r_off st))
              (next_step_ok (r_off st)) (mkn P0 st 0 0)) as (n & r & Hn & Hit & Hp); [cbn; lia|].
  exists n, r. split; [|auto]. unfold nmu in Hn. cbn in Hn. lia.
Qed.

Theorem move_back_spec : forall off, off <= len ->
  exists n r, (n <= N.to_nat off + 1)%nat /\ iter (mb_step rrepaired budget get) n (off, 0) = Fin r /\
              r <= off - 1 /\ forall j, r < j < off -> get j = Some CR.
Proof.
  intros off0 H0.
  apply (measure_total (N * N) N (mb_step rrepaired budget get)
           (fun s => fst s <= off0 /\ forall j, fst s <= j < off0 -> get j = Some CR) (fun s => N.to_nat (fst s))
           (fun r => r <= off0 - 1 /\ forall j, r < j < off0 -> get j = Some CR)) with (s := (off0, 0)).
  - intros [off dp] (Hs & Hcr). cbn [fst] in *. unfold mb_step. cbn [d_reader_recursion rrepaired andb].
    destruct (off =? 0) eqn:E; [apply N.eqb_eq in E; subst off; split; [lia|intros j Hj; apply Hcr; lia]|].
    apply N.eqb_neq in E. destruct (get_some get len ok (off - 1)) as (c & G); [lia|]. rewrite G.
    destruct (c =? CR)%Z eqn:Q; cbn [fst]; [|split; [lia|intros j Hj; apply Hcr; lia]].
    apply Z.eqb_eq in Q. subst c. split; [|lia]. split; [lia|].
    intros j Hj. destruct (N.eq_dec j (off - 1)) as [->|]; [exact G|apply Hcr; lia].
  - cbn [fst]. split; [lia|]. intros j Hj. lia.
Qed.

Variable fl : nat.
Hypothesis Hfl : (2 * N.to_nat len + 4 <= fl)%nat.

Lemma next_char_ok : forall st, r_off st <= len ->
  exists r, next_char rrepaired budget get fl st = Done r /\ next_post (r_off st) r.
Proof. intros st Hst. eapply run_of_total; [exact (next_total st Hst)|lia]. Qed.

Lemma move_back_run : forall off, off <= len ->
  exists r, move_back rrepaired budget get fl off = Done r /\ r <= off - 1 /\ forall j, r < j < off -> get j = Some CR.
Proof. intros off H. eapply run_of_total; [exact (move_back_spec off H)|lia]. Qed.

Lemma next_at_end : forall st c st', len <= r_off st -> next_char rrepaired budget get fl st = Done (c, st') -> c = 0%Z.
Proof.
  intros st c st' H E.
  unfold next_char in E. destruct fl as [|f]; [lia|]. unfold run in E. cbn [iter] in E.
  unfold next_step at 1 in E. cbn [n_st n_ph r_off r_str r_blk n_depth n_cr] in E.
  rewrite (get_beyond get len ok (r_off st)) in E by lia.
  destruct (negb (r_str st) && r_blk st) eqn:Q.
  - destruct f as [|f]; [lia|]. cbn [iter] in E.
    unfold next_step at 1 in E. cbn [n_st n_ph r_off r_str r_blk n_depth n_cr] in E.
    rewrite (get_beyond get len ok (r_off st)) in E by lia.
    unfold tail in E. cbn in E. injection E as <- _. reflexivity.
  - unfold tail in E. cbn in E. injection E as <- _. reflexivity.
Qed.

(* [next_post] with "the character is not NUL" in place of "a byte is left" ([next_at_end]): the form
   in which the loops over next() use it *)
Lemma next_char_adv : forall st, r_off st <= len ->
  exists c st', next_char rrepaired budget get fl st = Done (c, st') /\ r_off st <= r_off st' /\ r_off st' <= len /\
                ((c =? 0)%Z = false -> r_off st < r_off st' /\ c <> CR /\ get (r_off st' - 1) = Some c).
Proof.
  intros st Hst. destruct (next_char_ok st Hst) as ([c st'] & E & (A & B & C & NC & LB)). cbn [fst snd] in *.
  exists c, st'. split; [exact E|]. split; [exact A|]. split; [exact B|]. intros Z. apply Z.eqb_neq in Z.
  split; [|split; [exact NC|apply LB; exact Z]].
  apply C. destruct (N.lt_ge_cases (r_off st) len) as [Hlt|Hge]; [exact Hlt|]. elim Z. exact (next_at_end _ _ _ Hge E).
Qed.

Theorem stream_total : forall n st, r_off st <= len -> (N.to_nat (len - r_off st) + 1 <= n)%nat ->
  exists l e, stream rrepaired budget get fl n st = Done (l, e) /\ (length l <= N.to_nat (len - r_off st))%nat /\ r_off e <= len.
Proof.
  induction n as [|n IH]; intros st Hst Hn; [lia|]. cbn [stream].
  destruct (next_char_adv st Hst) as (c & st' & E & A & B & C). rewrite E. cbn [rbind].
  destruct (c =? 0)%Z; [exists [], st'; repeat split; [simpl; lia|exact B]|].
  destruct (C eq_refl) as (Hadv & _). destruct (IH st') as (l & e & El & Ll & Le); [exact B|lia|].
  rewrite El. cbn [rbind]. exists (c :: l), e. repeat split; [simpl; lia|exact Le].
Qed.

Theorem gw_loop_total : forall n st oe, r_off st <= len -> (N.to_nat (len - r_off st) + 2 <= n)%nat ->
  exists st' oe', gw_loop rrepaired budget get fl n st oe = Done (st', oe') /\ r_off st <= r_off st' /\ r_off st' <= len /\
                  (oe' = oe \/ (r_off st < oe' /\ oe' <= len)).
Proof.
  induction n as [|n IH]; intros st oe Hst Hn; [lia|]. cbn [gw_loop].
  destruct (next_char_adv st Hst) as (c & st' & E & A & B & C). rewrite E. cbn [rbind].
  destruct (c =? 0)%Z; cbn [negb andb]; [exists st', oe; repeat split; [exact A|exact B|left; reflexivity]|].
  destruct (C eq_refl) as (Hadv & _).
  destruct (is_wordc c); [|exists st', oe; repeat split; [exact A|exact B|left; reflexivity]].
  destruct (IH st' (r_off st')) as (s2 & o2 & E2 & A2 & B2 & C2); [exact B|lia|].
  exists s2, o2. split; [exact E2|]. repeat split; lia.
Qed.

Theorem get_word_total : forall st, r_off st <= len ->
  exists w st', get_word rrepaired budget get len fl st = Done (w, st') /\ r_off st' <= len.
Proof.
  intros st Hst. unfold get_word.
  destruct (gw_loop_total fl st (r_off st) Hst) as (s2 & o2 & E & A & B & C); [lia|]. rewrite E. cbn [rbind].
  destruct (move_back_run (r_off s2) B) as (o & Em & Lo & _). rewrite Em. cbn [rbind].
  destruct (len <? r_off st) eqn:L; [apply N.ltb_lt in L; lia|].
  eexists. eexists. split; [reflexivity|]. cbn [r_off]. lia.
Qed.

Theorem gl_loop_total : forall n st esc acc, r_off st <= len -> (N.to_nat (len - r_off st) + 1 <= n)%nat ->
  exists l st', gl_loop rrepaired budget get fl n st esc acc = Done (l, st') /\ r_off st <= r_off st' /\ r_off st' <= len.
Proof.
  induction n as [|n IH]; intros st esc acc Hst Hn; [lia|]. cbn [gl_loop].
  destruct (next_char_adv st Hst) as (c & st' & E & A & B & C). rewrite E. cbn [rbind].
  destruct (c =? 0)%Z; [eexists; eexists; split; [reflexivity|lia]|].
  destruct (C eq_refl) as (Hadv & _).
  (* every other character either ends the line behind it or goes round again, from st' *)
  assert (REC : forall esc' acc', exists l s2, gl_loop rrepaired budget get fl n st' esc' acc' = Done (l, s2) /\ r_off st <= r_off s2 /\ r_off s2 <= len).
  { intros esc' acc'. destruct (IH st' esc' acc') as (l & s2 & E2 & A2 & B2); [exact B|lia|]. exists l, s2. split; [exact E2|lia]. }
  destruct (c =? BSL)%Z; [apply REC|].
  destruct (c =? NL)%Z; [|apply REC].
  destruct esc; [apply REC|eexists; eexists; split; [reflexivity|lia]].
Qed.

Theorem get_line_total : forall st, r_off st <= len ->
  exists l st', get_line rrepaired budget get fl st = Done (l, st') /\ r_off st' <= len.
Proof.
  intros st Hst. unfold get_line. destruct (gl_loop_total fl st false [] Hst) as (l & s2 & E & A & B); [lia|].
  exists l, s2. split; [exact E|exact B].
Qed.

End Proofs.

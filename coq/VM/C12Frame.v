(* C12 - isolation, part 2: frame transformers commute with instructions, exit behaviours, frame::next, error
   handling, one execute_do iteration, a slice and a scheduler turn of a script that does not look at them.
   The way from an instruction to a turn is stated once (Section Chain), for a transformer and a relation between a
   machine and the namespaces that replace its own: the exact frame property here, the one up to the order of
   namespace entries in C12Globals.v. *)
From Coq Require Import String Ascii ZArith List Bool Lia Arith.
From SqfVerif Require Import Gen.DiagCodes Gen.Overloads VM.VmDefs VM.VmExec VM.VmFacts VM.SchedDefs VM.SchedOps VM.SchedBase VM.SchedIter VM.C12FrameOps.
Import ListNotations.
Local Open Scope list_scope.
Opaque frame_fuel exec_fuel.

(* what one instruction may touch, given the operands on the stack: globals inside the footprints, no look at
   other scripts *)
Definition instr_ok (R W:list key) (ins:instr) (c:context) : bool :=
  match ins with
  | IGet n => if is_local n then true else match c_frames c with f :: _ => kin (f_ns f, lower n) R | [] => true end
  | IAssign n =>
      match pop_value c with
      | Some (_, c1) => if String.eqb n "" then true else if is_local n then true
                        else match c_frames c1 with f :: _ => kin (f_ns f, lower n) W | [] => true end
      | None => true end
  | IUnary n => match pop_value c with Some (v, c1) => uop_ok R (lower n) v c1 | None => true end
  | IBinary n =>
      match pop_value c with
      | Some (v, c1) => match pop_value c1 with Some (l, c2) => bop_ok R W (lower n) l v | None => true end
      | None => true end
  | _ => true end.

Definition map_ex (f:rt -> rt) (x:res (rt * context)) : res (rt * context) :=
  match x with Ok (r, c) => Ok (f r, c) | Unsupported w => Unsupported w | Hang w => Hang w | UB w => UB w end.

Ltac ex_leaf := cbn [map_ex map_op bindr]; rewrite ?app_logmsg, ?app_mark, ?app_set_clock; try reflexivity.

Lemma app_exec_instr T i R W ins r c : tr_ok T i R W -> instr_ok R W ins c = true ->
  exec_instr ins (app T r) c = map_ex (app T) (exec_instr ins r c).
Proof.
  intros OK H. destruct ins; cbn [instr_ok] in H; rewrite ?exec_unary_eq, ?exec_binary_eq; cbn [exec_instr].
  - reflexivity.
  - destruct (is_local n).
    + destruct (get_variable c n); ex_leaf.
    + destruct (c_frames c); [reflexivity|]. erewrite app_ns_get by eauto. destruct (ns_get r _ n); ex_leaf.
  - destruct (pop_value c) as [[v c1]|]; [|ex_leaf].
    assert (L : (match v with VNil => logmsg (app T r) d_AssigningNilValue | _ => app T r end) =
                app T (match v with VNil => logmsg r d_AssigningNilValue | _ => r end)) by (destruct v; ex_leaf).
    rewrite L. destruct (String.eqb n ""); [reflexivity|]. destruct (is_local n); [reflexivity|].
    destruct (c_frames c1); [reflexivity|]. erewrite app_ns_set by eauto. reflexivity.
  - destruct (pop_value c) as [[v c1]|]; destruct (String.eqb n ""); try reflexivity; ex_leaf.
    destruct v; ex_leaf.
  - rewrite app_op_nular. destruct (op_nular (lower n) r c) as [[[r1 c1] v1]| | |]; cbn [map_op bindr map_ex]; try reflexivity.
    destruct (has_nular _); reflexivity.
  - destruct (pop_value c) as [[v c1]|]; [|ex_leaf]. destruct (is_nil v); [ex_leaf|].
    unfold call_unary. erewrite app_op_unary by eauto.
    destruct (op_unary (lower n) v r c1) as [[[r1 c2] y]| | |]; cbn [map_op bindr map_ex]; try reflexivity.
    destruct (has_unary _ _); ex_leaf.
  - destruct (pop_value c) as [[v c1]|]; [|ex_leaf]. destruct (is_nil v); [ex_leaf|].
    destruct (pop_value c1) as [[l c2]|]; [|ex_leaf]. destruct (is_nil l); [ex_leaf|].
    unfold call_binary. erewrite app_op_binary by eauto.
    destruct (op_binary (lower n) l v r c2) as [[[r1 c3] y]| | |]; cbn [map_op bindr map_ex]; try reflexivity.
    destruct (has_binary _ _ _); ex_leaf.
  - destruct (pop_args n c []) as [[vals c1] ok]. destruct ok; ex_leaf.
  - reflexivity.
Qed.

Definition map_en (f:rt -> rt) (x:res (bresult * behavior * rt * context)) : res (bresult * behavior * rt * context) :=
  match x with Ok (a, b, r, c) => Ok (a, b, f r, c) | Unsupported w => Unsupported w | Hang w => Hang w | UB w => UB w end.

Lemma app_enact T b r c : enact b (app T r) c = map_en (app T) (enact b r c).
Proof.
  destruct b; cbn [enact]; unfold exit_value_missing; app_norm; app_split;
    cbn [map_en]; rewrite ?app_logmsg, ?app_mark, ?app_set_clock, ?app_logmsg; try reflexivity.
Qed.

Definition map_fn (f:rt -> rt) (x:res (fres2 * rt * context)) : res (fres2 * rt * context) :=
  match x with Ok (a, r, c) => Ok (a, f r, c) | Unsupported w => Unsupported w | Hang w => Hang w | UB w => UB w end.

Lemma app_frame_next2 T b fuel : forall r c, frame_next2 b fuel (app T r) c = map_fn (app T) (frame_next2 b fuel r c).
Proof.
  induction fuel; intros r c; cbn [frame_next2 map_fn]; auto.
  destruct (c_frames c) as [|f rest]; auto.
  destruct (at_end f); [|destruct (at_end (set_pos f (S (f_pos f))))];
  (match goal with |- context [f_exit ?x] => destruct (f_exit x) as [bh|] end; auto);
  (match goal with |- context [if ?x then _ else _] => destruct x end; auto);
  rewrite app_enact;
  (match goal with |- context [enact ?a r ?c0] => destruct (enact a r c0) as [[[[br b'] r2] c2]| | |] end; cbn [bindr map_en map_fn]; auto);
  destruct br; auto;
  match goal with |- context [if ?x then _ else _] => destruct x end; auto.
Qed.

Lemma app_cur T i R W r : tr_ok T i R W -> r_active r = Some i -> cur (app T r) = cur r.
Proof. intros OK Ha. unfold cur. cbn [r_active app r_ctxs]. rewrite Ha. apply (tk_nth _ _ _ _ OK). Qed.
Lemma app_upd_cur T i R W r c : tr_ok T i R W -> r_active r = Some i -> upd_cur (app T r) c = app T (upd_cur r c).
Proof.
  intros OK Ha. unfold upd_cur. cbn [r_active app]. rewrite Ha. unfold app, set_ctxs. cbn.
  rewrite (tk_upd _ _ _ _ OK). reflexivity.
Qed.

Definition map_he (f:rt -> rt) (x:res (bool * rt * context)) := map_err f x.
Lemma app_handle_error T fuel : forall r c msgs skip,
  handle_error fuel (app T r) c msgs skip = map_err (app T) (handle_error fuel r c msgs skip).
Proof.
  induction fuel; intros r c msgs skip; cbn [handle_error map_err]; auto.
  destruct (find_handler _ _); auto.
  rewrite app_err_enact.
  match goal with |- context [err_enact r ?a ?k] => destruct (err_enact r a k) as [[[failed r3] c3]| | |] end; cbn [bindr map_err]; auto.
  destruct failed; auto.
Qed.

Definition map_oe (f:rt -> rt) (x:res (bool * rt)) : res (bool * rt) :=
  match x with Ok (b, r) => Ok (b, f r) | Unsupported w => Unsupported w | Hang w => Hang w | UB w => UB w end.
Lemma app_on_error T i R W r : tr_ok T i R W -> r_active r = Some i -> on_error (app T r) = map_oe (app T) (on_error r).
Proof.
  intros OK Ha. unfold on_error. cbn [r_msgs app]. rewrite app_set_msgs.
  rewrite (app_cur T i R W) by auto. destruct (cur (set_msgs r [])) as [c|]; auto.
  rewrite app_handle_error.
  match goal with |- context [handle_error ?f (set_msgs r []) ?a ?m ?s] => destruct (handle_error f (set_msgs r []) a m s) as [[[rec r2] c2]| | |] eqn:HE end;
    cbn [bindr map_err map_oe]; auto.
  apply handle_error_shape in HE. destruct HE as [-> _].
  rewrite (app_upd_cur T i R W) by auto.
  destruct rec; cbn [map_oe]; rewrite <- ?app_logmsg, <- ?app_set_errflag; reflexivity.
Qed.

Lemma app_deadline_test T r : deadline_test (app T r) = (fst (deadline_test r), app T (snd (deadline_test r))).
Proof. unfold deadline_test, now. cbn [r_max_runtime r_clock r_tick r_run_ts app]. destruct (Z.eqb _ 0); reflexivity. Qed.
Lemma app_abort_run T r : abort_run (app T r) = app T (abort_run r).
Proof. unfold abort_run. rewrite app_logmsg, app_set_exit_req, app_set_errflag, app_set_msgs. reflexivity. Qed.

(* ------------------------------------------------------------------ what the running script may execute *)
(* the instruction that the next iteration of execute_do is going to execute (if any) is allowed by okI *)
Definition iter_okG (okI:instr -> context -> bool) (b:bool) (r:rt) : bool :=
  match cur r with
  | None => true
  | Some c =>
    match frame_next2 b frame_fuel r c with
    | Ok (fr, r1, c1) =>
        if r_err r1 then true else
        match fr with
        | F2Restarted => true
        | F2Done => if Nat.eqb (length (c_frames c1)) (length (c_frames c)) then true
                    else match current_instr c1 with Some ins => okI ins c1 | None => true end
        | F2Ok => match current_instr c1 with Some ins => okI ins c1 | None => true end
        end
    | _ => true end
  end.
(* ... every instruction the slice executes (the check runs the slice) *)
Fixpoint slice_okG (okI:instr -> context -> bool) (b:bool) (fuel:nat) (r:rt) (n:nat) : bool :=
  match fuel with O => true | S fuel' =>
    if r_exit_req r then true else
    match n with
    | O => true
    | S ea =>
      andb (iter_okG okI b r)
        match do_iter2 b r with
        | Ok (Continue2 r1) => slice_okG okI b fuel' r1 n
        | Ok (Executed2 r1) => slice_okG okI b fuel' r1 ea
        | Ok (Restarted2 r1) => slice_okG okI b fuel' r1 ea
        | _ => true end
    end end.
(* ... every instruction of the turn *)
Definition visit_okG (okI:instr -> context -> bool) (b1:bool) (r:rt) (i:nat) : bool :=
  match nth_error (r_ctxs r) i with
  | None => true
  | Some c00 =>
    let c := prepared c00 in
    let r0 := handed r i c00 in
    if c_suspended c then
      if Z.leb (c_wakeup c) (r_clock r0 + r_tick r0) then
        let rs := upd_cur (set_clock r0 (r_clock r0 + r_tick r0)%Z) (set_suspended c false (c_wakeup c)) in
        slice_okG okI b1 exec_fuel rs (r_slice rs)
      else true
    else slice_okG okI b1 exec_fuel r0 (r_slice r0)
  end.

(* the footprint check: okI = instr_ok R W *)
Definition iter_ok (b:bool) (R W:list key) (r:rt) : bool :=
  match cur r with
  | None => true
  | Some c =>
    match frame_next2 b frame_fuel r c with
    | Ok (fr, r1, c1) =>
        if r_err r1 then true else
        match fr with
        | F2Restarted => true
        | F2Done => if Nat.eqb (length (c_frames c1)) (length (c_frames c)) then true
                    else match current_instr c1 with Some ins => instr_ok R W ins c1 | None => true end
        | F2Ok => match current_instr c1 with Some ins => instr_ok R W ins c1 | None => true end
        end
    | _ => true end
  end.

(* every instruction the slice executes stays inside the footprints (the check runs the slice) *)
Fixpoint slice_ok (b:bool) (R W:list key) (fuel:nat) (r:rt) (n:nat) : bool :=
  match fuel with O => true | S fuel' =>
    if r_exit_req r then true else
    match n with
    | O => true
    | S ea =>
      andb (iter_ok b R W r)
        match do_iter2 b r with
        | Ok (Continue2 r1) => slice_ok b R W fuel' r1 n
        | Ok (Executed2 r1) => slice_ok b R W fuel' r1 ea
        | Ok (Restarted2 r1) => slice_ok b R W fuel' r1 ea
        | _ => true end
    end end.

Definition visit_ok (b1:bool) (R W:list key) (r:rt) (i:nat) : bool :=
  match nth_error (r_ctxs r) i with
  | None => true
  | Some c00 =>
    let c := prepared c00 in
    let r0 := handed r i c00 in
    if c_suspended c then
      if Z.leb (c_wakeup c) (r_clock r0 + r_tick r0) then
        let rs := upd_cur (set_clock r0 (r_clock r0 + r_tick r0)%Z) (set_suspended c false (c_wakeup c)) in
        slice_ok b1 R W exec_fuel rs (r_slice rs)
      else true
    else slice_ok b1 R W exec_fuel r0 (r_slice r0)
  end.

Lemma slice_okG_instr b R W fuel : forall r n, slice_okG (instr_ok R W) b fuel r n = slice_ok b R W fuel r n.
Proof.
  induction fuel; intros r n; cbn [slice_okG slice_ok]; auto.
  destruct (r_exit_req r); auto. destruct n; auto.
  change (iter_okG (instr_ok R W) b r) with (iter_ok b R W r). f_equal.
  destruct (do_iter2 b r) as [[]| | |]; auto.
Qed.
Lemma visit_okG_instr b1 R W r i : visit_okG (instr_ok R W) b1 r i = visit_ok b1 R W r i.
Proof. unfold visit_okG, visit_ok. destruct (nth_error (r_ctxs r) i); [|reflexivity]. cbv zeta. rewrite !slice_okG_instr. reflexivity. Qed.

(* ------------------------------------------------------------------ what leaves the namespaces alone *)
(* T with "the namespaces become a" in place of its own change of the namespaces *)
Definition with_nss (T:tr) (a:nsmap) : tr := {| t_ctx := t_ctx T; t_out := t_out T; t_nss := fun _ => a |}.
Lemma with_nss_ok T i R W a : tr_ok T i R W -> tr_ok (with_nss T a) i [] [].
Proof. intros [A B C _ _]. split; auto; intros; discriminate. Qed.

Definition tr_none : tr := {| t_ctx := fun l => l; t_out := []; t_nss := fun n => n |}.
Lemma tr_none_ok i R W : tr_ok tr_none i R W.
Proof. split; reflexivity. Qed.
Lemma app_with_nss_self r : app (with_nss tr_none (r_nss r)) r = r.
Proof. destruct r. unfold app. cbn. rewrite app_nil_r. reflexivity. Qed.

Lemma nss_deadline_test r : r_nss (snd (deadline_test r)) = r_nss r.
Proof. unfold deadline_test, now. destruct (Z.eqb _ 0); reflexivity. Qed.
Lemma nss_abort_run r : r_nss (abort_run r) = r_nss r.
Proof. unfold abort_run. cbn [r_nss set_msgs set_errflag set_exit_req rt_with]. apply nss_logmsg. Qed.
(* a frame lemma for "the namespaces become what they are" says that the namespaces stay *)
Lemma nss_frame_next2 b fuel r c fr r1 c1 : frame_next2 b fuel r c = Ok (fr, r1, c1) -> r_nss r1 = r_nss r.
Proof.
  intro H. pose proof (app_frame_next2 (with_nss tr_none (r_nss r)) b fuel r c) as E. rewrite app_with_nss_self, H in E. cbn [map_fn] in E.
  injection E as E1. apply (f_equal r_nss) in E1. exact E1.
Qed.
Lemma nss_on_error i r rec r1 : r_active r = Some i -> on_error r = Ok (rec, r1) -> r_nss r1 = r_nss r.
Proof.
  intros Ha H. pose proof (app_on_error _ i [] [] r (with_nss_ok _ i [] [] (r_nss r) (tr_none_ok _ _ _)) Ha) as E.
  rewrite app_with_nss_self, H in E. cbn [map_oe] in E. injection E as E1. apply (f_equal r_nss) in E1. exact E1.
Qed.

(* ------------------------------------------------------------------ one iteration, a slice, a turn *)
(* The machines r and app (with_nss T a') r - T's change of the contexts and the log, the namespaces replaced by a' with
   rel r a' - take the same iteration, slice and turn, and the results are related in the same way, provided every
   instruction executed does that (Hex). rel r a := "a = t_nss T (r_nss r)" gives the exact frame property of T; T = tr_none
   and rel r a := "a is G (r_nss r) up to the order of entries" gives the one of C12Globals.v. *)
Definition mapi (f:rt -> rt) (it:iter2) : iter2 :=
  match it with Continue2 r => Continue2 (f r) | Executed2 r => Executed2 (f r) | Restarted2 r => Restarted2 (f r) | Return2 x r => Return2 x (f r) end.
Definition upd_ex (f:rt -> rt) (p:rt * context) : rt * context := (f (fst p), snd p).
Definition upd_mid {A B} (f:rt -> rt) (p:A * rt * B) : A * rt * B := (fst (fst p), f (snd (fst p)), snd p).
Definition mid {A B} (p:A * rt * B) : rt := snd (fst p).

Section Chain.
Variables (T:tr) (i:nat).
Hypothesis Tok : tr_ok T i [] [].
Variable rel : rt -> nsmap -> Prop.
Hypothesis rel_nss : forall r r' a, r_nss r' = r_nss r -> rel r a -> rel r' a.

(* x' is x with T applied to the machine in it and the namespaces replaced by some a1 related to that machine *)
Definition rres {A} (upd:(rt -> rt) -> A -> A) (get:A -> rt) (x' x:res A) : Prop :=
  match x with
  | Ok p => exists a1, x' = Ok (upd (app (with_nss T a1)) p) /\ rel (get p) a1
  | Unsupported w => x' = Unsupported w | Hang w => x' = Hang w | UB w => x' = UB w end.

Variable okI : instr -> context -> bool.
Hypothesis Hex : forall ins r c a', rel r a' -> okI ins c = true ->
  rres upd_ex fst (exec_instr ins (app (with_nss T a') r) c) (exec_instr ins r c).

Let OK a : tr_ok (with_nss T a) i [] [] := with_nss_ok T i [] [] a Tok.

Ltac it_same a' := cbn [rres mapi rt_of]; exists a'; split; [reflexivity|].

(* the rest of an iteration once the time limit has let the instruction pass *)
Definition exec_due (ins:instr) (r2:rt) (c1:context) : res iter2 :=
  bindr (exec_instr ins r2 c1) (fun '(r3, c5) =>
    let r4 := upd_cur r3 c5 in
    if negb (r_err r4) then Ok (Executed2 (set_msgs r4 []))
    else bindr (on_error r4) (fun '(recovered, r5) => if recovered then Ok (Executed2 r5) else Ok (Return2 RRuntimeError r5))).

Lemma chain_exec_due ins r2 c1 a' : rel r2 a' -> r_active r2 = Some i -> okI ins c1 = true ->
  rres mapi rt_of (exec_due ins (app (with_nss T a') r2) c1) (exec_due ins r2 c1).
Proof.
  intros RL2 Ha2 IO. unfold exec_due. pose proof (Hex ins r2 c1 a' RL2 IO) as HE.
  destruct (exec_instr ins r2 c1) as [[r3 c5]| | |] eqn:EI; cbn [rres] in HE;
    [|rewrite HE; reflexivity|rewrite HE; reflexivity|rewrite HE; reflexivity].
  destruct HE as (a3 & E3 & RL3). rewrite E3. cbn [bindr upd_ex fst snd] in *.
  destruct (exec_instr_shape _ _ _ _ _ EI) as [R3 _].
  assert (Ha3 : r_active r3 = Some i) by (rewrite (reach_active _ _ R3); auto).
  rewrite (app_upd_cur _ i [] []) by auto. cbn [r_err app].
  destruct (negb (r_err (upd_cur r3 c5))).
  - rewrite app_set_msgs. it_same a3. apply (rel_nss r3); auto. cbn. apply nss_upd_cur.
  - rewrite (app_on_error _ i [] []) by (auto; rewrite active_upd_cur; auto).
    destruct (on_error (upd_cur r3 c5)) as [[rec r5]| | |] eqn:OE; cbn [bindr map_oe]; try reflexivity.
    assert (RL5 : rel r5 a3).
    { apply (rel_nss r3); auto. rewrite (nss_on_error i _ _ _ (eq_trans (active_upd_cur _ _) Ha3) OE). apply nss_upd_cur. }
    destruct rec; it_same a3; exact RL5.
Qed.

Lemma chain_do_iter2 b r a' : rel r a' -> r_active r = Some i -> iter_okG okI b r = true ->
  rres mapi rt_of (do_iter2 b (app (with_nss T a') r)) (do_iter2 b r).
Proof.
  intros RL Ha H. unfold do_iter2, iter_okG in *. cbn [r_exit_req r_state app].
  destruct (r_exit_req r); [it_same a'; exact RL|].
  rewrite (app_cur _ i [] []) by auto. destruct (cur r) as [c|]; [|reflexivity].
  destruct (c_suspended c); [it_same a'; exact RL|]. destruct (c_frames c) eqn:Fr; [it_same a'; exact RL|].
  destruct (r_state r); try (it_same a'; exact RL).
  rewrite app_frame_next2.
  destruct (frame_next2 b frame_fuel r c) as [[[fr r1] c1]| | |] eqn:FN; cbn [bindr map_fn]; try reflexivity.
  destruct (frame_next2_shape _ _ _ _ _ _ _ FN) as [R1 _].
  assert (Ha1 : r_active r1 = Some i) by (rewrite (reach_active _ _ R1); auto).
  assert (RL1 : rel r1 a') by (apply (rel_nss r); auto; eapply nss_frame_next2; eauto).
  cbn [r_err app]. destruct (r_err r1).
  { rewrite (app_upd_cur _ i [] []) by auto.
    rewrite (app_on_error _ i [] []) by (auto; rewrite active_upd_cur; auto).
    destruct (on_error (upd_cur r1 c1)) as [[rec r2]| | |] eqn:OE; cbn [bindr map_oe]; try reflexivity.
    assert (RL2 : rel r2 a').
    { apply (rel_nss r1); auto. rewrite (nss_on_error i _ _ _ (eq_trans (active_upd_cur _ _) Ha1) OE). apply nss_upd_cur. }
    destruct rec; it_same a'; exact RL2. }
  rewrite app_deadline_test. pose proof (nss_deadline_test r1) as ND.
  destruct (deadline_test r1) as [exp r2] eqn:DT. cbn [fst snd] in *.
  assert (Ha2 : r_active r2 = Some i) by (rewrite (reach_active _ _ (deadline_test_reach _ _ _ DT)); auto).
  assert (RL2 : rel r2 a') by (apply (rel_nss r1); auto).
  assert (Expired : rres mapi rt_of (Ok (Return2 RRuntimeError (abort_run (upd_cur (app (with_nss T a') r2) c1))))
                                    (Ok (Return2 RRuntimeError (abort_run (upd_cur r2 c1))))).
  { rewrite (app_upd_cur _ i [] []) by auto. rewrite app_abort_run. it_same a'.
    apply (rel_nss r2); auto. rewrite nss_abort_run. apply nss_upd_cur. }
  destruct fr; [destruct (Nat.eqb _ _)| |].
  - rewrite (app_upd_cur _ i [] []) by auto. it_same a'. apply (rel_nss r1); auto. apply nss_upd_cur.
  - destruct (current_instr c1); [|reflexivity]. destruct exp; [exact Expired|]. apply chain_exec_due; auto.
  - destruct (current_instr c1); [|reflexivity]. destruct exp; [exact Expired|]. apply chain_exec_due; auto.
  - destruct exp; [exact Expired|]. rewrite (app_upd_cur _ i [] []) by auto. it_same a'.
    apply (rel_nss r2); auto. apply nss_upd_cur.
Qed.

Lemma do_iter2_keeps b r it : do_iter2 b r = Ok it -> r_active r = Some i -> i < length (r_ctxs r) ->
  r_active (rt_of it) = Some i /\ i < length (r_ctxs (rt_of it)).
Proof.
  intros DI Ha Hi. destruct (nth_error (r_ctxs r) i) as [c|] eqn:Hc; [|apply nth_error_None in Hc; lia].
  pose proof (iter_spec_dstep _ _ _ _ _ (do_iter2_spec _ _ _ _ _ DI Ha Hc) Ha Hc) as D.
  split; [rewrite (ds_active _ _ _ D); auto|pose proof (dstep_len _ _ _ D); lia].
Qed.

Lemma chain_execute_do2 b fuel : forall r a' n ki kr,
  rel r a' -> r_active r = Some i -> i < length (r_ctxs r) -> slice_okG okI b fuel r n = true ->
  rres upd_mid mid (execute_do2 b fuel (app (with_nss T a') r) n ki kr) (execute_do2 b fuel r n ki kr).
Proof.
  induction fuel; intros r a' n ki kr RL Ha Hi H; cbn [execute_do2 slice_okG] in *; [reflexivity|].
  cbn [r_exit_req app]. destruct (r_exit_req r); [exists a'; split; [reflexivity|exact RL]|].
  destruct n; [exists a'; split; [reflexivity|exact RL]|].
  apply andb_prop in H. destruct H as [H1 H2].
  pose proof (chain_do_iter2 b r a' RL Ha H1) as DI'.
  destruct (do_iter2 b r) as [it| | |] eqn:DI; cbn [rres] in DI';
    [|rewrite DI'; reflexivity|rewrite DI'; reflexivity|rewrite DI'; reflexivity].
  destruct DI' as (a1 & E1 & RL1). rewrite E1. cbn [bindr].
  destruct (do_iter2_keeps _ _ _ DI Ha Hi) as [Ha1 Hi1].
  destruct it; cbn [rt_of mapi] in *; auto.
  exists a1. split; [reflexivity|exact RL1].
Qed.

Lemma chain_visit_ctx b1 b2 r a' : rel r a' -> i < length (r_ctxs r) -> visit_okG okI b1 r i = true ->
  rres upd_mid mid (visit_ctx b1 b2 (app (with_nss T a') r) i) (visit_ctx b1 b2 r i).
Proof.
  intros RL Hi H. unfold visit_ctx, visit_okG in *. rewrite app_set_active.
  rewrite (app_cur _ i [] []) by auto.
  destruct (nth_error (r_ctxs r) i) as [c00|] eqn:Hc; [|apply nth_error_None in Hc; lia].
  assert (Hcur : cur (set_active r (Some i)) = Some c00) by (unfold cur; cbn; auto). rewrite Hcur.
  fold (prepared c00). cbv zeta in H. unfold handed in H.
  rewrite (app_upd_cur _ i [] []) by auto.
  set (r0 := upd_cur (set_active r (Some i)) (prepared c00)) in *.
  assert (Ha0 : r_active r0 = Some i) by (unfold r0; rewrite active_upd_cur; reflexivity).
  assert (Hi0 : i < length (r_ctxs r0)) by (unfold r0, upd_cur; cbn; rewrite list_upd_length; auto).
  assert (RL0 : rel r0 a') by (apply (rel_nss r); auto; unfold r0; rewrite nss_upd_cur; reflexivity).
  assert (Run : forall rs, rel rs a' -> r_active rs = Some i -> i < length (r_ctxs rs) -> slice_okG okI b1 exec_fuel rs (r_slice rs) = true ->
     rres upd_mid mid
     (bindr (execute_do2 b1 exec_fuel (app (with_nss T a') rs) (r_slice (app (with_nss T a') rs)) 0 0)
       (fun '(x, r2, (ki, kr)) => Ok (x, r2, {| v_id := c_id (prepared c00); v_entered := true; v_instr := ki; v_restarts := kr; v_result := x |})))
     (bindr (execute_do2 b1 exec_fuel rs (r_slice rs) 0 0)
       (fun '(x, r2, (ki, kr)) => Ok (x, r2, {| v_id := c_id (prepared c00); v_entered := true; v_instr := ki; v_restarts := kr; v_result := x |})))).
  { intros rs RLs A L S. cbn [r_slice app].
    pose proof (chain_execute_do2 b1 exec_fuel rs a' (r_slice rs) 0 0 RLs A L S) as E.
    destruct (execute_do2 b1 exec_fuel rs (r_slice rs) 0 0) as [[[x r2] [ki kr]]| | |]; cbn [rres] in E;
      [|rewrite E; reflexivity|rewrite E; reflexivity|rewrite E; reflexivity].
    destruct E as (a1 & E & RL1). rewrite E. exists a1. split; [reflexivity|exact RL1]. }
  destruct (c_suspended (prepared c00)).
  - unfold now. cbn [r_clock r_tick app].
    destruct (Z.leb _ _).
    + rewrite app_set_clock. rewrite (app_upd_cur _ i [] []) by auto.
      match goal with |- context [execute_do2 b1 exec_fuel (app (with_nss T a') ?rs)] =>
        assert (A : r_active rs = Some i) by (rewrite active_upd_cur; exact Ha0);
        assert (L : i < length (r_ctxs rs)) by (unfold upd_cur; cbn [r_active set_clock rt_with]; rewrite Ha0; cbn [r_ctxs set_ctxs set_clock rt_with]; rewrite list_upd_length; exact Hi0);
        assert (RLs : rel rs a') by (apply (rel_nss r0); auto; rewrite nss_upd_cur; reflexivity)
      end.
      apply Run; auto.
    + rewrite app_set_clock. destruct b2.
      * exists a'. split; [reflexivity|]. apply (rel_nss r0); auto.
      * rewrite app_deadline_test.
        match goal with |- context [deadline_test ?x] => pose proof (nss_deadline_test x) as ND; destruct (deadline_test x) as [exp r2] end.
        cbn [fst snd] in *.
        destruct exp; [rewrite app_abort_run|]; exists a'; (split; [reflexivity|]);
          apply (rel_nss r0); auto; rewrite ?nss_abort_run, ND; reflexivity.
  - apply Run; auto.
Qed.

(* ... and the check of what the script executes comes out the same *)
Lemma iter_okG_app b r a' : r_active r = Some i -> iter_okG okI b (app (with_nss T a') r) = iter_okG okI b r.
Proof.
  intro Ha. unfold iter_okG. rewrite (app_cur _ i [] []) by auto. destruct (cur r) as [c|]; auto.
  rewrite app_frame_next2. destruct (frame_next2 b frame_fuel r c) as [[[fr r1] c1]| | |]; reflexivity.
Qed.
Lemma slice_okG_app b fuel : forall r a' n, rel r a' -> r_active r = Some i -> i < length (r_ctxs r) ->
  slice_okG okI b fuel (app (with_nss T a') r) n = slice_okG okI b fuel r n.
Proof.
  induction fuel; intros r a' n RL Ha Hi; cbn [slice_okG]; auto.
  cbn [r_exit_req app]. destruct (r_exit_req r); auto. destruct n; auto.
  rewrite iter_okG_app by auto. destruct (iter_okG okI b r) eqn:IO; cbn [andb]; auto.
  pose proof (chain_do_iter2 b r a' RL Ha IO) as DI'.
  destruct (do_iter2 b r) as [it| | |] eqn:DI; cbn [rres] in DI'; [|rewrite DI'; reflexivity..].
  destruct DI' as (a1 & -> & RL1). destruct (do_iter2_keeps _ _ _ DI Ha Hi) as [Ha1 Hi1].
  destruct it; cbn [rt_of mapi] in *; auto.
Qed.
Lemma visit_okG_app b1 r a' : rel r a' -> i < length (r_ctxs r) ->
  visit_okG okI b1 (app (with_nss T a') r) i = visit_okG okI b1 r i.
Proof.
  intros RL Hi. unfold visit_okG.
  assert (N : nth_error (r_ctxs (app (with_nss T a') r)) i = nth_error (r_ctxs r) i) by (cbn [r_ctxs app]; apply (tk_nth _ _ _ _ (OK a'))).
  rewrite N. destruct (nth_error (r_ctxs r) i) as [c00|] eqn:Hc; [|reflexivity]. cbv zeta.
  unfold handed. rewrite app_set_active, (app_upd_cur _ i [] []) by auto.
  set (r0 := upd_cur (set_active r (Some i)) (prepared c00)).
  assert (Ha0 : r_active r0 = Some i) by (unfold r0; rewrite active_upd_cur; reflexivity).
  assert (Hi0 : i < length (r_ctxs r0)) by (unfold r0, upd_cur; cbn; rewrite list_upd_length; auto).
  assert (RL0 : rel r0 a') by (apply (rel_nss r); auto; unfold r0; rewrite nss_upd_cur; reflexivity).
  cbn [r_clock r_tick r_slice app].
  destruct (c_suspended (prepared c00)).
  - destruct (Z.leb _ _); [|reflexivity].
    rewrite app_set_clock, (app_upd_cur _ i [] []) by auto.
    match goal with |- slice_okG okI b1 exec_fuel (app _ ?rs) _ = _ =>
      assert (A : r_active rs = Some i) by (rewrite active_upd_cur; exact Ha0);
      assert (L : i < length (r_ctxs rs)) by (unfold upd_cur; cbn [r_active set_clock rt_with]; rewrite Ha0; cbn [r_ctxs set_ctxs set_clock rt_with]; rewrite list_upd_length; exact Hi0);
      assert (RLs : rel rs a') by (apply (rel_nss r0); auto; rewrite nss_upd_cur; reflexivity)
    end.
    cbn [r_slice app]. apply slice_okG_app; assumption.
  - apply slice_okG_app; assumption.
Qed.
End Chain.

(* ------------------------------------------------------------------ the exact frame property of a scheduler turn *)
Definition map_v (f:rt -> rt) (x:res (rresult * rt * visit)) : res (rresult * rt * visit) :=
  match x with Ok (a, r, k) => Ok (a, f r, k) | Unsupported w => Unsupported w | Hang w => Hang w | UB w => UB w end.

(* rel r a := "a is what T makes of the namespaces of r" *)
Definition exact_rel (T:tr) (r:rt) (a:nsmap) : Prop := a = t_nss T (r_nss r).
Lemma tr_ok_nil T i R W : tr_ok T i R W -> tr_ok T i [] [].
Proof. intros [A B C _ _]. split; auto; intros; discriminate. Qed.
Lemma exact_rel_nss T r r' a : r_nss r' = r_nss r -> exact_rel T r a -> exact_rel T r' a.
Proof. unfold exact_rel. intros ->. auto. Qed.
Lemma exact_exec T i R W ins r c a' : tr_ok T i R W -> exact_rel T r a' -> instr_ok R W ins c = true ->
  rres T (exact_rel T) upd_ex fst (exec_instr ins (app (with_nss T a') r) c) (exec_instr ins r c).
Proof.
  intros OK -> I. change (app (with_nss T (t_nss T (r_nss r))) r) with (app T r). rewrite (app_exec_instr T i R W) by auto.
  destruct (exec_instr ins r c) as [[r1 c1]| | |]; cbn [map_ex rres]; try reflexivity.
  exists (t_nss T (r_nss r1)). split; reflexivity.
Qed.

Lemma app_visit_ctx T i R W b1 b2 r : tr_ok T i R W -> i < length (r_ctxs r) -> visit_ok b1 R W r i = true ->
  visit_ctx b1 b2 (app T r) i = map_v (app T) (visit_ctx b1 b2 r i).
Proof.
  intros OK Hi H. rewrite <- visit_okG_instr in H.
  pose proof (chain_visit_ctx T i (tr_ok_nil _ _ _ _ OK) _ (exact_rel_nss T) _
                (fun ins r0 c a0 => exact_exec T i R W ins r0 c a0 OK) b1 b2 r _ eq_refl Hi H) as E.
  change (app (with_nss T (t_nss T (r_nss r))) r) with (app T r) in E.
  destruct (visit_ctx b1 b2 r i) as [[[x r1] v]| | |]; cbn [rres map_v] in *; try exact E.
  destruct E as (a1 & -> & ->). reflexivity.
Qed.

(* the footprint check does not see such a change either *)
Lemma visit_ok_app T i R W b1 r : tr_ok T i R W -> i < length (r_ctxs r) -> visit_ok b1 R W (app T r) i = visit_ok b1 R W r i.
Proof.
  intros OK Hi. rewrite <- !visit_okG_instr.
  exact (visit_okG_app T i (tr_ok_nil _ _ _ _ OK) _ (exact_rel_nss T) _
           (fun ins r0 c a0 => exact_exec T i R W ins r0 c a0 OK) b1 r _ eq_refl Hi).
Qed.

Lemma visit_ok_active b1 R W r a i : visit_ok b1 R W (set_active r a) i = visit_ok b1 R W r i.
Proof.
  unfold visit_ok, handed. cbn [r_ctxs set_active rt_with].
  replace (set_active (set_active r a) (Some i)) with (set_active r (Some i)) by reflexivity. reflexivity.
Qed.

(* Basic facts about the data the machine model (VmDefs.v) is made of: lists updated in place, association lists,
   lower-cased names, and what logmsg, upd_cur, pop_value, clear_values and now leave alone. *)
From Coq Require Import String Ascii.
From Coq Require Import ZArith List Bool Lia.
From SqfVerif Require Import VM.VmDefs VM.VmExec.
Import ListNotations.
Local Open Scope list_scope.

Lemma skipn_skipn_add {A} : forall a b (l:list A), skipn a (skipn b l) = skipn (a + b) l.
Proof.
  intros a b. induction b as [|b IH]; intros l; [now rewrite Nat.add_0_r|].
  destruct l; [now rewrite !skipn_nil|]. rewrite Nat.add_succ_r. apply IH.
Qed.

Lemma nth_error_skipn' : forall {A} n (l:list A) m, nth_error (skipn n l) m = nth_error l (n + m).
Proof.
  induction n as [|n IH]; intros l m; [reflexivity|]. destruct l; cbn [skipn].
  - destruct m; reflexivity.
  - apply IH.
Qed.

Lemma skipn_nth : forall {A} k (l:list A) x, nth_error l k = Some x -> skipn k l = x :: skipn (S k) l.
Proof.
  induction k as [|k IH]; intros l x H; destruct l; cbn in H; try discriminate.
  - injection H as ->. reflexivity.
  - cbn [skipn]. apply IH in H. exact H.
Qed.

Lemma nth_error_mid {A} (pre:list A) i post : nth_error (pre ++ i :: post) (length pre) = Some i.
Proof. induction pre; cbn; auto. Qed.

Lemma list_upd_length {A} (l:list A) i x : length (list_upd l i x) = length l.
Proof. revert i; induction l as [|a l IH]; intros [|i]; cbn; auto. Qed.

Lemma nth_error_list_upd_same {A} : forall (l:list A) i x, i < length l -> nth_error (list_upd l i x) i = Some x.
Proof. induction l as [|a l IH]; intros [|i] x L; cbn in *; try lia; auto. apply IH. lia. Qed.

Lemma nth_error_list_upd_some {A} (l:list A) i x y : nth_error l i = Some y -> nth_error (list_upd l i x) i = Some x.
Proof. intros H. apply nth_error_list_upd_same, nth_error_Some. congruence. Qed.

Lemma nth_error_list_upd_other {A} : forall (l:list A) i j y, i <> j -> nth_error (list_upd l i y) j = nth_error l j.
Proof. induction l as [|a l IH]; intros [|i] [|j] y N; cbn; try reflexivity; try congruence. apply IH. congruence. Qed.

Lemma list_upd_twice {A} : forall (l:list A) i x y, list_upd (list_upd l i x) i y = list_upd l i y.
Proof. induction l as [|a l IH]; intros [|i] x y; cbn; auto. now rewrite IH. Qed.

Lemma list_upd_self {A} : forall (l:list A) i x, nth_error l i = Some x -> list_upd l i x = l.
Proof. induction l as [|a l IH]; intros [|i] x H; cbn in *; try discriminate; [congruence|]. now rewrite IH. Qed.

Lemma forall_list_upd {A} (P:A->Prop) : forall l i x, Forall P l -> P x -> Forall P (list_upd l i x).
Proof.
  induction l as [|a l IH]; intros i x F Px; cbn; [constructor|]. inversion F; subst.
  destruct i; constructor; auto.
Qed.
Lemma forall_remove_nth {A} (P:A->Prop) : forall l i, Forall P l -> Forall P (remove_nth l i).
Proof.
  induction l as [|a l IH]; intros i F; cbn; [constructor|]. inversion F; subst. destruct i; [assumption|constructor; auto].
Qed.

Lemma skipn_list_upd : forall {A} k (l:list A) x y, nth_error l k = Some y -> skipn k (list_upd l k x) = x :: skipn (S k) l.
Proof.
  induction k as [|k IH]; intros l x y H; destruct l; cbn in H; try discriminate; [reflexivity|].
  cbn [list_upd skipn]. eapply IH. eassumption.
Qed.

Lemma assoc_assoc_set {A} k' k (v:A) l : assoc k' (assoc_set k v l) = if String.eqb k' k then Some v else assoc k' l.
Proof.
  induction l as [|[k2 v2] l IH]; cbn; [reflexivity|].
  destruct (String.eqb k k2) eqn:E; cbn.
  - apply String.eqb_eq in E. subst k2. destruct (String.eqb k' k); reflexivity.
  - rewrite IH. destruct (String.eqb k' k2) eqn:E2; [|reflexivity].
    apply String.eqb_eq in E2. subst k2. now rewrite String.eqb_sym, E.
Qed.

Lemma assoc_set_same {A} k (v:A) l : assoc k (assoc_set k v l) = Some v.
Proof. now rewrite assoc_assoc_set, String.eqb_refl. Qed.

Lemma assoc_set_other {A} k k' (v:A) : k' <> k -> forall l, assoc k' (assoc_set k v l) = assoc k' l.
Proof. intros N l. apply String.eqb_neq in N. now rewrite assoc_assoc_set, N. Qed.

Lemma lower_ascii_idem c : lower_ascii (lower_ascii c) = lower_ascii c.
Proof. destruct c as [[] [] [] [] [] [] [] []]; reflexivity. Qed.
Lemma lower_idem s : lower (lower s) = lower s.
Proof. induction s as [|c s IH]; cbn; [reflexivity|]. now rewrite lower_ascii_idem, IH. Qed.

Lemma out_logmsg r d : r_out (logmsg r d) = EDiag (fst d) (snd d) :: r_out r.
Proof. unfold logmsg. destruct (Z.leb (fst d) 1); reflexivity. Qed.
Lemma nss_logmsg r d : r_nss (logmsg r d) = r_nss r.
Proof. unfold logmsg. destruct (Z.leb (fst d) 1); reflexivity. Qed.
Lemma ctxs_logmsg r d : r_ctxs (logmsg r d) = r_ctxs r.
Proof. unfold logmsg. destruct (Z.leb (fst d) 1); reflexivity. Qed.
Lemma active_logmsg r d : r_active (logmsg r d) = r_active r.
Proof. unfold logmsg. destruct (Z.leb (fst d) 1); reflexivity. Qed.
Lemma clock_logmsg r d : r_clock (logmsg r d) = r_clock r.
Proof. unfold logmsg. destruct (Z.leb (fst d) 1); reflexivity. Qed.
Lemma nextid_logmsg r d : r_next_id (logmsg r d) = r_next_id r.
Proof. unfold logmsg. destruct (Z.leb (fst d) 1); reflexivity. Qed.
Lemma defects_logmsg r d : r_defects (logmsg r d) = r_defects r.
Proof. unfold logmsg. destruct (Z.leb (fst d) 1); reflexivity. Qed.
Lemma cur_logmsg r d : cur (logmsg r d) = cur r.
Proof. unfold cur. now rewrite active_logmsg, ctxs_logmsg. Qed.

Lemma now_inv r t r1 : now r = (t, r1) -> t = (r_clock r + r_tick r)%Z /\ r1 = set_clock r t.
Proof. intros [= <- <-]. auto. Qed.

Lemma nss_upd_cur r c : r_nss (upd_cur r c) = r_nss r.
Proof. unfold upd_cur. destruct (r_active r); reflexivity. Qed.
Lemma active_upd_cur r c : r_active (upd_cur r c) = r_active r.
Proof. unfold upd_cur. destruct (r_active r) eqn:A; cbn; auto. Qed.
Lemma err_upd_cur r c : r_err (upd_cur r c) = r_err r.
Proof. unfold upd_cur. destruct (r_active r); reflexivity. Qed.
Lemma out_upd_cur r c : r_out (upd_cur r c) = r_out r.
Proof. unfold upd_cur. destruct (r_active r); reflexivity. Qed.
Lemma msgs_upd_cur r c : r_msgs (upd_cur r c) = r_msgs r.
Proof. unfold upd_cur. destruct (r_active r); reflexivity. Qed.
Lemma clock_upd_cur r c : r_clock (upd_cur r c) = r_clock r.
Proof. unfold upd_cur. destruct (r_active r); reflexivity. Qed.
Lemma exit_req_upd_cur r c : r_exit_req (upd_cur r c) = r_exit_req r.
Proof. unfold upd_cur. destruct (r_active r); reflexivity. Qed.
Lemma defects_upd_cur r c : r_defects (upd_cur r c) = r_defects r.
Proof. unfold upd_cur. destruct (r_active r); reflexivity. Qed.
Lemma ns_get_upd_cur r c ns n : ns_get (upd_cur r c) ns n = ns_get r ns n.
Proof. unfold ns_get. now rewrite nss_upd_cur. Qed.
Lemma length_upd_cur r c : length (r_ctxs (upd_cur r c)) = length (r_ctxs r).
Proof. unfold upd_cur. destruct (r_active r); [apply list_upd_length|reflexivity]. Qed.

Lemma cur_valid r c : cur r = Some c -> exists i, r_active r = Some i /\ i < length (r_ctxs r).
Proof.
  unfold cur. destruct (r_active r) as [i|]; [|discriminate]. intros H. exists i. split; [reflexivity|].
  apply nth_error_Some. congruence.
Qed.
Lemma cur_upd_cur_slot r c i : r_active r = Some i -> i < length (r_ctxs r) -> cur (upd_cur r c) = Some c.
Proof. intros A L. unfold cur, upd_cur. rewrite A. cbn. rewrite A. now apply nth_error_list_upd_same. Qed.
Lemma cur_upd_cur r c c' : cur r = Some c -> cur (upd_cur r c') = Some c'.
Proof. intros C. destruct (cur_valid _ _ C) as (i & A & L). exact (cur_upd_cur_slot r c' i A L). Qed.

Lemma pop_value_inv c v c1 : pop_value c = Some (v, c1) ->
  exists vs f rest, c_values c = v :: vs /\ c_frames c = f :: rest /\ f_base f <= length vs /\ c1 = set_values c vs.
Proof.
  unfold pop_value. destruct (c_values c) as [|x vs]; [discriminate|].
  destruct (c_frames c) as [|f rest]; [discriminate|].
  destruct (Nat.leb_spec (length (x :: vs)) (f_base f)) as [|L]; [discriminate|].
  intros [= <- <-]. exists vs, f, rest. cbn in L. repeat split; auto. lia.
Qed.
Lemma pop_value_frames c v c1 : pop_value c = Some (v, c1) -> c_frames c1 = c_frames c.
Proof. intros P. destruct (pop_value_inv _ _ _ P) as (vs & f & rest & _ & _ & _ & ->). reflexivity. Qed.

Lemma frames_clear_values c : c_frames (clear_values c) = c_frames c.
Proof. unfold clear_values. destruct (c_frames c) eqn:E; cbn; auto. Qed.

(* C02 simulation, part 3: structured programs.  Expressions may enter blocks: `call {..}`, `x call {..}`,
   `if c then {..}`, `if c then {..} else {..}`, with code values held in variables, nested to any depth inside
   operands, array elements, assignments and blocks.  Expressions therefore change the state; the big-step
   relation xev/xevs/xstmt/xblock threads it.  To be proved: (vm_runs) the VM model, started at the compiled code in
   a state that Matches the reference state, pushes the frame, runs the block, completes the frame, hands over
   exactly the block's value and ends in a state that Matches the reference result; (ref_runs) the reference
   semantics RefSem.eval_block computes that same result.  Both are in SimCtlRuns.v, as special cases of the theorems
   about the larger relation zev of SimExit.v; this file has the relation, the machine states (Mach, Post, AtM,
   BlockRuns) with the steps of single instructions, and the reference side of parts 1 to 3: the equations that unfold
   RefSem.eval one level, `enough` fuel, and with them pure_ref (expressions of part 1) and block_ref (blocks of part 2). *)
From Coq Require Import String Ascii.
From Coq Require Import ZArith List Bool Lia.
From SqfVerif Require Import Gen.DiagCodes Gen.Overloads VM.VmDefs VM.VmFacts VM.VmExec VM.RefSem VM.C02Proofs VM.SimDefs VM.SimProofs VM.SimBlock.
Import ListNotations.
Local Open Scope string_scope.
Local Open Scope list_scope.

Definition nonnil (v:rvalue) : Prop := v <> RNil /\ v <> RNone.
Definition res_of (reg:rvalue) : rvalue := match reg with RNone => RNil | v => v end.
Definition enter (s:sstate) (vars:list (string*rvalue)) : sstate := push_scope s (mk_scope (cur_ns_of s) vars).
Definition this_of (s:sstate) : rvalue := match lookup_scopes "_this" (st_scopes s) with Some t => t | None => RNil end.

Inductive xev : sstate -> expr -> rvalue -> sstate -> Prop :=
| XPure s e v : pev (loc_of s) (glob_of s) e v -> xev s e v s
| XVarL s n v : is_local n = true -> hidden (lower n) = false -> loc_of s (lower n) = Some v -> nonnil v -> xev s (EVar n) v s
| XVarG s n v : is_local n = false -> glob_of s (lower n) = Some v -> nonnil v -> xev s (EVar n) v s
| XCode s b : xev s (ECode b) (RCode b) s
| XArr s l vs s' : xevs s l vs s' -> xev s (EArr l) (RArr vs) s'
| XUn s n a va v s1 : (forall k, a <> ENum k) -> xev s a va s1 -> pure_unary (lower n) va = Some v -> xev s (EUnary n a) v s1
| XBin s n a b va vb v s1 s2 : xev s a va s1 -> xev s1 b vb s2 -> pure_binary (lower n) va vb = Some v -> xev s (EBinary n a b) v s2
| XCallU s n a b s1 reg s2 : lower n = "call" -> (forall k, a <> ENum k) -> xev s a (RCode b) s1 ->
    xblock (enter s1 [("_this", this_of s1)]) RNil b reg s2 -> xev s (EUnary n a) (res_of reg) (pop_scope s2)
| XCallB s n a x va b s1 s2 reg s3 : lower n = "call" -> xev s a va s1 -> nonnil va -> xev s1 x (RCode b) s2 ->
    xblock (enter s2 [("_this", va)]) RNil b reg s3 -> xev s (EBinary n a x) (res_of reg) (pop_scope s3)
| XIf s n a c s1 : lower n = "if" -> (forall k, a <> ENum k) -> xev s a (RBool c) s1 -> xev s (EUnary n a) (RIf c) s1
| XElse s n a b x y s1 s2 : lower n = "else" -> xev s a (RCode x) s1 -> xev s1 b (RCode y) s2 ->
    xev s (EBinary n a b) (RArr [RCode x; RCode y]) s2
| XThenSkip s n a b x s1 s2 : lower n = "then" -> xev s a (RIf false) s1 -> xev s1 b (RCode x) s2 -> xev s (EBinary n a b) RNil s2
| XThen s n a b x s1 s2 reg s3 : lower n = "then" -> xev s a (RIf true) s1 -> xev s1 b (RCode x) s2 ->
    xblock (enter s2 []) RNil x reg s3 -> xev s (EBinary n a b) (res_of reg) (pop_scope s3)
| XThenElse s n a b c x y s1 s2 reg s3 : lower n = "then" -> xev s a (RIf c) s1 -> xev s1 b (RArr [RCode x; RCode y]) s2 ->
    xblock (enter s2 []) RNil (if c then x else y) reg s3 -> xev s (EBinary n a b) (res_of reg) (pop_scope s3)
with xevs : sstate -> list expr -> list rvalue -> sstate -> Prop :=
| XNil s : xevs s [] [] s
| XCons s e v s1 l vs s2 : xev s e v s1 -> nonnil v -> xevs s1 l vs s2 -> xevs s (e :: l) (v :: vs) s2
with xstmt : sstate -> rvalue -> stmt -> rvalue -> sstate -> Prop :=
| XSExprV s reg e v s1 : xev s e v s1 -> xstmt s reg (SExpr e) v s1
| XSAssign s reg n e v s1 : n <> "" -> hidden (lower n) = false -> xev s e v s1 -> nonnil v ->
    xstmt s reg (SAssign n e) reg (if is_local n then assign_local s1 n v else rns_set s1 (cur_ns_of s1) n v)
| XSLocal s reg n e v s1 : n <> "" -> xev s e v s1 -> nonnil v -> xstmt s reg (SLocal n e) reg (bind_here s1 n v)
with xblock : sstate -> rvalue -> list stmt -> rvalue -> sstate -> Prop :=
| XBNil s reg : xblock s reg [] reg s
| XBLast s reg st reg1 s1 : xstmt s reg st reg1 s1 -> xblock s reg [st] reg1 s1
| XBCons s reg st reg1 s1 st2 rest reg' s' :
    xstmt s reg st reg1 s1 -> xblock s1 RNone (st2 :: rest) reg' s' -> xblock s reg (st :: st2 :: rest) reg' s'.

Scheme xev_i := Induction for xev Sort Prop
  with xevs_i := Induction for xevs Sort Prop
  with xstmt_i := Induction for xstmt Sort Prop
  with xblock_i := Induction for xblock Sort Prop.
Combined Scheme x_ind from xev_i, xevs_i, xstmt_i, xblock_i.

(* the configuration the simulation is stated for: none of the model's defect switches, no cap on loop rounds *)
Definition quirks (r:rt) : list string * nat := (r_defects r, r_max_loop r).
Definition Mach (s:sstate) (r:rt) (c:context) (f:frame) (rest:list frame) : Prop :=
  Good r c /\ c_frames c = f :: rest /\ Match s r (f :: rest) /\ f_base f <= length (c_values c) /\ quirks r = ([], 0).

Definition Post (s':sstate) (v:value) (k:nat) (r:rt) (c:context) (f:frame) (rest:list frame) : Prop :=
  exists r' c' f' rest', Steps r r' /\ Mach s' r' c' f' rest' /\ c_values c' = v :: c_values c /\
    moved f f' /\ f_pos f' = f_pos f + k /\ Forall2 kept rest rest'.

Definition AtM (s:sstate) (reg:rvalue) (r:rt) (c:context) (f:frame) (rest:list frame) (below:list value) : Prop :=
  Mach s r c f rest /\ length below = f_base f /\ exists top, c_values c = top ++ below /\ reg_rep reg top.

Definition BlockRuns (s:sstate) (reg:rvalue) (code:list instr) (reg':rvalue) (s':sstate) : Prop :=
  forall r c f rest below pre post, AtM s reg r c f rest below -> Fresh c below ->
    f_code f = pre ++ code ++ post -> f_pos f = length pre ->
    exists r' c' f' rest', Steps r r' /\ AtM s' reg' r' c' f' rest' below /\
      moved f f' /\ f_pos f' = f_pos f + length code /\ Forall2 kept rest rest'.

Lemma defects_upd_cur r c : r_defects (upd_cur r c) = r_defects r.
Proof. exact (VmFacts.defects_upd_cur r c). Qed.
Lemma quirks_upd_cur r c : quirks (upd_cur r c) = quirks r.
Proof. unfold quirks, upd_cur. destruct (r_active r); reflexivity. Qed.
Lemma quirks_defects r : quirks r = ([], 0) -> r_defects r = [].
Proof. intros H. exact (f_equal fst H). Qed.
Lemma quirks_loop r : quirks r = ([], 0) -> r_max_loop r = 0.
Proof. intros H. exact (f_equal snd H). Qed.

Lemma steps_quirks r r' : Steps r r' -> quirks r' = quirks r.
Proof. intros H. destruct (steps_cfg _ _ H) as (L & _ & _ & _ & D). unfold quirks. rewrite L, D. reflexivity. Qed.

(* the machine states of this file are those of SimBlock.v under the configuration of `quirks`, which no step changes *)
Lemma atm_at s reg r c f rest below : AtM s reg r c f rest below -> At s reg r c f rest below.
Proof. intros ((G & EF & M & _ & _) & LB & T). exact (conj G (conj EF (conj M (conj LB T)))). Qed.
Lemma at_atm s reg r c f rest below : At s reg r c f rest below -> quirks r = ([], 0) -> AtM s reg r c f rest below.
Proof.
  intros (G & EF & M & LB & top & EV & RR) D. split; [|split; [exact LB|exists top; split; [exact EV|exact RR]]].
  split; [exact G|]. split; [exact EF|]. split; [exact M|]. split; [rewrite EV, app_length; lia|exact D].
Qed.

Lemma push_post s r c f rest pre post i v :
  Mach s r c f rest -> f_code f = pre ++ i :: post -> f_pos f = length pre ->
  (forall c1, c_frames c1 = set_pos f (S (f_pos f)) :: rest -> exec_instr i r c1 = Ok (r, push_value c1 v)) ->
  Post s v 1 r c f rest.
Proof.
  intros (G & EF & M & B & D) EC EP EX.
  pose proof (run_push r c f rest pre post i v G EF EC EP EX) as S1.
  eexists _, _, _, rest. split; [exact S1|]. split.
  - split; [apply good_adv; exact G|]. split; [reflexivity|]. split; [apply match_upd, match_set_pos; exact M|].
    split; [cbn; lia|rewrite quirks_upd_cur; exact D].
  - split; [reflexivity|]. split; [apply moved_set_pos|]. split; [reflexivity|apply kept_all_refl].
Qed.

Lemma nth_mid2 {A} (pre a:list A) i post : nth_error (pre ++ a ++ i :: post) (length pre + length a) = Some i.
Proof. apply nth_error_app_mid. Qed.

Lemma xev_nonnil_code b : nonnil (RCode b). Proof. split; discriminate. Qed.

Lemma nonnil_cv v : nonnil v -> cv v <> VNil.
Proof. intros [A B]. destruct v; try discriminate; contradiction. Qed.

Ltac post_intro H r1 c1 f1 rest1 S1 M1 EV1 MV1 P1 K1 :=
  destruct H as (r1 & c1 & f1 & rest1 & S1 & M1 & EV1 & MV1 & P1 & K1).

Lemma after_operands_code f f1 pre a post : moved f f1 -> f_code f = pre ++ a ++ post -> f_pos f = length pre ->
  f_pos f1 = f_pos f + length a -> f_code f1 = (pre ++ a) ++ post /\ f_pos f1 = length (pre ++ a).
Proof. intros MV EC EP P1. rewrite (moved_code _ _ MV), EC, P1, EP, app_length, app_assoc. split; reflexivity. Qed.

Lemma assign_run s1 r1 c1 f1 rest1 pre post n v vals :
  Mach s1 r1 c1 f1 rest1 -> f_code f1 = pre ++ IAssign n :: post -> f_pos f1 = length pre ->
  c_values c1 = cv v :: vals -> f_base f1 <= length vals -> n <> "" -> hidden (lower n) = false -> nonnil v ->
  exists r' c' f' rest', Steps r1 r' /\
     Mach (if is_local n then assign_local s1 n v else rns_set s1 (cur_ns_of s1) n v) r' c' f' rest' /\
     c_values c' = vals /\ moved f1 f' /\ f_pos f' = S (f_pos f1) /\ Forall2 kept rest1 rest'.
Proof.
  intros (G1 & EF1 & M & _ & D1) EC EP EV B NN HH NV.
  destruct (assign_step s1 r1 c1 f1 rest1 pre post n v vals G1 EF1 M EC EP EV B NN HH (nonnil_cv _ NV))
    as (r' & c' & f' & rest' & S2 & G2 & EF2 & M2 & EV2 & MV & P2 & K).
  exists r', c', f', rest'. split; [exact S2|]. split; [|auto].
  split; [exact G2|]. split; [exact EF2|]. split; [exact M2|].
  split; [rewrite EV2, (moved_base _ _ MV); exact B|rewrite (steps_quirks _ _ S2); exact D1].
Qed.

Lemma local_run s1 r1 c1 f1 rest1 pre post n v vals :
  Mach s1 r1 c1 f1 rest1 -> f_code f1 = pre ++ IAssignLocal n :: post -> f_pos f1 = length pre ->
  c_values c1 = cv v :: vals -> f_base f1 <= length vals -> n <> "" -> nonnil v ->
  exists r' c' f' rest', Steps r1 r' /\ Mach (bind_here s1 n v) r' c' f' rest' /\
     c_values c' = vals /\ moved f1 f' /\ f_pos f' = S (f_pos f1) /\ Forall2 kept rest1 rest'.
Proof.
  intros (G1 & EF1 & M & _ & D1) EC EP EV B NN NV.
  destruct (local_step s1 r1 c1 f1 rest1 pre post n v vals G1 EF1 M EC EP EV B NN (nonnil_cv _ NV))
    as (r' & c' & f' & rest' & S2 & G2 & EF2 & M2 & EV2 & MV & P2 & K).
  exists r', c', f', rest'. split; [exact S2|]. split; [|auto].
  split; [exact G2|]. split; [exact EF2|]. split; [exact M2|].
  split; [rewrite EV2, (moved_base _ _ MV); exact B|rewrite (steps_quirks _ _ S2); exact D1].
Qed.

Lemma end_run s reg r c f rest below pre post : AtM s reg r c f rest below ->
  f_code f = pre ++ IEnd :: post -> f_pos f = length pre ->
  exists r' c', Steps r r' /\ AtM s RNone r' c' (set_pos f (S (f_pos f))) rest below /\ Fresh c' below.
Proof.
  intros A EC EP. destruct (end_vm s reg r c f rest below pre post (atm_at _ _ _ _ _ _ _ A) EC EP) as (r' & c' & S1 & A1 & FR).
  exists r', c'. split; [exact S1|]. split; [|exact FR]. apply (at_atm _ _ _ _ _ _ _ A1). rewrite (steps_quirks _ _ S1).
  destruct A as ((_ & _ & _ & _ & D) & _). exact D.
Qed.

Definition in_scope_f (f:nat) : sstate -> scope -> list stmt -> outcome * sstate :=
  fun (s:sstate) (sc:scope) (b:list stmt) =>
    let '(o, s1) := eval_block f (push_scope s sc) b RNil in
    let s2 := pop_scope s1 in
    match o with
    | ONormal RNone => (ONormal RNil, s2)
    | OExit v => (ONormal v, s2)
    | OBreak name v => match st_scopes s1 with
                       | sc' :: _ => if String.eqb (sc_name sc') name then (ONormal v, s2) else (OBreak name v, s2)
                       | [] => (OBreak name v, s2) end
    | other => (other, s2) end.
Definition plain_scope_f : sstate -> list (string*rvalue) -> scope := fun s vars => mk_scope (cur_ns_of s) vars.

Definition go_arr (f:nat) := fix go (s:sstate) (l:list expr) (acc:list rvalue) : outcome * sstate :=
  match l with
  | [] => (ONormal (RArr (rev acc)), s)
  | x :: r => match eval f s x with
              | (ONormal RNone, s1) => (OError, s1)
              | (ONormal v, s1) => go s1 r (v :: acc)
              | other => other end end.

Definition cont (f:nat) (rest:list stmt) (s1:sstate) (reg1:rvalue) : outcome * sstate :=
  match rest with [] => (ONormal reg1, s1) | _ => eval_block f s1 rest RNone end.

(* RefSem.eval and eval_block one level down, by the form of the expression or statement.  The fuel is a variable, so the recursive
   calls in a branch cannot be run when such an equation is checked, only compared, the whole interpreter each time; and a match on
   two values holds the call in each of its 144 leaves.  These equations are therefore the only place where the interpreter is
   unfolded at a variable fuel: what follows rewrites with them.  Each proof first brings both sides to the form cbn gives, so that
   reflexivity has nothing left to compute and the interpreter is compared once, at Qed. *)
Lemma eval_S_unary f s n a : (forall k, a <> ENum k) ->
  eval (S f) s (EUnary n a) =
  match eval f s a with
  | (ONormal RNil, s1) => (ONormal RNone, s1)
  | (ONormal RNone, s1) => (OError, s1)
  | (ONormal v, s1) => eval_unary f s1 (lower n) v (in_scope_f f) plain_scope_f
  | other => other end.
Proof.
  intros NL. destruct a; try (exfalso; eapply NL; reflexivity); cbn [eval]; unfold in_scope_f, plain_scope_f; cbv zeta; reflexivity.
Qed.

Lemma eval_S_binary f s n a b :
  eval (S f) s (EBinary n a b) =
  match eval f s a with
  | (ONormal va, s1) =>
      match eval f s1 b with
      | (ONormal vb, s2) =>
          match va, vb with
          | _, RNone => (OError, s2)
          | RNil, RNil => (ONormal RNil, s2)
          | _, RNil => (OUnsupported "nil right operand (the implementation then leaves the left operand behind)", s2)
          | RNone, _ => (OError, s2)
          | RNil, _ => (ONormal RNone, s2)
          | _, _ => eval_binary f s2 (lower n) va vb (in_scope_f f) plain_scope_f end
      | other => other end
  | other => other end.
Proof. cbn [eval]. unfold in_scope_f, plain_scope_f. cbv zeta. reflexivity. Qed.

Lemma eval_S_arr f s l : eval (S f) s (EArr l) = go_arr f s l [].
Proof. reflexivity. Qed.

Lemma eval_S_block f s st rest reg :
  eval_block (S f) s (st :: rest) reg =
  match st with
  | SExpr e =>
      match eval f s e with
      | (ONormal RNone, s1) => cont f rest s1 reg
      | (ONormal v, s1) => cont f rest s1 v
      | other => other end
  | SAssign n e =>
      match eval f s e with
      | (ONormal RNone, s1) =>
          match reg with
          | RNone => (OError, s1)
          | w => cont f rest (if is_local n then assign_local s1 n w else rns_set s1 (cur_ns_of s1) n w) RNone end
      | (ONormal v, s1) => cont f rest (if is_local n then assign_local s1 n v else rns_set s1 (cur_ns_of s1) n v) reg
      | other => other end
  | SLocal n e =>
      match eval f s e with
      | (ONormal RNone, s1) => match reg with RNone => (OError, s1) | w => cont f rest (bind_here s1 n w) RNone end
      | (ONormal v, s1) => cont f rest (bind_here s1 n v) reg
      | other => other end
  end.
Proof. destruct st; cbn [eval_block]; unfold cont; reflexivity. Qed.

Lemma pure_unary_arg n va v : pure_unary n va = Some v -> nonnil va.
Proof. intros H. destruct (pure_unary_inv _ _ _ H); split; (assumption || discriminate). Qed.
Lemma pure_binary_args n va vb v : pure_binary n va vb = Some v -> nonnil va /\ nonnil vb.
Proof.
  intros H. destruct (pure_binary_inv _ _ _ _ H) as [| | | | | | | | | | |? ? []|? ? []|]; repeat split; (assumption || discriminate).
Qed.

Lemma binary_dispatch {T} va vb (A B C D E : T) F : nonnil va -> nonnil vb ->
  match va, vb with
  | _, RNone => A
  | RNil, RNil => B
  | _, RNil => C
  | RNone, _ => D
  | RNil, _ => E
  | _, _ => F end = F.
Proof. intros [A1 A2] [B1 B2]. destruct va; try contradiction; destruct vb; try contradiction; reflexivity. Qed.

Lemma unary_dispatch {T} va (A B : T) (F : rvalue -> T) : nonnil va ->
  match va with RNil => A | RNone => B | v => F v end = F va.
Proof. intros [A1 A2]. destruct va; try contradiction; reflexivity. Qed.

Definition abrupt (o:outcome) : Prop := match o with ONormal _ => False | _ => True end.
Definition expr_of (st:stmt) : expr := match st with SExpr e | SAssign _ e | SLocal _ e => e end.

Lemma eval_var_local {f s n v} : is_local n = true -> lookup_scopes (lower n) (st_scopes s) = Some v -> eval (S f) s (EVar n) = (ONormal v, s).
Proof. intros IL HL. cbn [eval]. rewrite IL, HL. reflexivity. Qed.
Lemma eval_var_global {f s n v} : is_local n = false -> glob_of s (lower n) = Some v -> eval (S f) s (EVar n) = (ONormal v, s).
Proof. intros IL HL. cbn [eval]. rewrite IL. unfold rns_get. unfold glob_of in HL. rewrite HL. reflexivity. Qed.

Lemma eval_unary_ok {f s n a va s1} : (forall k, a <> ENum k) -> eval f s a = (ONormal va, s1) -> nonnil va ->
  eval (S f) s (EUnary n a) = eval_unary f s1 (lower n) va (in_scope_f f) plain_scope_f.
Proof.
  intros NL H NN. rewrite (eval_S_unary _ _ _ _ NL), H.
  apply (unary_dispatch va _ _ (fun v => eval_unary f s1 (lower n) v (in_scope_f f) plain_scope_f) NN).
Qed.
Lemma eval_unary_out {f s n a o s1} : (forall k, a <> ENum k) -> eval f s a = (o, s1) -> abrupt o -> eval (S f) s (EUnary n a) = (o, s1).
Proof. intros NL H AB. rewrite (eval_S_unary _ _ _ _ NL), H. destruct o; [destruct AB|..]; reflexivity. Qed.

Lemma eval_binary_ok {f s n a b va s1 vb s2} : eval f s a = (ONormal va, s1) -> eval f s1 b = (ONormal vb, s2) -> nonnil va -> nonnil vb ->
  eval (S f) s (EBinary n a b) = eval_binary f s2 (lower n) va vb (in_scope_f f) plain_scope_f.
Proof. intros HA HB NA NB. rewrite eval_S_binary, HA, HB. apply (binary_dispatch va vb _ _ _ _ _ _ NA NB). Qed.
Lemma eval_binary_left {f s n a b o s1} : eval f s a = (o, s1) -> abrupt o -> eval (S f) s (EBinary n a b) = (o, s1).
Proof. intros H AB. rewrite eval_S_binary, H. destruct o; [destruct AB|..]; reflexivity. Qed.
Lemma eval_binary_right {f s n a b va s1 o s2} : eval f s a = (ONormal va, s1) -> eval f s1 b = (o, s2) -> abrupt o ->
  eval (S f) s (EBinary n a b) = (o, s2).
Proof. intros HA H AB. rewrite eval_S_binary, HA, H. destruct o; [destruct AB|..]; reflexivity. Qed.

Lemma go_arr_ok {f s x r acc v s1} : eval f s x = (ONormal v, s1) -> v <> RNone -> go_arr f s (x :: r) acc = go_arr f s1 r (v :: acc).
Proof. intros H NV. cbn [go_arr]. rewrite H. destruct v; try reflexivity. contradiction. Qed.
Lemma go_arr_out {f s x r acc o s1} : eval f s x = (o, s1) -> abrupt o -> go_arr f s (x :: r) acc = (o, s1).
Proof. intros H AB. cbn [go_arr]. rewrite H. destruct o; [destruct AB|..]; reflexivity. Qed.

Lemma block_expr {f s e rest reg v s1} : eval f s e = (ONormal v, s1) -> v <> RNone ->
  eval_block (S f) s (SExpr e :: rest) reg = cont f rest s1 v.
Proof. intros H NV. rewrite eval_S_block, H. destruct v; try reflexivity. contradiction. Qed.
Lemma block_assign {f s n e rest reg v s1} : eval f s e = (ONormal v, s1) -> v <> RNone ->
  eval_block (S f) s (SAssign n e :: rest) reg = cont f rest (if is_local n then assign_local s1 n v else rns_set s1 (cur_ns_of s1) n v) reg.
Proof. intros H NV. rewrite eval_S_block, H. destruct v; try reflexivity. contradiction. Qed.
Lemma block_local {f s n e rest reg v s1} : eval f s e = (ONormal v, s1) -> v <> RNone ->
  eval_block (S f) s (SLocal n e :: rest) reg = cont f rest (bind_here s1 n v) reg.
Proof. intros H NV. rewrite eval_S_block, H. destruct v; try reflexivity. contradiction. Qed.
Lemma block_out {f s st rest reg o s1} : eval f s (expr_of st) = (o, s1) -> abrupt o -> eval_block (S f) s (st :: rest) reg = (o, s1).
Proof. intros H AB. rewrite eval_S_block. destruct st; cbn [expr_of] in H; rewrite H; (destruct o; [destruct AB|..]; reflexivity). Qed.

Lemma eval_unary_str f s v isc psc : eval_unary (S f) s "str" v isc psc =
  match rshow true v with Some t => (ONormal (RStr t), s) | None => (OUnsupported "str", s) end.
Proof. reflexivity. Qed.
Lemma eval_binary_same f s l r isc psc : eval_binary (S f) s "isequalto" l r isc psc =
  match rshow true l, rshow true r with Some _, Some _ => (ONormal (RBool (req true l r)), s) | _, _ => (OUnsupported "isEqualTo", s) end.
Proof. reflexivity. Qed.
Lemma pure_unary_ref n va v f s isc psc : pure_unary n va = Some v -> eval_unary (S f) s n va isc psc = (ONormal v, s).
Proof.
  intros H. destruct (pure_unary_inv _ _ _ H) as [| |va t N1 N2 ES|x Z0 R| |]; try reflexivity.
  - rewrite eval_unary_str, ES. reflexivity.
  - cbn. rewrite Z0. unfold rnum. rewrite R. reflexivity.
Qed.
Lemma pure_binary_ref n va vb v f s isc psc : pure_binary n va vb = Some v -> eval_binary (S f) s n va vb isc psc = (ONormal v, s).
Proof.
  intros H. destruct (pure_binary_inv _ _ _ _ H) as [x y R| | |x y R| | | | | | |x y NZ R|va vb SC|va vb SC|va vb ta tb A1 A2 B1 B2 SA SB];
    try reflexivity.
  - cbn. unfold rnum. rewrite R. reflexivity.
  - cbn. unfold rnum. rewrite R. reflexivity.
  - cbn. rewrite NZ. unfold rnum. rewrite R. reflexivity.
  - destruct SC; reflexivity.
  - destruct SC; reflexivity.
  - rewrite eval_binary_same, SA, SB. reflexivity.
Qed.

(* The interpreter gives up (OFuel) when its fuel runs out; a run is described by what it yields from some
   amount of fuel on.  The lemmas below combine such statements, so that no proof handles the amounts. *)
Definition enough (P : nat -> Prop) : Prop := exists f0, forall f, f0 <= f -> P f.

Lemma enough_and {P Q} : enough P -> enough Q -> enough (fun f => P f /\ Q f).
Proof. intros [p HP] [q HQ]. exists (p + q). intros f L. split; [apply HP|apply HQ]; lia. Qed.
Lemma enough_mono {P: nat -> Prop} {Q: nat -> Prop} : enough P -> (forall f, P f -> Q f) -> enough Q.
Proof. intros [p HP] H. exists p. intros f L. apply H, HP, L. Qed.
Lemma enough_S {P: nat -> Prop} {Q: nat -> Prop} : enough P -> (forall f, P f -> Q (S f)) -> enough Q.
Proof. intros [p HP] H. exists (S p). intros [|f] L; [lia|]. apply H, HP. lia. Qed.
Lemma enough_now (P : nat -> Prop) : (forall f, P (S f)) -> enough P.
Proof. intros H. exists 1. intros [|f] L; [lia|apply H]. Qed.

Lemma enough_pos {P: nat -> Prop} {Q: nat -> Prop} : enough P -> (forall f, P (S f) -> Q (S f)) -> enough Q.
Proof. intros [p HP] H. exists (S p). intros [|f] L; [lia|]. apply H, HP. lia. Qed.
(* the loops of the interpreter count their rounds down from a fuel of their own *)
Definition enough2 (P : nat -> nat -> Prop) : Prop := exists f0 k0, forall f, f0 <= f -> forall k, k0 <= k -> P f k.
Lemma enough2_diag {P} : enough2 P -> enough (fun f => P f f).
Proof. intros (p & q & H). exists (p + q). intros f L. apply H; lia. Qed.
Lemma enough2_round {P: nat -> Prop} {Q: nat -> nat -> Prop} {R: nat -> nat -> Prop} : enough P -> enough2 Q -> (forall f k, P f -> Q f k -> R f (S k)) -> enough2 R.
Proof. intros [p HP] (q & k0 & HQ) H. exists (p + q), (S k0). intros f L [|k] LK; [lia|]. apply H; [apply HP|apply HQ]; lia. Qed.
Lemma enough2_last {P: nat -> Prop} {R: nat -> nat -> Prop} : enough P -> (forall f k, P f -> R f (S k)) -> enough2 R.
Proof. intros [p HP] H. exists p, 1. intros f L [|k] LK; [lia|]. apply H, HP, L. Qed.

Definition evals (s:sstate) (e:expr) (o:outcome) (s':sstate) : Prop := enough (fun f => eval f s e = (o, s')).
Definition blocks (s:sstate) (b:list stmt) (reg:rvalue) (o:outcome) (s':sstate) : Prop := enough (fun f => eval_block f s b reg = (o, s')).
Definition unops (s:sstate) (n:string) (v:rvalue) (o:outcome) (s':sstate) : Prop :=
  enough (fun f => eval_unary f s n v (in_scope_f f) plain_scope_f = (o, s')).
Definition binops (s:sstate) (n:string) (l r:rvalue) (o:outcome) (s':sstate) : Prop :=
  enough (fun f => eval_binary f s n l r (in_scope_f f) plain_scope_f = (o, s')).
Definition scopes (s:sstate) (sc:scope) (b:list stmt) (o:outcome) (s':sstate) : Prop := enough (fun f => in_scope_f f s sc b = (o, s')).

Lemma evals_unary {s n a va s1 o s'} : (forall k, a <> ENum k) -> evals s a (ONormal va) s1 -> nonnil va -> unops s1 (lower n) va o s' ->
  evals s (EUnary n a) o s'.
Proof.
  intros NL HA NN HO. apply (enough_S (enough_and HA HO)). intros f [A O].
  rewrite (eval_unary_ok NL A NN). exact O.
Qed.
Lemma evals_unary_out {s n a o s1} : (forall k, a <> ENum k) -> evals s a o s1 -> abrupt o -> evals s (EUnary n a) o s1.
Proof. intros NL HA AB. apply (enough_S HA). intros f A. exact (eval_unary_out NL A AB). Qed.
Lemma evals_binary {s n a b va s1 vb s2 o s'} : evals s a (ONormal va) s1 -> evals s1 b (ONormal vb) s2 -> nonnil va -> nonnil vb ->
  binops s2 (lower n) va vb o s' -> evals s (EBinary n a b) o s'.
Proof.
  intros HA HB NA NB HO. apply (enough_S (enough_and HA (enough_and HB HO))). intros f (A & B & O).
  rewrite (eval_binary_ok A B NA NB). exact O.
Qed.
Lemma evals_binary_left {s n a b o s1} : evals s a o s1 -> abrupt o -> evals s (EBinary n a b) o s1.
Proof. intros HA AB. apply (enough_S HA). intros f A. exact (eval_binary_left A AB). Qed.
Lemma evals_binary_right {s n a b va s1 o s2} : evals s a (ONormal va) s1 -> evals s1 b o s2 -> abrupt o -> evals s (EBinary n a b) o s2.
Proof.
  intros HA HB AB. apply (enough_S (enough_and HA HB)). intros f [A B]. exact (eval_binary_right A B AB).
Qed.

Lemma unops_scope {s n v} sc b {o s'} : (forall f, eval_unary (S f) s n v (in_scope_f (S f)) plain_scope_f = in_scope_f (S f) s sc b) ->
  scopes s sc b o s' -> unops s n v o s'.
Proof. intros E [p H]. exists (S p). intros [|f] L; [lia|]. rewrite E. apply H. lia. Qed.
Lemma binops_scope {s n l r} sc b {o s'} : (forall f, eval_binary (S f) s n l r (in_scope_f (S f)) plain_scope_f = in_scope_f (S f) s sc b) ->
  scopes s sc b o s' -> binops s n l r o s'.
Proof. intros E [p H]. exists (S p). intros [|f] L; [lia|]. rewrite E. apply H. lia. Qed.
Lemma unops_pure {s n va v} : pure_unary n va = Some v -> unops s n va (ONormal v) s.
Proof. intros H. apply enough_now. intros f. apply pure_unary_ref, H. Qed.
Lemma binops_pure {s n va vb v} : pure_binary n va vb = Some v -> binops s n va vb (ONormal v) s.
Proof. intros H. apply enough_now. intros f. apply pure_binary_ref, H. Qed.

Lemma eval_pure_unary f s n a va s1 v : (forall k, a <> ENum k) -> eval (S f) s a = (ONormal va, s1) -> pure_unary (lower n) va = Some v ->
  eval (S (S f)) s (EUnary n a) = (ONormal v, s1).
Proof. intros NL H HU. rewrite (eval_unary_ok NL H (pure_unary_arg _ _ _ HU)). apply pure_unary_ref, HU. Qed.
Lemma eval_pure_binary f s n a b va s1 vb s2 v : eval (S f) s a = (ONormal va, s1) -> eval (S f) s1 b = (ONormal vb, s2) ->
  pure_binary (lower n) va vb = Some v -> eval (S (S f)) s (EBinary n a b) = (ONormal v, s2).
Proof.
  intros HA HB HP. destruct (pure_binary_args _ _ _ _ HP) as [NA NB].
  rewrite (eval_binary_ok HA HB NA NB). apply pure_binary_ref, HP.
Qed.

Lemma pure_evals loc glob :
  (forall e v, pev loc glob e v -> forall s f, renv_ok loc glob s -> esize e <= f -> eval f s e = (ONormal v, s)) /\
  (forall l vs, pevs loc glob l vs -> forall s f acc, renv_ok loc glob s -> esizes l < f ->
      go_arr f s l acc = (ONormal (RArr (rev acc ++ vs)), s)).
Proof.
  apply pev_pevs_ind.
  - intros n s [|f] _ L; [cbn in L; lia|reflexivity].
  - intros b s [|f] _ L; [cbn in L; lia|reflexivity].
  - intros t s [|f] _ L; [cbn in L; lia|reflexivity].
  - intros n v IL HH HL DV s [|f] [EL _] L; [cbn in L; lia|]. apply eval_var_local; [exact IL|rewrite <- EL; exact HL].
  - intros n v IL HL DV s [|f] [_ EG] L; [cbn in L; lia|]. apply eval_var_global; [exact IL|]. unfold glob_of. rewrite <- EG. exact HL.
  - intros l vs HP IH s [|f] ENV L; rewrite esize_arr in L; [lia|]. rewrite eval_S_arr. apply (IH s f [] ENV). lia.
  - intros n a va v NL HA IHa HU s [|[|f]] ENV L; cbn [esize] in L; try lia.
    apply (eval_pure_unary f s n a va s v NL); [apply IHa; [exact ENV|lia]|exact HU].
  - intros n a b va vb v HA IHa HB IHb HP s [|[|f]] ENV L; cbn [esize] in L; try lia.
    apply (eval_pure_binary f s n a b va s vb s v); [apply IHa; [exact ENV|lia]|apply IHb; [exact ENV|lia]|exact HP].
  - intros s f acc _ _. cbn [go_arr]. rewrite app_nil_r. reflexivity.
  - intros e v l vs HE IHe HL IHl s f acc ENV L. cbn [esizes] in L.
    rewrite (go_arr_ok (v:=v) (s1:=s)); [|apply IHe; [exact ENV|lia]|exact (proj2 (data_not_nil _ (pev_data _ _ _ _ HE)))].
    rewrite (IHl s f (v :: acc) ENV) by lia. cbn [rev]. rewrite <- app_assoc. reflexivity.
Qed.

Theorem pure_ref loc glob :
  (forall e v, pev loc glob e v -> is_data v = true /\
      forall s f, renv_ok loc glob s -> esize e <= f -> eval f s e = (ONormal v, s)) /\
  (forall l vs, pevs loc glob l vs -> forallb is_data vs = true /\
      forall s f acc, renv_ok loc glob s -> esizes l < f -> go_arr f s l acc = (ONormal (RArr (rev acc ++ vs)), s)).
Proof.
  destruct (pev_pevs_data loc glob) as [D Ds]. destruct (pure_evals loc glob) as [E Es].
  split; [intros e v H; exact (conj (D e v H) (E e v H))|intros l vs H; exact (conj (Ds l vs H) (Es l vs H))].
Qed.

Lemma evals_pure {s e v} : pev (loc_of s) (glob_of s) e v -> evals s e (ONormal v) s.
Proof. intros H. exists (esize e). intros f L. exact (proj1 (pure_evals _ _) e v H s f (renv_ok_of s) L). Qed.

Lemma stmt_ref s reg st reg1 s1 : pstmt s reg st reg1 s1 ->
  forall f rest, esize (expr_of st) <= f -> eval_block (S f) s (st :: rest) reg = cont f rest s1 reg1.
Proof.
  intros [e v HE|n e v NN HH HE|n e v NN HE] f rest L;
    pose proof (proj1 (pure_evals _ _) e v HE s f (renv_ok_of s) L) as E;
    pose proof (proj2 (data_not_nil _ (pev_data _ _ _ _ HE))) as NV;
    [apply block_expr|apply block_assign|apply block_local]; assumption.
Qed.
Lemma ssize_expr st : ssize st = S (esize (expr_of st)).
Proof. destruct st; reflexivity. Qed.

Lemma block_ref : forall s reg b reg' s', pblock s reg b reg' s' ->
  forall f, bsize b <= f -> eval_block f s b reg = (ONormal reg', s').
Proof.
  induction 1 as [s reg|s reg st reg1 s1 HS|s reg st reg1 s1 st2 rest reg' s' HS HB IH]; intros [|f] L; cbn [bsize] in L;
    try rewrite ssize_expr in L; try lia.
  - reflexivity.
  - rewrite (stmt_ref _ _ _ _ _ HS) by lia. reflexivity.
  - rewrite (stmt_ref _ _ _ _ _ HS) by lia. apply IH. cbn [bsize]. lia.
Qed.

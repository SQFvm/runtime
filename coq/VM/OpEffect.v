(* What a successful step does to the machine.  The functions of VmDefs.v dispatch over many leaves (op_unary and op_binary
   over the operator name and the operand types, about a hundred each), but a call that succeeds does one of a dozen things:
   nothing, a log line, a scope pushed, the switch cell assigned, breakOut, throw, ...  For each function - op_unary,
   op_binary, exec_instr, enact, err_enact, frame_next - an inductive relation names these effects and one
   inversion lemma ([f .. = Ok .. -> effect ..]) says which of them a result is, so that a property of "any operator /
   instruction / behaviour" is shown by cases on the effect and not by walking the dispatch again.  For do_iter the relation
   is pass in C04Defs.v and the inversion lemma do_iter_pass in C04Proofs.v.
   What still goes through a function case by case elsewhere says what the function does on one particular input, which
   no inversion of a successful result can tell: C05ExitValue.enact_empty_is_nil (an equation between two calls of enact,
   failures included) and exit_value_missing_logs (that the diagnostic IS logged on an empty region). *)
From Coq Require Import String Ascii.
From Coq Require Import ZArith List Bool.
From SqfVerif Require Import Gen.DiagCodes Gen.Overloads VM.VmDefs VM.VmExec VM.C03Defs VM.VmFacts.
Import ListNotations.
Local Open Scope string_scope.
Local Open Scope list_scope.

(* r' c' y: the machine, the executing context and the result after [op_unary n v r c] *)
Inductive unary_effect (n:string) (v:value) (r:rt) (c:context) : rt -> context -> value -> Prop :=
| UPure y : unary_effect n v r c r c y
| ULog d : unary_effect n v r c (logmsg r d) c VNil
| UScope code beh vars :
    unary_effect n v r c r (push_frame c (mk_frame (cur_ns c) code beh None vars)) VNil
| USwitchCell sw y : unary_effect n v r c r (assign_local_var c "___switch" sw) y
| UThrow r' c' y : op_throw r c v = Ok (r', c', y) -> unary_effect n v r c r' c' y
| UBreakOut s r' c' y : op_breakout r c VNil s = Ok (r', c', y) -> unary_effect n v r c r' c' y
| UScopeName s : unary_effect n v r c r (upd_top c (fun f => set_scope f s)) VNil
| UPrivate l :
    unary_effect n v r c r (fold_left (fun c' x => match x with VStr s => declare_top_var c' s | _ => c' end) l c) VNil
| USleep d t r1 : now r = (t, r1) -> unary_effect n v r c r1 (set_suspended c true (t + d * 1000000)%Z) VNil
| UTerminateSelf : unary_effect n v r c r (set_terminate c true) VNil
| UTerminate id :
    unary_effect n v r c
      (set_ctxs r (map (fun y => if Nat.eqb (c_id y) id then set_terminate y true else y) (r_ctxs r))) c VNil
| UDiagLog d s : unary_effect n v r c (mark (logmsg r d) s) c VNil.

(* r' c' y: the machine, the executing context and the result after [op_binary n l v r c] *)
Inductive binary_effect (n:string) (l v:value) (r:rt) (c:context) : rt -> context -> value -> Prop :=
| BPure y : binary_effect n l v r c r c y
| BLog d : binary_effect n l v r c (logmsg r d) c VNil
| BScope code beh err vars :
    binary_effect n l v r c r (push_frame c (mk_frame (cur_ns c) code beh err vars)) VNil
| BWithDo s body : n = "do" -> l = VWith s -> v = VCode body ->
    binary_effect n l v r c r (push_frame c (mk_frame s body None None [])) VNil
| BExitWith code :
    binary_effect n l v r c r
      (push_frame (upd_top c (fun f => set_die (set_pos f (S (length (f_code f)))) true))
                  (mk_frame (cur_ns c) code None None [])) VNil
| BColon sw :
    binary_effect n l v r c r
      (upd_top (assign_local_var c "___switch" sw) (fun f => set_pos f (S (length (f_code f))))) VNil
| BBreakOut s r' c' y : op_breakout r c l s = Ok (r', c', y) -> binary_effect n l v r c r' c' y
| BThrow r' c' y : op_throw r c v = Ok (r', c', y) -> binary_effect n l v r c r' c' y
| BSpawn body : n = "spawn" -> v = VCode body ->
    binary_effect n l v r c
      (set_next_id (set_ctxs r (r_ctxs r ++
         [push_frame (new_context (r_next_id r) true)
            (mk_frame default_ns body None None [("_thisscript", VScript (r_next_id r)); ("_this", l)])]))
         (S (r_next_id r)))
      c (VScript (r_next_id r))
| BSetVar s name x : n = "setvariable" -> l = VNs s -> v = VArr [VStr name; x] ->
    binary_effect n l v r c (ns_set r s name x) c VNil.

(* The three tactics that walk a dispatch.  The goal is [dispatch = Ok (r', c', y) -> effect ...].
   [split_scrutinee] destructs one scrutinee of a match in the goal that holds no match itself (an innermost one).
   [split_dispatch] repeats that, closing every branch that has become [Unsupported _ = Ok _ -> _] (or Hang, UB), until
   only leaves [Ok _ = Ok _ -> _] are left. *)
Ltac split_scrutinee :=
  match goal with
  | |- context [match ?x with _ => _ end] =>
      lazymatch x with
      | context [match _ with _ => _ end] => fail
      | _ => destruct x
      end
  end.
Ltac split_dispatch := repeat (split_scrutinee; try (intros [=]; fail)).

(* op_unary and op_binary are chains [if n =? "a" then A else if n =? "b" then B else ...] (a test may also be a disjunction
   of two names).  [chain leaf] goes down the chain: under each test that holds, the name is substituted where the test
   is a single comparison, [split_dispatch] takes the branch apart and [leaf] closes its
   leaves; the rest of the chain is set aside meanwhile, so that the case analysis is never over the whole dispatch, and
   is taken up again with the test false. *)
Ltac chain leaf :=
  repeat lazymatch goal with
         | |- (if ?b then _ else ?B) = _ -> _ =>
             let E := fresh "E" in let rest := fresh "rest" in
             set (rest := B);
             destruct b eqn:E;
             [ clear rest; try (apply String.eqb_eq in E; subst); split_dispatch; leaf | clear E; subst rest ]
         end.

Lemma op_unary_inv n v r c r' c' y : op_unary n v r c = Ok (r', c', y) -> unary_effect n v r c r' c' y.
Proof.
  unfold op_unary, bindr, num. destruct (now r) as [t r1] eqn:Now. cbv beta iota zeta.
  chain ltac:(first [ intros [= <- <- <-];
                      first [ apply UPure | apply ULog | apply UScope | apply USwitchCell | apply UScopeName
                            | apply UPrivate | exact (UPrivate _ _ _ _ [VStr _])
                            | apply UTerminateSelf | apply UTerminate | apply UDiagLog
                            | eapply USleep; exact Now ]
                    | intro H; first [ exact (UThrow _ _ _ _ _ _ _ H) | exact (UBreakOut _ _ _ _ _ _ _ _ H) ] ]).
  intros [=].
Qed.

Lemma op_binary_inv n l v r c r' c' y : op_binary n l v r c = Ok (r', c', y) -> binary_effect n l v r c r' c' y.
Proof.
  unfold op_binary, bindr, num. cbv zeta.
  chain ltac:(first [ intros [= <- <- <-];
                      first [ apply BPure | apply BLog | apply BScope | apply BExitWith | apply BColon
                            | eapply BWithDo; reflexivity | eapply BSpawn; reflexivity | eapply BSetVar; reflexivity ]
                    | intro H; first [ exact (BThrow _ _ _ _ _ _ _ _ H) | exact (BBreakOut _ _ _ _ _ _ _ _ _ H) ] ]).
  split_dispatch; intros [= <- <- <-]; apply BPure.
Qed.

Lemma op_nular_inv n r c r' c' y : op_nular n r c = Ok (r', c', y) -> r' = r /\ c' = c.
Proof. unfold op_nular. split_dispatch; intros [= <- <- _]; split; reflexivity. Qed.

(* operands taken from the stack, one pop_value at a time *)
Inductive pops : context -> context -> Prop :=
| pops_nil c : pops c c
| pops_cons c v c1 c2 : pop_value c = Some (v, c1) -> pops c1 c2 -> pops c c2.

Lemma pops_one c v c1 : pop_value c = Some (v, c1) -> pops c c1.
Proof. intros P. exact (pops_cons _ _ _ _ P (pops_nil c1)). Qed.

Lemma pops_frames c c0 : pops c c0 -> c_frames c0 = c_frames c.
Proof. induction 1 as [|c v c1 c2 P _ IH]; [reflexivity|]. rewrite IH. exact (pop_value_frames _ _ _ P). Qed.

Lemma pop_args_pops k : forall c acc, pops c (snd (fst (pop_args k c acc))).
Proof.
  induction k as [|k IH]; intros c acc; cbn [pop_args]; [apply pops_nil|].
  destruct (pop_value c) as [[v c1]|] eqn:P; [|apply pops_nil]. exact (pops_cons _ _ _ _ P (IH c1 (v :: acc))).
Qed.

(* an instruction reports at most one diagnostic of its own *)
Inductive opt_log (r:rt) : rt -> Prop :=
| opt_log_none : opt_log r r
| opt_log_one d : opt_log r (logmsg r d).

(* r' c': the machine and the executing context after [exec_instr i r c].  PUSH, GETVARIABLE, CALLNULAR and MAKEARRAY
   push a value; an instruction that misses an operand, finds nil or knows no overload for the operand types only takes
   operands and reports. *)
Inductive exec_effect (i:instr) (r:rt) (c:context) : rt -> context -> Prop :=
| XValue c0 v r1 : pops c c0 -> opt_log r r1 -> exec_effect i r c r1 (push_value c0 v)
| XEnd : i = IEnd -> exec_effect i r c r (clear_values c)
| XOperands c0 r1 : pops c c0 -> opt_log r r1 -> exec_effect i r c r1 c0
| XAssignLocal n v c1 r1 : i = IAssign n -> is_local n = true -> pop_value c = Some (v, c1) -> opt_log r r1 ->
    exec_effect i r c r1 (assign_local_var c1 n v)
| XAssignGlobal n v c1 r1 f rest : i = IAssign n -> is_local n = false -> pop_value c = Some (v, c1) ->
    c_frames c1 = f :: rest -> opt_log r r1 -> exec_effect i r c (ns_set r1 (f_ns f) n v) c1
| XBind n v c1 r1 : i = IAssignLocal n -> pop_value c = Some (v, c1) -> opt_log r r1 ->
    exec_effect i r c r1 (set_top_var c1 n v)
| XUnary n v c1 r1 c2 y : i = IUnary n -> pop_value c = Some (v, c1) -> op_unary (lower n) v r c1 = Ok (r1, c2, y) ->
    exec_effect i r c r1 (push_value c2 y)
| XBinary n l v c1 c2 r1 c3 y : i = IBinary n -> pop_value c = Some (v, c1) -> pop_value c1 = Some (l, c2) ->
    op_binary (lower n) l v r c2 = Ok (r1, c3, y) -> exec_effect i r c r1 (push_value c3 y).

Lemma exec_instr_inv i r c r' c' : exec_instr i r c = Ok (r', c') -> exec_effect i r c r' c'.
Proof.
  assert (nil_check : forall v, opt_log r match v with VNil => logmsg r d_AssigningNilValue | _ => r end)
    by (intros v; destruct v; constructor).
  destruct i; cbn [exec_instr]; cbv zeta.
  - intros [= <- <-]. apply (XValue _ _ _ c); constructor.
  - split_dispatch; intros [= <- <-]; apply (XValue _ _ _ c); constructor.
  - destruct (pop_value c) as [[v c1]|] eqn:P.
    + destruct (String.eqb n ""); [intros [= <- <-]; apply XOperands; [exact (pops_one _ _ _ P)|apply nil_check]|].
      destruct (is_local n) eqn:L; [intros [= <- <-]; apply (XAssignLocal _ _ _ n); auto|].
      destruct (c_frames c1) as [|f rest] eqn:F; intros [= <- <-]. apply (XAssignGlobal _ _ _ n v c1 _ f rest); auto.
    + intros [= <- <-]. apply XOperands; constructor.
  - destruct (pop_value c) as [[v c1]|] eqn:P.
    + destruct (String.eqb n ""); intros [= <- <-];
        [apply XOperands; [exact (pops_one _ _ _ P)|constructor]|apply (XBind _ _ _ n); auto].
    + destruct (String.eqb n ""); intros [= <- <-]; apply XOperands; constructor.
  - destruct (op_nular (lower n) r c) as [[[r1 c1] v]| | |] eqn:N; cbn [bindr]; [|destruct (has_nular (lower n))|..]; intros [= <- <-].
    apply op_nular_inv in N. destruct N as [-> ->]. apply (XValue _ _ _ c); constructor.
  - destruct (pop_value c) as [[v c1]|] eqn:P; [|intros [= <- <-]; apply XOperands; constructor].
    assert (O : match op_unary (lower n) v r c1 with
                | Unsupported w => if has_unary (lower n) (type_of v) then Unsupported w
                                   else Ok (logmsg r d_UnknownInputTypeCombinationUnary, c1)
                | x => bindr x (fun '(r1, c2, y) => Ok (r1, push_value c2 y)) end = Ok (r', c') -> exec_effect (IUnary n) r c r' c').
    { destruct (op_unary (lower n) v r c1) as [[[r1 c2] y]| | |] eqn:O; cbn [bindr]; [|destruct (has_unary _ _)|..]; intros [= <- <-].
      - exact (XUnary _ _ _ n v c1 r1 c2 y eq_refl P O).
      - apply XOperands; [exact (pops_one _ _ _ P)|constructor]. }
    destruct v; try exact O. intros [= <- <-]. apply XOperands; [exact (pops_one _ _ _ P)|constructor].
  - destruct (pop_value c) as [[v c1]|] eqn:P; [|intros [= <- <-]; apply XOperands; constructor].
    assert (P1 : forall d, exec_effect (IBinary n) r c (logmsg r d) c1)
      by (intros d; apply XOperands; [exact (pops_one _ _ _ P)|constructor]).
    destruct (pop_value c1) as [[l c2]|] eqn:P2; [|destruct v; intros [= <- <-]; apply P1].
    assert (P3 : forall d, exec_effect (IBinary n) r c (logmsg r d) c2)
      by (intros d; apply XOperands; [exact (pops_cons _ _ _ _ P (pops_one _ _ _ P2))|constructor]).
    assert (O : match op_binary (lower n) l v r c2 with
                | Unsupported w => if has_binary (lower n) (type_of l) (type_of v) then Unsupported w
                                   else Ok (logmsg r d_UnknownInputTypeCombinationBinary, c2)
                | x => bindr x (fun '(r1, c3, y) => Ok (r1, push_value c3 y)) end = Ok (r', c') -> exec_effect (IBinary n) r c r' c').
    { destruct (op_binary (lower n) l v r c2) as [[[r1 c3] y]| | |] eqn:O; cbn [bindr]; [|destruct (has_binary _ _ _)|..]; intros [= <- <-].
      - exact (XBinary _ _ _ n l v c1 c2 r1 c3 y eq_refl P P2 O).
      - apply P3. }
    destruct v; try (intros [= <- <-]; apply P1); destruct l; try exact O; intros [= <- <-]; apply P3.
  - pose proof (pop_args_pops n c []) as A. destruct (pop_args n c []) as [[vals c1] ok]. intros [= <- <-].
    apply XValue; [exact A|destruct ok; constructor].
  - intros [= <- <-]. now apply XEnd.
Qed.

(* the diagnostics of enact: the missing value is reported only with the switch exit_value_missing on *)
Definition enact_diag (r:rt) (d:Z*Z) : Prop :=
  (d = d_CallstackFoundNoValue /\ exit_value_missing r = true) \/
  d = d_TypeMissmatchWeak \/ d = d_TypeMissmatch \/ d = d_ForStepVariableTypeMissmatch \/ d = d_WaitUntilMaxLoopReached.

(* enact reports at most once; waitUntil then reads the clock for the wake-up time *)
Inductive enact_log (r:rt) : rt -> Prop :=
| NQuiet : enact_log r r
| NDiag d : enact_diag r d -> enact_log r (logmsg r d)
| NDiagNow d t r2 : enact_diag r d -> now (logmsg r d) = (t, r2) -> enact_log r r2.

(* what enact does to the context c0 it is left with once the scope's value is taken.  A scope that goes round again (the
   flag: C03Defs.restarts) does so with its region cleared and its variables replaced; a while loop stopped by the
   iteration cap has been through that already. *)
Inductive enact_ctx (c0:context) : bool -> context -> Prop :=
| NSame : enact_ctx c0 false c0
| NValue v : enact_ctx c0 false (push_value c0 v)
| NRestart again vars : enact_ctx c0 again (restart_with c0 vars)
| NSleep again w : enact_ctx c0 again (restart_with (set_suspended c0 true w) []).

(* the same with what C03 says of a round: the behaviour stays the same loop, and a scope that goes round again holds the
   bindings of the new round only *)
Inductive enact_round (b b':behavior) (c0:context) : bool -> context -> Prop :=
| RSame : enact_round b b' c0 false c0
| RValue v : enact_round b b' c0 false (push_value c0 v)
| RCapped : fresh_scope b' [] -> enact_round b b' c0 false (restart_with c0 [])
| RRestart vars : fresh_scope b' vars -> (forall f rest, c_frames c0 = f :: rest -> for_advances b f vars) ->
    enact_round b b' c0 true (restart_with c0 vars)
| RSleep w : fresh_scope b' [] -> (forall f, for_advances b f []) ->
    enact_round b b' c0 true (restart_with (set_suspended c0 true w) []).

Lemma enact_round_ctx b b' c0 again c' : enact_round b b' c0 again c' -> enact_ctx c0 again c'.
Proof. intros [ | | | | ]; constructor. Qed.

Lemma enact_round_inv b r c br b' r' c' : enact b r c = Ok (br, b', r', c') ->
  same_kind b b' /\ exists c0, pops c c0 /\ enact_log r r' /\ enact_round b b' c0 (restarts br b) c'.
Proof.
  assert (leaf : forall c0, enact_round b b' c0 (restarts br b) c' -> enact_log r r' -> pops c c0 -> same_kind b b' ->
                 same_kind b b' /\ exists c0, pops c c0 /\ enact_log r r' /\ enact_round b b' c0 (restarts br b) c') by eauto.
  destruct b; cbn [enact]; unfold bool_result_diag, now; cbv beta iota zeta;
    (* the scrutinees whose outcome the effect speaks of are taken apart with their equations *)
    repeat (first [ match goal with |- context [match pop_value c with _ => _ end] => destruct (pop_value c) as [[v c1]|] eqn:P end
                  | match goal with |- context [if exit_value_missing r then _ else _] => destruct (exit_value_missing r) eqn:X end
                  | match goal with |- context [match c_frames c with _ => _ end] => destruct (c_frames c) as [|f0 fs] eqn:F end
                  | match goal with |- context [match assoc ?k (f_vars ?g) with _ => _ end] => destruct (assoc k (f_vars g)) eqn:A end
                  | split_scrutinee ];
            cbv beta iota; try (intros [=]; fail));
    intros [= <- <- <- <-];
    (* the first goal finds the context the behaviour worked on: c, or what pop_value left of it *)
    (eapply leaf;
     [ cbn [restarts];
       first [ apply RValue | apply RSleep; [reflexivity|exact (fun _ => I)]
             | apply RRestart; [cbn; eauto|intros f1 rest1 F1; cbn; try exact I; rewrite F in F1; injection F1 as <- _; eauto]
             | apply RCapped; reflexivity | apply RSame ]
     | first [ apply NQuiet
             | apply NDiag; unfold enact_diag; tauto
             | match goal with |- enact_log _ (set_clock (logmsg _ ?d) _) =>
                 eapply (NDiagNow _ d); [unfold enact_diag; tauto|reflexivity] end ]
     | match goal with
       | Q : pop_value c = Some _ |- _ => exact (pops_one _ _ _ Q)
       | _ => apply pops_nil end
     | cbn; auto ]).
Qed.

Lemma enact_inv b r c br b' r' c' : enact b r c = Ok (br, b', r', c') ->
  exists c0, pops c c0 /\ enact_log r r' /\ enact_ctx c0 (restarts br b) c'.
Proof. intros H. destruct (enact_round_inv _ _ _ _ _ _ _ H) as (_ & c0 & P & L & C). eauto using enact_round_ctx. Qed.

(* the frame at depth k declines the error (failed), or it becomes the frame of its handler: the thrown value is taken
   from the stack, the region cleared, and the frame runs the handler h with _exception bound *)
Inductive err_effect (c:context) (k:nat) : bool -> context -> Prop :=
| ErrDeclined : err_effect c k true c
| ErrTaken f h exc c1 : nth_error (c_frames c) k = Some f -> pops c c1 ->
    err_effect c k false
      (set_frames (clear_values c1)
         (list_upd (c_frames (clear_values c1)) k (set_err (set_pos (set_code (set_vars f [("_exception", exc)]) h) 0) None))).

Lemma err_enact_inv r c k failed r' c' : err_enact r c k = Ok (failed, r', c') -> r' = r /\ err_effect c k failed c'.
Proof.
  unfold err_enact. destruct (nth_error (c_frames c) k) as [f|] eqn:N; [|intros [=]].
  assert (taken : forall h exc1 exc2,
            (let (val, c1) := match pop_value c with Some (v, c') => (Some v, c') | None => (None, c) end in
             Ok (false, r, set_frames (clear_values c1) (list_upd (c_frames (clear_values c1)) k
                   (set_err (set_pos (set_code (set_vars f [("_exception", match val with Some v => exc1 v | None => exc2 end)]) h) 0) None))))
            = Ok (failed, r', c') -> r' = r /\ err_effect c k failed c').
  { intros h exc1 exc2. destruct (pop_value c) as [[v c1]|] eqn:P; intros [= <- <- <-]; (split; [reflexivity|]).
    - exact (ErrTaken _ _ f h _ c1 N (pops_one _ _ _ P)).
    - exact (ErrTaken _ _ f h _ c N (pops_nil c)). }
  destruct (f_err f) as [[h|h exchanged]|]; [destruct (r_err r)|destruct exchanged|];
    try (intros [= <- <- <-]; split; [reflexivity|apply ErrDeclined]).
  - exact (taken h (fun v => match v with VTrace v => v | _ => VNil end) VNil).
  - exact (taken h (fun v => v) VNil).
Qed.

Lemma op_throw_log r c v r' c' x : op_throw r c v = Ok (r', c', x) -> opt_log r r'.
Proof.
  unfold op_throw. destruct (find_handler (c_frames c) 0) as [k|]; [|intros [= <- _ _]; constructor].
  destruct (err_enact r (push_value c (VTrace v)) k) as [[[failed r2] c2]| | |] eqn:E; cbn [bindr]; [|intros [=] ..].
  apply err_enact_inv in E. destruct E as [-> _]. destruct failed; intros [= <- _ _]; constructor.
Qed.
Lemma op_breakout_log r c v t r' c' x : op_breakout r c v t = Ok (r', c', x) -> opt_log r r'.
Proof. unfold op_breakout. split_dispatch; intros [= <- _ _]; constructor. Qed.

(* next() of the top frame: the answer and the frame with its position advanced *)
Definition advance (f:frame) : fres * frame :=
  if at_end f then (FDone, f) else
    let f' := set_pos f (S (f_pos f)) in ((if at_end f' then FDone else FOk), f').

Lemma advance_inv f res0 f1 : advance f = (res0, f1) -> f1 = f \/ f1 = set_pos f (S (f_pos f)).
Proof. unfold advance. destruct (at_end f); intros [= _ <-]; auto. Qed.

(* the advanced top frame has an exit behaviour that is due; enact answered br and the frame keeps the updated behaviour *)
Inductive enacted (r:rt) (c:context) : fres -> bresult -> behavior -> rt -> context -> Prop :=
| Enacted f rest res0 f1 b br b' r2 c2 : c_frames c = f :: rest -> advance f = (res0, f1) -> f_exit f1 = Some b ->
    enact b r (set_frames c (f1 :: rest)) = Ok (br, b', r2, c2) ->
    enacted r c res0 br b' r2 (upd_top c2 (fun f => set_exit f (Some b'))).

(* a scope that starts over (seek_start) and the next round of a while loop (exchange) *)
Definition restart_scope (c3:context) : context := clear_values (upd_top c3 (fun f => set_scope (set_pos f 0) "")).
Definition exchange_code (b':behavior) (code':code) (c3:context) : context :=
  upd_top c3 (fun f => set_pos (set_code (match b' with BWhile _ WCond _ _ => set_scope f "" | _ => f end) code') 0).

(* frame::next without its fuel: fr r' c' are the answer, the machine and the context after [frame_next _ r c] *)
Inductive next_effect : rt -> context -> fres -> rt -> context -> Prop :=
| NxAdvance r c f rest res0 f1 : c_frames c = f :: rest -> advance f = (res0, f1) ->
    next_effect r c res0 r (set_frames c (f1 :: rest))
| NxDone r c res0 br b' r2 c3 : enacted r c res0 br b' r2 c3 -> br = BrOk \/ br = BrFail -> next_effect r c res0 r2 c3
| NxSeekEnd r c res0 b' r2 c3 : enacted r c res0 BrSeekEnd b' r2 c3 ->
    next_effect r c FDone r2 (upd_top c3 (fun f => set_pos f (S (length (f_code f)))))
| NxRestarted r c res0 b' r2 c3 : enacted r c res0 BrSeekStart b' r2 c3 -> top_code_empty (restart_scope c3) = true ->
    next_effect r c FRestarted r2 (restart_scope c3)
| NxAgain r c res0 b' r2 c3 fr r' c' : enacted r c res0 BrSeekStart b' r2 c3 ->
    next_effect r2 (restart_scope c3) fr r' c' -> next_effect r c fr r' c'
| NxExchange r c res0 code' b' r2 c3 fr r' c' : enacted r c res0 (BrExchange code') b' r2 c3 ->
    next_effect r2 (exchange_code b' code' c3) fr r' c' -> next_effect r c fr r' c'.

Lemma frame_next_inv : forall fuel r c fr r' c', frame_next fuel r c = Ok (fr, r', c') -> next_effect r c fr r' c'.
Proof.
  induction fuel as [|fuel IH]; intros r c fr r' c'; cbn [frame_next]; [intros [=]|].
  destruct (c_frames c) as [|f rest] eqn:F; [intros [=]|].
  fold (advance f). destruct (advance f) as [res0 f1] eqn:A.
  destruct (f_exit f1) as [b|] eqn:X; [|intros [= <- <- <-]; exact (NxAdvance _ _ _ _ _ _ F A)].
  destruct (andb (at_end f1) (negb (f_die f1))); [|intros [= <- <- <-]; exact (NxAdvance _ _ _ _ _ _ F A)].
  destruct (enact b r (set_frames c (f1 :: rest))) as [[[[br b'] r2] c2]| | |] eqn:E; cbn [bindr]; [|intros [=] ..].
  pose proof (Enacted _ _ _ _ _ _ _ _ _ _ _ F A X E) as En.
  destruct br.
  - intros [= <- <- <-]. apply (NxDone _ _ _ _ _ _ _ En). auto.
  - fold (restart_scope (upd_top c2 (fun f0 => set_exit f0 (Some b')))).
    destruct (top_code_empty _) eqn:T; [intros [= <- <- <-]; exact (NxRestarted _ _ _ _ _ _ En T)|].
    intros H. exact (NxAgain _ _ _ _ _ _ _ _ _ En (IH _ _ _ _ _ H)).
  - intros [= <- <- <-]. exact (NxSeekEnd _ _ _ _ _ _ En).
  - intros H. exact (NxExchange _ _ _ _ _ _ _ _ _ _ En (IH _ _ _ _ _ H)).
  - intros [= <- <- <-]. apply (NxDone _ _ _ _ _ _ _ En). auto.
Qed.

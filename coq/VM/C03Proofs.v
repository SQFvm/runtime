(* C03 - variable scoping.  Theorems about the executable VM model (VmDefs.v / VmExec.v):
   dynamic lookup of locals, plain assignment, the current-scope binders, what disappears when a
   scope ends or a loop iterates, spawn, globals and the namespace selected by with-do. *)
From Coq Require Import String Ascii.
From Coq Require Import ZArith List Bool Lia.
From SqfVerif Require Import Gen.DiagCodes Gen.Overloads VM.VmDefs VM.VmExec VM.VmFacts VM.OpEffect VM.SchedOps VM.SchedBase VM.C04Defs
  VM.C04Proofs VM.C03Defs.
Import ListNotations.
Local Open Scope string_scope.
Local Open Scope list_scope.

Opaque frame_fuel exec_fuel waituntil_cap.

Lemma lower_idem s : lower (lower s) = lower s.
Proof. exact (VmFacts.lower_idem s). Qed.

Lemma is_local_nonempty n : is_local n = true -> n <> "".
Proof. destruct n; [discriminate|intros _ H; discriminate]. Qed.

Lemma frames_restart_with c vars f rest : c_frames c = f :: rest ->
  c_frames (restart_with c vars) = set_vars f vars :: rest.
Proof. intros E. unfold restart_with, upd_top. rewrite frames_clear_values, E. reflexivity. Qed.
Lemma frames_upd_top c g f rest : c_frames c = f :: rest -> c_frames (upd_top c g) = g f :: rest.
Proof. intros E. unfold upd_top. now rewrite E. Qed.

Lemma same_store_refl r : same_store r r. Proof. repeat split. Qed.
Lemma same_store_logmsg r d : same_store r (logmsg r d).
Proof. repeat split; [apply nss_logmsg|apply ctxs_logmsg|apply active_logmsg]. Qed.
Lemma same_store_trans a b c : same_store a b -> same_store b c -> same_store a c.
Proof. unfold same_store. intros (A1 & A2 & A3) (B1 & B2 & B3). repeat split; congruence. Qed.
Lemma same_store_now r t r1 : now r = (t, r1) -> same_store r r1.
Proof. intros [= _ <-]. repeat split. Qed.

Lemma lookup_frames_some k v : forall fs,
  lookup_frames k fs = Some v <->
  exists pre f post, fs = pre ++ f :: post /\ Forall (passes k) pre /\ assoc k (f_vars f) = Some v.
Proof.
  intros fs. split.
  - induction fs as [|g fs IH]; cbn; [discriminate|]. destruct (assoc k (f_vars g)) eqn:A.
    + intros [= ->]. exists [], g, fs. auto.
    + destruct (f_bubble g) eqn:Bu; [|discriminate]. intros H.
      destruct (IH H) as (pre & f & post & -> & P & S). exists (g :: pre), f, post.
      repeat split; [constructor; [split|]; assumption|exact S].
  - intros (pre & f & post & -> & P & S).
    induction P as [|g pre [A Bu] _ IH]; cbn; [now rewrite S|now rewrite A, Bu].
Qed.

Lemma lookup_frames_none k : forall fs,
  lookup_frames k fs = None <->
  (Forall (passes k) fs \/
   exists pre f post, fs = pre ++ f :: post /\ Forall (passes k) pre /\ lacks k f /\ f_bubble f = false).
Proof.
  intros fs. split.
  - induction fs as [|g fs IH]; cbn; [left; constructor|]. destruct (assoc k (f_vars g)) eqn:A; [discriminate|].
    destruct (f_bubble g) eqn:Bu; [|intros _; right; exists [], g, fs; auto].
    intros H. destruct (IH H) as [F|(pre & f & post & -> & P & L & B2)].
    + left. constructor; [split|]; assumption.
    + right. exists (g :: pre), f, post. repeat split; [constructor; [split|]; assumption|exact L|exact B2].
  - intros [F|(pre & f & post & -> & P & L & Bu)].
    + induction F as [|g fs [A B] _ IH]; cbn; [reflexivity|now rewrite A, B].
    + induction P as [|g pre [A B] _ IH]; cbn; [now rewrite L, Bu|now rewrite A, B].
Qed.

Lemma get_variable_case c n m : lower n = lower m -> get_variable c n = get_variable c m.
Proof. unfold get_variable. now intros ->. Qed.

(* when every scope lets the search through (the only frames that do not are those of the
   isolating operators of ops_sqfvm.cpp, outside the model), the search is over the whole chain *)
Lemma lookup_frames_all_bubble k fs : Forall (fun g => f_bubble g = true) fs ->
  lookup_frames k fs = None <-> Forall (lacks k) fs.
Proof.
  intros B. induction B as [|g fs Bg B IH]; cbn; [split; auto|].
  unfold lacks at 1. destruct (assoc k (f_vars g)) eqn:A.
  - split; [discriminate|]. intros F; inversion F; subst. unfold lacks in *. congruence.
  - rewrite Bg, IH. split; [intros; constructor; assumption|intros F; inversion F; assumption].
Qed.

Lemma assign_frames_none k v : forall fs, assign_frames k v fs = None <-> Forall (lacks k) fs.
Proof.
  unfold lacks. induction fs as [|g fs IH]; cbn; [split; auto|].
  destruct (assoc k (f_vars g)) eqn:A.
  - split; [discriminate|]. intros F; inversion F; congruence.
  - destruct (assign_frames k v fs) eqn:E.
    + split; [discriminate|]. intros F; inversion F; subst. apply IH in H2. discriminate.
    + split; [|reflexivity]. intros _. constructor; [assumption|]. now apply IH.
Qed.

Lemma assign_frames_some k v : forall fs fs', assign_frames k v fs = Some fs' ->
  exists pre f post, fs = pre ++ f :: post /\ Forall (lacks k) pre /\ holds k f /\
                     fs' = pre ++ set_vars f (assoc_set k v (f_vars f)) :: post.
Proof.
  unfold lacks, holds. induction fs as [|g fs IH]; cbn; intros fs' H; [discriminate|].
  destruct (assoc k (f_vars g)) eqn:A.
  - inversion H; subst. exists [], g, fs. repeat split; eauto.
  - destruct (assign_frames k v fs) as [r'|] eqn:E; [|discriminate]. inversion H; subst.
    destruct (IH _ eq_refl) as (pre & f & post & E1 & P & Hd & E2). subst.
    exists (g :: pre), f, post. repeat split; auto.
Qed.

Lemma assign_local_var_assigned c n v f rest : c_frames c = f :: rest ->
  assigned (lower n) v (c_frames c) (c_frames (assign_local_var c n v)).
Proof.
  intros E. unfold assign_local_var. destruct (assign_frames (lower n) v (c_frames c)) as [fs|] eqn:A.
  - apply assign_frames_some in A. destruct A as (pre & g & post & E1 & P & Hd & E2). cbn. rewrite E1, E2.
    now constructor.
  - apply assign_frames_none in A. rewrite (frames_upd_top _ _ _ _ E). rewrite E in *. now constructor.
Qed.

Lemma assign_local_var_rest c n v :
  assign_local_var c n v = set_frames c (c_frames (assign_local_var c n v)).
Proof.
  unfold assign_local_var. destruct (assign_frames (lower n) v (c_frames c)); [reflexivity|].
  unfold upd_top. destruct (c_frames c); [destruct c|]; reflexivity.
Qed.

Lemma exec_assign_local n r c r' c' : is_local n = true -> exec_instr (IAssign n) r c = Ok (r', c') ->
  same_store r r' /\
  ((pop_value c = None /\ c' = c) \/
   exists v, c_values c = v :: c_values c' /\
             assigned (lower n) v (c_frames c) (c_frames c') /\
             c' = set_frames (set_values c (c_values c')) (c_frames c')).
Proof.
  intros L H. cbn [exec_instr] in H.
  destruct (pop_value c) as [[v c1]|] eqn:P.
  - rewrite L in H. destruct (String.eqb n "") eqn:En.
    { apply String.eqb_eq in En. subst n. discriminate. }
    inversion H; subst; clear H.
    apply pop_value_inv in P. destruct P as (vs & f & rest & EV & EF & _ & ->).
    split; [destruct v; auto using same_store_refl, same_store_logmsg|].
    right. exists v.
    assert (EF1 : c_frames (set_values c vs) = f :: rest) by exact EF.
    pose proof (assign_local_var_assigned (set_values c vs) n v f rest EF1) as As.
    rewrite assign_local_var_rest.
    split; [exact EV|]. split; [exact As|]. reflexivity.
  - inversion H; subst. split; [apply same_store_logmsg|]. left. auto.
Qed.

(* consequences of [assigned]: one map changed, nothing else of any frame.  A relation between frames that holds of a
   frame and itself, and of a frame and the frame with the key assigned, holds frame by frame. *)
Lemma assigned_Forall2 (P : frame -> frame -> Prop) k v fs fs' : assigned k v fs fs' ->
  (forall g, P g g) -> (forall g, P g (set_vars g (assoc_set k v (f_vars g)))) -> Forall2 P fs fs'.
Proof.
  intros As Same Upd. assert (R : forall l, Forall2 P l l) by (induction l; constructor; auto).
  destruct As as [pre f post _ _|f rest _]; [apply Forall2_app; [apply R|]|]; constructor; auto.
Qed.

Lemma assigned_only_vars k v fs fs' : assigned k v fs fs' ->
  Forall2 (fun g g' => g' = set_vars g (f_vars g')) fs fs'.
Proof. intros As. apply (assigned_Forall2 _ _ _ _ _ As); [intros []|]; reflexivity. Qed.

Lemma assigned_projections k v fs fs' : assigned k v fs fs' ->
  map f_base fs' = map f_base fs /\ map f_pos fs' = map f_pos fs /\ map f_ns fs' = map f_ns fs /\
  map f_code fs' = map f_code fs /\ map f_exit fs' = map f_exit fs /\ map f_err fs' = map f_err fs /\
  map f_scope fs' = map f_scope fs /\ map f_bubble fs' = map f_bubble fs /\ map f_die fs' = map f_die fs.
Proof.
  intros [pre f post P Hd|f rest P]; rewrite ?map_app; cbn; repeat split; reflexivity.
Qed.

Lemma assigned_other_keys k v fs fs' : assigned k v fs fs' ->
  forall k', k' <> k -> Forall2 (fun g g' => assoc k' (f_vars g') = assoc k' (f_vars g)) fs fs'.
Proof. intros As k' N. apply (assigned_Forall2 _ _ _ _ _ As); [reflexivity|]. intros g. now apply assoc_set_other. Qed.

Lemma lacks_passes k pre : Forall (lacks k) pre -> Forall (fun g => f_bubble g = true) pre -> Forall (passes k) pre.
Proof. intros L B. induction L; inversion B; subst; constructor; [split|]; auto. Qed.

Lemma assigned_read_back k v fs fs' : assigned k v fs fs' -> Forall (fun g => f_bubble g = true) fs ->
  lookup_frames k fs' = Some v.
Proof.
  intros [pre f post P Hd|f rest P] B; apply lookup_frames_some.
  - apply Forall_app in B. destruct B as [B _].
    exists pre, (set_vars f (assoc_set k v (f_vars f))), post. repeat split; [now apply lacks_passes|].
    cbn. apply assoc_set_same.
  - exists [], (set_vars f (assoc_set k v (f_vars f))), rest. repeat split; [constructor|]. cbn. apply assoc_set_same.
Qed.

Lemma lookup_frames_ext k : forall fs fs',
  Forall2 (fun g g' => assoc k (f_vars g') = assoc k (f_vars g) /\ f_bubble g' = f_bubble g) fs fs' ->
  lookup_frames k fs' = lookup_frames k fs.
Proof.
  induction 1 as [|g g' fs fs' [A Bu] F IH]; cbn; [reflexivity|]. rewrite A, Bu, IH. reflexivity.
Qed.

Lemma assigned_read_other k v fs fs' : assigned k v fs fs' -> forall k', k' <> k ->
  lookup_frames k' fs' = lookup_frames k' fs.
Proof.
  intros As k' N. apply lookup_frames_ext, (assigned_Forall2 _ _ _ _ _ As); [auto|].
  intros g. split; [now apply assoc_set_other|reflexivity].
Qed.

Lemma declared_nil old : declared [] old old.
Proof. intros k. cbn. destruct (assoc k old); reflexivity. Qed.

Lemma declared_step s names old mid new :
  (forall k, assoc k mid = match assoc k old with Some x => Some x
                                             | None => if String.eqb k s then Some VNil else None end) ->
  declared names mid new -> declared (s :: names) old new.
Proof.
  intros M D k. rewrite (D k), (M k). cbn. destruct (assoc k old); [reflexivity|].
  destruct (String.eqb k s); [reflexivity|]. reflexivity.
Qed.

Lemma declare_top_var_frames c s f rest : c_frames c = f :: rest ->
  exists vars, c_frames (declare_top_var c s) = set_vars f vars :: rest /\
    (forall k, assoc k vars = match assoc k (f_vars f) with Some x => Some x
                                                       | None => if String.eqb k (lower s) then Some VNil else None end) /\
    declare_top_var c s = set_frames c (c_frames (declare_top_var c s)).
Proof.
  intros E. unfold declare_top_var, upd_top. rewrite E. cbn.
  destruct (assoc (lower s) (f_vars f)) as [x|] eqn:A.
  - exists (f_vars f). split; [destruct f; reflexivity|]. split; [|reflexivity]. intros k.
    destruct (assoc k (f_vars f)) eqn:A2; [reflexivity|].
    destruct (String.eqb k (lower s)) eqn:Ek; [|reflexivity]. apply String.eqb_eq in Ek. congruence.
  - exists (assoc_set (lower s) VNil (f_vars f)). split; [reflexivity|]. split; [|reflexivity]. intros k.
    destruct (String.eqb k (lower s)) eqn:Ek.
    + apply String.eqb_eq in Ek. subst k. rewrite assoc_set_same, A. reflexivity.
    + apply String.eqb_neq in Ek. rewrite (assoc_set_other _ _ _ Ek). destruct (assoc k (f_vars f)); reflexivity.
Qed.

Lemma fold_declare_frames : forall l c f rest, c_frames c = f :: rest ->
  let c' := fold_left (fun c' x => match x with VStr s => declare_top_var c' s | _ => c' end) l c in
  exists vars, c_frames c' = set_vars f vars :: rest /\ declared (names_of l) (f_vars f) vars /\
               c' = set_frames c (c_frames c').
Proof.
  induction l as [|x l IH]; intros c f rest E; cbn.
  - exists (f_vars f). split; [rewrite E; destruct f; reflexivity|]. split; [apply declared_nil|]. destruct c; reflexivity.
  - destruct x; try exact (IH c f rest E).
    destruct (declare_top_var_frames c s f rest E) as (mid & F1 & M & R1).
    destruct (IH (declare_top_var c s) (set_vars f mid) rest F1) as (vars & F & D & R).
    exists vars. split; [exact F|]. split; [exact (declared_step _ _ _ _ _ M D)|]. rewrite R at 1. rewrite R1. reflexivity.
Qed.

Lemma op_private_string s r c r' c' x : op_unary "private" (VStr s) r c = Ok (r', c', x) ->
  r' = r /\ x = VNil /\ c' = declare_top_var c s.
Proof. cbn. intros H; inversion H; auto. Qed.

Lemma op_private_array l r c r' c' x : op_unary "private" (VArr l) r c = Ok (r', c', x) ->
  r' = r /\ x = VNil /\ arr_all_strings l = true /\
  c' = fold_left (fun c' x => match x with VStr s => declare_top_var c' s | _ => c' end) l c.
Proof. cbn. destruct (arr_all_strings l); [|discriminate]. intros H; inversion H; auto. Qed.

(* every [pop_value c = Some (v, c1)] of the context is replaced by what pop_value_inv says of it *)
Ltac pops :=
  repeat match goal with
  | P : pop_value ?c = Some (_, _) |- _ =>
      let vs := fresh "vs" in let g := fresh "g" in let rs := fresh "rs" in
      let EV := fresh "EV" in let EF := fresh "EF" in
      apply pop_value_inv in P; destruct P as (vs & g & rs & EV & EF & _ & ->)
  end.

Lemma enact_effect b r c br b' r' c' f rest : enact b r c = Ok (br, b', r', c') -> c_frames c = f :: rest ->
  same_store r r' /\ same_kind b b' /\
  if restarts br b
  then exists vars, c_frames c' = set_vars f vars :: rest /\ fresh_scope b' vars /\ for_advances b f vars
  else (c_frames c' = f :: rest \/ (c_frames c' = set_vars f [] :: rest /\ fresh_scope b' [])).
Proof.
  intros H E. destruct (enact_round_inv _ _ _ _ _ _ _ H) as (K & c0 & P & L & C).
  pose proof (pops_frames _ _ P) as E0. rewrite E in E0.
  split; [destruct L as [|d _|d t r2 _ N]; eauto using same_store_refl, same_store_logmsg, same_store_trans, same_store_now|].
  split; [exact K|]. destruct C as [ |v|Fs|vars Fs Fa|w Fs Fa].
  - left. exact E0.
  - left. exact E0.
  - right. split; [exact (frames_restart_with _ _ _ _ E0)|exact Fs].
  - exists vars. split; [exact (frames_restart_with _ _ _ _ E0)|]. split; [exact Fs|exact (Fa _ _ E0)].
  - exists []. split; [exact (frames_restart_with (set_suspended c0 true w) [] _ _ E0)|]. split; [exact Fs|apply Fa].
Qed.

Lemma same_kind_trans a b c : same_kind a b -> same_kind b c -> same_kind a c.
Proof. destruct a, b; cbn; try contradiction; destruct c; cbn; try contradiction; intuition congruence. Qed.
Lemma same_kind_refl a : same_kind a a.
Proof. destruct a; cbn; auto. Qed.

Lemma same_scope_id_trans a b c : same_scope_id a b -> same_scope_id b c -> same_scope_id a c.
Proof. unfold same_scope_id. intros (A1 & A2 & A3 & A4) (B1 & B2 & B3 & B4). repeat split; try congruence. destruct B4 as [B4|B4]; [destruct A4 as [A4|A4]; [left|right]; congruence|right; exact B4]. Qed.

(* after the exit behaviour the top frame F is still the scope of f, with the updated behaviour; its variables are kept
   or are those of a fresh round *)
Lemma enacted_effect r c res0 br b' r2 c3 f rest : enacted r c res0 br b' r2 c3 -> c_frames c = f :: rest ->
  same_store r r2 /\ exists b F, f_exit f = Some b /\ same_kind b b' /\ c_frames c3 = F :: rest /\ f_exit F = Some b' /\
    same_scope_id f F /\ (f_vars F = f_vars f \/ fresh_scope b' (f_vars F)).
Proof.
  intros [f0 rest0 res1 f1 b br1 b1 r3 c2 F A X E] E0. rewrite E0 in F. injection F as <- <-.
  assert (S1 : same_scope_id f f1 /\ f_vars f1 = f_vars f /\ f_exit f1 = f_exit f)
    by (destruct (advance_inv _ _ _ A) as [->| ->]; repeat split; left; reflexivity).
  destruct S1 as (S1 & V1 & X1). rewrite X1 in X.
  destruct (enact_effect _ _ _ _ _ _ _ f1 rest E eq_refl) as (St & K & Fr).
  split; [exact St|]. exists b.
  assert (G : exists F, c_frames c2 = F :: rest /\ same_scope_id f F /\ (f_vars F = f_vars f \/ fresh_scope b1 (f_vars F))).
  { destruct (restarts br1 b).
    - destruct Fr as (vars & Fr & Fs & _). exists (set_vars f1 vars). auto.
    - destruct Fr as [Fr|[Fr Fs]]; [exists f1|exists (set_vars f1 [])]; auto. }
  destruct G as (F & EF & SF & VF). exists (set_exit F (Some b1)).
  repeat split; try assumption; try apply SF. exact (frames_upd_top _ _ _ _ EF).
Qed.

(* a frame with the variables of such an F is a frame of the scope of f with kept or fresh variables ... *)
Lemma kept_or_fresh_vars f F F' b b' : f_exit f = Some b -> same_kind b b' ->
  (f_vars F = f_vars f \/ fresh_scope b' (f_vars F)) -> f_vars F' = f_vars F -> vars_kept_or_fresh f F'.
Proof. intros X K [VF|VF] HV; [left; congruence|right; exists b, b'; rewrite HV; auto]. Qed.

(* ... and so is what frame::next makes (f2) of such a frame that still has the behaviour b' *)
Lemma kept_or_fresh_round f F F' f2 b b' : f_exit f = Some b -> same_kind b b' -> same_scope_id f F ->
  (f_vars F = f_vars f \/ fresh_scope b' (f_vars F)) ->
  f_vars F' = f_vars F -> f_exit F' = Some b' -> same_scope_id F F' ->
  same_scope_id F' f2 -> vars_kept_or_fresh F' f2 -> same_scope_id f f2 /\ vars_kept_or_fresh f f2.
Proof.
  intros X K SF VF HV HX HS S2 V2. split; [exact (same_scope_id_trans _ _ _ SF (same_scope_id_trans _ _ _ HS S2))|].
  destruct V2 as [V2|(b0 & b1 & Y0 & K2 & Fs2)].
  - apply (kept_or_fresh_vars f F f2 b b' X K VF). congruence.
  - right. rewrite HX in Y0. injection Y0 as <-. exists b, b1. eauto using same_kind_trans.
Qed.

Lemma frame_next_effect : forall fuel r c fr r1 c1 f rest,
  frame_next fuel r c = Ok (fr, r1, c1) -> c_frames c = f :: rest ->
  same_store r r1 /\
  exists f1, c_frames c1 = f1 :: rest /\ same_scope_id f f1 /\ vars_kept_or_fresh f f1.
Proof.
  intros fuel r c fr r1 c1 f rest H. apply frame_next_inv in H. revert f rest.
  induction H as [r c f0 rest0 res0 f1 F A|r c res0 br b' r2 c3 En _|r c res0 b' r2 c3 En|r c res0 b' r2 c3 En _
                 |r c res0 b' r2 c3 fr r' c' En _ IH|r c res0 code' b' r2 c3 fr r' c' En _ IH]; intros f rest E.
  { rewrite E in F. injection F as <- <-. split; [apply same_store_refl|]. exists f1. split; [reflexivity|].
    destruct (advance_inv _ _ _ A) as [->| ->]; repeat split; left; reflexivity. }
  all: destruct (enacted_effect _ _ _ _ _ _ _ _ _ En E) as (St & b & F & X & K & EF & XF & SF & VF).
  all: pose proof (fun F' => kept_or_fresh_vars f F F' b b' X K VF) as VK.
  - split; [exact St|]. exists F. auto.
  - split; [exact St|]. eexists. split; [exact (frames_upd_top _ _ _ _ EF)|]. split; [exact SF|apply VK; reflexivity].
  - split; [exact St|]. eexists. unfold restart_scope.
    split; [rewrite frames_clear_values; exact (frames_upd_top _ _ _ _ EF)|]. split; [|apply VK; reflexivity].
    destruct SF as (Q1 & Q2 & Q3 & _). repeat split; [exact Q1|exact Q2|exact Q3|right; reflexivity].
  - destruct (IH (set_scope (set_pos F 0) "") rest) as (St2 & f2 & E2 & S2 & V2);
      [unfold restart_scope; rewrite frames_clear_values; exact (frames_upd_top _ _ _ _ EF)|].
    split; [exact (same_store_trans _ _ _ St St2)|]. exists f2. split; [exact E2|].
    apply (kept_or_fresh_round f F (set_scope (set_pos F 0) "") f2 b b' X K SF VF eq_refl XF); [repeat split; right; reflexivity|exact S2|exact V2].
  - destruct (IH _ rest (frames_upd_top _ _ _ _ EF)) as (St2 & f2 & E2 & S2 & V2).
    split; [exact (same_store_trans _ _ _ St St2)|]. exists f2. split; [exact E2|].
    match type of S2 with same_scope_id ?F' _ => apply (kept_or_fresh_round f F F' f2 b b' X K SF VF) end;
      [| | |exact S2|exact V2]; destruct b' as [|? [|] ? ?| | | | | | | |]; try reflexivity; repeat split; cbn; auto.
Qed.

Lemma cur_same_store r r1 : same_store r r1 -> cur r1 = cur r.
Proof. intros (_ & C & A). unfold cur. now rewrite C, A. Qed.

Lemma frames_complete_frame r c1 f1 rest : c_frames c1 = f1 :: rest -> c_frames (complete_frame r c1) = rest.
Proof.
  intros E1. unfold complete_frame.
  assert (T : forall c2, c_frames c2 = f1 :: rest -> c_frames (pop_frame (clear_values c2)) = rest)
    by (intros c2 E2; cbn; now rewrite frames_clear_values, E2).
  destruct (pop_value c1) as [[v c2]|] eqn:P.
  - pops. exact (T (set_values c1 vs) E1).
  - destruct (defect r _); [exact (T _ E1)|].
    rewrite <- (T _ E1). destruct (c_frames (pop_frame (clear_values c1))) eqn:X; exact X.
Qed.

Lemma ns_get_case r ns n m : lower n = lower m -> ns_get r ns n = ns_get r ns m.
Proof. unfold ns_get. now intros ->. Qed.
Lemma ns_set_case r ns n m v : lower n = lower m -> ns_set r ns n v = ns_set r ns m v.
Proof. unfold ns_set. now intros ->. Qed.

Lemma ns_get_set_same r ns n m v : lower n = lower m -> ns_get (ns_set r ns n v) ns m = Some v.
Proof. intros E. unfold ns_get, ns_set. cbn. rewrite assoc_set_same, E. apply assoc_set_same. Qed.

Lemma ns_get_set_other_name r ns n m v : lower n <> lower m -> ns_get (ns_set r ns n v) ns m = ns_get r ns m.
Proof.
  intros N. unfold ns_get, ns_set. cbn. rewrite assoc_set_same.
  rewrite assoc_set_other by congruence. destruct (assoc ns (r_nss r)); reflexivity.
Qed.

Lemma ns_get_set_other_ns r ns ns' n m v : ns' <> ns -> ns_get (ns_set r ns n v) ns' m = ns_get r ns' m.
Proof. intros N. unfold ns_get, ns_set. cbn. now rewrite assoc_set_other. Qed.
Lemma ns_get_set_other r ns n v ns' m : ns' <> ns \/ lower m <> lower n -> ns_get (ns_set r ns n v) ns' m = ns_get r ns' m.
Proof.
  intros [N|N]; [now apply ns_get_set_other_ns|]. destruct (String.eqb ns' ns) eqn:Es.
  - apply String.eqb_eq in Es. subst ns'. apply ns_get_set_other_name. congruence.
  - apply String.eqb_neq in Es. now apply ns_get_set_other_ns.
Qed.

(* GETVARIABLE / ASSIGNTO of a global name: the current frame's namespace, the lower-cased name *)
Lemma exec_get_global n r c f rest : is_local n = false -> c_frames c = f :: rest ->
  exec_instr (IGet n) r c =
  match ns_get r (f_ns f) n with
  | Some v => Ok (r, push_value c v)
  | None => Ok (logmsg r d_VariableNotFound, push_value c VNil) end.
Proof. intros L E. cbn [exec_instr]. now rewrite L, E. Qed.

Lemma exec_assign_global n r c r' c' : is_local n = false -> n <> "" -> exec_instr (IAssign n) r c = Ok (r', c') ->
  (pop_value c = None /\ c' = c /\ same_store r r') \/
  exists v f rest, pop_value c = Some (v, c') /\ c_frames c = f :: rest /\ c_frames c' = c_frames c /\
     r_nss r' = r_nss (ns_set r (f_ns f) n v) /\ r_ctxs r' = r_ctxs r /\
     ns_get r' (f_ns f) n = Some v.
Proof.
  intros L N H. cbn [exec_instr] in H. apply String.eqb_neq in N. rewrite N, L in H.
  destruct (pop_value c) as [[v c1]|] eqn:P.
  - right. destruct (pop_value_inv _ _ _ P) as (vs & f & rest & EV & EF & _ & ->).
    change (c_frames (set_values c vs)) with (c_frames c) in H. rewrite EF in H. inversion H; subst; clear H.
    exists v, f, rest. repeat split; auto.
    + destruct v; cbn; rewrite ?nss_logmsg; reflexivity.
    + destruct v; cbn; rewrite ?ctxs_logmsg; reflexivity.
    + apply ns_get_set_same. reflexivity.
  - inversion H; subst. left. repeat split; auto using nss_logmsg, ctxs_logmsg, active_logmsg.
Qed.

Lemma op_setvariable s name x r c r' c' y :
  op_binary "setvariable" (VNs s) (VArr [VStr name; x]) r c = Ok (r', c', y) ->
  r' = ns_set r s name x /\ c' = c /\ y = VNil.
Proof. cbn. intros H; inversion H; auto. Qed.
Lemma op_getvariable_string s name r c :
  op_binary "getvariable" (VNs s) (VStr name) r c =
  Ok (r, c, match ns_get r s name with Some x => x | None => VNil end).
Proof. reflexivity. Qed.
Lemma op_getvariable_default s name d r c :
  op_binary "getvariable" (VNs s) (VArr [VStr name; d]) r c =
  Ok (r, c, match ns_get r s name with Some x => x | None => d end).
Proof. reflexivity. Qed.

Lemma ns_of_push_frame c ns code ex er vars : ns_of (push_frame c (mk_frame ns code ex er vars)) = ns :: ns_of c.
Proof. reflexivity. Qed.
Lemma ns_of_upd_top c g : (forall f, f_ns (g f) = f_ns f) -> ns_of (upd_top c g) = ns_of c.
Proof. intros G. unfold ns_of, upd_top. destruct (c_frames c) eqn:E; cbn; rewrite ?E; cbn; [reflexivity|now rewrite G]. Qed.
Lemma ns_of_clear_values c : ns_of (clear_values c) = ns_of c.
Proof. unfold ns_of. now rewrite frames_clear_values. Qed.
Lemma assign_frames_ns k v : forall fs fs', assign_frames k v fs = Some fs' -> map f_ns fs' = map f_ns fs.
Proof.
  induction fs as [|g fs IH]; cbn; intros fs' H; [discriminate|].
  destruct (assoc k (f_vars g)); [inversion H; reflexivity|].
  destruct (assign_frames k v fs) eqn:E; [|discriminate]. inversion H; subst. cbn. f_equal. now apply IH.
Qed.
Lemma ns_of_assign_local_var c n v : ns_of (assign_local_var c n v) = ns_of c.
Proof.
  unfold assign_local_var. destruct (assign_frames (lower n) v (c_frames c)) eqn:E.
  - unfold ns_of. cbn. eapply assign_frames_ns; eauto.
  - now apply ns_of_upd_top.
Qed.
Lemma ns_of_declare_top_var c s : ns_of (declare_top_var c s) = ns_of c.
Proof. apply ns_of_upd_top. intros f. destruct (assoc (lower s) (f_vars f)); reflexivity. Qed.
Lemma ns_of_fold_declare : forall l c,
  ns_of (fold_left (fun c' x => match x with VStr s => declare_top_var c' s | _ => c' end) l c) = ns_of c.
Proof. induction l as [|x l IH]; intros c; cbn; [reflexivity|]. rewrite IH. destruct x; auto using ns_of_declare_top_var. Qed.
Lemma ns_of_pop_clearing : forall k c, ns_of (pop_clearing k c) = skipn k (ns_of c).
Proof.
  induction k as [|k IH]; intros c; cbn; [reflexivity|]. rewrite IH. unfold ns_of, pop_frame. cbn.
  rewrite frames_clear_values. destruct (c_frames c); cbn; [now destruct k|reflexivity].
Qed.
Lemma ns_of_drop c k : ns_of (set_frames c (skipn k (c_frames c))) = skipn k (ns_of c).
Proof. unfold ns_of. cbn. symmetry. apply skipn_map. Qed.
Lemma map_ns_list_upd : forall fs k f f', nth_error fs k = Some f -> f_ns f' = f_ns f ->
  map f_ns (list_upd fs k f') = map f_ns fs.
Proof.
  induction fs as [|g fs IH]; intros [|k] f f' N E; cbn in *; try discriminate.
  - inversion N; subst. now rewrite E.
  - f_equal. eauto.
Qed.

Lemma cur_ns_frames c c1 : c_frames c1 = c_frames c -> cur_ns c1 = cur_ns c.
Proof. unfold cur_ns. now intros ->. Qed.

Lemma err_enact_ns r c k failed r' c' : err_enact r c k = Ok (failed, r', c') ->
  ns_of c' = ns_of c /\ same_store r r'.
Proof.
  intros H. apply err_enact_inv in H.
  destruct H as [-> [|f h exc c1 N P]]; (split; [|apply same_store_refl]); [reflexivity|].
  unfold ns_of. cbn. rewrite frames_clear_values, (pops_frames _ _ P). eapply map_ns_list_upd; eauto.
Qed.

Lemma op_throw_ns r c v r' c' x : op_throw r c v = Ok (r', c', x) -> ns_step c c' /\ same_store r r'.
Proof.
  unfold op_throw. intros H.
  destruct (find_handler (c_frames c) 0) as [k|].
  2:{ inversion H; subst. split; [now apply NsSame|apply same_store_logmsg]. }
  unfold bindr in H. destruct (err_enact r (push_value c (VTrace v)) k) as [[[failed r2] c2]| | |] eqn:En; try discriminate.
  apply err_enact_ns in En. destruct En as (Ns & St). change (ns_of (push_value c (VTrace v))) with (ns_of c) in Ns.
  destruct failed.
  - assert (N3 : ns_of (if Nat.ltb 0 (length (c_values c))
                        then match pop_value c2 with Some (_, c'0) => c'0 | None => c2 end else c2) = ns_of c).
    { destruct (Nat.ltb _ _); [|exact Ns]. destruct (pop_value c2) as [[y c3]|] eqn:P; [|exact Ns]. pops. exact Ns. }
    inversion H; subst; clear H. split; [apply NsSame; exact N3|].
    eapply same_store_trans; [exact St|apply same_store_logmsg].
  - inversion H; subst; clear H. split; [|exact St]. apply (NsDrop _ _ k). rewrite ns_of_drop. now rewrite Ns.
Qed.

Lemma op_breakout_ns r c v t r' c' x : op_breakout r c v t = Ok (r', c', x) -> ns_step c c' /\ same_store r r'.
Proof.
  unfold op_breakout. intros H. destruct (c_frames c) as [|f fs] eqn:EF; [discriminate|].
  assert (L : forall k, ns_of (if defect r "breakout_leaks_regions" then set_frames c (skipn k (f :: fs)) else pop_clearing k c)
                        = skipn k (ns_of c)).
  { intros k. destruct (defect r _); [rewrite <- EF; apply ns_of_drop|apply ns_of_pop_clearing]. }
  destruct (String.eqb t "").
  - inversion H; subst; clear H. split; [apply (NsDrop _ _ 1); exact (L 1)|apply same_store_refl].
  - destruct (find_scope t (f :: fs) 0) as [k|]; inversion H; subst; clear H.
    + split; [apply (NsDrop _ _ k); exact (L k)|apply same_store_refl].
    + split; [now apply NsSame|apply same_store_logmsg].
Qed.

Lemma op_unary_ns n v r c r' c' x : op_unary n v r c = Ok (r', c', x) -> ns_step c c'.
Proof.
  intros H. apply op_unary_inv in H.
  destruct H as [ | | | |? ? ? H|? ? ? ? H| | | | | | ]; try (apply NsSame; reflexivity).
  - apply NsPush. reflexivity.
  - apply NsSame, ns_of_assign_local_var.
  - now apply op_throw_ns in H.
  - now apply op_breakout_ns in H.
  - apply NsSame, ns_of_upd_top. reflexivity.
  - apply NsSame, ns_of_fold_declare.
Qed.

(* the scope that with-do pushes is the one scope that does not inherit its namespace *)
Lemma op_binary_ns n l v r c r' c' x : op_binary n l v r c = Ok (r', c', x) ->
  ns_step c c' \/ exists s body, n = "do" /\ l = VWith s /\ v = VCode body /\ ns_of c' = s :: ns_of c.
Proof.
  intros H. apply op_binary_inv in H.
  destruct H as [ | | |s body| | |? ? ? ? H|? ? ? H| | ]; try (left; apply NsSame; reflexivity).
  - left. apply NsPush. reflexivity.
  - right. exists s, body. auto.
  - left. apply NsPush. rewrite ns_of_push_frame, ns_of_upd_top; reflexivity.
  - left. apply NsSame. rewrite ns_of_upd_top by reflexivity. apply ns_of_assign_local_var.
  - left. now apply op_breakout_ns in H.
  - left. now apply op_throw_ns in H.
Qed.

Lemma ctx_frames_terminate r id :
  ctx_frames (set_ctxs r (map (fun y => if Nat.eqb (c_id y) id then set_terminate y true else y) (r_ctxs r))) = ctx_frames r.
Proof.
  unfold ctx_frames. cbn. rewrite map_map. apply map_ext. intros y. destruct (Nat.eqb (c_id y) id); reflexivity.
Qed.

Lemma same_store_frames r r' : same_store r r' -> r_nss r' = r_nss r /\ ctx_frames r' = ctx_frames r.
Proof. unfold ctx_frames. intros (N & C & _). now rewrite N, C. Qed.
Lemma same_store_diag_log r d s : same_store r (mark (logmsg r d) s).
Proof. apply (same_store_trans _ _ _ (same_store_logmsg r d)). repeat split. Qed.
Lemma op_throw_store r c v r' c' x : op_throw r c v = Ok (r', c', x) -> same_store r r'.
Proof. intros H. now apply op_throw_ns in H. Qed.
Lemma op_breakout_store r c v t r' c' x : op_breakout r c v t = Ok (r', c', x) -> same_store r r'.
Proof. intros H. now apply op_breakout_ns in H. Qed.

(* of the unary operators only terminate touches a stored context, and it leaves the frames alone *)
Lemma op_unary_store n v r c r' c' x : op_unary n v r c = Ok (r', c', x) ->
  r_nss r' = r_nss r /\ ctx_frames r' = ctx_frames r.
Proof.
  intros H. apply op_unary_inv in H.
  destruct H; try (apply same_store_frames;
    eauto using same_store_refl, same_store_logmsg, same_store_now, same_store_diag_log, op_throw_store, op_breakout_store; fail).
  split; [reflexivity|apply ctx_frames_terminate].
Qed.

(* of the binary operators only setVariable writes a namespace and only spawn adds a context *)
Lemma op_binary_store n l v r c r' c' x : op_binary n l v r c = Ok (r', c', x) ->
  (r_nss r' = r_nss r \/ exists s name y, n = "setvariable" /\ l = VNs s /\ v = VArr [VStr name; y] /\ r' = ns_set r s name y) /\
  (ctx_frames r' = ctx_frames r \/
   exists nc f, n = "spawn" /\ r_ctxs r' = r_ctxs r ++ [nc] /\ c_frames nc = [f] /\ f_ns f = default_ns /\
                f_vars f = [("_thisscript", VScript (r_next_id r)); ("_this", l)]).
Proof.
  intros H. apply op_binary_inv in H.
  pose proof (same_store_frames r r') as S.
  destruct H; try (destruct S as (N & C);
    [eauto using same_store_refl, same_store_logmsg, op_throw_store, op_breakout_store|auto]; fail).
  - (* spawn *) split; [left; reflexivity|]. right. eexists. eexists. repeat split; assumption.
  - (* setVariable *) split; [right; eauto 7|left; reflexivity].
Qed.

Lemma same_store_opt_log r r1 : opt_log r r1 -> same_store r r1.
Proof. intros [|d]; [apply same_store_refl|apply same_store_logmsg]. Qed.

Lemma ns_step_transport c1 c2 c c' : ns_step c1 c2 -> c_frames c1 = c_frames c -> ns_of c' = ns_of c2 -> ns_step c c'.
Proof.
  intros S E E'. assert (N : ns_of c1 = ns_of c) by (unfold ns_of; now rewrite E).
  pose proof (cur_ns_frames _ _ E) as Cn.
  destruct S as [S|S|k S]; [apply NsSame|apply NsPush|apply (NsDrop _ _ k)]; congruence.
Qed.

Lemma ns_same_frames c c' : c_frames c' = c_frames c -> ns_step c c'.
Proof. intros E. apply NsSame. unfold ns_of. now rewrite E. Qed.

Lemma exec_instr_ns i r c r' c' : exec_instr i r c = Ok (r', c') ->
  ns_step c c' \/
  exists n s body vs, i = IBinary n /\ lower n = "do" /\ c_values c = VCode body :: VWith s :: vs /\
                      ns_of c' = s :: ns_of c.
Proof.
  intros H. apply exec_instr_inv in H.
  destruct H as [c0 v r1 P _| |c0 r1 P _|n v c1 r1 _ _ P _|n v c1 r1 f rest _ _ P _ _|n v c1 r1 _ P _
                |n v c1 r1 c2 y _ P O|n l v c1 c2 r1 c3 y -> P P2 O].
  1-6: left.
  - apply ns_same_frames, (pops_frames _ _ P).
  - apply NsSame, ns_of_clear_values.
  - apply ns_same_frames, (pops_frames _ _ P).
  - pops. apply NsSame. now rewrite ns_of_assign_local_var.
  - pops. now apply ns_same_frames.
  - pops. apply NsSame. unfold set_top_var. now rewrite ns_of_upd_top.
  - left. pops. apply op_unary_ns in O. exact (ns_step_transport _ _ c (push_value _ y) O eq_refl eq_refl).
  - destruct (pop_value_inv _ _ _ P) as (vs & g & rs & EV & _ & _ & ->).
    destruct (pop_value_inv _ _ _ P2) as (vs2 & g2 & rs2 & EV2 & _ & _ & ->). cbn in EV2.
    apply op_binary_ns in O. destruct O as [O|(s & body & En & -> & -> & Ns)].
    + left. exact (ns_step_transport _ _ c (push_value _ y) O eq_refl eq_refl).
    + right. exists n, s, body, vs2. rewrite EV, EV2. auto.
Qed.

Lemma exec_instr_store i r c r' c' : exec_instr i r c = Ok (r', c') ->
  (r_nss r' = r_nss r \/
   (exists n v f rest, i = IAssign n /\ is_local n = false /\ c_frames c = f :: rest /\
                       r_nss r' = r_nss (ns_set r (f_ns f) n v)) \/
   (exists n s name y, i = IBinary n /\ lower n = "setvariable" /\ r_nss r' = r_nss (ns_set r s name y))) /\
  (ctx_frames r' = ctx_frames r \/
   exists n nc f l, i = IBinary n /\ lower n = "spawn" /\ r_ctxs r' = r_ctxs r ++ [nc] /\ c_frames nc = [f] /\
                    f_ns f = default_ns /\ f_vars f = [("_thisscript", VScript (r_next_id r)); ("_this", l)]).
Proof.
  intros H. apply exec_instr_inv in H.
  assert (Same : forall r1, opt_log r r1 -> r_nss r1 = r_nss r /\ ctx_frames r1 = ctx_frames r)
    by (intros r1 L; apply same_store_frames, same_store_opt_log, L).
  destruct H as [c0 v r1 _ L| |c0 r1 _ L|n v c1 r1 _ _ _ L|n v c1 r1 f rest -> Ln P F L|n v c1 r1 _ _ L
                |n v c1 r1 c2 y _ _ O|n l v c1 c2 r1 c3 y -> _ _ O];
    try (destruct (Same _ L) as (N & C); auto; fail).
  - auto.
  - destruct (Same _ L) as (N & C). split; [right; left|left; exact C].
    exists n, v, f, rest. pops. unfold ns_set. cbn. rewrite N. auto.
  - apply op_unary_store in O. destruct O as (N & C). auto.
  - apply op_binary_store in O. destruct O as (O1 & O2). split.
    + destruct O1 as [O1|(s & name & y0 & En & _ & _ & ->)]; [auto|]. right; right. exists n, s, name, y0. auto.
    + destruct O2 as [O2|(nc & f & En & Ec & Ef & Ens & Ev)]; [auto|]. right. exists n, nc, f, l. auto 7.
Qed.

Lemma handle_error_ns : forall fuel r c msgs skip rec r' c',
  handle_error fuel r c msgs skip = Ok (rec, r', c') ->
  same_store r r' /\ exists k, ns_of c' = skipn k (ns_of c).
Proof.
  induction fuel as [|fuel IH]; intros r c msgs skip rec r' c' H; [discriminate|].
  cbn [handle_error] in H.
  destruct (find_handler (skipn skip (c_frames c)) skip) as [k|].
  2:{ inversion H; subst. split; [apply same_store_refl|]. exists 0. reflexivity. }
  unfold bindr in H.
  match type of H with context [err_enact r ?cc 0] => destruct (err_enact r cc 0) as [[[failed r3] c3]| | |] eqn:En end; try discriminate.
  apply err_enact_ns in En. destruct En as (Ns & St).
  rewrite ns_of_drop in Ns. change (ns_of (push_value c _)) with (ns_of c) in Ns.
  destruct failed.
  - apply IH in H. destruct H as (St2 & k2 & N2). split; [eapply same_store_trans; eauto|].
    assert (N3 : ns_of (match pop_value c3 with Some (_, c'0) => c'0 | None => c3 end) = ns_of c3).
    { destruct (pop_value c3) as [[y c4]|] eqn:P; [|reflexivity]. pops. reflexivity. }
    exists (k2 + k). rewrite N2, N3, Ns. apply skipn_skipn_add.
  - inversion H; subst. split; [exact St|]. exists k. exact Ns.
Qed.

Lemma on_error_ns r c rec r' : cur r = Some c -> on_error r = Ok (rec, r') ->
  exists c', cur r' = Some c' /\ exists k, ns_of c' = skipn k (ns_of c).
Proof.
  intros C H. unfold on_error in H.
  assert (C1 : cur (set_msgs r []) = Some c) by exact C.
  rewrite C1 in H. unfold bindr in H.
  destruct (handle_error _ _ _ _ _) as [[[rc r2] c2]| | |] eqn:HE; try discriminate.
  apply handle_error_ns in HE. destruct HE as (St & k & Ns).
  assert (C2 : cur r2 = Some c) by (rewrite (cur_same_store _ _ St); exact C1).
  exists c2. split; [|eauto].
  destruct rc; inversion H; subst; clear H.
  - change (cur (upd_cur r2 c2) = Some c2). eapply cur_upd_cur; eauto.
  - transitivity (cur (logmsg (upd_cur r2 c2) d_Stacktrace)); [reflexivity|].
    rewrite (cur_same_store _ _ (same_store_logmsg _ _)). eapply cur_upd_cur; eauto.
Qed.

(* error unwinding after a step drops scopes from the top *)
Lemma ns_unwound c c5 c' k : ns_step c c5 \/ with_do_pass c c5 -> ns_of c' = skipn k (ns_of c5) ->
  ns_step c c' \/ with_do_pass c c'.
Proof.
  intros [S|(c1 & n & s & body & vs & CI & Ln & Vs & N1 & W)] D.
  - left. destruct S as [S|S|j S].
    + apply (NsDrop _ _ k). congruence.
    + destruct k as [|k]; [apply NsPush; cbn in D; congruence|]. apply (NsDrop _ _ k). rewrite D, S. reflexivity.
    + apply (NsDrop _ _ (k + j)). rewrite D, S. apply skipn_skipn_add.
  - destruct k as [|k].
    + right. exists c1, n, s, body, vs. repeat split; auto. cbn in D. congruence.
    + left. apply (NsDrop _ _ k). rewrite D, W. reflexivity.
Qed.

(* an instruction executed on what frame::next left (c1, with the scopes of c) *)
Lemma executed_ns c c1 i r2 r3 c5 : ns_of c1 = ns_of c -> cur_ns c1 = cur_ns c -> current_instr c1 = Some i ->
  exec_instr i r2 c1 = Ok (r3, c5) -> ns_step c c5 \/ with_do_pass c c5.
Proof.
  intros N1 Cn1 CI X. destruct (exec_instr_ns _ _ _ _ _ X) as [[S|S|k S]|(n & s & body & vs & -> & Ln & Vs & W)].
  - left. apply NsSame. congruence.
  - left. apply NsPush. congruence.
  - left. apply (NsDrop _ _ k). congruence.
  - right. exists c1, n, s, body, vs. repeat split; auto. congruence.
Qed.

(* the current context stays addressable: an instruction keeps r_active and does not shorten the context list *)
Lemma exec_instr_cur i r c0 c r' c' : exec_instr i r c = Ok (r', c') -> cur r = Some c0 -> cur (upd_cur r' c') = Some c'.
Proof.
  intros X C. destruct (cur_valid _ _ C) as (idx & A & L). apply exec_instr_shape in X. destruct X as [Rc _].
  apply (cur_upd_cur_slot _ _ idx); [rewrite (reach_active _ _ Rc); exact A|pose proof (reach_len _ _ Rc); lia].
Qed.

Lemma same_store_deadline r1 e r2 : deadline_test r1 = (e, r2) -> same_store r1 r2.
Proof. intros D. destruct (deadline_test_inv _ _ _ D) as [->|[t N]]; [apply same_store_refl|exact (same_store_now _ _ _ N)]. Qed.

Lemma do_iter_ns r c it : cur r = Some c -> do_iter r = Ok it ->
  exists c', cur (iter_rt it) = Some c' /\ (ns_step c c' \/ with_do_pass c c').
Proof.
  intros C H. apply do_iter_pass in H.
  (* what frame::next leaves: a machine that stores what r stores, a context c1 with the scopes of c *)
  assert (Next : forall c0 fr r1 c1, ready r c0 -> frame_next frame_fuel r c0 = Ok (fr, r1, c1) ->
            ns_of c1 = ns_of c /\ cur_ns c1 = cur_ns c /\ (forall r2, same_store r1 r2 -> cur r2 = Some c) /\
            exists f f1 rest, c_frames c = f :: rest /\ c_frames c1 = f1 :: rest).
  { intros c0 fr r1 c1 (_ & C0 & _ & NE & _) N. rewrite C in C0. injection C0 as <-.
    destruct (c_frames c) as [|f rest] eqn:E; [contradiction|].
    destruct (frame_next_effect _ _ _ _ _ _ _ _ N E) as (St & f1 & E1 & (Sns & _) & _).
    split; [unfold ns_of; rewrite E1, E; cbn; now rewrite Sns|]. split; [unfold cur_ns; now rewrite E1, E|].
    split; [|eauto]. intros r2 S2. now rewrite (cur_same_store _ _ S2), (cur_same_store _ _ St). }
  (* error unwinding from the context c5 of a step that did to the scopes what the lemma allows *)
  assert (Unwound : forall r3 c5 rec r5 (g : rt -> iter), (forall x, iter_rt (g x) = x) ->
            cur (upd_cur r3 c5) = Some c5 -> ns_step c c5 \/ with_do_pass c c5 ->
            on_error (upd_cur r3 c5) = Ok (rec, r5) ->
            exists c', cur (iter_rt (if rec then g r5 else Return RRuntimeError r5)) = Some c' /\
                       (ns_step c c' \/ with_do_pass c c')).
  { intros r3 c5 rec r5 g G U5 S5 O. destruct (on_error_ns _ _ _ _ U5 O) as (c' & C' & k & D).
    exists c'. split; [destruct rec; [rewrite G|]; exact C'|exact (ns_unwound _ _ _ _ S5 D)]. }
  destruct H as [ | | | |c0 fr r1 c1 b r2 Hr N _ O|c0 r1 c1 Hr N _ _|c0 fr r1 c1 i r2 Hr N _ _ CI D
                |c0 fr r1 c1 i r2 r3 c5 Hr N _ _ CI D X _|c0 fr r1 c1 i r2 r3 c5 b r5 Hr N _ _ CI D X _ O
                |c0 r1 c1 r2 Hr N _ D|c0 r1 c1 r2 Hr N _ D];
    try (exists c; split; [exact C|left; now apply NsSame]);
    destruct (Next _ _ _ _ Hr N) as (N1 & Cn1 & C2 & f & f1 & rest & E & E1);
    assert (S1 : ns_step c c1 \/ with_do_pass c c1) by (left; now apply NsSame);
    assert (U : forall r2 cc, same_store r1 r2 -> cur (upd_cur r2 cc) = Some cc)
      by (intros r2' cc S2; exact (cur_upd_cur r2' c cc (C2 _ S2)));
    try apply same_store_deadline in D.
  - exact (Unwound r1 c1 b r2 Continue (fun _ => eq_refl) (U _ _ (same_store_refl r1)) S1 O).
  - (* frame completion *)
    eexists. split; [apply (U _ _ (same_store_refl r1))|]. left. apply (NsDrop _ _ 1).
    unfold ns_of. rewrite (frames_complete_frame _ _ _ _ E1), E. reflexivity.
  - exists c1. split; [|exact S1].
    change (cur (logmsg (upd_cur r2 c1) d_MaximumRuntimeReached) = Some c1). rewrite cur_logmsg. exact (U _ _ D).
  - exists c5. split; [|exact (executed_ns _ _ _ _ _ _ N1 Cn1 CI X)]. exact (exec_instr_cur _ _ _ _ _ _ X (C2 _ D)).
  - apply (Unwound r3 c5 b r5 Executed (fun _ => eq_refl)); [|exact (executed_ns _ _ _ _ _ _ N1 Cn1 CI X)|exact O].
    exact (exec_instr_cur _ _ _ _ _ _ X (C2 _ D)).
  - exists c1. split; [|exact S1].
    change (cur (logmsg (upd_cur r2 c1) d_MaximumRuntimeReached) = Some c1). rewrite cur_logmsg. exact (U _ _ D).
  - exists c1. split; [exact (U _ _ D)|exact S1].
Qed.

Lemma lookup_innermost c n :
  (forall v, get_variable c n = Some v <->
     exists pre f post, c_frames c = pre ++ f :: post /\ Forall (passes (lower n)) pre /\
                        assoc (lower n) (f_vars f) = Some v) /\
  (get_variable c n = None <->
     Forall (passes (lower n)) (c_frames c) \/
     exists pre f post, c_frames c = pre ++ f :: post /\ Forall (passes (lower n)) pre /\
                        lacks (lower n) f /\ f_bubble f = false) /\
  (forall m, lower m = lower n -> get_variable c m = get_variable c n).
Proof.
  split; [intros v; apply lookup_frames_some|]. split; [apply lookup_frames_none|].
  intros m E. now apply get_variable_case.
Qed.

Lemma assign_updates_nearest_else_current n r c r' c' :
  is_local n = true -> exec_instr (IAssign n) r c = Ok (r', c') ->
  same_store r r' /\
  ((pop_value c = None /\ c' = c) \/
   exists v, c_values c = v :: c_values c' /\
     assigned (lower n) v (c_frames c) (c_frames c') /\
     c' = set_frames (set_values c (c_values c')) (c_frames c') /\
     Forall2 (fun g g' => g' = set_vars g (f_vars g')) (c_frames c) (c_frames c') /\
     (forall k', k' <> lower n ->
        Forall2 (fun g g' => assoc k' (f_vars g') = assoc k' (f_vars g)) (c_frames c) (c_frames c')) /\
     (Forall (fun g => f_bubble g = true) (c_frames c) -> get_variable c' n = Some v) /\
     (forall m, lower m <> lower n -> get_variable c' m = get_variable c m)).
Proof.
  intros L H. destruct (exec_assign_local _ _ _ _ _ L H) as (St & [N|(v & EV & As & Ec)]); (split; [exact St|]); [left; exact N|].
  right. exists v. split; [exact EV|]. split; [exact As|]. split; [exact Ec|].
  split; [eapply assigned_only_vars; eauto|]. split; [eapply assigned_other_keys; eauto|].
  split; [intros B; unfold get_variable; eapply assigned_read_back; eauto|].
  intros m Nm. unfold get_variable. eapply assigned_read_other; eauto.
Qed.

Lemma get_set_variable_same_storage s name name' x r c r1 c1 y :
  op_binary "setvariable" (VNs s) (VArr [VStr name; x]) r c = Ok (r1, c1, y) -> lower name' = lower name ->
  op_binary "getvariable" (VNs s) (VStr name') r1 c1 = Ok (r1, c1, x) /\
  (forall d, op_binary "getvariable" (VNs s) (VArr [VStr name'; d]) r1 c1 = Ok (r1, c1, x)) /\
  (forall f rest, c_frames c1 = f :: rest -> f_ns f = s -> is_local name' = false ->
     exec_instr (IGet name') r1 c1 = Ok (r1, push_value c1 x)) /\
  (forall s' m, s' <> s \/ lower m <> lower name -> ns_get r1 s' m = ns_get r s' m) /\
  r_ctxs r1 = r_ctxs r /\ c1 = c.
Proof.
  intros H E. apply op_setvariable in H. destruct H as (-> & -> & ->).
  assert (G : ns_get (ns_set r s name x) s name' = Some x) by (apply ns_get_set_same; congruence).
  split; [rewrite op_getvariable_string, G; reflexivity|].
  split; [intros d; rewrite op_getvariable_default, G; reflexivity|].
  split; [intros f rest Ef En L; rewrite (exec_get_global _ _ _ _ _ L Ef), En, G; reflexivity|].
  split; [|split; reflexivity]. intros s' m. apply ns_get_set_other.
Qed.

Lemma globals_case_insensitive r ns n m : lower n = lower m ->
  ns_get r ns n = ns_get r ns m /\ (forall v, ns_set r ns n v = ns_set r ns m v) /\
  (forall c f rest, is_local n = false -> is_local m = false -> c_frames c = f :: rest ->
     exec_instr (IGet n) r c = exec_instr (IGet m) r c).
Proof.
  intros E. split; [now apply ns_get_case|]. split; [intros; now apply ns_set_case|].
  intros c f rest Ln Lm Ef. rewrite (exec_get_global _ _ _ _ _ Ln Ef), (exec_get_global _ _ _ _ _ Lm Ef).
  now rewrite (ns_get_case _ _ _ _ E).
Qed.

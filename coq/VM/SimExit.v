(* C02 simulation: the relation zev / zblock / .. of programs with blocks that are left early, and the two halves of the simulation
   over it: the VM model runs the compiled code accordingly (vm_runs_z) and the reference semantics computes the same outcome (ref_runs_z).
   The relation extends xev / xblock of SimCtl.v.  A block has an outcome (BNorm: ran to its end; BExit: left by exitWith).
   `if c exitWith {..}` ends the scope it stands in with the value of its block, whatever follows it in that scope and whatever operands
   the scope still holds: the machine marks the scope's frame as finished, runs the handler as a new frame, completes it, completes the
   abandoned frame with the handler's value and drops everything that frame still held (BodyEnds / ScopeEnds).  Further: the loops
   (ziter / zfor / zwhile), lazy operators, namespaces, try-catch-throw (zthrow; machine side ThrowRuns), scopeName / breakOut (zbreak;
   BreakRuns), switch (zswitch), and a round of a loop left by a throw or by breakOut to a scope outside the loop (zloopleave / zileave /
   zfleave / zwleave with the kind of exit `abr`; machine side Leaves0 / LeavesL) or to the name of the round's own scope (ZIterBreak,
   ZForBreak, ZWhileBreakCond, ZWhileBreakBody). *)
From Coq Require Import String Ascii.
From Coq Require Import ZArith List Bool Lia.
From SqfVerif Require Import Gen.DiagCodes Gen.Overloads VM.VmDefs VM.VmFacts VM.VmExec VM.RefSem VM.C02Proofs VM.SimDefs VM.SimProofs VM.SimBlock VM.SimCtl VM.SimThrowOps VM.SimBreakOps VM.SimSwitchOps VM.SimMach.
Import ListNotations.
Local Open Scope string_scope.
Local Open Scope list_scope.

Inductive bout := BNorm (reg:rvalue) | BExit (v:rvalue).
Definition val_of (o:bout) : rvalue := match o with BNorm reg => res_of reg | BExit v => v end.
Definition oc (o:bout) : outcome := match o with BNorm reg => ONormal reg | BExit v => OExit v end.
(* the two ways a loop is left that reach beyond it: a throw (to a handler outside the loop), breakOut to a scope outside the loop *)
Inductive abr := AThrow (x:rvalue) | ABreak (t:string) (v:rvalue).
Definition oa (a:abr) : outcome := match a with AThrow x => OThrow x | ABreak t v => OBreak t v end.

Inductive lkind := KForEach | KCount | KApply | KSelect | KFindIf.
Definition kvars (k:lkind) (i:nat) (x:rvalue) : list (string*rvalue) :=
  match k with KForEach => [("_foreachindex", RNum (Z.of_nat i)); ("_x", x)] | _ => [("_x", x)] end.
Definition kwith (k:lkind) : bool := match k with KForEach => true | _ => false end.
Definition kinit (k:lkind) : rvalue :=
  match k with KForEach => RNil | KCount => RNum 0 | KApply | KSelect => RArr [] | KFindIf => RNum (-1) end.
(* the step functions of RefSem.eval_binary, verbatim *)
Definition kstep (k:lkind) : rvalue -> nat -> rvalue -> rvalue -> option (bool * rvalue) :=
  match k with
  | KForEach => fun _ _ v _ => Some (true, match v with RNone => RNil | _ => v end)
  | KCount => fun _ _ v acc => match v, acc with
                               | RBool t, RNum c => Some (true, RNum (if t then c + 1 else c)%Z)
                               | RNil, _ => Some (true, acc)
                               | _, _ => None end
  | KSelect => fun x _ v acc => match v, acc with
                                | RBool t, RArr out => Some (true, RArr (if t then out ++ [x] else out))
                                | RNil, _ => Some (true, acc)
                                | _, _ => None end
  | KApply => fun _ _ v acc => match v, acc with RNone, _ => None | _, RArr out => Some (true, RArr (out ++ [v])) | _, _ => None end
  | KFindIf => fun _ i v acc => match v with
                                | RBool true => Some (false, RNum (Z.of_nat i))
                                | RBool false => Some (true, acc)
                                | _ => None end
  end.
(* what the machine's behaviour pops: a boolean for count / select / findIf, any value for apply, nothing for forEach *)
Definition kok (k:lkind) (reg:rvalue) : Prop :=
  match k with KForEach => True | KApply => reg <> RNone | _ => exists t, reg = RBool t end.
(* the behaviour of the loop frame that stands for "array all, round i, accumulated acc" *)
Definition kb (k:lkind) (all:list rvalue) (i:nat) (acc:rvalue) (b:behavior) : Prop :=
  match k, acc with
  | KForEach, _ => b = BForEach (map cv all) i
  | KCount, RNum cnt => b = BCount (map cv all) i cnt
  | KApply, RArr out => b = BApply (map cv all) (map cv out) i
  | KSelect, RArr out => b = BSelect (map cv all) (map cv out) i
  | KFindIf, RNum m => m = (-1)%Z /\ b = BFindIf (map cv all) i
  | _, _ => False end.

Definition kname (k:lkind) : string :=
  match k with KForEach => "foreach" | KCount => "count" | KApply => "apply" | KSelect => "select" | KFindIf => "findif" end.
(* operand order: code then array (forEach, count) or array then code (apply, select, findIf) *)
Definition kca (k:lkind) : bool := match k with KForEach | KCount => true | _ => false end.

(* for "_i" from a to b step c do {..}: the operators that fill in the loop description, the end test of the loop, and the
   loop variable as the body left it (the machine reads it back from the frame: assigning it in the body changes the iteration) *)
Definition for_set (m:string) (fr to st x:Z) : option (Z*Z*Z) :=
  if String.eqb m "from" then Some (x, to, st) else if String.eqb m "to" then Some (fr, x, st)
  else if String.eqb m "step" then Some (fr, to, x) else None.
Definition beyond (to st u:Z) : bool := if Z.leb 0 st then Z.ltb to u else Z.ltb u to.
Definition for_empty (fr to st:Z) : bool := andb (negb (Z.eqb st 0)) (if Z.ltb 0 st then Z.ltb to fr else Z.ltb fr to).
Definition top_var (s:sstate) (k:string) : option rvalue :=
  match st_scopes s with sc :: _ => assoc k (sc_vars sc) | [] => None end.

(* lazy && / and, || / or with a code block on the right: the left value that makes the right side unnecessary *)
Definition lazy_skip (n:string) : option bool :=
  if orb (String.eqb n "&&") (String.eqb n "and") then Some false
  else if orb (String.eqb n "||") (String.eqb n "or") then Some true else None.

(* the namespaces a program can name, and what `private "x"` does to the current scope: a name that is already bound
   there stays as it is, a new one is bound to nil *)
Definition ns_nular (n:string) : option string :=
  if String.eqb n "missionnamespace" then Some "missionNamespace"
  else if String.eqb n "uinamespace" then Some "uiNamespace" else None.
Definition declare (s:sstate) (x:string) : sstate :=
  match st_scopes s with
  | sc :: _ => match assoc (lower x) (sc_vars sc) with Some _ => s | None => bind_here s x RNil end
  | [] => s end.

(* scope names: the name of the innermost scope, and the innermost scope that carries a given name (counted from the top) *)
Definition top_name (s:sstate) : string := match st_scopes s with sc :: _ => sc_name sc | [] => "" end.
Fixpoint find_name (t:string) (l:list scope) (k:nat) : option nat :=
  match l with [] => None | sc :: r => if String.eqb (sc_name sc) t then Some k else find_name t r (S k) end.

(* switch: the bookkeeping of the reference semantics (RefSem.swst) and how the statements of a switch body change it: a label
   `case x` remembers that it matched (fall-through), `case x : {..}` chooses its block when it or a label in front of it matched and
   no block has been chosen yet - the rest of the body is then skipped -, `default {..}` offers its block for the case that nothing
   is chosen.  The case values are pure expressions (relation pev: literals, variables holding data, pure operators). *)
Definition sw_see (sw:swst) (v:rvalue) : swst :=
  {| sw_v := sw_v sw; sw_target := sw_target sw; sw_now := if req true v (sw_v sw) then true else sw_now sw; sw_has := sw_has sw |}.
Definition sw_hit (sw:swst) (blk:list stmt) : swst := {| sw_v := sw_v sw; sw_target := Some blk; sw_now := false; sw_has := true |}.
Definition sw_dflt (sw:swst) (blk:list stmt) : swst :=
  {| sw_v := sw_v sw; sw_target := if sw_has sw then sw_target sw else Some blk; sw_now := sw_now sw; sw_has := sw_has sw |}.
Definition sw_start (v:rvalue) : swst := {| sw_v := v; sw_target := None; sw_now := false; sw_has := false |}.
Inductive zswitch (s:sstate) : list stmt -> swst -> swst -> Prop :=
| ZWNil sw : zswitch s [] sw sw
| ZWLabel n x v st2 rest sw sw' : lower n = "case" -> pev (loc_of s) (glob_of s) x v ->
    zswitch s (st2 :: rest) (sw_see sw v) sw' -> zswitch s (SExpr (EUnary n x) :: st2 :: rest) sw sw'
| ZWCaseSkip c k x blk v rest sw sw' : lower c = ":" -> lower k = "case" -> pev (loc_of s) (glob_of s) x v ->
    andb (negb (sw_has sw)) (sw_now (sw_see sw v)) = false -> zswitch s rest (sw_see sw v) sw' ->
    zswitch s (SExpr (EBinary c (EUnary k x) (ECode blk)) :: rest) sw sw'
| ZWCaseHit c k x blk v rest sw : lower c = ":" -> lower k = "case" -> pev (loc_of s) (glob_of s) x v ->
    andb (negb (sw_has sw)) (sw_now (sw_see sw v)) = true ->
    zswitch s (SExpr (EBinary c (EUnary k x) (ECode blk)) :: rest) sw (sw_hit sw blk)
| ZWDefault n blk rest sw sw' : lower n = "default" -> zswitch s rest (sw_dflt sw blk) sw' ->
    zswitch s (SExpr (EUnary n (ECode blk)) :: rest) sw sw'.

(* the first instruction of a (non-empty) block is a plain push or a variable read: true of every block whose first
   statement does not start with a nular operator; the step that takes a loop round again executes it *)
Definition leaf_first (b:list stmt) : Prop :=
  exists i rest, compile_block b = i :: rest /\ ((exists v, i = IPush v) \/ (exists n, i = IGet n)).

Inductive zev : sstate -> expr -> rvalue -> sstate -> Prop :=
| ZPure s e v : pev (loc_of s) (glob_of s) e v -> zev s e v s
| ZVarL s n v : is_local n = true -> hidden (lower n) = false -> loc_of s (lower n) = Some v -> nonnil v -> zev s (EVar n) v s
| ZVarG s n v : is_local n = false -> glob_of s (lower n) = Some v -> nonnil v -> zev s (EVar n) v s
| ZCode s b : zev s (ECode b) (RCode b) s
| ZArr s l vs s' : zevs s l vs s' -> zev s (EArr l) (RArr vs) s'
| ZUn s n a va v s1 : (forall k, a <> ENum k) -> zev s a va s1 -> pure_unary (lower n) va = Some v -> zev s (EUnary n a) v s1
| ZBin s n a b va vb v s1 s2 : zev s a va s1 -> zev s1 b vb s2 -> pure_binary (lower n) va vb = Some v -> zev s (EBinary n a b) v s2
| ZCallU s n a b s1 out s2 : lower n = "call" -> (forall k, a <> ENum k) -> zev s a (RCode b) s1 ->
    zblock (enter s1 [("_this", this_of s1)]) RNil b out s2 -> zev s (EUnary n a) (val_of out) (pop_scope s2)
| ZCallB s n a x va b s1 s2 out s3 : lower n = "call" -> zev s a va s1 -> nonnil va -> zev s1 x (RCode b) s2 ->
    zblock (enter s2 [("_this", va)]) RNil b out s3 -> zev s (EBinary n a x) (val_of out) (pop_scope s3)
| ZIf s n a c s1 : lower n = "if" -> (forall k, a <> ENum k) -> zev s a (RBool c) s1 -> zev s (EUnary n a) (RIf c) s1
| ZElse s n a b x y s1 s2 : lower n = "else" -> zev s a (RCode x) s1 -> zev s1 b (RCode y) s2 ->
    zev s (EBinary n a b) (RArr [RCode x; RCode y]) s2
| ZThenSkip s n a b x s1 s2 : lower n = "then" -> zev s a (RIf false) s1 -> zev s1 b (RCode x) s2 -> zev s (EBinary n a b) RNil s2
| ZThen s n a b x s1 s2 out s3 : lower n = "then" -> zev s a (RIf true) s1 -> zev s1 b (RCode x) s2 ->
    zblock (enter s2 []) RNil x out s3 -> zev s (EBinary n a b) (val_of out) (pop_scope s3)
| ZThenElse s n a b c x y s1 s2 out s3 : lower n = "then" -> zev s a (RIf c) s1 -> zev s1 b (RArr [RCode x; RCode y]) s2 ->
    zblock (enter s2 []) RNil (if c then x else y) out s3 -> zev s (EBinary n a b) (val_of out) (pop_scope s3)
| ZExitSkip s n a b x s1 s2 : lower n = "exitwith" -> zev s a (RIf false) s1 -> zev s1 b (RCode x) s2 -> zev s (EBinary n a b) RNil s2
(* loops over an array with a code body - forEach, count, apply, select, findIf: one scope per element holding _x (and
   _forEachIndex), an accumulator per kind (ziter); exitWith in the body ends the whole loop with the handler's value *)
| ZLoopEmptyCA s n a x body k s1 s2 : kname k = lower n -> kca k = true -> zev s a (RCode body) s1 -> zev s1 x (RArr []) s2 ->
    zev s (EBinary n a x) (kinit k) s2
| ZLoopEmptyAC s n a x body k s1 s2 : kname k = lower n -> kca k = false -> zev s a (RArr []) s1 -> zev s1 x (RCode body) s2 ->
    zev s (EBinary n a x) (kinit k) s2
| ZLoopCA s n a x body x0 arr k s1 s2 acc s3 : kname k = lower n -> kca k = true -> leaf_first body ->
    zev s a (RCode body) s1 -> zev s1 x (RArr (x0 :: arr)) s2 ->
    ziter k s2 (x0 :: arr) 0 body (kinit k) acc s3 -> zev s (EBinary n a x) acc s3
| ZLoopAC s n a x body x0 arr k s1 s2 acc s3 : kname k = lower n -> kca k = false -> leaf_first body ->
    zev s a (RArr (x0 :: arr)) s1 -> zev s1 x (RCode body) s2 ->
    ziter k s2 (x0 :: arr) 0 body (kinit k) acc s3 -> zev s (EBinary n a x) acc s3
| ZLazySkip s n a b x sk s1 s2 : lazy_skip (lower n) = Some sk -> zev s a (RBool sk) s1 -> zev s1 b (RCode x) s2 ->
    zev s (EBinary n a b) (RBool sk) s2
| ZLazyEnter s n a b x sk s1 s2 out s3 : lazy_skip (lower n) = Some sk -> zev s a (RBool (negb sk)) s1 -> zev s1 b (RCode x) s2 ->
    zblock (enter s2 []) RNil x out s3 -> zev s (EBinary n a b) (val_of out) (pop_scope s3)
| ZForVar s n a var s1 : lower n = "for" -> (forall k, a <> ENum k) -> zev s a (RStr var) s1 -> zev s (EUnary n a) (RFor var 0 0 1) s1
| ZForSet s n a b var fr to st x fr' to' st' s1 s2 : for_set (lower n) fr to st x = Some (fr', to', st') ->
    zev s a (RFor var fr to st) s1 -> zev s1 b (RNum x) s2 -> zev s (EBinary n a b) (RFor var fr' to' st') s2
| ZForSkip s n a b var fr to st body s1 s2 : lower n = "do" -> zev s a (RFor var fr to st) s1 -> zev s1 b (RCode body) s2 ->
    for_empty fr to st = true -> zev s (EBinary n a b) RNil s2
| ZForLoop s n a b var fr to st body s1 s2 acc s3 : lower n = "do" -> zev s a (RFor var fr to st) s1 -> zev s1 b (RCode body) s2 ->
    for_empty fr to st = false -> leaf_first body -> zfor var to st s2 fr true body acc s3 -> zev s (EBinary n a b) acc s3
| ZWhileVal s n a cond s1 : lower n = "while" -> (forall k, a <> ENum k) -> zev s a (RCode cond) s1 -> zev s (EUnary n a) (RWhile cond) s1
| ZWhileLoop s n a b cond body s1 s2 v s3 : lower n = "do" -> zev s a (RWhile cond) s1 -> zev s1 b (RCode body) s2 ->
    leaf_first cond -> leaf_first body -> zwhile cond body s2 true v s3 -> zev s (EBinary n a b) v s3
(* what a program can observe: the markers it logs, in order *)
| ZDiag s n a va t s1 : lower n = "diag_log" -> (forall k, a <> ENum k) -> zev s a va s1 -> nonnil va -> rshow false va = Some t ->
    zev s (EUnary n a) RNil (rmark s1 t)
(* namespaces: with ns do {..} runs the block in a scope of that namespace; getVariable / setVariable read and write the same storage
   that global names resolve to *)
| ZNsNular s n ns : ns_nular (lower n) = Some ns -> zev s (ENular n) (RNs ns) s
| ZWithVal s n a ns s1 : lower n = "with" -> (forall k, a <> ENum k) -> zev s a (RNs ns) s1 -> zev s (EUnary n a) (RWith ns) s1
| ZWithDo s n a b ns body s1 s2 out s3 : lower n = "do" -> zev s a (RWith ns) s1 -> zev s1 b (RCode body) s2 ->
    zblock (push_scope s2 (mk_scope ns [])) RNil body out s3 -> zev s (EBinary n a b) (val_of out) (pop_scope s3)
| ZGetVar s n a b ns x s1 s2 v : lower n = "getvariable" -> zev s a (RNs ns) s1 -> zev s1 b (RStr x) s2 ->
    rns_get s2 ns x = Some v -> v <> RNone -> zev s (EBinary n a b) v s2
| ZGetVarNone s n a b ns x s1 s2 : lower n = "getvariable" -> zev s a (RNs ns) s1 -> zev s1 b (RStr x) s2 ->
    rns_get s2 ns x = None -> zev s (EBinary n a b) RNil s2
| ZSetVar s n a b ns x v s1 s2 : lower n = "setvariable" -> zev s a (RNs ns) s1 -> zev s1 b (RArr [RStr x; v]) s2 ->
    zev s (EBinary n a b) RNil (rns_set s2 ns x v)
| ZPrivate s n a x s1 : lower n = "private" -> (forall k, a <> ENum k) -> zev s a (RStr x) s1 -> hidden (lower x) = false ->
    zev s (EUnary n a) RNil (declare s1 x)
(* try {..} catch {..}: the block runs in a scope of its own; when it is left by a throw (relation zthrow below) the handler runs in
   that scope, emptied, with _exception bound, and its value is the value of the construct *)
| ZTryVal s n a b s1 : lower n = "try" -> (forall k, a <> ENum k) -> zev s a (RCode b) s1 -> zev s (EUnary n a) (RTry b) s1
| ZCatchNorm s n a b body h s1 s2 out s3 : lower n = "catch" -> zev s a (RTry body) s1 -> zev s1 b (RCode h) s2 ->
    zblock (enter s2 []) RNil body out s3 -> zev s (EBinary n a b) (val_of out) (pop_scope s3)
| ZCatchThrow s n a b body h s1 s2 x s3 out s4 : lower n = "catch" -> zev s a (RTry body) s1 -> zev s1 b (RCode h) s2 ->
    zthrow (enter s2 []) RNil body x s3 -> zblock (set_top_vars s3 [("_exception", x)]) RNil h out s4 ->
    zev s (EBinary n a b) (val_of out) (pop_scope s4)
(* scopeName / breakOut: a scope gets its name once; a block left by breakOut "t" (relation zbreak below) ends every scope up to and
   including the innermost one named t, and the construct that opened that scope yields the value handed to breakOut *)
| ZScopeName s n a t s1 sc scs : lower n = "scopename" -> (forall k, a <> ENum k) -> zev s a (RStr t) s1 ->
    st_scopes s1 = sc :: scs -> sc_name sc = "" ->
    zev s (EUnary n a) RNil (with_scopes s1 ({| sc_vars := sc_vars sc; sc_ns := sc_ns sc; sc_name := t |} :: scs))
| ZCallBreak s n a b s1 t v s2 : lower n = "call" -> (forall k, a <> ENum k) -> zev s a (RCode b) s1 ->
    zbreak (enter s1 [("_this", this_of s1)]) RNil b t v s2 -> top_name s2 = t -> zev s (EUnary n a) v (pop_scope s2)
| ZThenBreak s n a b blk s1 s2 t v s3 : lower n = "then" -> zev s a (RIf true) s1 -> zev s1 b (RCode blk) s2 ->
    zbreak (enter s2 []) RNil blk t v s3 -> top_name s3 = t -> zev s (EBinary n a b) v (pop_scope s3)
| ZThenElseBreak s n a b c x0 y0 s1 s2 t v s3 : lower n = "then" -> zev s a (RIf c) s1 -> zev s1 b (RArr [RCode x0; RCode y0]) s2 ->
    zbreak (enter s2 []) RNil (if c then x0 else y0) t v s3 -> top_name s3 = t -> zev s (EBinary n a b) v (pop_scope s3)
(* switch v do {..}: the statements of the body are judged in a scope of their own (zswitch above); then the chosen block, if there is
   one, runs in that scope and its value is the value of the construct *)
| ZSwitchVal s n a v s1 : lower n = "switch" -> (forall k, a <> ENum k) -> zev s a v s1 -> nonnil v -> zev s (EUnary n a) (RSwitch v) s1
| ZSwitchNone s n a b v body s1 s2 sw : lower n = "do" -> zev s a (RSwitch v) s1 -> zev s1 b (RCode body) s2 ->
    zswitch (enter s2 []) body (sw_start v) sw -> (sw_target sw = None \/ sw_target sw = Some []) ->
    zev s (EBinary n a b) RNil s2
| ZSwitchRun s n a b v body s1 s2 sw t ts reg s4 : lower n = "do" -> zev s a (RSwitch v) s1 -> zev s1 b (RCode body) s2 ->
    zswitch (enter s2 []) body (sw_start v) sw -> sw_target sw = Some (t :: ts) -> leaf_first (t :: ts) ->
    zblock (enter s2 []) RNil (t :: ts) (BNorm reg) s4 -> zev s (EBinary n a b) (res_of reg) (pop_scope s4)
(* the chosen block is left early: by exitWith - the switch yields the handler's value -, by breakOut to the name the scope of the switch
   itself carries (scopeName in the block) - the switch yields the value handed over; a throw and breakOut to a scope outside the switch:
   ZLSwitchThrow / ZLSwitchBreak of zloopleave below *)
| ZSwitchExit s n a b v body s1 s2 sw t ts x s4 : lower n = "do" -> zev s a (RSwitch v) s1 -> zev s1 b (RCode body) s2 ->
    zswitch (enter s2 []) body (sw_start v) sw -> sw_target sw = Some (t :: ts) -> leaf_first (t :: ts) ->
    zblock (enter s2 []) RNil (t :: ts) (BExit x) s4 -> zev s (EBinary n a b) x (pop_scope s4)
| ZSwitchBreak s n a b v body s1 s2 sw t ts t0 x s4 : lower n = "do" -> zev s a (RSwitch v) s1 -> zev s1 b (RCode body) s2 ->
    zswitch (enter s2 []) body (sw_start v) sw -> sw_target sw = Some (t :: ts) -> leaf_first (t :: ts) ->
    zbreak (enter s2 []) RNil (t :: ts) t0 x s4 -> top_name s4 = t0 -> zev s (EBinary n a b) x (pop_scope s4)
with zevs : sstate -> list expr -> list rvalue -> sstate -> Prop :=
| ZNil s : zevs s [] [] s
| ZCons s e v s1 l vs s2 : zev s e v s1 -> nonnil v -> zevs s1 l vs s2 -> zevs s (e :: l) (v :: vs) s2
with zstmt : sstate -> rvalue -> stmt -> rvalue -> sstate -> Prop :=
| ZSExprV s reg e v s1 : zev s e v s1 -> zstmt s reg (SExpr e) v s1
| ZSAssign s reg n e v s1 : n <> "" -> hidden (lower n) = false -> zev s e v s1 -> nonnil v ->
    zstmt s reg (SAssign n e) reg (if is_local n then assign_local s1 n v else rns_set s1 (cur_ns_of s1) n v)
| ZSLocal s reg n e v s1 : n <> "" -> zev s e v s1 -> nonnil v -> zstmt s reg (SLocal n e) reg (bind_here s1 n v)
with zblock : sstate -> rvalue -> list stmt -> bout -> sstate -> Prop :=
| ZBNil s reg : zblock s reg [] (BNorm reg) s
| ZBLast s reg st reg1 s1 : zstmt s reg st reg1 s1 -> zblock s reg [st] (BNorm reg1) s1
| ZBCons s reg st reg1 s1 st2 rest out s' :
    zstmt s reg st reg1 s1 -> zblock s1 RNone (st2 :: rest) out s' -> zblock s reg (st :: st2 :: rest) out s'
(* the statement `if c exitWith {..}` with a true condition: the handler runs in its own scope, the rest of this scope does not *)
| ZBExit s reg n l x b s1 s2 out s3 rest : lower n = "exitwith" -> zev s l (RIf true) s1 -> zev s1 x (RCode b) s2 ->
    zblock (enter s2 []) RNil b out s3 -> zblock s reg (SExpr (EBinary n l x) :: rest) (BExit (val_of out)) (pop_scope s3)
(* ... and a statement whose expression is left by an exitWith that stands INSIDE AN OPERAND (relation zexexit below): the scope ends all
   the same, with the handler's value; the operands that were already evaluated are dropped with the scope's part of the operand stack *)
| ZBExitIn s reg e v s1 rest : zexexit s e v s1 -> zblock s reg (SExpr e :: rest) (BExit v) s1
| ZBExitAssign s reg n e v s1 rest : zexexit s e v s1 -> zblock s reg (SAssign n e :: rest) (BExit v) s1
| ZBExitLocal s reg n e v s1 rest : zexexit s e v s1 -> zblock s reg (SLocal n e :: rest) (BExit v) s1
with ziter : lkind -> sstate -> list rvalue -> nat -> list stmt -> rvalue -> rvalue -> sstate -> Prop :=
| ZIterNil k s i body acc : ziter k s [] i body acc acc s
| ZIterCons k s x rest i body acc reg s1 acc1 acc' s' :
    zblock (enter s (kvars k i x)) (match i with O => RNil | _ => RNone end) body (BNorm reg) s1 ->
    kstep k x i reg acc = Some (true, acc1) -> kok k reg ->
    ziter k (pop_scope s1) rest (S i) body acc1 acc' s' -> ziter k s (x :: rest) i body acc acc' s'
| ZIterStop k s x rest i body acc reg s1 acc1 :
    zblock (enter s (kvars k i x)) (match i with O => RNil | _ => RNone end) body (BNorm reg) s1 ->
    kstep k x i reg acc = Some (false, acc1) -> kok k reg -> ziter k s (x :: rest) i body acc acc1 (pop_scope s1)
| ZIterExit k s x rest i body acc v s1 :
    zblock (enter s (kvars k i x)) (match i with O => RNil | _ => RNone end) body (BExit v) s1 ->
    ziter k s (x :: rest) i body acc v (pop_scope s1)
(* breakOut to the name the scope of the round itself carries (scopeName in the body): the whole loop ends with the value *)
| ZIterBreak k s x rest i body acc t v s1 :
    zbreak (enter s (kvars k i x)) (match i with O => RNil | _ => RNone end) body t v s1 -> top_name s1 = t ->
    ziter k s (x :: rest) i body acc v (pop_scope s1)
(* the rounds of a for loop from the value x of the loop variable on *)
with zfor : string -> Z -> Z -> sstate -> Z -> bool -> list stmt -> rvalue -> sstate -> Prop :=
| ZForRound var to st s x (first:bool) body reg s1 y acc' s' :
    zblock (enter s [(lower var, RNum x)]) (if first then RNil else RNone) body (BNorm reg) s1 ->
    hidden (lower var) = false -> top_var s1 (lower var) = Some (RNum y) -> beyond to st (y + st)%Z = false ->
    zfor var to st (pop_scope s1) (y + st)%Z false body acc' s' -> zfor var to st s x first body acc' s'
| ZForLast var to st s x (first:bool) body reg s1 y :
    zblock (enter s [(lower var, RNum x)]) (if first then RNil else RNone) body (BNorm reg) s1 ->
    hidden (lower var) = false -> top_var s1 (lower var) = Some (RNum y) -> beyond to st (y + st)%Z = true ->
    zfor var to st s x first body (res_of reg) (pop_scope s1)
| ZForExit var to st s x (first:bool) body v s1 :
    zblock (enter s [(lower var, RNum x)]) (if first then RNil else RNone) body (BExit v) s1 ->
    zfor var to st s x first body v (pop_scope s1)
| ZForBreak var to st s x (first:bool) body t v s1 :
    zbreak (enter s [(lower var, RNum x)]) (if first then RNil else RNone) body t v s1 -> top_name s1 = t ->
    zfor var to st s x first body v (pop_scope s1)
(* the rounds of a while loop: the condition and the body run in one scope that is emptied before each of them; the loop
   yields nil, or the value an exitWith in the condition or the body leaves it with *)
with zwhile : list stmt -> list stmt -> sstate -> bool -> rvalue -> sstate -> Prop :=
| ZWhileStop cond body s (first:bool) s1 :
    zblock (enter s []) (if first then RNil else RNone) cond (BNorm (RBool false)) s1 -> zwhile cond body s first RNil (pop_scope s1)
| ZWhileRound cond body s (first:bool) s1 reg s2 v s' :
    zblock (enter s []) (if first then RNil else RNone) cond (BNorm (RBool true)) s1 ->
    zblock (set_top_vars s1 []) RNone body (BNorm reg) s2 ->
    zwhile cond body (pop_scope s2) false v s' -> zwhile cond body s first v s'
| ZWhileExitCond cond body s (first:bool) v s1 :
    zblock (enter s []) (if first then RNil else RNone) cond (BExit v) s1 -> zwhile cond body s first v (pop_scope s1)
| ZWhileExitBody cond body s (first:bool) s1 v s2 :
    zblock (enter s []) (if first then RNil else RNone) cond (BNorm (RBool true)) s1 ->
    zblock (set_top_vars s1 []) RNone body (BExit v) s2 -> zwhile cond body s first v (pop_scope s2)
| ZWhileBreakCond cond body s (first:bool) t v s1 :
    zbreak (enter s []) (if first then RNil else RNone) cond t v s1 -> top_name s1 = t -> zwhile cond body s first v (pop_scope s1)
| ZWhileBreakBody cond body s (first:bool) s1 t v s2 :
    zblock (enter s []) (if first then RNil else RNone) cond (BNorm (RBool true)) s1 ->
    zbreak (set_top_vars s1 []) RNone body t v s2 -> top_name s2 = t -> zwhile cond body s first v (pop_scope s2)
(* a block that is left by a throw: the statements in front of the throwing one run normally; the throwing statement is `throw v`,
   `if c throw v`, or a scope construct standing as a statement - call, if-then(-else), a try-catch whose handler throws - whose
   block is left by a throw; the state is the one at the throw, with the scopes between the throw and this block closed *)
with zthrow : sstate -> rvalue -> list stmt -> rvalue -> sstate -> Prop :=
| ZTCons s reg st reg1 s1 st2 rest x s' : zstmt s reg st reg1 s1 -> zthrow s1 RNone (st2 :: rest) x s' -> zthrow s reg (st :: st2 :: rest) x s'
| ZTThrow s reg n e v s1 rest : lower n = "throw" -> (forall k, e <> ENum k) -> zev s e v s1 -> nonnil v ->
    zthrow s reg (SExpr (EUnary n e) :: rest) v s1
| ZTThrowIf s reg n a b v s1 s2 rest : lower n = "throw" -> zev s a (RIf true) s1 -> zev s1 b v s2 -> nonnil v ->
    zthrow s reg (SExpr (EBinary n a b) :: rest) v s2
| ZTCallU s reg n a b s1 x s2 rest : lower n = "call" -> (forall k, a <> ENum k) -> zev s a (RCode b) s1 ->
    zthrow (enter s1 [("_this", this_of s1)]) RNil b x s2 -> zthrow s reg (SExpr (EUnary n a) :: rest) x (pop_scope s2)
| ZTThen s reg n a b blk s1 s2 x s3 rest : lower n = "then" -> zev s a (RIf true) s1 -> zev s1 b (RCode blk) s2 ->
    zthrow (enter s2 []) RNil blk x s3 -> zthrow s reg (SExpr (EBinary n a b) :: rest) x (pop_scope s3)
| ZTThenElse s reg n a b c x0 y0 s1 s2 x s3 rest : lower n = "then" -> zev s a (RIf c) s1 -> zev s1 b (RArr [RCode x0; RCode y0]) s2 ->
    zthrow (enter s2 []) RNil (if c then x0 else y0) x s3 -> zthrow s reg (SExpr (EBinary n a b) :: rest) x (pop_scope s3)
| ZTHandler s reg n a b body h s1 s2 x s3 y s4 rest : lower n = "catch" -> zev s a (RTry body) s1 -> zev s1 b (RCode h) s2 ->
    zthrow (enter s2 []) RNil body x s3 -> zthrow (set_top_vars s3 [("_exception", x)]) RNil h y s4 ->
    zthrow s reg (SExpr (EBinary n a b) :: rest) y (pop_scope s4)
(* a loop standing as a statement, one of whose rounds is left by a throw (relation zloopleave below) *)
| ZTLoop s reg e y s3 rest : zloopleave s e (AThrow y) s3 -> zthrow s reg (SExpr e :: rest) y s3
(* ... and x = e / private _x = e whose expression is left by a throw (raised inside an operand of e: zloopleave) *)
| ZTAssign s reg n e y s3 rest : zloopleave s e (AThrow y) s3 -> zthrow s reg (SAssign n e :: rest) y s3
| ZTLocal s reg n e y s3 rest : zloopleave s e (AThrow y) s3 -> zthrow s reg (SLocal n e :: rest) y s3
(* a block that is left by breakOut to the scope named t, with value v (nil for the unary form): statements that run normally, then
   `breakOut "t"`, `v breakOut "t"`, or a scope construct standing as a statement - call, if-then(-else) - whose own scope is not
   named t and whose block is left that way; the state is the one at the breakOut, the scopes in between closed *)
with zbreak : sstate -> rvalue -> list stmt -> string -> rvalue -> sstate -> Prop :=
| ZKCons s reg st reg1 s1 st2 rest t v s' : zstmt s reg st reg1 s1 -> zbreak s1 RNone (st2 :: rest) t v s' -> zbreak s reg (st :: st2 :: rest) t v s'
| ZKBreak s reg n e t s1 rest : lower n = "breakout" -> (forall k, e <> ENum k) -> zev s e (RStr t) s1 -> t <> "" ->
    zbreak s reg (SExpr (EUnary n e) :: rest) t RNil s1
| ZKBreakV s reg n a b v t s1 s2 rest : lower n = "breakout" -> zev s a v s1 -> nonnil v -> zev s1 b (RStr t) s2 -> t <> "" ->
    zbreak s reg (SExpr (EBinary n a b) :: rest) t v s2
| ZKCallU s reg n a b s1 t v s2 rest : lower n = "call" -> (forall k, a <> ENum k) -> zev s a (RCode b) s1 ->
    zbreak (enter s1 [("_this", this_of s1)]) RNil b t v s2 -> top_name s2 <> t -> zbreak s reg (SExpr (EUnary n a) :: rest) t v (pop_scope s2)
| ZKThen s reg n a b blk s1 s2 t v s3 rest : lower n = "then" -> zev s a (RIf true) s1 -> zev s1 b (RCode blk) s2 ->
    zbreak (enter s2 []) RNil blk t v s3 -> top_name s3 <> t -> zbreak s reg (SExpr (EBinary n a b) :: rest) t v (pop_scope s3)
| ZKThenElse s reg n a b c x0 y0 s1 s2 t v s3 rest : lower n = "then" -> zev s a (RIf c) s1 -> zev s1 b (RArr [RCode x0; RCode y0]) s2 ->
    zbreak (enter s2 []) RNil (if c then x0 else y0) t v s3 -> top_name s3 <> t ->
    zbreak s reg (SExpr (EBinary n a b) :: rest) t v (pop_scope s3)
(* a loop standing as a statement, one of whose rounds is left by breakOut to a scope outside the loop *)
| ZKLoop s reg e t v s3 rest : zloopleave s e (ABreak t v) s3 -> zbreak s reg (SExpr e :: rest) t v s3
| ZKAssign s reg n e t v s3 rest : zloopleave s e (ABreak t v) s3 -> zbreak s reg (SAssign n e :: rest) t v s3
| ZKLocal s reg n e t v s3 rest : zloopleave s e (ABreak t v) s3 -> zbreak s reg (SLocal n e :: rest) t v s3
(* LEAVING A LOOP.  A loop - forEach / count / apply / select / findIf, for, while - is left by a throw or by breakOut when, after
   rounds that run normally, the body (for while: the condition or the body) of a round is left that way (zthrow / zbreak; for breakOut
   the scope of the round is not the named one).  The state is the one at the exit with the scope of the round closed. *)
with zloopleave : sstate -> expr -> abr -> sstate -> Prop :=
| ZLLoopCA s n a x body x0 arr k s1 s2 ab s3 : kname k = lower n -> kca k = true -> leaf_first body ->
    zev s a (RCode body) s1 -> zev s1 x (RArr (x0 :: arr)) s2 ->
    zileave k s2 (x0 :: arr) 0 body (kinit k) ab s3 -> zloopleave s (EBinary n a x) ab s3
| ZLLoopAC s n a x body x0 arr k s1 s2 ab s3 : kname k = lower n -> kca k = false -> leaf_first body ->
    zev s a (RArr (x0 :: arr)) s1 -> zev s1 x (RCode body) s2 ->
    zileave k s2 (x0 :: arr) 0 body (kinit k) ab s3 -> zloopleave s (EBinary n a x) ab s3
| ZLFor s n a b var fr to st body s1 s2 ab s3 : lower n = "do" -> zev s a (RFor var fr to st) s1 -> zev s1 b (RCode body) s2 ->
    for_empty fr to st = false -> leaf_first body -> zfleave var to st s2 fr true body ab s3 -> zloopleave s (EBinary n a b) ab s3
| ZLWhile s n a b cond body s1 s2 ab s3 : lower n = "do" -> zev s a (RWhile cond) s1 -> zev s1 b (RCode body) s2 ->
    leaf_first cond -> leaf_first body -> zwleave cond body s2 true ab s3 -> zloopleave s (EBinary n a b) ab s3
(* ... and switch v do {..} whose chosen block is left by a throw, or by breakOut to a scope outside the switch *)
| ZLSwitchThrow s n a b v body s1 s2 sw t ts y s4 : lower n = "do" -> zev s a (RSwitch v) s1 -> zev s1 b (RCode body) s2 ->
    zswitch (enter s2 []) body (sw_start v) sw -> sw_target sw = Some (t :: ts) -> leaf_first (t :: ts) ->
    zthrow (enter s2 []) RNil (t :: ts) y s4 -> zloopleave s (EBinary n a b) (AThrow y) (pop_scope s4)
| ZLSwitchBreak s n a b v body s1 s2 sw t ts t0 x s4 : lower n = "do" -> zev s a (RSwitch v) s1 -> zev s1 b (RCode body) s2 ->
    zswitch (enter s2 []) body (sw_start v) sw -> sw_target sw = Some (t :: ts) -> leaf_first (t :: ts) ->
    zbreak (enter s2 []) RNil (t :: ts) t0 x s4 -> top_name s4 <> t0 -> zloopleave s (EBinary n a b) (ABreak t0 x) (pop_scope s4)
(* AN EXIT RAISED INSIDE AN OPERAND: an expression is left when an operand is - the operand of a unary operator, the left operand of a
   binary one, an element of an array -, or when it is call {..} / x call {..} / if-then(-else) whose block is left through its scope
   (zscopeleave).  With operands already evaluated and waiting on the operand stack - the right operand of a binary operator, a later
   element of an array - this is stated for breakOut only (ZLBinR, ZELTl): pop_clearing drops the waiting operands with the regions of the
   frames it removes, whereas after a throw they would lie under the handler's nil, which the region invariant (`under`) excludes. *)
| ZLUn s n a ab s1 : (forall k, a <> ENum k) -> zloopleave s a ab s1 -> zloopleave s (EUnary n a) ab s1
| ZLBinL s n a b ab s1 : zloopleave s a ab s1 -> zloopleave s (EBinary n a b) ab s1
| ZLBinR s n a b va t v s1 s2 : zev s a va s1 -> zloopleave s1 b (ABreak t v) s2 -> zloopleave s (EBinary n a b) (ABreak t v) s2
| ZLArr s l ab s1 : zelemsleave s l ab s1 -> zloopleave s (EArr l) ab s1
| ZLCallU s n a b s1 ab s2 : lower n = "call" -> (forall k, a <> ENum k) -> zev s a (RCode b) s1 ->
    zscopeleave s1 [("_this", this_of s1)] b ab s2 -> zloopleave s (EUnary n a) ab s2
| ZLCallB s n a x va b s1 s2 ab s3 : lower n = "call" -> zev s a va s1 -> nonnil va -> zev s1 x (RCode b) s2 ->
    zscopeleave s2 [("_this", va)] b ab s3 -> zloopleave s (EBinary n a x) ab s3
| ZLThen s n a b blk s1 s2 ab s3 : lower n = "then" -> zev s a (RIf true) s1 -> zev s1 b (RCode blk) s2 ->
    zscopeleave s2 [] blk ab s3 -> zloopleave s (EBinary n a b) ab s3
| ZLThenElse s n a b c x0 y0 s1 s2 ab s3 : lower n = "then" -> zev s a (RIf c) s1 -> zev s1 b (RArr [RCode x0; RCode y0]) s2 ->
    zscopeleave s2 [] (if c then x0 else y0) ab s3 -> zloopleave s (EBinary n a b) ab s3
with zileave : lkind -> sstate -> list rvalue -> nat -> list stmt -> rvalue -> abr -> sstate -> Prop :=
| ZILCons k s x rest i body acc reg s1 acc1 ab s' :
    zblock (enter s (kvars k i x)) (match i with O => RNil | _ => RNone end) body (BNorm reg) s1 ->
    kstep k x i reg acc = Some (true, acc1) -> kok k reg ->
    zileave k (pop_scope s1) rest (S i) body acc1 ab s' -> zileave k s (x :: rest) i body acc ab s'
| ZILThrow k s x rest i body acc y s1 :
    zthrow (enter s (kvars k i x)) (match i with O => RNil | _ => RNone end) body y s1 ->
    zileave k s (x :: rest) i body acc (AThrow y) (pop_scope s1)
| ZILBreak k s x rest i body acc t v s1 :
    zbreak (enter s (kvars k i x)) (match i with O => RNil | _ => RNone end) body t v s1 -> top_name s1 <> t ->
    zileave k s (x :: rest) i body acc (ABreak t v) (pop_scope s1)
with zfleave : string -> Z -> Z -> sstate -> Z -> bool -> list stmt -> abr -> sstate -> Prop :=
| ZFLRound var to st s x (first:bool) body reg s1 y ab s' :
    zblock (enter s [(lower var, RNum x)]) (if first then RNil else RNone) body (BNorm reg) s1 ->
    hidden (lower var) = false -> top_var s1 (lower var) = Some (RNum y) -> beyond to st (y + st)%Z = false ->
    zfleave var to st (pop_scope s1) (y + st)%Z false body ab s' -> zfleave var to st s x first body ab s'
| ZFLThrow var to st s x (first:bool) body y s1 :
    zthrow (enter s [(lower var, RNum x)]) (if first then RNil else RNone) body y s1 ->
    zfleave var to st s x first body (AThrow y) (pop_scope s1)
| ZFLBreak var to st s x (first:bool) body t v s1 :
    zbreak (enter s [(lower var, RNum x)]) (if first then RNil else RNone) body t v s1 -> top_name s1 <> t ->
    zfleave var to st s x first body (ABreak t v) (pop_scope s1)
with zwleave : list stmt -> list stmt -> sstate -> bool -> abr -> sstate -> Prop :=
| ZWLRound cond body s (first:bool) s1 reg s2 ab s' :
    zblock (enter s []) (if first then RNil else RNone) cond (BNorm (RBool true)) s1 ->
    zblock (set_top_vars s1 []) RNone body (BNorm reg) s2 ->
    zwleave cond body (pop_scope s2) false ab s' -> zwleave cond body s first ab s'
| ZWLThrowCond cond body s (first:bool) y s1 :
    zthrow (enter s []) (if first then RNil else RNone) cond y s1 -> zwleave cond body s first (AThrow y) (pop_scope s1)
| ZWLBreakCond cond body s (first:bool) t v s1 :
    zbreak (enter s []) (if first then RNil else RNone) cond t v s1 -> top_name s1 <> t ->
    zwleave cond body s first (ABreak t v) (pop_scope s1)
| ZWLThrowBody cond body s (first:bool) s1 y s2 :
    zblock (enter s []) (if first then RNil else RNone) cond (BNorm (RBool true)) s1 ->
    zthrow (set_top_vars s1 []) RNone body y s2 -> zwleave cond body s first (AThrow y) (pop_scope s2)
| ZWLBreakBody cond body s (first:bool) s1 t v s2 :
    zblock (enter s []) (if first then RNil else RNone) cond (BNorm (RBool true)) s1 ->
    zbreak (set_top_vars s1 []) RNone body t v s2 -> top_name s2 <> t -> zwleave cond body s first (ABreak t v) (pop_scope s2)
(* a block in a scope of its own that is left through that scope *)
with zscopeleave : sstate -> list (string*rvalue) -> list stmt -> abr -> sstate -> Prop :=
| ZSLThrow s vars b y s2 : zthrow (enter s vars) RNil b y s2 -> zscopeleave s vars b (AThrow y) (pop_scope s2)
| ZSLBreak s vars b t v s2 : zbreak (enter s vars) RNil b t v s2 -> top_name s2 <> t -> zscopeleave s vars b (ABreak t v) (pop_scope s2)
(* the elements of an array: the first one is left, or - for breakOut - a later one after elements that were evaluated *)
with zelemsleave : sstate -> list expr -> abr -> sstate -> Prop :=
| ZELHd s e l ab s1 : zloopleave s e ab s1 -> zelemsleave s (e :: l) ab s1
| ZELTl s e v l t v0 s1 s2 : zev s e v s1 -> nonnil v -> zelemsleave s1 l (ABreak t v0) s2 -> zelemsleave s (e :: l) (ABreak t v0) s2
(* an expression left by exitWith: `if c exitWith {..}` with a true condition itself, or an operand / an array element that is left that
   way - in any position, whatever operands wait; the state is the one in the scope that ends (the handler's scope closed) *)
with zexexit : sstate -> expr -> rvalue -> sstate -> Prop :=
| ZXHere s n l x b s1 s2 out s3 : lower n = "exitwith" -> zev s l (RIf true) s1 -> zev s1 x (RCode b) s2 ->
    zblock (enter s2 []) RNil b out s3 -> zexexit s (EBinary n l x) (val_of out) (pop_scope s3)
| ZXUn s n a v s1 : (forall k, a <> ENum k) -> zexexit s a v s1 -> zexexit s (EUnary n a) v s1
| ZXBinL s n a b v s1 : zexexit s a v s1 -> zexexit s (EBinary n a b) v s1
| ZXBinR s n a b va v s1 s2 : zev s a va s1 -> zexexit s1 b v s2 -> zexexit s (EBinary n a b) v s2
| ZXArr s l v s1 : zelemsexit s l v s1 -> zexexit s (EArr l) v s1
with zelemsexit : sstate -> list expr -> rvalue -> sstate -> Prop :=
| ZXEHd s e l v s1 : zexexit s e v s1 -> zelemsexit s (e :: l) v s1
| ZXETl s e v0 l v s1 s2 : zev s e v0 s1 -> nonnil v0 -> zelemsexit s1 l v s2 -> zelemsexit s (e :: l) v s2.

Scheme zev_i := Induction for zev Sort Prop
  with zevs_i := Induction for zevs Sort Prop
  with zstmt_i := Induction for zstmt Sort Prop
  with zblock_i := Induction for zblock Sort Prop
  with ziter_i := Induction for ziter Sort Prop
  with zfor_i := Induction for zfor Sort Prop
  with zwhile_i := Induction for zwhile Sort Prop
  with zthrow_i := Induction for zthrow Sort Prop
  with zbreak_i := Induction for zbreak Sort Prop
  with zloopleave_i := Induction for zloopleave Sort Prop
  with zileave_i := Induction for zileave Sort Prop
  with zfleave_i := Induction for zfleave Sort Prop
  with zwleave_i := Induction for zwleave Sort Prop
  with zscopeleave_i := Induction for zscopeleave Sort Prop
  with zelemsleave_i := Induction for zelemsleave Sort Prop
  with zexexit_i := Induction for zexexit Sort Prop
  with zelemsexit_i := Induction for zelemsexit Sort Prop.
Combined Scheme z_ind from zev_i, zevs_i, zstmt_i, zblock_i, ziter_i, zfor_i, zwhile_i, zthrow_i, zbreak_i,
  zloopleave_i, zileave_i, zfleave_i, zwleave_i, zscopeleave_i, zelemsleave_i, zexexit_i, zelemsexit_i.

Lemma kstep_not_none k x i reg acc c a1 : kstep k x i reg acc = Some (c, a1) -> acc <> RNone -> a1 <> RNone.
Proof.
  destruct k; cbn [kstep]; intros H N.
  - inversion H; subst. destruct reg; discriminate.
  - destruct reg; try discriminate H; [inversion H; subst; exact N|destruct acc; try discriminate H; inversion H; discriminate].
  - destruct reg; try discriminate H; destruct acc; try discriminate H; inversion H; discriminate.
  - destruct reg; try discriminate H; [inversion H; subst; exact N|destruct acc; try discriminate H; inversion H; discriminate].
  - destruct reg as [| |[|]| | | | | | | | | | |]; try discriminate H; inversion H; subst; [discriminate|exact N].
Qed.
(* what every derivation guarantees of its result: an expression, a block, a loop always end with a value - also when an exitWith inside
   an operand ends a block -, and a breakOut that leaves a block names a scope and hands over a value (nil for the unary form) - also
   through loops *)
Definition abr_ok (a:abr) : Prop := match a with AThrow _ => True | ABreak t v => t <> "" /\ v <> RNone end.
Lemma z_results :
  (forall s e v s', zev s e v s' -> v <> RNone) /\ (forall s l vs s', zevs s l vs s' -> True) /\
  (forall s reg st reg1 s1, zstmt s reg st reg1 s1 -> True) /\ (forall s reg b out s', zblock s reg b out s' -> val_of out <> RNone) /\
  (forall k s arr i body acc acc' s', ziter k s arr i body acc acc' s' -> acc <> RNone -> acc' <> RNone) /\
  (forall var to st s x first body acc s', zfor var to st s x first body acc s' -> acc <> RNone) /\
  (forall cond body s first v s', zwhile cond body s first v s' -> v <> RNone) /\
  (forall s reg b x s', zthrow s reg b x s' -> True) /\
  (forall s reg b t v s', zbreak s reg b t v s' -> t <> "" /\ v <> RNone) /\
  (forall s e a s', zloopleave s e a s' -> abr_ok a) /\
  (forall k s arr i body acc a s', zileave k s arr i body acc a s' -> abr_ok a) /\
  (forall var to st s x first body a s', zfleave var to st s x first body a s' -> abr_ok a) /\
  (forall cond body s first a s', zwleave cond body s first a s' -> abr_ok a) /\
  (forall s vars b a s', zscopeleave s vars b a s' -> abr_ok a) /\
  (forall s l a s', zelemsleave s l a s' -> abr_ok a) /\
  (forall s e v s', zexexit s e v s' -> v <> RNone) /\ (forall s l v s', zelemsexit s l v s' -> v <> RNone).
Proof.
  (* most cases yield a value of a given shape, hand on what a premise or the induction hypothesis says, or speak of the value of a block *)
  apply z_ind; intros; cbn [val_of abr_ok] in *; try exact I; try discriminate; try assumption;
    try (match goal with H : _ /\ ?v <> RNone |- ?v <> RNone => exact (proj2 H) end);
    try (match goal with H : nonnil ?v |- ?v <> RNone => exact (proj2 H) end);
    try (match goal with |- res_of ?r <> _ => destruct r; discriminate end);
    try (match goal with |- kinit ?k <> _ => destruct k; discriminate end).
  - (* a pure expression *) match goal with H : pev _ _ _ _ |- _ => exact (proj2 (data_not_nil _ (pev_data _ _ _ _ H))) end.
  - (* a pure unary operator *) match goal with H : pure_unary _ _ = Some _ |- _ => intros ->; exact (pure_unary_nonnil _ _ _ H eq_refl) end.
  - (* a pure binary operator *) match goal with H : pure_binary _ _ _ = Some _ |- _ => intros ->; exact (pure_binary_nonnil _ _ _ _ H eq_refl) end.
  - (* a loop over an array, code first: from its initial accumulator *) match goal with IH : kinit ?k <> RNone -> _ |- _ => apply IH; destruct k; discriminate end.
  - (* ... array first *) match goal with IH : kinit ?k <> RNone -> _ |- _ => apply IH; destruct k; discriminate end.
  - (* a round, then the rest *) match goal with IH : _ <> RNone -> ?a <> RNone |- ?a <> RNone => apply IH end. eapply kstep_not_none; eassumption.
  - (* the round after which the loop stops *) eapply kstep_not_none; eassumption.
  - (* breakOut "t" *) split; [assumption|discriminate].
  - (* v breakOut "t" *) split; [assumption|match goal with H : nonnil _ |- _ => exact (proj2 H) end].
Qed.
Lemma zev_not_none s e v s' : zev s e v s' -> v <> RNone.
Proof. apply z_results. Qed.
Lemma ziter_val k s arr i body acc acc' s' : ziter k s arr i body acc acc' s' -> acc <> RNone -> acc' <> RNone.
Proof. apply z_results. Qed.
Lemma zfor_val var to st s x first body acc s' : zfor var to st s x first body acc s' -> acc <> RNone.
Proof. apply z_results. Qed.
Lemma zwhile_val cond body s first v s' : zwhile cond body s first v s' -> v <> RNone.
Proof. apply z_results. Qed.
Lemma zbreak_facts s reg b t v s' : zbreak s reg b t v s' -> t <> "" /\ v <> RNone.
Proof. apply z_results. Qed.
Lemma zblock_val s reg b out s' : zblock s reg b out s' -> val_of out <> RNone.
Proof. apply z_results. Qed.

(* ---------------------------------------------------------------- the machine: a block in a frame, to the end of that frame's code *)
(* the running frame f executes `code`, which reaches to the end of its instructions.  Normal outcome: the frame stands at its
   end, its region holds the block's value, nothing is completed yet (what happens next depends on the frame: a plain scope
   completes, a loop goes round).  exitWith: the frame is gone and the handler's value stands on what was below it. *)
Definition BodyEnds (s:sstate) (reg:rvalue) (code:list instr) (out:bout) (s':sstate) : Prop :=
  forall r c f fc rest below pre, AtM s reg r c f (fc :: rest) below -> Fresh c below ->
    f_code f = pre ++ code -> f_pos f = length pre -> f_base fc <= length below ->
    match out with
    | BNorm reg' => exists r' c' f' rest', Steps r r' /\ AtM s' reg' r' c' f' rest' below /\ moved f f' /\
                      f_pos f' = length (f_code f) /\ Forall2 kept (fc :: rest) rest'
    | BExit v => exists r' c' fc' rest', Steps r r' /\ Mach (pop_scope s') r' c' fc' rest' /\
                      c_values c' = cv v :: below /\ kept fc fc' /\ Forall2 kept rest rest'
    end.
(* for a plain scope (no exit behaviour) both outcomes end with the frame gone and one value handed over *)
Definition ScopeEnds (s:sstate) (reg:rvalue) (code:list instr) (out:bout) (s':sstate) : Prop :=
  forall r c f fc rest below pre, AtM s reg r c f (fc :: rest) below -> Fresh c below ->
    f_code f = pre ++ code -> f_pos f = length pre -> f_exit f = None -> f_base fc <= length below ->
    exists r' c' fc' rest', Steps r r' /\ Mach (pop_scope s') r' c' fc' rest' /\
      c_values c' = cv (val_of out) :: below /\ kept fc fc' /\ Forall2 kept rest rest'.

Lemma kept_base f f' : kept f f' -> f_base f' = f_base f. Proof. intros H. rewrite <- H. reflexivity. Qed.
Lemma kept_code f f' : kept f f' -> f_code f' = f_code f. Proof. intros H. rewrite <- H. reflexivity. Qed.
Lemma kept_exit f f' : kept f f' -> f_exit f' = f_exit f. Proof. intros H. rewrite <- H. reflexivity. Qed.
Lemma kept_die f f' : kept f f' -> f_die f' = f_die f. Proof. intros H. rewrite <- H. reflexivity. Qed.
Lemma kept_ns f f' : kept f f' -> f_ns f' = f_ns f. Proof. intros H. rewrite <- H. reflexivity. Qed.
Lemma moved_die f f' : moved f f' -> f_die f' = f_die f. Proof. intros H. rewrite <- H. reflexivity. Qed.
Lemma moved_ns f f' : moved f f' -> f_ns f' = f_ns f. Proof. intros H. rewrite <- H. reflexivity. Qed.
Lemma moved_err f f' : moved f f' -> f_err f' = f_err f. Proof. intros H. rewrite <- H. reflexivity. Qed.
Lemma kept_err f f' : kept f f' -> f_err f' = f_err f. Proof. intros H. rewrite <- H. reflexivity. Qed.

(* a frame marked as finished by exitWith (position behind its last instruction, die flag) completes whatever its exit behaviour *)
Lemma complete_dead r c f fc rest top vals :
  Good r c -> quirks r = ([], 0) -> c_frames c = f :: fc :: rest -> f_pos f = S (length (f_code f)) -> f_die f = true ->
  c_values c = top ++ vals -> length vals = f_base f ->
  let c4 := set_values (set_frames c (fc :: rest)) (match top with [] => VNil | x :: _ => x end :: vals) in
  Steps r (upd_cur r c4) /\ Good (upd_cur r c4) c4.
Proof.
  intros G D EF EP ED EV LB. destruct frame_fuel_S as [k Hk].
  apply (done_pass r c f fc rest top vals G D (f_equal (@length _) EF) LB). rewrite Hk. cbn [frame_next]. rewrite EF.
  assert (A1 : at_end f = true) by (unfold at_end; apply Nat.eqb_eq; exact EP).
  rewrite A1, <- (set_values_same c _ _ EV). destruct (f_exit f); [rewrite A1, ED|]; reflexivity.
Qed.

(* the running frame has executed all its instructions and has no exit behaviour: it completes *)
Lemma finish_scope s reg r c f fc rest below :
  AtM s reg r c f (fc :: rest) below -> f_pos f = length (f_code f) -> f_exit f = None -> f_base fc <= length below ->
  exists r' c', Steps r r' /\ Mach (pop_scope s) r' c' fc rest /\ c_values c' = cv (res_of reg) :: below.
Proof.
  intros A EP EX HB. pose proof A as (MA & LB & top & EV & RR). pose proof MA as (G & EF & _ & _ & D).
  destruct frame_fuel_S as [k Hk].
  destruct (done_pass r c (set_pos f (S (f_pos f))) fc rest top below G D (f_equal (@length _) EF) LB) as [S1 G1].
  { rewrite Hk, (frame_next_plain k r c f (fc :: rest) EF EP EX), <- (set_values_same c _ _ EV). reflexivity. }
  eexists _, _. split; [exact S1|]. split; [apply (frame_popped s r c f fc rest _ MA); [cbn; lia|exact G1]|].
  cbn. f_equal. destruct top as [|x top]; cbn in RR.
  - rewrite RR. reflexivity.
  - destruct RR as (-> & NN & _). destruct reg; reflexivity.
Qed.

Lemma scope_ends_of_body s reg code out s' : BodyEnds s reg code out s' -> ScopeEnds s reg code out s'.
Proof.
  intros BE r c f fc rest below pre A FR EC EP EX HB. specialize (BE r c f fc rest below pre A FR EC EP HB).
  destruct out as [reg'|v]; [|exact BE].
  destruct BE as (r1 & c1 & f1 & rest1 & S1 & A1 & MV1 & P1 & K1).
  inversion K1 as [|fa fc1 ra rest1' Ka Kb Ea Eb]; subst.
  destruct (finish_scope s' reg' r1 c1 f1 fc1 rest1' below A1) as (r2 & c2 & S2 & M2 & EV2).
  { rewrite P1, (moved_code _ _ MV1). reflexivity. } { rewrite (moved_exit _ _ MV1). exact EX. } { rewrite (kept_base _ _ Ka). exact HB. }
  exists r2, c2, fc1, rest1'. split; [eapply steps_trans; eassumption|]. split; [exact M2|]. split; [exact EV2|]. split; assumption.
Qed.

Lemma compile_block_cons2 st st2 b : compile_block (st :: st2 :: b) = compile_stmt st ++ IEnd :: compile_block (st2 :: b).
Proof. reflexivity. Qed.
Lemma compile_block_exit n l x rest : compile_block (SExpr (EBinary n l x) :: rest) =
  compile_expr l ++ compile_expr x ++ [IBinary (lower n)] ++ compile_block_from false rest.
Proof. unfold compile_block. cbn [compile_block_from compile_stmt app]. rewrite compile_binary, <- !app_assoc. reflexivity. Qed.

(* ---------------------------------------------------------------- the machine: the running frame executes an expression, an instruction, and stands behind it *)
Lemma mach_adv s r c f rest k vs : Mach s r c f rest -> Mach s (upd_cur r (adv c f rest k vs)) (adv c f rest k vs) (set_pos f (f_pos f + k)) rest.
Proof.
  intros (G & EF & M & B & D). split; [apply good_adv; exact G|]. split; [reflexivity|]. split; [apply match_upd, match_set_pos; exact M|].
  split; [unfold adv; cbn [c_values set_values f_base set_pos]; rewrite app_length; lia|rewrite quirks_upd_cur; exact D].
Qed.

Lemma pure_post s e v r c f rest pre post : pev (loc_of s) (glob_of s) e v -> Mach s r c f rest ->
  f_code f = pre ++ compile_expr e ++ post -> f_pos f = length pre ->
  exists r' c', Steps r r' /\ Mach s r' c' (set_pos f (f_pos f + length (compile_expr e))) rest /\
    c_values c' = cv v :: c_values c /\ cv v <> VNil.
Proof.
  intros HE MA EC EP. pose proof MA as (G & EF & M & B & D).
  destruct (proj1 (pure_sim _ _) e v HE r c f rest pre post G EF EC EP B (env_ok_of s r f rest M)) as [S1 NV].
  eexists _, _. split; [exact S1|]. split; [apply mach_adv; exact MA|split; [reflexivity|exact NV]].
Qed.

Lemma mach_push s r c f rest pre post v : Mach s r c f rest -> f_code f = pre ++ IPush v :: post -> f_pos f = length pre ->
  exists r' c', Steps r r' /\ Mach s r' c' (set_pos f (f_pos f + 1)) rest /\ c_values c' = v :: c_values c.
Proof.
  intros MA EC EP. pose proof MA as (G & EF & M & B & D).
  pose proof (run_push r c f rest pre post (IPush v) v G EF EC EP (fun c1 F1 => eq_refl)) as S1.
  eexists _, _. split; [exact S1|]. split; [apply mach_adv; exact MA|reflexivity].
Qed.

Lemma end_mach s r c f rest below pre post top : Mach s r c f rest -> c_values c = top ++ below -> length below = f_base f ->
  f_code f = pre ++ IEnd :: post -> f_pos f = length pre ->
  exists r' c', Steps r r' /\ Mach s r' c' (set_pos f (S (f_pos f))) rest /\ c_values c' = below.
Proof.
  intros (G & EF & M & B & D) EV LB EC EP.
  assert (N : nth_error (f_code f) (f_pos f) = Some IEnd) by (rewrite EC, EP; apply nth_error_mid).
  set (c1 := set_frames c (set_pos f (S (f_pos f)) :: rest)).
  assert (EX : exec_instr IEnd r c1 = Ok (r, set_values c1 below)).
  { cbn [exec_instr]. unfold clear_values. cbn [c_frames c1 set_frames set_pos f_base c_values]. rewrite EV, app_length, <- LB.
    replace (length top + length below - length below) with (length top) by lia. rewrite skipn_app, skipn_all, Nat.sub_diag. reflexivity. }
  destruct (run_one r c f rest IEnd _ G EF N EX) as [S1 G1].
  { exact (good_running _ _ G). }
  exists (upd_cur r (set_values c1 below)), (set_values c1 below). split; [exact S1|]. split; [|reflexivity].
  split; [exact G1|]. split; [reflexivity|]. split; [apply match_upd, match_set_pos; exact M|].
  split; [cbn; lia|rewrite quirks_upd_cur; exact D].
Qed.

(* an operator that rewrites the running frame (its hidden variable, its position) and leaves a value *)
Lemma mach_unary s r c f rest pre post n' w vals f3 y :
  Mach s r c f rest -> f_code f = pre ++ IUnary n' :: post -> f_pos f = length pre -> c_values c = w :: vals ->
  f_base f <= length vals -> w <> VNil ->
  op_unary (lower n') w r (set_values (set_frames c (set_pos f (S (f_pos f)) :: rest)) vals) =
    Ok (r, set_frames (set_values (set_frames c (set_pos f (S (f_pos f)) :: rest)) vals) (f3 :: rest), y) ->
  Match s r (f3 :: rest) -> f_base f3 = f_base f ->
  exists r' c', Steps r r' /\ Mach s r' c' f3 rest /\ c_values c' = y :: vals.
Proof.
  intros (G & EF & M & B & D) EC EP EV BV NW OP M3 B3.
  assert (N : nth_error (f_code f) (f_pos f) = Some (IUnary n')) by (rewrite EC, EP; apply nth_error_mid).
  destruct (unary_step r c f rest n' w vals r _ y G EF N EV BV NW OP (good_running _ _ G) (ctl_same_refl r)) as [S1 G1].
  match type of G1 with Good _ ?x => exists (upd_cur r x), x end. split; [exact S1|]. split; [|reflexivity].
  split; [exact G1|]. split; [reflexivity|]. split; [apply match_upd; exact M3|]. split; [cbn; rewrite B3; lia|rewrite quirks_upd_cur; exact D].
Qed.
Lemma mach_binary s r c f rest pre post n' l w vals f3 y :
  Mach s r c f rest -> f_code f = pre ++ IBinary n' :: post -> f_pos f = length pre -> c_values c = w :: l :: vals ->
  f_base f <= length vals -> w <> VNil -> l <> VNil ->
  op_binary (lower n') l w r (set_values (set_frames c (set_pos f (S (f_pos f)) :: rest)) vals) =
    Ok (r, set_frames (set_values (set_frames c (set_pos f (S (f_pos f)) :: rest)) vals) (f3 :: rest), y) ->
  Match s r (f3 :: rest) -> f_base f3 = f_base f ->
  exists r' c', Steps r r' /\ Mach s r' c' f3 rest /\ c_values c' = y :: vals.
Proof.
  intros (G & EF & M & B & D) EC EP EV BV NW NL OP M3 B3.
  assert (N : nth_error (f_code f) (f_pos f) = Some (IBinary n')) by (rewrite EC, EP; apply nth_error_mid).
  destruct (binary_step r c f rest n' l w vals r _ y G EF N EV BV NW NL OP (good_running _ _ G) (ctl_same_refl r)) as [S1 G1].
  match type of G1 with Good _ ?x => exists (upd_cur r x), x end. split; [exact S1|]. split; [|reflexivity].
  split; [exact G1|]. split; [reflexivity|]. split; [apply match_upd; exact M3|]. split; [cbn; rewrite B3; lia|rewrite quirks_upd_cur; exact D].
Qed.

(* a new scope on top of the running frame: where its block starts (er: the error handler the frame carries) *)
Lemma enter_at s vars code er r1 c0 fc rest :
  let newf := mk_frame (cur_ns c0) code None er (mvars vars) in
  let c1 := push_value (push_frame c0 newf) VNil in
  Good r1 c1 -> quirks r1 = ([], 0) -> c_frames c0 = fc :: rest -> Match s r1 (fc :: rest) ->
  AtM (enter s vars) RNil r1 c1 (set_base newf (length (c_values c0))) (fc :: rest) (c_values c0).
Proof.
  intros newf c1 G D EF M. apply (enter_frame s (mk_scope (cur_ns_of s) vars) newf r1 c0 fc rest G D EF M).
  unfold newf, cur_ns. rewrite EF, (match_ns _ _ _ _ M). apply frame_match_plain.
Qed.

Lemma fresh_cons c c1 below : Fresh c1 below -> c_values c = VNil :: c_values c1 -> Fresh c below.
Proof. intros (t & EV & UT) E. exists (VNil :: t). split; [rewrite E, EV; reflexivity|constructor; [reflexivity|exact UT]]. Qed.
Lemma pop_enter s vars : pop_scope (enter s vars) = s.
Proof. destruct s; reflexivity. Qed.

(* ---------------------------------------------------------------- loops: the pass that goes round *)
Lemma frame_fuel_SS : exists k, frame_fuel = S (S k).
Proof. destruct frame_fuel as [|[|k]] eqn:E; [exfalso; unfold frame_fuel in E; lia|exfalso; unfold frame_fuel in E; lia|eauto]. Qed.

(* rv is a state the machine does not pass through, but from which one pass of execute_do does what it does from r: a run from rv that
   moves at all is a run from r *)
Lemma virtual_start r rv r' : do_iter r = do_iter rv -> cfg_same r rv -> Steps rv r' -> r' <> rv -> Steps r r'.
Proof.
  intros E CF S N. inversion S; subst; [contradiction| |].
  - eapply StepsExec; [rewrite E; eassumption|eapply cfg_trans; eassumption|assumption].
  - eapply StepsCont; [rewrite E; eassumption|eapply cfg_trans; eassumption|assumption].
Qed.

Lemma via_virtual r r1 cV : Steps r r1 -> do_iter r1 = do_iter (upd_cur r1 cV) ->
  forall r', Steps (upd_cur r1 cV) r' -> r' <> upd_cur r1 cV -> Steps r r'.
Proof. intros S1 E r' S' N'. eapply steps_trans; [exact S1|eapply virtual_start; [exact E|apply cfg_upd_cur|exact S'|exact N']]. Qed.

Lemma logmsg_upd_cur r a d : logmsg (upd_cur r a) d = upd_cur (logmsg r d) a.
Proof.
  unfold logmsg, upd_cur. destruct (Z.leb (fst d) 1); destruct (r_active r) eqn:A; cbn; rewrite ?A; reflexivity.
Qed.
Lemma err_logmsg_warn r c : r_err (upd_cur (logmsg r d_VariableNotFound) c) = r_err r.
Proof. rewrite err_upd_cur. reflexivity. Qed.

(* a virtual state: rV = upd_cur r cV is r with the top frame rewritten to stand at the start of its instructions (fV), and one pass of
   execute_do from r - whatever it does first - ends with executing fV's first instruction i0 the way a pass from rV does (ERr).  When i0
   only pushes a value or reads a variable, it does the same in both states: the two passes end in the same state *)
Lemma twin_pass r c cV fV rest0 i0 :
  Good r c -> c_suspended cV = false -> c_frames cV = fV :: rest0 -> nth_error (f_code fV) (f_pos fV) = Some i0 ->
  ((exists v, i0 = IPush v) \/ (exists n, i0 = IGet n)) ->
  (forall r3 c5, exec_instr i0 r (set_frames cV (set_pos fV (S (f_pos fV)) :: rest0)) = Ok (r3, c5) -> r_err (upd_cur r3 c5) = false ->
     do_iter r = Ok (Executed (set_msgs (upd_cur r3 c5) []))) ->
  do_iter r = do_iter (upd_cur r cV).
Proof.
  intros G SUV EFV NV LF ERr. pose proof G as (C & X & St & E & M & MR & SU).
  assert (GV : Good (upd_cur r cV) cV) by (apply (good_upd r c cV G); exact SUV).
  set (cin := set_frames cV (set_pos fV (S (f_pos fV)) :: rest0)) in *.
  assert (EVr : forall r3 c5, exec_instr i0 (upd_cur r cV) cin = Ok (r3, c5) -> r_err (upd_cur r3 c5) = false ->
            do_iter (upd_cur r cV) = Ok (Executed (set_msgs (upd_cur r3 c5) []))).
  { intros r3 c5 H1 H2. exact (step_instr (upd_cur r cV) cV fV rest0 i0 r3 c5 GV EFV NV H1 H2). }
  destruct LF as [[v ->]|[n ->]].
  - rewrite (ERr r (push_value cin v)); [|reflexivity|rewrite err_upd_cur; exact E].
    rewrite (EVr (upd_cur r cV) (push_value cin v)); [|reflexivity|rewrite !err_upd_cur; exact E].
    rewrite upd_cur_twice. reflexivity.
  - cbn [exec_instr] in EVr, ERr. destruct (is_local n).
    + destruct (get_variable cin n) as [v|].
      * rewrite (ERr r (push_value cin v)); [|reflexivity|rewrite err_upd_cur; exact E].
        rewrite (EVr (upd_cur r cV) (push_value cin v)); [|reflexivity|rewrite !err_upd_cur; exact E].
        rewrite upd_cur_twice. reflexivity.
      * rewrite (ERr _ _ eq_refl); [|rewrite err_logmsg_warn; exact E].
        rewrite (EVr _ _ eq_refl); [|rewrite err_logmsg_warn, err_upd_cur; exact E].
        rewrite logmsg_upd_cur, upd_cur_twice. reflexivity.
    + cbn [c_frames cin set_frames] in EVr, ERr. rewrite ns_get_upd_cur in EVr.
      destruct (ns_get r (f_ns (set_pos fV (S (f_pos fV)))) n) as [v|].
      * rewrite (ERr r (push_value cin v)); [|reflexivity|rewrite err_upd_cur; exact E].
        rewrite (EVr (upd_cur r cV) (push_value cin v)); [|reflexivity|rewrite !err_upd_cur; exact E].
        rewrite upd_cur_twice. reflexivity.
      * rewrite (ERr _ _ eq_refl); [|rewrite err_logmsg_warn; exact E].
        rewrite (EVr _ _ eq_refl); [|rewrite err_logmsg_warn, err_upd_cur; exact E].
        rewrite logmsg_upd_cur, upd_cur_twice. reflexivity.
Qed.

(* the loop frame at the start of a round: position 0, the new behaviour, the new variables *)
Definition round_frame (f:frame) (b':behavior) (vars:list (string*value)) : frame :=
  set_vars (set_scope (set_pos (set_exit f (Some b')) 0) "") vars.      (* a new scope: no name *)

(* what the frame's behaviour does when the body has run out and another round follows: it asks for a restart, and after
   frame::next has reset the position the context is the one at the start of the next round *)
Definition goes_round (r:rt) (c:context) (f:frame) (rest0:list frame) (b b':behavior) (vars:list (string*value)) (below:list value) : Prop :=
  exists c2, enact b r (set_frames c (set_pos f (S (f_pos f)) :: rest0)) = Ok (BrSeekStart, b', r, c2) /\
    clear_values (upd_top (upd_top c2 (fun f0 => set_exit f0 (Some b'))) (fun f0 => set_scope (set_pos f0 0) "")) =
    set_values (set_frames c (round_frame f b' vars :: rest0)) below.

(* the pass that finds the loop body finished, takes the next element and executes the first instruction of the new round *)
Lemma loop_step_real r c f rest0 b b' vars i0 code' below r3 c5 :
  Good r c -> c_frames c = f :: rest0 -> f_pos f = length (f_code f) -> f_exit f = Some b -> f_die f = false ->
  f_code f = i0 :: code' -> goes_round r c f rest0 b b' vars below ->
  exec_instr i0 r (set_values (set_frames c (set_pos (round_frame f b' vars) 1 :: rest0)) below) = Ok (r3, c5) ->
  r_err (upd_cur r3 c5) = false ->
  do_iter r = Ok (Executed (set_msgs (upd_cur r3 c5) [])).
Proof.
  intros G EF EP EX ED EC (c2 & HE & HC) EI NErr. destruct frame_fuel_SS as [k Hk].
  apply (exec_pass r c f rest0 (set_values (set_frames c (set_pos (round_frame f b' vars) 1 :: rest0)) below) i0 r3 c5 G EF); [|cbn; rewrite EC; reflexivity|exact EI|exact NErr].
  rewrite Hk, (frame_next_end _ r c f rest0 b EF EP EX ED), HE. cbn [bindr]. rewrite HC.
  assert (TE : top_code_empty (set_values (set_frames c (round_frame f b' vars :: rest0)) below) = false) by (unfold top_code_empty; cbn; rewrite EC; reflexivity).
  rewrite TE. exact (frame_next_first k r (set_values (set_frames c (round_frame f b' vars :: rest0)) below) _ rest0 i0 code' eq_refl eq_refl EC).
Qed.

Lemma loop_back r c f rest0 b b' vars i0 code' below :
  Good r c -> c_frames c = f :: rest0 -> f_pos f = length (f_code f) -> f_exit f = Some b -> f_die f = false ->
  f_code f = i0 :: code' -> ((exists v, i0 = IPush v) \/ (exists n, i0 = IGet n)) ->
  goes_round r c f rest0 b b' vars below ->
  do_iter r = do_iter (upd_cur r (set_values (set_frames c (round_frame f b' vars :: rest0)) below)).
Proof.
  intros G EF EP EX ED EC LF GR.
  apply (twin_pass r c (set_values (set_frames c (round_frame f b' vars :: rest0)) below) _ rest0 i0 G (good_running _ _ G) eq_refl); [cbn; rewrite EC; reflexivity|exact LF|].
  intros r3 c5. exact (loop_step_real r c f rest0 b b' vars i0 code' below r3 c5 G EF EP EX ED EC GR).
Qed.

(* what the behaviour does when the loop is over: it lets the frame complete; the frame's value is the top of what
   the behaviour leaves in the region (nil if nothing) *)
Definition loop_over (r:rt) (c:context) (f:frame) (rest0:list frame) (b:behavior) (top2 vals:list value) : Prop :=
  exists b', enact b r (set_frames c (set_pos f (S (f_pos f)) :: rest0)) =
             Ok (BrOk, b', r, set_values (set_frames c (set_pos f (S (f_pos f)) :: rest0)) (top2 ++ vals)).

Lemma complete_loop r c f fc rest b top2 vals :
  Good r c -> quirks r = ([], 0) -> c_frames c = f :: fc :: rest -> f_pos f = length (f_code f) ->
  f_exit f = Some b -> f_die f = false -> loop_over r c f (fc :: rest) b top2 vals -> length vals = f_base f ->
  let c4 := set_values (set_frames c (fc :: rest)) (match top2 with [] => VNil | x :: _ => x end :: vals) in
  Steps r (upd_cur r c4) /\ Good (upd_cur r c4) c4.
Proof.
  intros G D EF EP EX ED (b' & HE) LB. destruct frame_fuel_S as [k Hk].
  apply (done_pass r c (set_exit (set_pos f (S (f_pos f))) (Some b')) fc rest top2 vals G D (f_equal (@length _) EF) LB).
  rewrite Hk, (frame_next_end _ r c f (fc :: rest) b EF EP EX ED), HE. reflexivity.
Qed.

Lemma skipn_cons_nth (l:list rvalue) i x rest : skipn i l = x :: rest -> nth i l RNil = x /\ skipn (S i) l = rest.
Proof.
  revert i. induction l as [|a l IH]; intros [|i] H; cbn in *; try discriminate.
  - inversion H; subst. split; reflexivity.
  - apply IH. exact H.
Qed.
Lemma skipn_cons_length {A} (l:list A) i x rest : skipn i l = x :: rest -> length l = i + S (length rest).
Proof.
  revert i. induction l as [|a l IH]; intros [|i] H; cbn in *; try discriminate.
  - inversion H; subst. reflexivity.
  - rewrite (IH i H). reflexivity.
Qed.
Lemma nth_val_map l i : nth_val (map cv l) i = cv (nth i l RNil).
Proof. unfold nth_val. change VNil with (cv RNil). apply map_nth. Qed.

(* the region of the loop frame when the body has run out, given the body's value *)
Lemma region_top reg top : reg_rep reg top -> reg <> RNone -> exists top', top = cv reg :: top'.
Proof. destruct top as [|y top']; cbn; [intros -> N; contradiction|intros [-> _] _; eauto]. Qed.

Lemma restart_context c f rest0 b' vars below vs :
  length below = f_base f ->
  clear_values (upd_top (upd_top (restart_with (set_values (set_frames c (set_pos f (S (f_pos f)) :: rest0)) (vs ++ below)) vars)
                                 (fun f0 => set_exit f0 (Some b'))) (fun f0 => set_scope (set_pos f0 0) "")) =
  set_values (set_frames c (round_frame f b' vars :: rest0)) below.
Proof.
  intros LB. unfold restart_with, clear_values, upd_top.
  cbn [c_frames set_frames c_values set_values f_base set_pos set_vars set_exit set_scope].
  rewrite app_length, <- LB. replace (length vs + length below - length below) with (length vs) by lia.
  rewrite skipn_app, skipn_all, Nat.sub_diag. cbn [skipn app]. rewrite Nat.sub_diag. cbn [skipn].
  unfold round_frame. destruct f; destruct c; reflexivity.
Qed.

Lemma kind_round k all i x x2 rest2 acc acc1 reg b r c f rest0 top below :
  skipn i all = x :: x2 :: rest2 -> kb k all i acc b -> kstep k x i reg acc = Some (true, acc1) -> kok k reg ->
  c_frames c = f :: rest0 -> c_values c = top ++ below -> length below = f_base f -> reg_rep reg top ->
  exists b', kb k all (S i) acc1 b' /\ goes_round r c f rest0 b b' (mvars (kvars k (S i) x2)) below.
Proof.
  intros SK KB KS KO EF EV LB RR.
  pose proof (skipn_cons_length _ _ _ _ SK) as LEN.
  assert (NE : Nat.eqb (S i) (length (map cv all)) = false) by (rewrite map_length, LEN; apply Nat.eqb_neq; cbn [length]; lia).
  destruct (skipn_cons_nth _ _ _ _ SK) as [NX0 SK1]. destruct (skipn_cons_nth _ _ _ _ SK1) as [NX _].
  assert (NV : nth_val (map cv all) (S i) = cv x2) by (rewrite nth_val_map, NX; reflexivity).
  assert (NV0 : nth_val (map cv all) i = cv x) by (rewrite nth_val_map, NX0; reflexivity).
  set (c1 := set_frames c (set_pos f (S (f_pos f)) :: rest0)).
  assert (POP : forall v top', top = v :: top' -> pop_value c1 = Some (v, set_values c1 (top' ++ below))).
  { intros v top' ->. apply (pop_value_top c1 (set_pos f (S (f_pos f))) rest0); [reflexivity|exact EV|cbn; rewrite app_length; lia]. }
  destruct k; cbn [kb] in KB.
  - (* forEach *) subst b. cbn [kstep] in KS. inversion KS; subst acc1. eexists. split; [reflexivity|].
    eexists. split.
    + cbn [enact]. rewrite NE. reflexivity.
    + rewrite NV. rewrite (set_values_same c _ _ EV). apply restart_context; exact LB.
  - (* count *) destruct acc as [|cnt| | | | | | | | | | | |]; try contradiction. subst b. destruct KO as [t ->].
    cbn [kstep] in KS. inversion KS; subst acc1.
    destruct (region_top _ _ RR) as [top' ->]; [discriminate|]. eexists. split; [reflexivity|].
    eexists. split.
    + cbn [enact]. fold c1. rewrite (POP _ _ eq_refl). cbn [cv]. rewrite NE. reflexivity.
    + rewrite NV. apply restart_context; exact LB.
  - (* apply *) destruct acc as [| | | |out| | | | | | | | |]; try contradiction. subst b.
    destruct (region_top _ _ RR KO) as [top' ->].
    assert (KS' : acc1 = RArr (out ++ [reg])) by (cbn [kstep] in KS; destruct reg; inversion KS; try reflexivity; exfalso; apply KO; reflexivity).
    subst acc1. eexists. split; [cbn [kb]; rewrite map_app; reflexivity|].
    eexists. split.
    + cbn [enact]. fold c1. rewrite (POP _ _ eq_refl). rewrite NE. reflexivity.
    + rewrite NV. apply restart_context; exact LB.
  - (* select *) destruct acc as [| | | |out| | | | | | | | |]; try contradiction. subst b. destruct KO as [t ->].
    cbn [kstep] in KS. inversion KS; subst acc1.
    destruct (region_top _ _ RR) as [top' ->]; [discriminate|].
    destruct t.
    + eexists. split; [cbn [kb]; rewrite map_app; cbn [map]; rewrite <- NV0; reflexivity|].
      eexists. split.
      * cbn [enact]. fold c1. rewrite (POP _ _ eq_refl). cbn [cv]. rewrite NE. reflexivity.
      * rewrite NV. apply restart_context; exact LB.
    + eexists. split; [reflexivity|].
      eexists. split.
      * cbn [enact]. fold c1. rewrite (POP _ _ eq_refl). cbn [cv]. rewrite NE. reflexivity.
      * rewrite NV. apply restart_context; exact LB.
  - (* findIf *) destruct acc as [|m| | | | | | | | | | | |]; try contradiction. destruct KB as [-> ->]. destruct KO as [t ->].
    cbn [kstep] in KS. destruct t; inversion KS; subst acc1.
    destruct (region_top _ _ RR) as [top' ->]; [discriminate|]. eexists. split; [split; reflexivity|].
    eexists. split.
    + cbn [enact]. fold c1. rewrite (POP _ _ eq_refl). cbn [cv]. rewrite NE. reflexivity.
    + rewrite NV. apply restart_context; exact LB.
Qed.

(* the round after which the loop is over: the last element, or findIf's hit *)
Lemma kind_over k all i x acc acc1 reg b r c f rest0 top below cont :
  kb k all i acc b -> kstep k x i reg acc = Some (cont, acc1) -> kok k reg -> nth i all RNil = x ->
  (cont = true -> S i = length all) ->
  c_frames c = f :: rest0 -> c_values c = top ++ below -> length below = f_base f -> reg_rep reg top ->
  exists top2, loop_over r c f rest0 b top2 below /\ (match top2 with [] => VNil | y :: _ => y end) = cv acc1.
Proof.
  intros KB KS KO NX0 LAST EF EV LB RR.
  assert (NV0 : nth_val (map cv all) i = cv x) by (rewrite nth_val_map, NX0; reflexivity).
  set (c1 := set_frames c (set_pos f (S (f_pos f)) :: rest0)).
  assert (POP : forall v top', top = v :: top' -> pop_value c1 = Some (v, set_values c1 (top' ++ below))).
  { intros v top' ->. apply (pop_value_top c1 (set_pos f (S (f_pos f))) rest0); [reflexivity|exact EV|cbn; rewrite app_length; lia]. }
  assert (NE : cont = true -> Nat.eqb (S i) (length (map cv all)) = true) by (intros H; rewrite map_length; apply Nat.eqb_eq; auto).
  destruct k; cbn [kb] in KB.
  - (* forEach *) subst b. cbn [kstep] in KS. inversion KS; subst acc1 cont. exists top. split.
    + eexists. cbn [enact]. rewrite (NE eq_refl). fold c1. rewrite <- EV. unfold c1. rewrite <- (set_values_same c _ _ eq_refl). reflexivity.
    + destruct top as [|y top']; cbn in RR; [rewrite RR; reflexivity|destruct RR as [-> _]; destruct reg; reflexivity].
  - (* count *) destruct acc as [|cnt| | | | | | | | | | | |]; try contradiction. subst b. destruct KO as [t ->].
    cbn [kstep] in KS. inversion KS; subst acc1 cont.
    destruct (region_top _ _ RR) as [top' ->]; [discriminate|].
    exists (VNum (if t then cnt + 1 else cnt)%Z :: top'). split; [|reflexivity].
    eexists. cbn [enact]. fold c1. rewrite (POP _ _ eq_refl). cbn [cv]. rewrite (NE eq_refl). reflexivity.
  - (* apply *) destruct acc as [| | | |out| | | | | | | | |]; try contradiction. subst b.
    destruct (region_top _ _ RR KO) as [top' ->].
    assert (KS' : acc1 = RArr (out ++ [reg]) /\ cont = true) by (cbn [kstep] in KS; destruct reg; inversion KS; try (split; reflexivity); exfalso; apply KO; reflexivity).
    destruct KS' as [-> ->].
    exists (VArr (map cv out ++ [cv reg]) :: top'). split; [|cbn [cv]; rewrite map_app; reflexivity].
    eexists. cbn [enact]. fold c1. rewrite (POP _ _ eq_refl). rewrite (NE eq_refl). reflexivity.
  - (* select *) destruct acc as [| | | |out| | | | | | | | |]; try contradiction. subst b. destruct KO as [t ->].
    cbn [kstep] in KS. inversion KS; subst acc1 cont.
    destruct (region_top _ _ RR) as [top' ->]; [discriminate|].
    exists (VArr (if t then map cv out ++ [nth_val (map cv all) i] else map cv out) :: top'). split.
    + eexists. cbn [enact]. fold c1. rewrite (POP _ _ eq_refl). cbn [cv]. rewrite (NE eq_refl). reflexivity.
    + destruct t; cbn [cv]; [rewrite map_app, NV0; reflexivity|reflexivity].
  - (* findIf *) destruct acc as [|m| | | | | | | | | | | |]; try contradiction. destruct KB as [-> ->]. destruct KO as [t ->].
    destruct (region_top _ _ RR) as [top' ->]; [discriminate|].
    cbn [kstep] in KS. destruct t; inversion KS; subst acc1 cont.
    + exists (VNum (Z.of_nat i) :: top'). split; [|reflexivity].
      eexists. cbn [enact]. fold c1. rewrite (POP _ _ eq_refl). cbn [cv]. reflexivity.
    + exists (VNum (-1) :: top'). split; [|reflexivity].
      eexists. cbn [enact]. fold c1. rewrite (POP _ _ eq_refl). cbn [cv]. rewrite (NE eq_refl). reflexivity.
Qed.

(* the loop frame as the operator creates it *)
Definition kbeh0 (k:lkind) (arrV:list value) : behavior :=
  match k with
  | KForEach => BForEach arrV 0 | KCount => BCount arrV 0 0 | KApply => BApply arrV [] 0
  | KSelect => BSelect arrV [] 0 | KFindIf => BFindIf arrV 0 end.
Definition kvars0 (k:lkind) (x:value) : list (string*value) :=
  match k with KForEach => [("_x", x); ("_foreachindex", VNum 0)] | _ => [("_x", x)] end.
Definition kframe (k:lkind) (ns:string) (body:list stmt) (all:list rvalue) (x0:rvalue) : frame :=
  mk_frame ns (compile_block body) (Some (kbeh0 k (map cv all))) None (kvars0 k (cv x0)).
Lemma kb_init k all : kb k all 0 (kinit k) (kbeh0 k (map cv all)).
Proof. destruct k; cbn; auto. Qed.
Lemma kvars0_match k x0 : vars_match (kvars k 0 x0) (kvars0 k (cv x0)).
Proof.
  destruct k; intros kk; cbn; try (destruct (String.eqb kk "_x"); reflexivity).
  destruct (String.eqb kk "_x") eqn:Ex, (String.eqb kk "_foreachindex") eqn:Ei; try reflexivity.
  apply String.eqb_eq in Ex, Ei. subst kk. discriminate Ei.
Qed.

Lemma top_var_match s r f rest k v : Match s r (f :: rest) -> hidden k = false -> top_var s k = Some v -> assoc k (f_vars f) = Some (cv v).
Proof.
  intros [F _] HK TV. inversion F as [|sc f0 scs fs (V & _) F' E1 E2]; subst. unfold top_var in TV. rewrite <- E1 in TV.
  rewrite (V k HK), TV. reflexivity.
Qed.
(* the behaviour of a for loop: it reads the loop variable back from the frame *)
Lemma for_round var to st y r c f rest0 top below :
  c_frames c = f :: rest0 -> c_values c = top ++ below -> length below = f_base f ->
  assoc (lower var) (f_vars f) = Some (VNum y) -> beyond to st (y + st)%Z = false ->
  goes_round r c f rest0 (BFor var to st) (BFor var to st) [(lower var, VNum (y + st)%Z)] below.
Proof.
  intros EF EV LB AV BY. unfold beyond in BY. eexists. split.
  - cbn [enact c_frames set_frames f_vars set_pos]. rewrite AV, BY. reflexivity.
  - rewrite (set_values_same c _ _ EV). apply restart_context; exact LB.
Qed.
Lemma for_over var to st y r c f rest0 top below :
  c_frames c = f :: rest0 -> c_values c = top ++ below ->
  assoc (lower var) (f_vars f) = Some (VNum y) -> beyond to st (y + st)%Z = true ->
  loop_over r c f rest0 (BFor var to st) top below.
Proof.
  intros EF EV AV BY. unfold beyond in BY. eexists.
  cbn [enact c_frames set_frames f_vars set_pos]. rewrite AV, BY. rewrite <- (set_values_same c _ _ EV). reflexivity.
Qed.
Lemma for_set_vm m var fr to st x fr' to' st' r c : for_set m fr to st x = Some (fr', to', st') ->
  op_binary m (VFor var fr to st) (VNum x) r c = Ok (r, c, VFor var fr' to' st').
Proof.
  unfold for_set. intros H.
  destruct (String.eqb m "from") eqn:E1; [apply String.eqb_eq in E1; subst m; inversion H; subst; reflexivity|].
  destruct (String.eqb m "to") eqn:E2; [apply String.eqb_eq in E2; subst m; inversion H; subst; reflexivity|].
  destruct (String.eqb m "step") eqn:E3; [apply String.eqb_eq in E3; subst m; inversion H; subst; reflexivity|discriminate H].
Qed.
Lemma for_do_vm var fr to st code r c :
  op_binary "do" (VFor var fr to st) (VCode code) r c =
  if for_empty fr to st then Ok (r, c, VNil)
  else Ok (r, push_frame c (mk_frame (cur_ns c) code (Some (BFor var to st)) None [(lower var, VNum fr)]), VNil).
Proof. reflexivity. Qed.

(* ---------------------------------------------------------------- loops that exchange the frame's instructions (while) *)
(* when the condition comes back for the next round the frame is a new scope: its name goes (frame_next) *)
Definition xscope (b':behavior) (f:frame) : frame := match b' with BWhile _ WCond _ _ => set_scope f "" | _ => f end.
Lemma xscope_exit b' f : f_exit (xscope b' f) = f_exit f.
Proof. destruct b' as [|? [|] ? ?| | | | | | | |]; reflexivity. Qed.
(* the loop frame after its behaviour has put other instructions in: position 0, the new behaviour, no variables *)
Definition xframe (f:frame) (b':behavior) (code':list instr) : frame :=
  set_vars (set_pos (set_code (xscope b' (set_exit f (Some b'))) code') 0) [].

Definition exchanges (r:rt) (c:context) (f:frame) (rest0:list frame) (b b':behavior) (code':list instr) (below:list value) : Prop :=
  exists c2, enact b r (set_frames c (set_pos f (S (f_pos f)) :: rest0)) = Ok (BrExchange code', b', r, c2) /\
    upd_top (upd_top c2 (fun f0 => set_exit f0 (Some b'))) (fun f0 => set_pos (set_code (xscope b' f0) code') 0) =
    set_values (set_frames c (xframe f b' code' :: rest0)) below.

Lemma xloop_step_real r c f rest0 b b' i0 code' below r3 c5 :
  Good r c -> c_frames c = f :: rest0 -> f_pos f = length (f_code f) -> f_exit f = Some b -> f_die f = false ->
  exchanges r c f rest0 b b' (i0 :: code') below ->
  exec_instr i0 r (set_values (set_frames c (set_pos (xframe f b' (i0 :: code')) 1 :: rest0)) below) = Ok (r3, c5) ->
  r_err (upd_cur r3 c5) = false ->
  do_iter r = Ok (Executed (set_msgs (upd_cur r3 c5) [])).
Proof.
  intros G EF EP EX ED (c2 & HE & HC) EI NErr. destruct frame_fuel_SS as [k Hk].
  apply (exec_pass r c f rest0 (set_values (set_frames c (set_pos (xframe f b' (i0 :: code')) 1 :: rest0)) below) i0 r3 c5 G EF); [|reflexivity|exact EI|exact NErr].
  rewrite Hk, (frame_next_end _ r c f rest0 b EF EP EX ED), HE. cbn [bindr]. unfold xscope in HC. rewrite HC.
  exact (frame_next_first k r (set_values (set_frames c (xframe f b' (i0 :: code') :: rest0)) below) _ rest0 i0 code' eq_refl eq_refl eq_refl).
Qed.

Lemma xloop_back r c f rest0 b b' i0 code' below :
  Good r c -> c_frames c = f :: rest0 -> f_pos f = length (f_code f) -> f_exit f = Some b -> f_die f = false ->
  ((exists v, i0 = IPush v) \/ (exists n, i0 = IGet n)) ->
  exchanges r c f rest0 b b' (i0 :: code') below ->
  do_iter r = do_iter (upd_cur r (set_values (set_frames c (xframe f b' (i0 :: code') :: rest0)) below)).
Proof.
  intros G EF EP EX ED LF GR.
  apply (twin_pass r c (set_values (set_frames c (xframe f b' (i0 :: code') :: rest0)) below) _ rest0 i0 G (good_running _ _ G) eq_refl eq_refl LF).
  intros r3 c5. exact (xloop_step_real r c f rest0 b b' i0 code' below r3 c5 G EF EP EX ED GR).
Qed.

(* ---------------------------------------------------------------- while: what its behaviour does *)
(* the condition has come out true: the body's instructions are put in *)
Lemma while_to_body r c f rest0 loops cc i0 code' t below :
  c_frames c = f :: rest0 -> c_values c = VBool true :: t ++ below -> length below = f_base f ->
  exchanges r c f rest0 (BWhile loops WCond cc (i0 :: code')) (BWhile loops WCode cc (i0 :: code')) (i0 :: code') below.
Proof.
  intros EF EV LB.
  set (cin := set_frames c (set_pos f (S (f_pos f)) :: rest0)).
  assert (P : pop_value cin = Some (VBool true, set_values cin (t ++ below))).
  { apply (pop_value_top cin (set_pos f (S (f_pos f))) rest0); [reflexivity|exact EV|cbn; rewrite app_length; lia]. }
  eexists. split.
  - cbn [enact]. fold cin. rewrite P. reflexivity.
  - unfold restart_with, clear_values, upd_top. cbn [c_frames set_values set_frames cin c_values f_base set_pos].
    rewrite app_length, <- LB. replace (length t + length below - length below) with (length t) by lia.
    rewrite skipn_app, skipn_all, Nat.sub_diag. cbn [skipn app]. destruct c, f; reflexivity.
Qed.

(* the body has run out: the condition's instructions are put back (no cap on the rounds) *)
Lemma while_to_cond r c f rest0 loops i0 code' bc top below :
  c_frames c = f :: rest0 -> c_values c = top ++ below -> length below = f_base f -> r_max_loop r = 0 ->
  exchanges r c f rest0 (BWhile loops WCode (i0 :: code') bc)
            (BWhile (if c_can_suspend c then loops else S loops) WCond (i0 :: code') bc) (i0 :: code') below.
Proof.
  intros EF EV LB ML.
  set (cin := set_frames c (set_pos f (S (f_pos f)) :: rest0)).
  eexists. split.
  - cbn [enact]. fold cin. rewrite ML. cbn [Nat.ltb Nat.leb andb]. rewrite andb_false_r. unfold cin at 1. cbn [c_can_suspend set_frames]. reflexivity.
  - unfold restart_with, clear_values, upd_top. cbn [c_frames set_values set_frames cin c_values f_base set_pos].
    rewrite EV, app_length, <- LB. replace (length top + length below - length below) with (length top) by lia.
    rewrite skipn_app, skipn_all, Nat.sub_diag. cbn [skipn app]. destruct c, f; reflexivity.
Qed.

(* the condition has come out false: the loop is over, what lay under the condition's value is what is left *)
Lemma while_over r c f rest0 loops cc bc t below :
  c_frames c = f :: rest0 -> c_values c = VBool false :: t ++ below -> length below = f_base f ->
  loop_over r c f rest0 (BWhile loops WCond cc bc) t below.
Proof.
  intros EF EV LB.
  set (cin := set_frames c (set_pos f (S (f_pos f)) :: rest0)).
  assert (P : pop_value cin = Some (VBool false, set_values cin (t ++ below))).
  { apply (pop_value_top cin (set_pos f (S (f_pos f))) rest0); [reflexivity|exact EV|cbn; rewrite app_length; lia]. }
  eexists. cbn [enact]. fold cin. rewrite P. reflexivity.
Qed.

Lemma while_do_vm i0 code' bc r c :
  op_binary "do" (VWhile (i0 :: code')) (VCode bc) r c =
  Ok (r, push_frame c (mk_frame (cur_ns c) (i0 :: code') (Some (BWhile 0 WCond (i0 :: code') bc)) None []), VNil).
Proof. reflexivity. Qed.
Lemma while_val_vm code r c : op_unary "while" (VCode code) r c = Ok (r, c, VWhile code).
Proof. reflexivity. Qed.

(* ---------------------------------------------------------------- loops: what is proved of the rounds from a given one on, and the pieces of a round *)
Definition ForRuns (var:string) (to st:Z) (s:sstate) (x:Z) (first:bool) (body:list stmt) (acc':rvalue) (s':sstate) : Prop :=
  forall r c f fc frest below,
    AtM (enter s [(lower var, RNum x)]) (if first then RNil else RNone) r c f (fc :: frest) below -> Fresh c below ->
    f_code f = compile_block body -> f_pos f = 0 -> f_exit f = Some (BFor var to st) -> f_die f = false ->
    leaf_first body -> f_ns f = f_ns fc -> f_base fc <= length below ->
    exists r' c' fc' rest', Steps r r' /\ r' <> r /\ Mach s' r' c' fc' rest' /\ c_values c' = cv acc' :: below /\
      kept fc fc' /\ Forall2 kept frest rest'.

(* the state at the start of a round: the loop frame at position 0 with the element bound, its behaviour at that index with
   what has been accumulated so far *)
Definition IterRuns (k:lkind) (s:sstate) (arr:list rvalue) (i:nat) (body:list stmt) (acc acc':rvalue) (s':sstate) : Prop :=
  match arr with
  | [] => True
  | x :: rest0 =>
    forall r c f fc frest below allarr b,
      AtM (enter s (kvars k i x)) (match i with O => RNil | _ => RNone end) r c f (fc :: frest) below -> Fresh c below ->
      f_code f = compile_block body -> f_pos f = 0 -> f_exit f = Some b -> kb k allarr i acc b -> f_die f = false ->
      skipn i allarr = x :: rest0 -> leaf_first body -> f_ns f = f_ns fc -> f_base fc <= length below ->
      exists r' c' fc' rest', Steps r r' /\ r' <> r /\ Mach s' r' c' fc' rest' /\ c_values c' = cv acc' :: below /\
        kept fc fc' /\ Forall2 kept frest rest'
  end.

(* the state at the start of a round of while: the loop frame holds the condition's instructions at position 0, no variables,
   its behaviour waits for the condition's value (after however many rounds) *)
Definition WhileRuns (cond body:list stmt) (s:sstate) (first:bool) (v:rvalue) (s':sstate) : Prop :=
  forall r c f fc frest below loops,
    AtM (enter s []) (if first then RNil else RNone) r c f (fc :: frest) below -> Fresh c below ->
    f_code f = compile_block cond -> f_pos f = 0 ->
    f_exit f = Some (BWhile loops WCond (compile_block cond) (compile_block body)) -> f_die f = false ->
    leaf_first cond -> leaf_first body -> f_ns f = f_ns fc -> f_base fc <= length below ->
    exists r' c' fc' rest', Steps r r' /\ r' <> r /\ Mach s' r' c' fc' rest' /\ c_values c' = cv v :: below /\
      kept fc fc' /\ Forall2 kept frest rest'.

(* the conclusion of IterRuns / ForRuns / WhileRuns: the loop frame (on fc :: frest) is gone, the loop's value stands on what lay below it *)
Definition LoopDone (s':sstate) (v:rvalue) (r:rt) (fc:frame) (frest:list frame) (below:list value) : Prop :=
  exists r' c' fc' rest', Steps r r' /\ r' <> r /\ Mach s' r' c' fc' rest' /\ c_values c' = cv v :: below /\
    kept fc fc' /\ Forall2 kept frest rest'.

Lemma loop_done_post s' v r fc frest below : LoopDone s' v r fc frest below ->
  exists r' c' fc' rest', Steps r r' /\ Mach s' r' c' fc' rest' /\ c_values c' = cv v :: below /\ kept fc fc' /\ Forall2 kept frest rest'.
Proof. intros (r' & c' & fc' & rest' & S' & _ & H). exists r', c', fc', rest'. split; [exact S'|exact H]. Qed.

(* a loop that is over after a later round is over: the machine gets from r to the (virtual) state rV at the start of the next round *)
Lemma loop_done_transfer s' v r c f fc frest rV fc1 frest1 below :
  cur r = Some c -> c_frames c = f :: fc :: frest ->
  (forall r', Steps rV r' -> r' <> rV -> Steps r r') -> kept fc fc1 -> Forall2 kept frest frest1 ->
  LoopDone s' v rV fc1 frest1 below -> LoopDone s' v r fc frest below.
Proof.
  intros C EF HS Ka Kb (r' & c' & fc' & rest' & S' & N' & M' & EV' & K' & KR').
  assert (KR : Forall2 kept frest rest') by (eapply kept_all_trans; eassumption).
  exists r', c', fc', rest'. split; [apply HS; assumption|]. split; [exact (popped_neq r c f fc frest s' r' c' fc' rest' C EF M' KR)|].
  split; [exact M'|]. split; [exact EV'|]. split; [eapply kept_trans; eassumption|exact KR].
Qed.

(* the body of a round - the whole code of the loop frame f - has run to its end: the frame stands behind its last instruction *)
Lemma body_at_end s reg code reg' s1 r c f fc frest below :
  BodyEnds s reg code (BNorm reg') s1 -> AtM s reg r c f (fc :: frest) below -> Fresh c below -> f_code f = code -> f_pos f = 0 ->
  f_base fc <= length below ->
  exists r1 c1 f1 fc1 frest1, Steps r r1 /\ AtM s1 reg' r1 c1 f1 (fc1 :: frest1) below /\ moved f f1 /\
    f_pos f1 = length (f_code f1) /\ kept fc fc1 /\ Forall2 kept frest frest1.
Proof.
  intros BE A FR EC EP HB. destruct (BE r c f fc frest below [] A FR EC EP HB) as (r1 & c1 & f1 & rest1 & S1 & A1 & MV1 & P1 & K1).
  inversion K1 as [|fa fc1 ra frest1 Ka Kb Ea Eb]; subst. exists r1, c1, f1, fc1, frest1.
  split; [exact S1|]. split; [exact A1|]. split; [exact MV1|]. split; [rewrite P1, (moved_code _ _ MV1); reflexivity|]. split; assumption.
Qed.

(* ... and the frame's behaviour says that the loop is over: the frame completes with the value the behaviour left *)
Lemma loop_ends s reg code reg' s1 r c f fc frest below b v :
  BodyEnds s reg code (BNorm reg') s1 -> AtM s reg r c f (fc :: frest) below -> Fresh c below -> f_code f = code -> f_pos f = 0 ->
  f_exit f = Some b -> f_die f = false -> f_base fc <= length below ->
  (forall r1 c1 f1 rest1 top1, Match s1 r1 (f1 :: rest1) -> c_frames c1 = f1 :: rest1 -> c_values c1 = top1 ++ below ->
     length below = f_base f1 -> reg_rep reg' top1 ->
     exists top2, loop_over r1 c1 f1 rest1 b top2 below /\ match top2 with [] => VNil | y :: _ => y end = cv v) ->
  LoopDone (pop_scope s1) v r fc frest below.
Proof.
  intros BE A FR EC EP EX ED HB OV.
  destruct (body_at_end s reg code reg' s1 r c f fc frest below BE A FR EC EP HB) as (r1 & c1 & f1 & fc1 & frest1 & S1 & A1 & MV1 & P1 & Ka & Kb).
  pose proof A1 as (MA1 & LB1 & top1 & EV1 & RR1). pose proof MA1 as (G1 & EF1 & M1 & _ & D1).
  destruct (OV r1 c1 f1 (fc1 :: frest1) top1 M1 EF1 EV1 LB1 RR1) as (top2 & LO & HD).
  destruct (complete_loop r1 c1 f1 fc1 frest1 b top2 below G1 D1 EF1 P1) as [S2 G2];
    [rewrite (moved_exit _ _ MV1); exact EX|rewrite (moved_die _ _ MV1); exact ED|exact LO|exact LB1|].
  rewrite HD in S2, G2.
  assert (B4 : f_base fc1 <= length (cv v :: below)) by (cbn; rewrite (kept_base _ _ Ka); lia).
  assert (M4 := frame_popped s1 r1 c1 f1 fc1 frest1 (cv v :: below) MA1 B4 G2).
  destruct A as ((G0 & EF0 & _) & _). destruct G0 as (C0 & _).
  eexists _, _, fc1, frest1. split; [eapply steps_trans; eassumption|].
  split; [exact (popped_neq r c f fc frest _ _ _ _ _ C0 EF0 M4 Kb)|]. split; [exact M4|]. split; [reflexivity|split; assumption].
Qed.

(* the body of a round is left by exitWith: the loop frame is gone with the handler's value *)
Lemma body_exit_done s reg code v s1 r c f fc frest below :
  BodyEnds s reg code (BExit v) s1 -> AtM s reg r c f (fc :: frest) below -> Fresh c below -> f_code f = code -> f_pos f = 0 ->
  f_base fc <= length below -> LoopDone (pop_scope s1) v r fc frest below.
Proof.
  intros BE A FR EC EP HB. destruct (BE r c f fc frest below [] A FR EC EP HB) as (r1 & c1 & fc1 & rest1 & S1 & M1 & EV1 & K1 & KR1).
  destruct A as ((G0 & EF0 & _) & _). destruct G0 as (C0 & _).
  exists r1, c1, fc1, rest1. split; [exact S1|]. split; [exact (popped_neq r c f fc frest _ _ _ _ _ C0 EF0 M1 KR1)|].
  split; [exact M1|]. split; [exact EV1|]. split; assumption.
Qed.

(* the loop frame rewritten for its next round - fV: other variables, position 0, possibly another behaviour and other instructions,
   the namespace and the base it had -, its part of the stack emptied: a new scope in place of the round's *)
Lemma atm_next_round s1 reg r1 c1 f1 fc1 frest1 below fV vars :
  AtM s1 reg r1 c1 f1 (fc1 :: frest1) below -> vars_match vars (f_vars fV) -> f_ns fV = f_ns fc1 -> f_bubble fV = f_bubble f1 -> f_scope fV = "" ->
  f_base fV = f_base f1 ->
  let cV := set_values (set_frames c1 (fV :: fc1 :: frest1)) below in
  AtM (enter (pop_scope s1) vars) RNone (upd_cur r1 cV) cV fV (fc1 :: frest1) below /\ Fresh cV below.
Proof.
  intros ((G1 & EF1 & M1 & _ & D1) & LB1 & _) V NS BB SN EB cV. split; [|nil_case]. split.
  - split; [apply (good_upd r1 c1 cV G1); exact (good_running _ _ G1)|]. split; [reflexivity|]. split.
    + apply match_upd, match_push; [|exact (match_pop _ _ _ _ M1)].
      split; [exact V|split; [rewrite NS; exact (match_ns _ _ _ _ (match_pop _ _ _ _ M1))|split; [rewrite BB; exact (match_bubble _ _ _ _ M1)|exact SN]]].
    + split; [cbn; rewrite EB, LB1; lia|rewrite quirks_upd_cur; exact D1].
  - split; [rewrite EB; exact LB1|]. exists []. split; reflexivity.
Qed.

(* ---- one round of a loop over an array that runs normally and is followed by another *)
Lemma iter_round k s x x2 rest2 i body acc reg s1 acc1 r c f fc frest below allarr b :
  BodyEnds (enter s (kvars k i x)) (match i with O => RNil | _ => RNone end) (compile_block body) (BNorm reg) s1 ->
  kstep k x i reg acc = Some (true, acc1) -> kok k reg ->
  AtM (enter s (kvars k i x)) (match i with O => RNil | _ => RNone end) r c f (fc :: frest) below -> Fresh c below ->
  f_code f = compile_block body -> f_pos f = 0 -> f_exit f = Some b -> kb k allarr i acc b -> f_die f = false ->
  skipn i allarr = x :: x2 :: rest2 -> leaf_first body -> f_ns f = f_ns fc -> f_base fc <= length below ->
  exists rV cV fV fc1 frest1 b',
    (forall r', Steps rV r' -> r' <> rV -> Steps r r') /\
    AtM (enter (pop_scope s1) (kvars k (S i) x2)) RNone rV cV fV (fc1 :: frest1) below /\ Fresh cV below /\
    f_code fV = compile_block body /\ f_pos fV = 0 /\ f_exit fV = Some b' /\ kb k allarr (S i) acc1 b' /\ f_die fV = false /\
    skipn (S i) allarr = x2 :: rest2 /\ f_ns fV = f_ns fc1 /\ f_base fc1 <= length below /\
    kept fc fc1 /\ Forall2 kept frest frest1 /\ f_err fV = f_err f /\ f_base fV = f_base f.
Proof.
  intros IHb KS KO A FR EC EP EX KB ED SK LF ENS HBf.
  destruct (body_at_end _ _ _ _ _ r c f fc frest below IHb A FR EC EP HBf) as (r1 & c1 & f1 & fc1 & frest1 & S1 & A1 & MV1 & XP & Ka & Kb).
  pose proof A1 as ((G1 & EF1 & _) & LB1 & top1 & EV1 & RR1).
  assert (XE : f_exit f1 = Some b) by (rewrite (moved_exit _ _ MV1); exact EX).
  assert (XD : f_die f1 = false) by (rewrite (moved_die _ _ MV1); exact ED).
  destruct LF as (i0 & code' & LC & LL).
  assert (EC1 : f_code f1 = i0 :: code') by (rewrite (moved_code _ _ MV1), EC; exact LC).
  destruct (kind_round k allarr i x x2 rest2 acc acc1 reg b r1 c1 f1 (fc1 :: frest1) top1 below SK KB KS KO EF1 EV1 LB1 RR1) as (b' & KB' & GR).
  pose proof (loop_back r1 c1 f1 (fc1 :: frest1) b b' (mvars (kvars k (S i) x2)) i0 code' below G1 EF1 XP XE XD EC1 LL GR) as LBk.
  set (fV := round_frame f1 b' (mvars (kvars k (S i) x2))) in *.
  assert (NSV : f_ns fV = f_ns fc1) by (cbn; rewrite (moved_ns _ _ MV1), ENS, (kept_ns _ _ Ka); reflexivity).
  destruct (atm_next_round s1 reg r1 c1 f1 fc1 frest1 below fV (kvars k (S i) x2) A1 (vars_match_mvars _) NSV eq_refl eq_refl eq_refl) as [AV FRV].
  eexists _, _, fV, fc1, frest1, b'. split; [exact (via_virtual r r1 _ S1 LBk)|]. split; [exact AV|]. split; [exact FRV|].
  split; [cbn; rewrite (moved_code _ _ MV1); exact EC|]. split; [reflexivity|]. split; [reflexivity|]. split; [exact KB'|].
  split; [exact XD|]. split; [exact (proj2 (skipn_cons_nth _ _ _ _ SK))|]. split; [exact NSV|].
  split; [rewrite (kept_base _ _ Ka); exact HBf|]. split; [exact Ka|]. split; [exact Kb|].
  split; [exact (moved_err _ _ MV1)|exact (moved_base _ _ MV1)].
Qed.

(* ---- one round of a for loop that runs normally and is followed by another *)
Lemma for_round_next var to st s x (first:bool) body reg s1 y r c f fc frest below :
  BodyEnds (enter s [(lower var, RNum x)]) (if first then RNil else RNone) (compile_block body) (BNorm reg) s1 ->
  hidden (lower var) = false -> top_var s1 (lower var) = Some (RNum y) -> beyond to st (y + st)%Z = false ->
  AtM (enter s [(lower var, RNum x)]) (if first then RNil else RNone) r c f (fc :: frest) below -> Fresh c below ->
  f_code f = compile_block body -> f_pos f = 0 -> f_exit f = Some (BFor var to st) -> f_die f = false ->
  leaf_first body -> f_ns f = f_ns fc -> f_base fc <= length below ->
  exists rV cV fV fc1 frest1,
    (forall r', Steps rV r' -> r' <> rV -> Steps r r') /\
    AtM (enter (pop_scope s1) [(lower var, RNum (y + st)%Z)]) RNone rV cV fV (fc1 :: frest1) below /\ Fresh cV below /\
    f_code fV = compile_block body /\ f_pos fV = 0 /\ f_exit fV = Some (BFor var to st) /\ f_die fV = false /\
    f_ns fV = f_ns fc1 /\ f_base fc1 <= length below /\
    kept fc fc1 /\ Forall2 kept frest frest1 /\ f_err fV = f_err f /\ f_base fV = f_base f.
Proof.
  intros IHb HV TV BY A FR EC EP EX ED LF ENS HBf.
  destruct (body_at_end _ _ _ _ _ r c f fc frest below IHb A FR EC EP HBf) as (r1 & c1 & f1 & fc1 & frest1 & S1 & A1 & MV1 & XP & Ka & Kb).
  pose proof A1 as ((G1 & EF1 & M1 & _) & LB1 & top1 & EV1 & RR1).
  assert (XE : f_exit f1 = Some (BFor var to st)) by (rewrite (moved_exit _ _ MV1); exact EX).
  assert (XD : f_die f1 = false) by (rewrite (moved_die _ _ MV1); exact ED).
  destruct LF as (i0 & code' & LC & LL).
  assert (EC1 : f_code f1 = i0 :: code') by (rewrite (moved_code _ _ MV1), EC; exact LC).
  pose proof (for_round var to st y r1 c1 f1 (fc1 :: frest1) top1 below EF1 EV1 LB1 (top_var_match _ _ _ _ _ _ M1 HV TV) BY) as GR.
  pose proof (loop_back r1 c1 f1 (fc1 :: frest1) _ _ _ i0 code' below G1 EF1 XP XE XD EC1 LL GR) as LBk.
  set (fV := round_frame f1 (BFor var to st) [(lower var, VNum (y + st)%Z)]) in *.
  assert (NSV : f_ns fV = f_ns fc1) by (cbn; rewrite (moved_ns _ _ MV1), ENS, (kept_ns _ _ Ka); reflexivity).
  destruct (atm_next_round s1 reg r1 c1 f1 fc1 frest1 below fV [(lower var, RNum (y + st)%Z)] A1 (vars_match_mvars _) NSV eq_refl eq_refl eq_refl) as [AV FRV].
  eexists _, _, fV, fc1, frest1. split; [exact (via_virtual r r1 _ S1 LBk)|]. split; [exact AV|]. split; [exact FRV|].
  split; [cbn; rewrite (moved_code _ _ MV1); exact EC|]. split; [reflexivity|]. split; [reflexivity|]. split; [exact XD|]. split; [exact NSV|].
  split; [rewrite (kept_base _ _ Ka); exact HBf|]. split; [exact Ka|]. split; [exact Kb|].
  split; [exact (moved_err _ _ MV1)|exact (moved_base _ _ MV1)].
Qed.

(* ---- while: the condition has come out true, the body's instructions are in *)
Lemma while_cond_body cond body s (first:bool) s1 r c f fc frest below loops :
  BodyEnds (enter s []) (if first then RNil else RNone) (compile_block cond) (BNorm (RBool true)) s1 ->
  AtM (enter s []) (if first then RNil else RNone) r c f (fc :: frest) below -> Fresh c below ->
  f_code f = compile_block cond -> f_pos f = 0 ->
  f_exit f = Some (BWhile loops WCond (compile_block cond) (compile_block body)) -> f_die f = false ->
  leaf_first cond -> leaf_first body -> f_ns f = f_ns fc -> f_base fc <= length below ->
  exists rB cB fB fc1 frest1,
    (forall r', Steps rB r' -> r' <> rB -> Steps r r') /\
    AtM (set_top_vars s1 []) RNone rB cB fB (fc1 :: frest1) below /\ Fresh cB below /\
    f_code fB = compile_block body /\ f_pos fB = 0 /\
    f_exit fB = Some (BWhile loops WCode (compile_block cond) (compile_block body)) /\ f_die fB = false /\
    f_ns fB = f_ns fc1 /\ f_base fc1 <= length below /\
    kept fc fc1 /\ Forall2 kept frest frest1 /\ f_err fB = f_err f /\ f_base fB = f_base f.
Proof.
  intros IHc A FR EC EP EX ED LFc LFb ENS HBf.
  destruct (body_at_end _ _ _ _ _ r c f fc frest below IHc A FR EC EP HBf) as (r1 & c1 & f1 & fc1 & frest1 & S1 & A1 & MV1 & XP & Ka & Kb).
  destruct A1 as ((G1 & EF1 & (F1 & N1) & B1 & D1) & LB1 & top1 & EV1 & RR1).
  pose proof LFb as (ib & codeb & LCb & LLb). pose proof LFc as (ic & codec & LCc & LLc).
  assert (XE : f_exit f1 = Some (BWhile loops WCond (ic :: codec) (ib :: codeb))) by (rewrite (moved_exit _ _ MV1), EX, LCc, LCb; reflexivity).
  assert (XD : f_die f1 = false) by (rewrite (moved_die _ _ MV1); exact ED).
  inversion F1 as [|sc1 f0 scs1 fs1 (_ & NS1 & BB1) F1' E1 E2]; subst.
  destruct top1 as [|x0 t]; [discriminate RR1|]. destruct RR1 as (-> & _ & UT). cbn [cv app] in EV1.
  pose proof (while_to_body r1 c1 f1 (fc1 :: frest1) loops (ic :: codec) ib codeb t below EF1 EV1 LB1) as XB.
  pose proof (xloop_back r1 c1 f1 (fc1 :: frest1) _ _ ib codeb below G1 EF1 XP XE XD LLb XB) as LBk1.
  set (fB := xframe f1 (BWhile loops WCode (ic :: codec) (ib :: codeb)) (ib :: codeb)) in *.
  set (cB := set_values (set_frames c1 (fB :: fc1 :: frest1)) below) in *.
  exists (upd_cur r1 cB), cB, fB, fc1, frest1. split; [exact (via_virtual r r1 _ S1 LBk1)|]. split.
  { split.
    - split; [apply (good_upd r1 c1 cB G1); exact (good_running _ _ G1)|]. split; [reflexivity|]. split.
      + apply match_upd. unfold set_top_vars. rewrite <- E1. split; [|exact N1]. cbn. constructor; [|exact F1'].
        split; [intros k; reflexivity|split; [exact NS1|exact BB1]].
      + split; [cbn; rewrite LB1; lia|rewrite quirks_upd_cur; exact D1].
    - split; [exact LB1|]. exists []. split; reflexivity. }
  split; [nil_case|]. split; [cbn; rewrite LCb; reflexivity|]. split; [reflexivity|]. split; [cbn; rewrite LCc, LCb; reflexivity|].
  split; [exact XD|]. split; [cbn; rewrite (moved_ns _ _ MV1), ENS, (kept_ns _ _ Ka); reflexivity|].
  split; [rewrite (kept_base _ _ Ka); exact HBf|]. split; [exact Ka|]. split; [exact Kb|].
  split; [exact (moved_err _ _ MV1)|exact (moved_base _ _ MV1)].
Qed.

(* ---- while: the body has run out, the condition's instructions are back in *)
Lemma while_body_cond cond body s1 reg s2 r c f fc frest below loops :
  BodyEnds (set_top_vars s1 []) RNone (compile_block body) (BNorm reg) s2 ->
  AtM (set_top_vars s1 []) RNone r c f (fc :: frest) below -> Fresh c below ->
  f_code f = compile_block body -> f_pos f = 0 ->
  f_exit f = Some (BWhile loops WCode (compile_block cond) (compile_block body)) -> f_die f = false ->
  leaf_first cond -> leaf_first body -> f_ns f = f_ns fc -> f_base fc <= length below ->
  exists rC cC fC fc1 frest1 loops',
    (forall r', Steps rC r' -> r' <> rC -> Steps r r') /\
    AtM (enter (pop_scope s2) []) RNone rC cC fC (fc1 :: frest1) below /\ Fresh cC below /\
    f_code fC = compile_block cond /\ f_pos fC = 0 /\
    f_exit fC = Some (BWhile loops' WCond (compile_block cond) (compile_block body)) /\ f_die fC = false /\
    f_ns fC = f_ns fc1 /\ f_base fc1 <= length below /\
    kept fc fc1 /\ Forall2 kept frest frest1 /\ f_err fC = f_err f /\ f_base fC = f_base f.
Proof.
  intros IHb A FR EC EP EX ED LFc LFb ENS HBf.
  destruct (body_at_end _ _ _ _ _ r c f fc frest below IHb A FR EC EP HBf) as (r2 & c2 & f2 & fc2 & frest2 & S2 & A2 & MV2 & XP2 & Kc & Kd).
  pose proof A2 as ((G2 & EF2 & _ & _ & D2) & LB2 & top2 & EV2 & RR2).
  pose proof LFb as (ib & codeb & LCb & LLb). pose proof LFc as (ic & codec & LCc & LLc).
  set (loops' := if c_can_suspend c2 then loops else S loops).
  assert (XE2 : f_exit f2 = Some (BWhile loops WCode (ic :: codec) (ib :: codeb))) by (rewrite (moved_exit _ _ MV2), EX, LCc, LCb; reflexivity).
  assert (XD2 : f_die f2 = false) by (rewrite (moved_die _ _ MV2); exact ED).
  pose proof (while_to_cond r2 c2 f2 (fc2 :: frest2) loops ic codec (ib :: codeb) top2 below EF2 EV2 LB2 (quirks_loop _ D2)) as XC.
  pose proof (xloop_back r2 c2 f2 (fc2 :: frest2) _ _ ic codec below G2 EF2 XP2 XE2 XD2 LLc XC) as LBk2.
  fold loops' in LBk2.
  set (fC := xframe f2 (BWhile loops' WCond (ic :: codec) (ib :: codeb)) (ic :: codec)) in *.
  assert (NSC : f_ns fC = f_ns fc2) by (cbn; rewrite (moved_ns _ _ MV2), ENS, (kept_ns _ _ Kc); reflexivity).
  destruct (atm_next_round s2 reg r2 c2 f2 fc2 frest2 below fC [] A2 (fun k _ => eq_refl) NSC eq_refl eq_refl eq_refl) as [AC FRC].
  eexists _, _, fC, fc2, frest2, loops'. split; [exact (via_virtual r r2 _ S2 LBk2)|]. split; [exact AC|]. split; [exact FRC|].
  split; [cbn; rewrite LCc; reflexivity|]. split; [reflexivity|]. split; [cbn; rewrite LCc, LCb; reflexivity|]. split; [exact XD2|].
  split; [exact NSC|]. split; [rewrite (kept_base _ _ Kc); exact HBf|]. split; [exact Kc|]. split; [exact Kd|].
  split; [exact (moved_err _ _ MV2)|exact (moved_base _ _ MV2)].
Qed.

(* ---------------------------------------------------------------- operators that change what the program can observe *)
(* diag_log: one marker more, nothing else *)
Lemma world_mark r t : world (mark (logmsg r d_InfoMessage) t) = (r_nss r, t :: marks (r_out r)).
Proof. reflexivity. Qed.
Lemma ctl_same_mark r t : ctl_same r (mark (logmsg r d_InfoMessage) t).
Proof. unfold ctl_same, cfg_same, mark, logmsg. cbn. auto 15. Qed.
Lemma match_mark s r t fs : Match s r fs -> Match (rmark s t) (mark (logmsg r d_InfoMessage) t) fs.
Proof.
  intros [F N]. split; [exact F|]. rewrite world_mark. cbn [rmark st_nss st_trace].
  rewrite (world_nss _ _ _ N), (world_marks _ _ _ N). reflexivity.
Qed.

(* setVariable: the namespace storage changes the way a global assignment changes it *)
Lemma ctl_same_ns_set r ns n v : ctl_same r (ns_set r ns n v).
Proof. unfold ns_set, set_nss, rt_with, ctl_same, cfg_same. cbn. auto 15. Qed.
Lemma match_ns_set s r ns x v fs : Match s r fs -> Match (rns_set s ns x v) (ns_set r ns x (cv v)) fs.
Proof.
  intros [F N]. split; [exact F|]. unfold world. f_equal; [|exact (world_marks _ _ _ N)].
  unfold ns_set. rewrite nss_set_nss, (world_nss _ _ _ N). cbn [rns_set st_nss].
  rewrite assoc_mnss. destruct (assoc ns (st_nss s)) as [m|]; cbn [option_map].
  - rewrite assoc_set_mvars, assoc_set_mnss. reflexivity.
  - change (assoc_set (lower x) (cv v) []) with (mvars (assoc_set (lower x) v [])). rewrite assoc_set_mnss. reflexivity.
Qed.
Lemma ns_get_match s r fs ns x : Match s r fs -> ns_get r ns x = option_map cv (rns_get s ns x).
Proof.
  intros [_ N]. unfold ns_get, rns_get. rewrite (world_nss _ _ _ N), assoc_mnss.
  destruct (assoc ns (st_nss s)) as [m|]; cbn [option_map]; [apply assoc_mvars|reflexivity].
Qed.

(* private "x": the frame gets the name the scope gets *)
Lemma match_declare s r c f rest x : hidden (lower x) = false -> c_frames c = f :: rest -> Match s r (f :: rest) ->
  exists f', c_frames (declare_top_var c x) = f' :: rest /\ Match (declare s x) r (f' :: rest) /\ kept f f' /\
             c_values (declare_top_var c x) = c_values c /\ c_suspended (declare_top_var c x) = c_suspended c.
Proof.
  intros HH EF [F N]. inversion F as [|sc f0 scs fs (V & NS & BB) F' E1 E2]; subst.
  unfold declare_top_var, upd_top, declare. rewrite EF, <- E1. rewrite (V (lower x) HH).
  destruct (assoc (lower x) (sc_vars sc)) as [w|] eqn:EA; cbn [option_map].
  - exists f. split; [reflexivity|]. split; [|split; [apply kept_refl|split; reflexivity]].
    split; [rewrite <- E1; constructor; [split; [exact V|split; assumption]|exact F']|exact N].
  - eexists. split; [reflexivity|]. split; [|split; [unfold kept; destruct f; reflexivity|split; reflexivity]].
    unfold bind_here. rewrite <- E1. split; [|exact N]. cbn. constructor; [|exact F'].
    split; [cbn; apply (vars_match_set (lower x) RNil); exact V|split; [exact NS|exact BB]].
Qed.

(* ---------------------------------------------------------------- throw: where the machine stands when a handler has taken over *)
Definition drop_scopes (k:nat) (s:sstate) : sstate := with_scopes s (skipn k (st_scopes s)).
Lemma drop_scopes_0 s : drop_scopes 0 s = s.
Proof. destruct s; reflexivity. Qed.
Lemma drop_scopes_S k s : drop_scopes (S k) s = drop_scopes k (pop_scope s).
Proof. unfold drop_scopes, pop_scope, with_scopes. cbn [st_scopes st_nss st_trace]. destruct (st_scopes s); [rewrite !skipn_nil; reflexivity|reflexivity]. Qed.

(* the handler's frame hf is the running one, the frames above it are gone, the reference state is s (the handler's scope on
   top, holding _exception only); on the operand stack lie the nil the throw left and under it, down to the handler frame's
   base, only nils *)
Definition Caught (s:sstate) (r':rt) (c':context) (hf:frame) (rest':list frame) (below_t:list value) : Prop :=
  Good r' c' /\ quirks r' = ([], 0) /\ c_frames c' = hf :: rest' /\ Match s r' (hf :: rest') /\
  exists jn, c_values c' = VNil :: jn ++ below_t /\ under jn.

(* a block in frame f that is left by a throw: the innermost frame with a handler is ft, [inner] are the frames above it
   (f first; empty when f is that frame itself), what lies between f's part of the stack and ft's base are nils *)
Definition ThrowRuns (s:sstate) (reg:rvalue) (code:list instr) (x:rvalue) (s':sstate) : Prop :=
  forall r c f restf below pre inner ft rest h jn below_t,
    AtM s reg r c f restf below -> Fresh c below ->
    f_code f = pre ++ code -> f_pos f = length pre ->
    f :: restf = inner ++ ft :: rest -> Forall (fun m => f_err m = None) inner -> f_err ft = Some (ECatch h) ->
    below = jn ++ below_t -> under jn -> length below_t = f_base ft ->
    exists r' c' rest' ft0, Steps r r' /\ Forall2 kept rest rest' /\ moved ft ft0 /\
      Caught (set_top_vars (drop_scopes (length inner) s') [("_exception", x)]) r' c' (handler_frame ft0 h (cv x)) rest' below_t.

Lemma kept_all_err l l' : Forall2 kept l l' -> Forall (fun m => f_err m = None) l -> Forall (fun m => f_err m = None) l'.
Proof. induction 1 as [|a b l l' K _ IH]; intros HF; [constructor|]. inversion HF; subst. constructor; [rewrite (kept_err _ _ K); assumption|apply IH; assumption]. Qed.

(* the chain of frames down to the handler's after the frames have kept their shape ... *)
Lemma chain_keptL restf inner ft rest rest1 h :
  restf = inner ++ ft :: rest -> Forall (fun m => f_err m = None) inner -> f_err ft = Some (ECatch h) ->
  Forall2 kept restf rest1 ->
  exists inner1 ft1 rest1', rest1 = inner1 ++ ft1 :: rest1' /\ Forall (fun m => f_err m = None) inner1 /\
    f_err ft1 = Some (ECatch h) /\ kept ft ft1 /\ length inner1 = length inner /\ Forall2 kept rest rest1' /\ f_base ft1 = f_base ft.
Proof.
  intros -> HF HE K. destruct (Forall2_app_inv_l _ _ K) as (i1 & l2 & K1 & K2 & ->).
  inversion K2 as [|? ft1 ? r1' Kt Kr]; subst.
  exists i1, ft1, r1'. split; [reflexivity|]. split; [exact (kept_all_err _ _ K1 HF)|].
  split; [rewrite (kept_err _ _ Kt); exact HE|]. split; [exact Kt|]. split; [apply (forall2_length _ _ _ K1)|].
  split; [exact Kr|apply (kept_base _ _ Kt)].
Qed.
(* ... and when the running frame, which has moved on, heads the chain *)
Lemma chain_kept f restf inner ft rest f1 rest1 h (x:value) :
  f :: restf = inner ++ ft :: rest -> Forall (fun m => f_err m = None) inner -> f_err ft = Some (ECatch h) ->
  moved f f1 -> Forall2 kept restf rest1 ->
  exists inner1 ft1 rest1', f1 :: rest1 = inner1 ++ ft1 :: rest1' /\ Forall (fun m => f_err m = None) inner1 /\
    f_err ft1 = Some (ECatch h) /\ moved ft ft1 /\ length inner1 = length inner /\
    Forall2 kept rest rest1' /\ f_base ft1 = f_base ft.
Proof.
  intros CH HF HE MV K. destruct inner as [|m inner0]; cbn [app] in CH.
  - inversion CH; subst. exists [], f1, rest1. split; [reflexivity|]. split; [constructor|]. split; [rewrite (moved_err _ _ MV); exact HE|].
    split; [exact MV|]. split; [reflexivity|]. split; [exact K|apply (moved_base _ _ MV)].
  - inversion CH; subst. inversion HF as [|? ? HM HF0]; subst.
    destruct (chain_keptL _ inner0 ft rest rest1 h eq_refl HF0 HE K) as (i1 & ft1 & r1' & -> & HF1 & HE1 & Kt & LEN & Kr & FB).
    exists (f1 :: i1), ft1, r1'. split; [reflexivity|]. split; [constructor; [rewrite (moved_err _ _ MV); exact HM|exact HF1]|].
    split; [exact HE1|]. split; [apply kept_moved; exact Kt|]. split; [cbn; rewrite LEN; reflexivity|]. split; [exact Kr|exact FB].
Qed.

Lemma match_after_throw s r inner1 ft1 rest1 h x :
  Match s r (inner1 ++ ft1 :: rest1) ->
  Match (set_top_vars (drop_scopes (length inner1) s) [("_exception", x)]) r (handler_frame ft1 h (cv x) :: rest1).
Proof.
  intros [F N]. destruct (Forall2_app_inv_r _ _ F) as (l1 & l2 & F1 & F2 & E).
  inversion F2 as [|sct ? l2' ? (V & NS & BB) F2' E1 E2]; subst.
  assert (L : length inner1 = length l1) by (apply (forall2_length _ _ _ F1)).
  unfold drop_scopes, set_top_vars, with_scopes. cbn [st_scopes st_nss st_trace]. rewrite E, L, skipn_app_here.
  split; [|exact N]. cbn [st_scopes]. constructor; [|exact F2'].
  split; [apply (vars_match_mvars [("_exception", x)])|split; [exact NS|exact BB]].
Qed.

(* a throw out of the block of a plain scope (call, then, else) that stands as a statement of the running frame fc *)
Lemma throw_in_scope s vars b x s3 r1 c0 fc restf inner ft rest h jn below_t :
  ThrowRuns (enter s vars) RNil (compile_block b) x s3 ->
  let newf := mk_frame (cur_ns c0) (compile_block b) None None (mvars vars) in
  let c1 := push_value (push_frame c0 newf) VNil in
  Good r1 c1 -> quirks r1 = ([], 0) -> c_frames c0 = fc :: restf -> Match s r1 (fc :: restf) ->
  fc :: restf = inner ++ ft :: rest -> Forall (fun m => f_err m = None) inner -> f_err ft = Some (ECatch h) ->
  c_values c0 = jn ++ below_t -> under jn -> length below_t = f_base ft ->
  exists r' c' rest' ft0, Steps r1 r' /\ Forall2 kept rest rest' /\ moved ft ft0 /\
    Caught (set_top_vars (drop_scopes (length inner) (pop_scope s3)) [("_exception", x)]) r' c' (handler_frame ft0 h (cv x)) rest' below_t.
Proof.
  intros TR newf c1 G D EF M CH HF HE EV UJ LBT.
  pose proof (enter_at s vars (compile_block b) None r1 c0 fc restf G D EF M) as A.
  destruct (TR r1 c1 _ (fc :: restf) (c_values c0) [] (set_base newf (length (c_values c0)) :: inner) ft rest h jn below_t
              A (fresh_one c1 (c_values c0) eq_refl) eq_refl eq_refl) as (r' & c' & rest' & ft0 & S & K & MT & CA);
    [cbn [app]; rewrite CH; reflexivity|constructor; [reflexivity|exact HF]|exact HE|exact EV|exact UJ|exact LBT|].
  exists r', c', rest', ft0. split; [exact S|]. split; [exact K|]. split; [exact MT|]. cbn [length] in CA. rewrite drop_scopes_S in CA. exact CA.
Qed.

(* a throw out of the block of try {..} catch {..}: the try frame itself takes it *)
Lemma throw_in_try s b x s3 r1 c0 fc restf h :
  ThrowRuns (enter s []) RNil (compile_block b) x s3 ->
  let newf := mk_frame (cur_ns c0) (compile_block b) None (Some (ECatch h)) (mvars []) in
  let c1 := push_value (push_frame c0 newf) VNil in
  Good r1 c1 -> quirks r1 = ([], 0) -> c_frames c0 = fc :: restf -> Match s r1 (fc :: restf) ->
  exists r' c' rest' ft0, Steps r1 r' /\ Forall2 kept (fc :: restf) rest' /\ moved (set_base newf (length (c_values c0))) ft0 /\
    Caught (set_top_vars s3 [("_exception", x)]) r' c' (handler_frame ft0 h (cv x)) rest' (c_values c0).
Proof.
  intros TR newf c1 G D EF M.
  pose proof (enter_at s [] (compile_block b) (Some (ECatch h)) r1 c0 fc restf G D EF M) as A.
  destruct (TR r1 c1 (set_base newf (length (c_values c0))) (fc :: restf) (c_values c0) [] [] (set_base newf (length (c_values c0))) (fc :: restf) h [] (c_values c0)
              A (fresh_one c1 (c_values c0) eq_refl) eq_refl eq_refl eq_refl) as (r' & c' & rest' & ft0 & S & K & MT & CA).
  { constructor. } { reflexivity. } { reflexivity. } { constructor. } { reflexivity. }
  exists r', c', rest', ft0. split; [exact S|]. split; [exact K|]. split; [exact MT|].
  cbn [length] in CA. unfold drop_scopes in CA. cbn [skipn] in CA.
  replace (with_scopes s3 (st_scopes s3)) with s3 in CA by (destruct s3; reflexivity). exact CA.
Qed.

(* the handler has taken over: where its block starts *)
Lemma caught_at s r c hf rest below_t : Caught s r c hf rest below_t -> length below_t = f_base hf ->
  AtM s RNil r c hf rest below_t /\ Fresh c below_t.
Proof.
  intros (G & D & EF & M & jn & EV & UJ) LB. split.
  - split; [split; [exact G|split; [exact EF|split; [exact M|split; [rewrite EV; cbn; rewrite app_length; lia|exact D]]]]|].
    split; [exact LB|]. exists (VNil :: jn). split; [exact EV|]. split; [reflexivity|]. split; [discriminate|exact UJ].
  - exists (VNil :: jn). split; [exact EV|]. constructor; [reflexivity|exact UJ].
Qed.

(* ---------------------------------------------------------------- breakOut: where the machine stands when the named scope has been left *)
(* a block in frame f that is left by breakOut "t": the innermost scope named t (judged on the reference state at the breakOut, which
   the frames Match) is k scopes up, its frame is fn, fc is the frame below it; the frames' bases do not grow towards the bottom of
   the stack; the machine ends in fc with the value on what lay below fn's base *)
Definition BreakRuns (s:sstate) (reg:rvalue) (code:list instr) (t:string) (v:rvalue) (s':sstate) : Prop :=
  forall r c f restf below pre k top fn fc rest jn below_n,
    AtM s reg r c f restf below -> Fresh c below ->
    f_code f = pre ++ code -> f_pos f = length pre ->
    find_name t (st_scopes s') 0 = Some k ->
    f :: restf = top ++ fn :: fc :: rest -> length top = k ->
    Forall (fun m => f_base fn <= f_base m) top -> f_base fc <= f_base fn ->
    below = jn ++ below_n -> length below_n = f_base fn ->
    exists r' c' fc' rest', Steps r r' /\ Mach (drop_scopes (S k) s') r' c' fc' rest' /\ c_values c' = cv v :: below_n /\
      kept fc fc' /\ Forall2 kept rest rest'.

Lemma find_name_shift t : forall l k0 k, find_name t l k0 = Some k -> find_name t l (S k0) = Some (S k).
Proof. induction l as [|sc l IH]; intros k0 k H; cbn [find_name] in *; [discriminate|]. destruct (String.eqb (sc_name sc) t); [inversion H; reflexivity|apply IH; exact H]. Qed.
Lemma find_name_pop t s k : top_name s <> t -> find_name t (st_scopes (pop_scope s)) 0 = Some k -> find_name t (st_scopes s) 0 = Some (S k).
Proof.
  unfold top_name, pop_scope. cbn [st_scopes with_scopes]. destruct (st_scopes s) as [|sc l]; cbn [tl find_name]; intros N H; [discriminate H|].
  destruct (String.eqb_spec (sc_name sc) t) as [E|_]; [contradiction|]. apply find_name_shift. exact H.
Qed.
Lemma find_name_top t s : t <> "" -> top_name s = t -> find_name t (st_scopes s) 0 = Some 0.
Proof.
  unfold top_name. destruct (st_scopes s) as [|sc l]; intros N H; [exfalso; apply N; symmetry; exact H|].
  cbn [find_name]. rewrite H, String.eqb_refl. reflexivity.
Qed.
Lemma find_name_ge t : forall scl a b, find_name t scl a = Some b -> a <= b.
Proof. induction scl as [|sx scl IHl]; intros a b HH; cbn [find_name] in HH; [discriminate HH|]. destruct (String.eqb (sc_name sx) t); [inversion HH; lia|apply IHl in HH; lia]. Qed.
Lemma find_name_frames t : forall scs fs k0 top fn more, Forall2 frame_match scs fs -> find_name t scs k0 = Some (k0 + length top) ->
  fs = top ++ fn :: more -> Forall (fun m => f_scope m <> t) top /\ f_scope fn = t.
Proof.
  induction scs as [|sc scs IH]; intros fs k0 top fn more F H E; [discriminate H|].
  inversion F as [|? f0 ? fs0 (V & NS & BB & SN) F' E1 E2]. subst fs. cbn [find_name] in H.
  destruct (String.eqb_spec (sc_name sc) t) as [EN|NN].
  - inversion H as [HK]. destruct top as [|m top]; [|cbn in HK; lia]. cbn in E2. inversion E2; subst.
    split; [constructor|]. rewrite SN. reflexivity.
  - destruct top as [|m top].
    + exfalso. cbn in H. rewrite Nat.add_0_r in H.
      apply find_name_ge in H. lia.
    + cbn in E2. inversion E2; subst. destruct (IH (top ++ fn :: more) (S k0) top fn more F') as [A B]; [|reflexivity|].
      * rewrite H. f_equal. cbn. lia.
      * split; [constructor; [rewrite SN; exact NN|exact A]|exact B].
Qed.

(* the chain of frames down to the one below the named scope after the frames have kept their shape ... *)
Lemma chain_keptLb restf top fn fc rest rest1 :
  restf = top ++ fn :: fc :: rest -> Forall2 kept restf rest1 -> Forall (fun m => f_base fn <= f_base m) top ->
  exists top1 fn1 fc1 rest1', rest1 = top1 ++ fn1 :: fc1 :: rest1' /\ length top1 = length top /\
    Forall (fun m => f_base fn1 <= f_base m) top1 /\ f_base fn1 = f_base fn /\ kept fc fc1 /\ Forall2 kept rest rest1'.
Proof.
  intros -> K HB. destruct (Forall2_app_inv_l _ _ K) as (i1 & l2 & K1 & K2 & ->).
  inversion K2 as [|? fn1 ? l3 Kn K3]; subst. inversion K3 as [|? fc1 ? r1' Kc Kr]; subst.
  exists i1, fn1, fc1, r1'. split; [reflexivity|]. split; [apply (forall2_length _ _ _ K1)|].
  split; [|split; [apply (kept_base _ _ Kn)|split; assumption]].
  clear - K1 HB Kn. induction K1 as [|a b l l' Kab _ IH]; [constructor|]. inversion HB; subst.
  constructor; [rewrite (kept_base _ _ Kn), (kept_base _ _ Kab); assumption|apply IH; assumption].
Qed.
(* ... and when the running frame, which has moved on, heads the chain *)
Lemma chain_kept_b f restf top fn fc rest f1 rest1 :
  f :: restf = top ++ fn :: fc :: rest -> moved f f1 -> Forall2 kept restf rest1 -> Forall (fun m => f_base fn <= f_base m) top ->
  exists top1 fn1 fc1 rest1', f1 :: rest1 = top1 ++ fn1 :: fc1 :: rest1' /\ length top1 = length top /\
    Forall (fun m => f_base fn1 <= f_base m) top1 /\ f_base fn1 = f_base fn /\ kept fc fc1 /\ Forall2 kept rest rest1'.
Proof.
  intros CH MV K HB. destruct top as [|m top0]; cbn [app] in CH.
  - inversion CH; subst. inversion K as [|? fc1 ? r1' Kc Kr]; subst.
    exists [], f1, fc1, r1'. split; [reflexivity|]. split; [reflexivity|]. split; [constructor|]. split; [apply (moved_base _ _ MV)|]. split; assumption.
  - inversion CH; subst. inversion HB as [|? ? HBm HB0]; subst.
    destruct (chain_keptLb _ top0 fn fc rest rest1 eq_refl K HB0) as (i1 & fn1 & fc1 & r1' & -> & LT1 & HB1 & FB1 & Kc & Kr).
    exists (f1 :: i1), fn1, fc1, r1'. split; [reflexivity|]. split; [cbn; rewrite LT1; reflexivity|].
    split; [constructor; [rewrite FB1, (moved_base _ _ MV); exact HBm|exact HB1]|]. split; [exact FB1|]. split; assumption.
Qed.

Lemma match_after_break s r top1 fn1 more :
  Match s r (top1 ++ fn1 :: more) -> Match (drop_scopes (S (length top1)) s) r more.
Proof.
  intros [F N]. destruct (Forall2_app_inv_r _ _ F) as (l1 & l2 & F1 & F2 & E).
  inversion F2 as [|sct ? l2' ? _ F2' E1 E2]; subst.
  assert (L : length top1 = length l1) by (apply (forall2_length _ _ _ F1)).
  unfold drop_scopes, with_scopes. cbn [st_scopes st_nss st_trace]. split; [|exact N]. cbn [st_scopes].
  rewrite E, L. replace (S (length l1)) with (1 + length l1) by lia. rewrite <- skipn_skipn_add, skipn_app_here. cbn [skipn]. exact F2'.
Qed.

(* breakOut out of the block of a plain scope that stands as a statement: the scope's own frame joins the chain *)
Lemma break_in_scope s vars b t v s3 r1 c0 fcur restf k top fn fc rest jn below_n :
  BreakRuns (enter s vars) RNil (compile_block b) t v s3 ->
  let newf := mk_frame (cur_ns c0) (compile_block b) None None (mvars vars) in
  let c1 := push_value (push_frame c0 newf) VNil in
  Good r1 c1 -> quirks r1 = ([], 0) -> c_frames c0 = fcur :: restf -> Match s r1 (fcur :: restf) -> f_base fcur <= length (c_values c0) ->
  top_name s3 <> t -> find_name t (st_scopes (pop_scope s3)) 0 = Some k ->
  fcur :: restf = top ++ fn :: fc :: rest -> length top = k ->
  Forall (fun m => f_base fn <= f_base m) top -> f_base fc <= f_base fn ->
  c_values c0 = jn ++ below_n -> length below_n = f_base fn ->
  exists r' c' fc' rest', Steps r1 r' /\ Mach (drop_scopes (S k) (pop_scope s3)) r' c' fc' rest' /\ c_values c' = cv v :: below_n /\
    kept fc fc' /\ Forall2 kept rest rest'.
Proof.
  intros BR newf c1 G D EF M B NT FN CH LT HB HC EV LBN.
  pose proof (enter_at s vars (compile_block b) None r1 c0 fcur restf G D EF M) as A.
  destruct (BR r1 c1 (set_base newf (length (c_values c0))) (fcur :: restf) (c_values c0) [] (S k) (set_base newf (length (c_values c0)) :: top) fn fc rest jn below_n
              A (fresh_one c1 (c_values c0) eq_refl) eq_refl eq_refl) as (r' & c' & fc' & rest' & S & MA & EV' & K & KR).
  { apply find_name_pop; assumption. } { cbn [app]. rewrite CH. reflexivity. } { cbn. rewrite LT. reflexivity. }
  { constructor; [cbn; rewrite EV, app_length; lia|exact HB]. } { exact HC. } { exact EV. } { exact LBN. }
  exists r', c', fc', rest'. split; [exact S|]. split; [rewrite <- drop_scopes_S; exact MA|]. split; [exact EV'|]. split; assumption.
Qed.

(* scopeName "t": the frame gets the name the scope gets *)
Lemma match_name s r c f rest t sc scs : c_frames c = f :: rest -> Match s r (f :: rest) -> st_scopes s = sc :: scs -> sc_name sc = "" ->
  f_scope f = "" /\
  Match (with_scopes s ({| sc_vars := sc_vars sc; sc_ns := sc_ns sc; sc_name := t |} :: scs)) r (set_scope f t :: rest).
Proof.
  intros EF [F N] ES EN. rewrite ES in F. inversion F as [|? ? ? ? (V & NS & BB & SN) F' E1 E2]; subst.
  split; [rewrite SN; exact EN|]. split; [|exact N]. cbn [st_scopes with_scopes]. constructor; [|exact F'].
  split; [exact V|split; [exact NS|split; [exact BB|reflexivity]]].
Qed.

(* ---------------------------------------------------------------- switch: what its frame does when the body's statements are done *)
(* the body's statements are done: the frame stands at the end of its code, or behind it (a chosen case skipped the rest) *)
Definition sw_done (f:frame) : Prop := f_pos f = length (f_code f) \/ f_pos f = S (length (f_code f)).
Definition sw_end (f:frame) : frame := set_pos f (S (length (f_code f))).
Lemma sw_first_stage f : sw_done f ->
  (if at_end f then (FDone, f) else ((if at_end (set_pos f (S (f_pos f))) then FDone else FOk), set_pos f (S (f_pos f)))) = (FDone, sw_end f).
Proof.
  unfold sw_done, sw_end, at_end. intros [P|P].
  - destruct (Nat.eqb_spec (f_pos f) (S (length (f_code f)))) as [E|_]; [lia|]. cbn [f_pos f_code set_pos]. rewrite P, Nat.eqb_refl. reflexivity.
  - rewrite P, Nat.eqb_refl. f_equal. rewrite <- P. destruct f; reflexivity.
Qed.

(* the same for a frame that may also stand behind its end already (a switch frame in which a block has been chosen) *)
Lemma frame_next_sw k r c f rest b : c_frames c = f :: rest -> sw_done f -> f_exit f = Some b -> f_die f = false ->
  frame_next (S k) r c =
  bindr (enact b r (set_frames c (sw_end f :: rest))) (fun '(br, b', r2, c2) =>
    let c3 := upd_top c2 (fun f => set_exit f (Some b')) in
    match br with
    | BrSeekEnd => Ok (FDone, r2, upd_top c3 (fun f => set_pos f (S (length (f_code f)))))
    | BrSeekStart =>
        let c4 := clear_values (upd_top c3 (fun f => set_scope (set_pos f 0) "")) in
        if top_code_empty c4 then Ok (FRestarted, r2, c4) else frame_next k r2 c4
    | BrExchange code' =>
        let rename := fun f => match b' with BWhile _ WCond _ _ => set_scope f "" | _ => f end in
        frame_next k r2 (upd_top c3 (fun f => set_pos (set_code (rename f) code') 0))
    | BrOk | BrFail => Ok (FDone, r2, c3) end).
Proof.
  intros EF DN EX ED. cbn [frame_next]. rewrite EF, (sw_first_stage f DN).
  assert (AE : at_end (sw_end f) = true) by (unfold at_end, sw_end; cbn; apply Nat.eqb_refl).
  cbn [f_exit sw_end set_pos f_die]. rewrite EX, ED. fold (sw_end f). rewrite AE. reflexivity.
Qed.

(* no block to run (none chosen, or the chosen one has run): the frame completes with the top of its part of the stack *)
Lemma sw_complete r c f fc rest sb top2 vals :
  Good r c -> quirks r = ([], 0) -> c_frames c = f :: fc :: rest -> sw_done f ->
  f_exit f = Some (BSwitch sb) -> f_die f = false ->
  (sb = true \/ exists a n h, assoc "___switch" (f_vars f) = Some (VSwitch a [] n h)) ->
  c_values c = top2 ++ vals -> length vals = f_base f ->
  let c4 := set_values (set_frames c (fc :: rest)) (match top2 with [] => VNil | x :: _ => x end :: vals) in
  Steps r (upd_cur r c4) /\ Good (upd_cur r c4) c4.
Proof.
  intros G D EF DN EX ED DONE EV LB. destruct frame_fuel_S as [k Hk].
  assert (HE : exists b', enact (BSwitch sb) r (set_frames c (sw_end f :: fc :: rest)) = Ok (BrOk, b', r, set_frames c (sw_end f :: fc :: rest))).
  { cbn [enact]. destruct DONE as [->|(a & n & h & A)]; [eexists; reflexivity|].
    destruct sb; [eexists; reflexivity|]. cbn [c_frames set_frames sw_end f_vars set_pos]. rewrite A. eexists; reflexivity. }
  destruct HE as [b' HE].
  apply (done_pass r c (set_exit (sw_end f) (Some b')) fc rest top2 vals G D (f_equal (@length _) EF) LB).
  rewrite Hk, (frame_next_sw _ r c f (fc :: rest) _ EF DN EX ED), HE, <- (set_values_same c _ _ EV). reflexivity.
Qed.

(* a block has been chosen: its instructions are put into the frame (position 0, the behaviour remembers that it has switched; the
   variables and the operand stack stay), and the same pass executes the block's first instruction *)
Definition sw_frame (f:frame) (tgt:list instr) : frame := set_pos (set_code (set_exit (sw_end f) (Some (BSwitch true))) tgt) 0.

Lemma sw_step_real r c f rest0 a i0 code' n h r3 c5 :
  Good r c -> c_frames c = f :: rest0 -> sw_done f -> f_exit f = Some (BSwitch false) -> f_die f = false ->
  assoc "___switch" (f_vars f) = Some (VSwitch a (i0 :: code') n h) ->
  exec_instr i0 r (set_frames c (set_pos (sw_frame f (i0 :: code')) 1 :: rest0)) = Ok (r3, c5) ->
  r_err (upd_cur r3 c5) = false ->
  do_iter r = Ok (Executed (set_msgs (upd_cur r3 c5) [])).
Proof.
  intros G EF DN EX ED A EI NErr. destruct frame_fuel_SS as [k Hk].
  apply (exec_pass r c f rest0 (set_frames c (set_pos (sw_frame f (i0 :: code')) 1 :: rest0)) i0 r3 c5 G EF); [|reflexivity|exact EI|exact NErr].
  rewrite Hk, (frame_next_sw _ r c f rest0 _ EF DN EX ED). cbn [enact c_frames set_frames sw_end f_vars set_pos]. rewrite A. cbn [bindr].
  exact (frame_next_first k r (set_frames c (sw_frame f (i0 :: code') :: rest0)) _ rest0 i0 code' eq_refl eq_refl eq_refl).
Qed.

Lemma sw_back r c f rest0 a i0 code' n h :
  Good r c -> c_frames c = f :: rest0 -> sw_done f -> f_exit f = Some (BSwitch false) -> f_die f = false ->
  ((exists v, i0 = IPush v) \/ (exists x, i0 = IGet x)) ->
  assoc "___switch" (f_vars f) = Some (VSwitch a (i0 :: code') n h) ->
  do_iter r = do_iter (upd_cur r (set_frames c (sw_frame f (i0 :: code') :: rest0))).
Proof.
  intros G EF DN EX ED LF A.
  apply (twin_pass r c (set_frames c (sw_frame f (i0 :: code') :: rest0)) _ rest0 i0 G (good_running _ _ G) eq_refl eq_refl LF).
  intros r3 c5. exact (sw_step_real r c f rest0 a i0 code' n h r3 c5 G EF DN EX ED A).
Qed.

(* ---------------------------------------------------------------- switch: the body's statements on the machine *)
Definition sw_code (sw:swst) : list instr := match sw_target sw with Some b => compile_block b | None => [] end.
Definition sw_val (sw:swst) : value := VSwitch (cv (sw_v sw)) (sw_code sw) (sw_now sw) (sw_has sw).
(* the switch frame's hidden variable holds the bookkeeping *)
Definition SwInv (sw:swst) (f:frame) : Prop := assoc "___switch" (f_vars f) = Some (sw_val sw).

Lemma sw_val_see sw v : sw_val (sw_see sw v) = VSwitch (cv (sw_v sw)) (sw_code sw) (if veqb true (cv v) (cv (sw_v sw)) then true else sw_now sw) (sw_has sw).
Proof. unfold sw_val, sw_see, sw_code. cbn [sw_v sw_target sw_now sw_has]. rewrite veqb_cv. reflexivity. Qed.

(* the separator in front of a statement that is not the first one: the region is cleared *)
Lemma sw_sep s r c f rest below pre (first:bool) (tail:list instr) :
  Mach s r c f rest -> length below = f_base f -> Fresh c below ->
  f_code f = pre ++ (if first then [] else [IEnd]) ++ tail -> f_pos f = length pre ->
  exists r1 c1 p1, Steps r r1 /\ Mach s r1 c1 (set_pos f p1) rest /\ Fresh c1 below /\
     f_code f = (pre ++ (if first then [] else [IEnd])) ++ tail /\ p1 = length (pre ++ (if first then [] else [IEnd])).
Proof.
  intros MA LB (t & EV & UT) EC EP. destruct first; cbn [app] in *.
  - exists r, c, (f_pos f). split; [apply StepsRefl|]. split; [replace (set_pos f (f_pos f)) with f by (destruct f; reflexivity); exact MA|].
    split; [exists t; split; assumption|]. rewrite app_nil_r. split; [exact EC|exact EP].
  - destruct (end_mach s r c f rest below pre tail t MA EV LB EC EP) as (r1 & c1 & S1 & M1 & EV1).
    exists r1, c1, (S (f_pos f)). split; [exact S1|]. split; [exact M1|]. split; [apply fresh_nil; exact EV1|].
    rewrite <- app_assoc. split; [exact EC|]. rewrite app_length, EP. cbn. lia.
Qed.

(* an operator name that is not a sign: its operand is compiled as it stands, also when it is a number *)
Lemma compile_unary_case n x : lower n = "case" -> compile_expr (EUnary n x) = compile_expr x ++ [IUnary (lower n)].
Proof.
  intros HN. cbn [compile_expr].
  assert (N1 : String.eqb n "-" = false) by (destruct (String.eqb_spec n "-") as [->|]; [discriminate HN|reflexivity]).
  assert (N2 : String.eqb n "+" = false) by (destruct (String.eqb_spec n "+") as [->|]; [discriminate HN|reflexivity]).
  rewrite N1, N2. destruct x; reflexivity.
Qed.
Lemma compile_stmt_unary n x : lower n = "case" -> compile_stmt (SExpr (EUnary n x)) = compile_expr x ++ [IUnary (lower n)].
Proof. intros HN. cbn [compile_stmt]. apply compile_unary_case. exact HN. Qed.
Lemma compile_stmt_colon c k x blk : lower k = "case" ->
  compile_stmt (SExpr (EBinary c (EUnary k x) (ECode blk))) = compile_expr x ++ [IUnary (lower k); IPush (VCode (compile_block blk)); IBinary (lower c)].
Proof. intros HK. cbn [compile_stmt]. rewrite compile_binary, (compile_unary_case k x HK), compile_code, <- app_assoc. reflexivity. Qed.
Lemma compile_stmt_default n blk : compile_stmt (SExpr (EUnary n (ECode blk))) = [IPush (VCode (compile_block blk)); IUnary (lower n)].
Proof. cbn [compile_stmt]. rewrite compile_unary_nonlit by (intros ? ?; discriminate). rewrite compile_code. reflexivity. Qed.

(* [separator] x case: the label's value is compared with the value switched on, the bookkeeping remembers a match; the operator's
   value - the bookkeeping itself - lies on the cleared region *)
Lemma case_vm s x v k sw r c f rest below pre (first:bool) tail :
  pev (loc_of s) (glob_of s) x v -> lower k = "case" -> Mach s r c f rest -> length below = f_base f -> Fresh c below ->
  f_code f = pre ++ (if first then [] else [IEnd]) ++ compile_expr x ++ IUnary (lower k) :: tail -> f_pos f = length pre -> SwInv sw f ->
  exists r3 c3 f3 t1, Steps r r3 /\ Mach s r3 c3 f3 rest /\ c_values c3 = sw_val (sw_see sw v) :: t1 ++ below /\ under t1 /\
    moved f f3 /\ SwInv (sw_see sw v) f3 /\ f_code f3 = f_code f /\
    f_pos f3 = length (pre ++ (if first then [] else [IEnd]) ++ compile_expr x ++ [IUnary (lower k)]).
Proof.
  intros HX HK MA LB FR EC EP SI.
  destruct (sw_sep s r c f rest below pre first _ MA LB FR EC EP) as (r1 & c1 & p1 & S1 & M1 & (t1 & EV1 & UT1) & EC1 & EP1).
  set (f1 := set_pos f p1) in *.
  destruct (pure_post s x v r1 c1 f1 rest _ _ HX M1 EC1 EP1) as (r2 & c2 & S2 & M2 & EV2 & NV2).
  set (f2 := set_pos f1 (f_pos f1 + length (compile_expr x))) in *.
  set (fX := set_pos f2 (S (f_pos f2))). set (w1 := sw_val (sw_see sw v)).
  destruct (mach_unary s r2 c2 f2 rest (pre ++ (if first then [] else [IEnd]) ++ compile_expr x) tail (lower k) (cv v) (c_values c1) (set_sw fX w1) w1 M2)
    as (r3 & c3 & S3 & M3 & EV3).
  { cbn [f2 f1 f_code set_pos]. rewrite EC, <- !app_assoc. reflexivity. }
  { cbn [f2 f1 f_pos set_pos]. rewrite EP1, !app_length. lia. }
  { exact EV2. } { destruct M1 as (_ & _ & _ & B1 & _). exact B1. } { exact NV2. }
  { rewrite lower_idem, HK. unfold w1. rewrite sw_val_see. exact (op_case (cv v) r2 (set_values (set_frames c2 (fX :: rest)) (c_values c1)) fX rest (cv (sw_v sw)) (sw_code sw) (sw_now sw) (sw_has sw) eq_refl SI). }
  { apply match_set_sw, match_set_pos. destruct M2 as (_ & _ & MM & _). exact MM. } { reflexivity. }
  exists r3, c3, (set_sw fX w1), t1. split; [eapply steps_trans; [exact S1|eapply steps_trans; eassumption]|]. split; [exact M3|].
  split; [rewrite EV3, EV1; reflexivity|]. split; [exact UT1|]. split; [unfold fX, f2, f1, set_sw; destruct f; reflexivity|].
  split; [apply sw_after|]. split; [reflexivity|]. cbn [set_sw fX f2 f1 f_pos set_pos set_vars]. rewrite EP1, !app_length. cbn. lia.
Qed.

(* [separator] x case {..} ':' : when the label or one in front of it matched and no block has been chosen yet, the block is chosen and the
   frame put behind its last instruction; otherwise nothing happens.  Either way the operator leaves a nil. *)
Lemma colon_vm s x v k cc blk sw r c f rest below pre (first:bool) tail :
  pev (loc_of s) (glob_of s) x v -> lower k = "case" -> lower cc = ":" -> Mach s r c f rest -> length below = f_base f -> Fresh c below ->
  f_code f = pre ++ (if first then [] else [IEnd]) ++ compile_expr x ++ [IUnary (lower k); IPush (VCode (compile_block blk)); IBinary (lower cc)] ++ tail ->
  f_pos f = length pre -> SwInv sw f ->
  exists r5 c5 f5 t1, Steps r r5 /\ Mach s r5 c5 f5 rest /\ c_values c5 = VNil :: t1 ++ below /\ under t1 /\ moved f f5 /\ f_code f5 = f_code f /\
    if andb (negb (sw_has sw)) (sw_now (sw_see sw v))
    then SwInv (sw_hit sw blk) f5 /\ f_pos f5 = S (length (f_code f))
    else SwInv (sw_see sw v) f5 /\
         f_pos f5 = length (pre ++ (if first then [] else [IEnd]) ++ compile_expr x ++ [IUnary (lower k); IPush (VCode (compile_block blk)); IBinary (lower cc)]).
Proof.
  intros HX HK HC MA LB FR EC EP SI.
  destruct (case_vm s x v k sw r c f rest below pre first _ HX HK MA LB FR EC EP SI) as (r3 & c3 & f3 & t1 & S3 & M3 & EV3 & UT1 & MV3 & SI3 & EC3 & EP3).
  destruct (mach_push s r3 c3 f3 rest (pre ++ (if first then [] else [IEnd]) ++ compile_expr x ++ [IUnary (lower k)]) ([IBinary (lower cc)] ++ tail) (VCode (compile_block blk)) M3)
    as (r4 & c4 & S4 & M4 & EV4); [rewrite EC3, EC, <- !app_assoc; reflexivity|exact EP3|].
  set (f4 := set_pos f3 (f_pos f3 + 1)) in *. set (fY := set_pos f4 (S (f_pos f4))).
  set (hit := andb (negb (sw_has sw)) (sw_now (sw_see sw v))).
  set (fR := if hit then set_pos (set_sw fY (sw_val (sw_hit sw blk))) (S (length (f_code fY))) else fY).
  destruct (mach_binary s r4 c4 f4 rest (pre ++ (if first then [] else [IEnd]) ++ compile_expr x ++ [IUnary (lower k)] ++ [IPush (VCode (compile_block blk))]) tail (lower cc)
              (sw_val (sw_see sw v)) (VCode (compile_block blk)) (t1 ++ below) fR VNil M4) as (r5 & c5 & S5 & M5 & EV5).
  { cbn [f4 f_code set_pos]. rewrite EC3, EC, <- !app_assoc. reflexivity. }
  { cbn [f4 f_pos set_pos]. rewrite EP3, !app_length. cbn. lia. }
  { rewrite EV4, EV3. reflexivity. } { cbn. rewrite (moved_base _ _ MV3), <- LB, app_length. lia. } { discriminate. } { discriminate. }
  { rewrite lower_idem, HC. unfold sw_val at 1.
    rewrite (op_colon _ _ _ _ (compile_block blk) r4 (set_values (set_frames c4 (fY :: rest)) (t1 ++ below)) fY rest _ _ _ _ eq_refl SI3).
    change (sw_has (sw_see sw v)) with (sw_has sw). fold hit. unfold fR. destruct hit; reflexivity. }
  { destruct M4 as (_ & _ & MM & _). unfold fR. destruct hit; [apply match_set_pos, match_set_sw|]; apply match_set_pos; exact MM. }
  { unfold fR. destruct hit; reflexivity. }
  exists r5, c5, fR, t1. split; [eapply steps_trans; [exact S3|eapply steps_trans; eassumption]|]. split; [exact M5|]. split; [exact EV5|].
  split; [exact UT1|]. split; [eapply moved_trans; [exact MV3|unfold fR, fY, f4, set_sw; destruct hit, f3; reflexivity]|].
  split; [unfold fR; destruct hit; exact EC3|]. unfold fR. destruct hit.
  - split; [unfold SwInv; cbn [f_vars set_pos]; apply sw_after|cbn [fY f4 f_pos f_code set_pos set_sw set_vars]; rewrite EC3; reflexivity].
  - split; [exact SI3|cbn [fY f4 f_pos set_pos]; rewrite EP3, !app_length; cbn; lia].
Qed.

(* the statements of a switch body, from a statement boundary: the bookkeeping in the hidden variable follows the reference
   semantics; at the end the frame stands at the end of its code - behind it when a block was chosen, which skips the rest *)
Lemma switch_body_vm s body sw sw' : zswitch s body sw sw' ->
  forall r c f rest below pre (first:bool), Mach s r c f rest -> length below = f_base f -> Fresh c below ->
    f_code f = pre ++ compile_block_from first body -> f_pos f = length pre -> SwInv sw f ->
    exists r' c' f', Steps r r' /\ Mach s r' c' f' rest /\ Fresh c' below /\
      (body <> [] -> exists t, c_values c' = VNil :: t ++ below) /\ (body = [] -> c_values c' = c_values c) /\
      moved f f' /\ SwInv sw' f' /\ (f_pos f' = length (f_code f') \/ f_pos f' = S (length (f_code f'))).
Proof.
  induction 1 as [sw|n x v st2 rest0 sw sw' HN HX HR IH|cc k x blk v rest0 sw sw' HC HK HX HD HR IH|cc k x blk v rest0 sw HC HK HX HD|n blk rest0 sw sw' HN HR IH];
    intros r c f rest below pre first MA LB FR EC EP SI.
  - (* end of the body *)
    exists r, c, f. split; [apply StepsRefl|]. split; [exact MA|]. split; [exact FR|]. split; [intros N; contradiction|]. split; [reflexivity|].
    split; [apply moved_refl|]. split; [exact SI|]. left. cbn [compile_block_from] in EC. rewrite app_nil_r in EC. rewrite EP, EC. reflexivity.
  - (* a label: case x; - the separator of the next statement clears the label's value *)
    rewrite compile_block_from_cons, (compile_stmt_unary n x HN), compile_block_from_cons, <- !app_assoc in EC.
    destruct (case_vm s x v n sw r c f rest below pre first _ HX HN MA LB FR EC EP SI) as (r3 & c3 & f3 & t1 & S3 & M3 & EV3 & UT1 & MV3 & SI3 & EC3 & EP3).
    destruct (end_mach s r3 c3 f3 rest below (pre ++ (if first then [] else [IEnd]) ++ compile_expr x ++ [IUnary (lower n)]) (compile_stmt st2 ++ compile_block_from false rest0) (sw_val (sw_see sw v) :: t1) M3 EV3)
      as (r4 & c4 & S4 & M4 & EV4); [rewrite (moved_base _ _ MV3); exact LB|rewrite EC3, EC, <- !app_assoc; reflexivity|exact EP3|].
    destruct (IH r4 c4 (set_pos f3 (S (f_pos f3))) rest below (pre ++ (if first then [] else [IEnd]) ++ compile_expr x ++ [IUnary (lower n)] ++ [IEnd]) true M4)
      as (r5 & c5 & f5 & S5 & M5 & FR5 & NE5 & _ & MV5 & SI5 & P5).
    { cbn [f_base set_pos]. rewrite (moved_base _ _ MV3); exact LB. } { apply fresh_nil; exact EV4. }
    { cbn [f_code set_pos]. rewrite EC3, EC, compile_block_from_cons, <- !app_assoc. reflexivity. }
    { cbn [f_pos set_pos]. rewrite EP3, !app_length. cbn. lia. } { exact SI3. }
    exists r5, c5, f5. split; [eapply steps_trans; [exact S3|eapply steps_trans; eassumption]|].
    split; [exact M5|]. split; [exact FR5|]. split; [intros _; apply NE5; discriminate|]. split; [intros N; discriminate N|].
    split; [eapply moved_trans; [exact MV3|eapply moved_trans; [apply moved_set_pos|exact MV5]]|split; [exact SI5|exact P5]].
  - (* case x : {..}, not chosen *)
    rewrite compile_block_from_cons, (compile_stmt_colon cc k x blk HK), <- !app_assoc in EC.
    destruct (colon_vm s x v k cc blk sw r c f rest below pre first _ HX HK HC MA LB FR EC EP SI) as (r5 & c5 & f5 & t1 & S5 & M5 & EV5 & UT1 & MV5 & EC5 & H5).
    rewrite HD in H5. destruct H5 as [SI5 EP5].
    destruct (IH r5 c5 f5 rest below (pre ++ (if first then [] else [IEnd]) ++ compile_expr x ++ [IUnary (lower k); IPush (VCode (compile_block blk)); IBinary (lower cc)]) false M5)
      as (r6 & c6 & f6 & S6 & M6 & FR6 & NE6 & EQ6 & MV6 & SI6 & P6).
    { rewrite (moved_base _ _ MV5); exact LB. } { exists (VNil :: t1). split; [exact EV5|constructor; [reflexivity|exact UT1]]. }
    { rewrite EC5, EC, <- !app_assoc. reflexivity. } { exact EP5. } { exact SI5. }
    exists r6, c6, f6. split; [eapply steps_trans; eassumption|]. split; [exact M6|]. split; [exact FR6|]. split; [|split; [intros N; discriminate N|]].
    { intros _. destruct rest0 as [|st3 rest3]; [|apply NE6; discriminate]. exists t1. rewrite (EQ6 eq_refl). exact EV5. }
    split; [eapply moved_trans; eassumption|split; [exact SI6|exact P6]].
  - (* case x : {..}, chosen: the rest of the body is skipped *)
    rewrite compile_block_from_cons, (compile_stmt_colon cc k x blk HK), <- !app_assoc in EC.
    destruct (colon_vm s x v k cc blk sw r c f rest below pre first _ HX HK HC MA LB FR EC EP SI) as (r5 & c5 & f5 & t1 & S5 & M5 & EV5 & UT1 & MV5 & EC5 & H5).
    rewrite HD in H5. destruct H5 as [SI5 EP5].
    exists r5, c5, f5. split; [exact S5|]. split; [exact M5|]. split; [exists (VNil :: t1); split; [exact EV5|constructor; [reflexivity|exact UT1]]|].
    split; [intros _; exists t1; exact EV5|]. split; [intros N; discriminate N|]. split; [exact MV5|]. split; [exact SI5|]. right. rewrite EP5, EC5. reflexivity.
  - (* default {..} *)
    rewrite compile_block_from_cons, (compile_stmt_default n blk) in EC.
    destruct (sw_sep s r c f rest below pre first _ MA LB FR EC EP) as (r1 & c1 & p1 & S1 & M1 & (t1 & EV1 & UT1) & EC1 & EP1).
    set (f1 := set_pos f p1) in *.
    destruct (mach_push s r1 c1 f1 rest _ _ (VCode (compile_block blk)) M1 EC1 EP1) as (r2 & c2 & S2 & M2 & EV2).
    set (f2 := set_pos f1 (f_pos f1 + 1)) in *. set (fX := set_pos f2 (S (f_pos f2))).
    set (w1 := VSwitch (cv (sw_v sw)) (if sw_has sw then sw_code sw else compile_block blk) (sw_now sw) (sw_has sw)).
    destruct (mach_unary s r2 c2 f2 rest (pre ++ (if first then [] else [IEnd]) ++ [IPush (VCode (compile_block blk))]) (compile_block_from false rest0) (lower n) (VCode (compile_block blk)) (c_values c1)
                (set_sw fX w1) VNil M2) as (r3 & c3 & S3 & M3 & EV3).
    { cbn [f2 f1 f_code set_pos]. rewrite EC, <- !app_assoc. reflexivity. }
    { cbn [f2 f1 f_pos set_pos]. rewrite EP1, !app_length. cbn. lia. }
    { exact EV2. } { destruct M1 as (_ & _ & _ & B1 & _). exact B1. } { discriminate. }
    { rewrite lower_idem, HN. exact (op_default (compile_block blk) r2 (set_values (set_frames c2 (fX :: rest)) (c_values c1)) fX rest (cv (sw_v sw)) (sw_code sw) (sw_now sw) (sw_has sw) eq_refl SI). }
    { apply match_set_sw, match_set_pos. destruct M2 as (_ & _ & MM & _). exact MM. } { reflexivity. }
    set (f3 := set_sw fX w1) in *.
    destruct (IH r3 c3 f3 rest below (pre ++ (if first then [] else [IEnd]) ++ [IPush (VCode (compile_block blk)); IUnary (lower n)]) false M3) as (r6 & c6 & f6 & S6 & M6 & FR6 & NE6 & EQ6 & MV6 & SI6 & P6).
    { exact LB. } { exists (VNil :: t1). split; [rewrite EV3, EV1; reflexivity|constructor; [reflexivity|exact UT1]]. }
    { cbn [f3 fX f2 f1 set_sw f_code set_pos set_vars]. rewrite EC, <- !app_assoc. reflexivity. }
    { cbn [f3 fX f2 f1 set_sw f_pos set_pos set_vars]. rewrite EP1, !app_length. cbn. lia. }
    { unfold SwInv, f3. rewrite sw_after. unfold w1, sw_val, sw_dflt, sw_code. cbn [sw_v sw_target sw_now sw_has]. destruct (sw_has sw); reflexivity. }
    exists r6, c6, f6. split; [eapply steps_trans; [exact S1|eapply steps_trans; [exact S2|eapply steps_trans; [exact S3|exact S6]]]|].
    split; [exact M6|]. split; [exact FR6|]. split; [|split; [intros N; discriminate N|]].
    { intros _. destruct rest0 as [|st3 rest3]; [|apply NE6; discriminate]. exists t1. rewrite (EQ6 eq_refl), EV3, EV1. reflexivity. }
    split; [|split; [exact SI6|exact P6]].
    eapply moved_trans; [|exact MV6]. unfold f3, fX, f2, f1, set_sw. destruct f; reflexivity.
Qed.

(* switch v do {..}: the new frame carries the bookkeeping in its hidden variable, which is no business of the reference scope *)
Lemma switch_opens s n a b v body s1 s2 : lower n = "do" -> ExprRuns s a (cv (RSwitch v)) s1 -> ExprRuns s1 b (cv (RCode body)) s2 ->
  Opens s (EBinary n a b) s2 (fun ns => mk_frame ns (compile_block body) (Some (BSwitch false)) None [("___switch", VSwitch (cv v) [] false false)]).
Proof.
  intros HN IHa IHb. apply (binary_opens s n a b (cv (RSwitch v)) (cv (RCode body)) s1 s2 _ IHa IHb); [discriminate|discriminate|].
  intros r c f rest _ _. rewrite HN. reflexivity.
Qed.
Lemma switch_frame_match ns code ex er w : frame_match (mk_scope ns []) (mk_frame ns code ex er [("___switch", w)]).
Proof. split; [intros k HK; cbn; unfold hidden in HK; rewrite HK; reflexivity|split; [reflexivity|split; reflexivity]]. Qed.

(* ---------------------------------------------------------------- leaving a loop by a throw or by breakOut *)
(* what the machine does when the code of the running frame f is left by a throw / by breakOut "t" (the conclusions of ThrowRuns and
   BreakRuns, as one predicate over the kind of exit); s' is the reference state at the exit, the scopes down to f's closed *)
Definition Leaves0 (a:abr) (s':sstate) (r:rt) (f:frame) (restf:list frame) (below:list value) : Prop :=
  match a with
  | AThrow x => forall inner ft rest h jn below_t,
      f :: restf = inner ++ ft :: rest -> Forall (fun m => f_err m = None) inner -> f_err ft = Some (ECatch h) ->
      below = jn ++ below_t -> under jn -> length below_t = f_base ft ->
      exists r' c' rest' ft0, Steps r r' /\ Forall2 kept rest rest' /\ moved ft ft0 /\
        Caught (set_top_vars (drop_scopes (length inner) s') [("_exception", x)]) r' c' (handler_frame ft0 h (cv x)) rest' below_t
  | ABreak t v => forall k top fn fc rest jn below_n,
      find_name t (st_scopes s') 0 = Some k ->
      f :: restf = top ++ fn :: fc :: rest -> length top = k ->
      Forall (fun m => f_base fn <= f_base m) top -> f_base fc <= f_base fn ->
      below = jn ++ below_n -> length below_n = f_base fn ->
      exists r' c' fc' rest', Steps r r' /\ Mach (drop_scopes (S k) s') r' c' fc' rest' /\ c_values c' = cv v :: below_n /\
        kept fc fc' /\ Forall2 kept rest rest'
  end.
(* the same for a LOOP frame f at the start of a round: the handler's frame / the named frame lies below f (restf), and s' is the
   reference state with the scope of the loop closed as well; the loop frame and its part of the operand stack are gone *)
Definition LeavesL (a:abr) (s':sstate) (r:rt) (f:frame) (restf:list frame) (below:list value) : Prop :=
  match a with
  | AThrow x => forall inner ft rest h jn below_t,
      restf = inner ++ ft :: rest -> f_err f = None -> Forall (fun m => f_err m = None) inner -> f_err ft = Some (ECatch h) ->
      below = jn ++ below_t -> under jn -> length below_t = f_base ft ->
      exists r' c' rest' ft0, Steps r r' /\ r' <> r /\ Forall2 kept rest rest' /\ moved ft ft0 /\
        Caught (set_top_vars (drop_scopes (length inner) s') [("_exception", x)]) r' c' (handler_frame ft0 h (cv x)) rest' below_t
  | ABreak t v => forall k top fn fc rest jn below_n,
      find_name t (st_scopes s') 0 = Some k ->
      restf = top ++ fn :: fc :: rest -> length top = k ->
      f_base fn <= f_base f -> Forall (fun m => f_base fn <= f_base m) top -> f_base fc <= f_base fn ->
      below = jn ++ below_n -> length below_n = f_base fn ->
      exists r' c' fc' rest', Steps r r' /\ r' <> r /\ Mach (drop_scopes (S k) s') r' c' fc' rest' /\ c_values c' = cv v :: below_n /\
        kept fc fc' /\ Forall2 kept rest rest'
  end.


(* a loop that leaves in a later round leaves: the machine gets from r to the (virtual) state rV at the start of the next round,
   from which every run that moves at all is a run from r *)
Lemma leavesL_transfer a s' r c f fc frest rV fV fc1 frest1 below :
  cur r = Some c -> c_frames c = f :: fc :: frest ->
  (forall r', Steps rV r' -> r' <> rV -> Steps r r') ->
  kept fc fc1 -> Forall2 kept frest frest1 -> f_err fV = f_err f -> f_base fV = f_base f ->
  LeavesL a s' rV fV (fc1 :: frest1) below -> LeavesL a s' r f (fc :: frest) below.
Proof.
  intros C EF HS Ka Kb EE EBs H. destruct a as [x|t v]; cbn [LeavesL] in *.
  - intros inner ft rest h jn below_t CH HE HF HErr EB UJ LBT.
    destruct (chain_keptL (fc :: frest) inner ft rest (fc1 :: frest1) h CH HF HErr) as (inner1 & ft1 & rest1' & CH1 & HF1 & HE1 & Kt & LEN1 & KR1 & FB1).
    { constructor; assumption. }
    destruct (H inner1 ft1 rest1' h jn below_t CH1) as (r' & c' & rest' & ft0 & ST & N & K & MT & CA).
    { rewrite EE; exact HE. } { exact HF1. } { exact HE1. } { exact EB. } { exact UJ. } { rewrite FB1; exact LBT. }
    assert (KK : Forall2 kept rest rest') by (eapply kept_all_trans; eassumption).
    exists r', c', rest', ft0. split; [apply HS; assumption|]. split.
    { pose proof CA as ((C' & _) & _ & EF' & _). apply (chain_neq r c f inner ft rest r' c' C (eq_trans EF (f_equal _ CH)) C').
      rewrite EF'. cbn [length]. rewrite (forall2_length _ _ _ KK). lia. }
    split; [exact KK|]. split; [eapply moved_trans; [apply kept_moved; exact Kt|exact MT]|].
    rewrite LEN1 in CA. exact CA.
  - intros k top fn fc0 rest jn below_n FN CH LT HBf0 HB HC EB LBN.
    destruct (chain_keptLb (fc :: frest) top fn fc0 rest (fc1 :: frest1) CH) as (top1 & fn1 & fc01 & rest1' & CH1 & LT1 & HB1 & FB1 & KC1 & KR1).
    { constructor; assumption. } { exact HB. }
    destruct (H k top1 fn1 fc01 rest1' jn below_n FN CH1) as (r' & c' & fc' & rest' & ST & N & M & EV & K & KR).
    { rewrite LT1; exact LT. } { rewrite FB1, EBs; exact HBf0. } { exact HB1. } { rewrite FB1, (kept_base _ _ KC1); exact HC. }
    { exact EB. } { rewrite FB1; exact LBN. }
    assert (KK : Forall2 kept rest rest') by (eapply kept_all_trans; eassumption).
    exists r', c', fc', rest'. split; [apply HS; assumption|]. split.
    { pose proof M as ((C' & _) & EF' & _). apply (chain_neq r c f top fn (fc0 :: rest) r' c' C (eq_trans EF (f_equal _ CH)) C').
      rewrite EF'. cbn [length]. rewrite (forall2_length _ _ _ KK). lia. }
    split; [exact M|]. split; [exact EV|]. split; [eapply kept_trans; eassumption|exact KK].
Qed.

(* the round in which the body is left *)
Lemma leavesL_throw s reg code y s1 r c f restf below :
  ThrowRuns s reg code y s1 -> AtM s reg r c f restf below -> Fresh c below -> f_code f = code -> f_pos f = 0 ->
  LeavesL (AThrow y) (pop_scope s1) r f restf below.
Proof.
  intros TR A FR EC EP. cbn [LeavesL]. intros inner ft rest h jn below_t CH HE HF HErr EB UJ LBT.
  destruct (TR r c f restf below [] (f :: inner) ft rest h jn below_t A FR EC EP) as (r' & c' & rest' & ft0 & ST & K & MT & CA).
  { cbn [app]. rewrite CH. reflexivity. } { constructor; assumption. } { exact HErr. } { exact EB. } { exact UJ. } { exact LBT. }
  exists r', c', rest', ft0. split; [exact ST|]. split.
  { destruct A as ((G0 & EF0 & _) & _). destruct G0 as (C0 & _). pose proof CA as ((C' & _) & _ & EF' & _).
    apply (chain_neq r c f inner ft rest r' c' C0 (eq_trans EF0 (f_equal _ CH)) C'). rewrite EF'. cbn [length]. rewrite (forall2_length _ _ _ K). lia. }
  split; [exact K|]. split; [exact MT|]. cbn [length] in CA. rewrite drop_scopes_S in CA. exact CA.
Qed.
Lemma leavesL_break s reg code t v s1 r c f restf below :
  BreakRuns s reg code t v s1 -> top_name s1 <> t -> AtM s reg r c f restf below -> Fresh c below -> f_code f = code -> f_pos f = 0 ->
  LeavesL (ABreak t v) (pop_scope s1) r f restf below.
Proof.
  intros BR TN A FR EC EP. cbn [LeavesL]. intros k top fn fc rest jn below_n FN CH LT HBf HB HC EB LBN.
  destruct (BR r c f restf below [] (S k) (f :: top) fn fc rest jn below_n A FR EC EP) as (r' & c' & fc' & rest' & ST & M & EV & K & KR).
  { apply find_name_pop; assumption. } { cbn [app]. rewrite CH. reflexivity. } { cbn [length]. rewrite LT. reflexivity. }
  { constructor; assumption. } { exact HC. } { exact EB. } { exact LBN. }
  exists r', c', fc', rest'. split; [exact ST|]. split.
  { destruct A as ((G0 & EF0 & _) & _). destruct G0 as (C0 & _). pose proof M as ((C' & _) & EF' & _).
    apply (chain_neq r c f top fn (fc :: rest) r' c' C0 (eq_trans EF0 (f_equal _ CH)) C'). rewrite EF'. cbn [length]. rewrite (forall2_length _ _ _ KR). lia. }
  split; [rewrite <- drop_scopes_S; exact M|]. split; [exact EV|]. split; assumption.
Qed.

(* breakOut to the name the loop frame's own scope carries: the loop frame is the named one, the loop is over with the value *)
Lemma own_break s reg code t v s1 r c f fc frest below :
  BreakRuns s reg code t v s1 -> t <> "" -> top_name s1 = t -> AtM s reg r c f (fc :: frest) below -> Fresh c below ->
  f_code f = code -> f_pos f = 0 -> f_base fc <= length below ->
  exists r' c' fc' rest', Steps r r' /\ r' <> r /\ Mach (pop_scope s1) r' c' fc' rest' /\ c_values c' = cv v :: below /\
    kept fc fc' /\ Forall2 kept frest rest'.
Proof.
  intros BR NT TN A FR EC EP HBf. pose proof A as (_ & LB0 & _).
  destruct (BR r c f (fc :: frest) below [] 0 [] f fc frest [] below A FR EC EP) as (r' & c' & fc' & rest' & ST & M & EV & K & KR).
  { apply find_name_top; assumption. } { reflexivity. } { reflexivity. } { constructor. } { rewrite <- LB0. exact HBf. }
  { reflexivity. } { exact LB0. }
  destruct A as ((G0 & EF0 & _) & _). destruct G0 as (C0 & _).
  exists r', c', fc', rest'. split; [exact ST|]. split; [exact (popped_neq r c f fc frest _ _ _ _ _ C0 EF0 M KR)|].
  split; [rewrite drop_scopes_S, drop_scopes_0 in M; exact M|]. split; [exact EV|]. split; assumption.
Qed.

(* ---- what is proved of a loop one of whose rounds is left (zileave / zfleave / zwleave), and of an expression that is left (zloopleave) *)
Definition IterLeaves (k:lkind) (s:sstate) (arr:list rvalue) (i:nat) (body:list stmt) (acc:rvalue) (a:abr) (s':sstate) : Prop :=
  match arr with
  | [] => True
  | x :: rest0 =>
    forall r c f fc frest below allarr b,
      AtM (enter s (kvars k i x)) (match i with O => RNil | _ => RNone end) r c f (fc :: frest) below -> Fresh c below ->
      f_code f = compile_block body -> f_pos f = 0 -> f_exit f = Some b -> kb k allarr i acc b -> f_die f = false ->
      skipn i allarr = x :: rest0 -> leaf_first body -> f_ns f = f_ns fc -> f_base fc <= length below ->
      LeavesL a s' r f (fc :: frest) below
  end.
Definition ForLeaves (var:string) (to st:Z) (s:sstate) (x:Z) (first:bool) (body:list stmt) (a:abr) (s':sstate) : Prop :=
  forall r c f fc frest below,
    AtM (enter s [(lower var, RNum x)]) (if first then RNil else RNone) r c f (fc :: frest) below -> Fresh c below ->
    f_code f = compile_block body -> f_pos f = 0 -> f_exit f = Some (BFor var to st) -> f_die f = false ->
    leaf_first body -> f_ns f = f_ns fc -> f_base fc <= length below ->
    LeavesL a s' r f (fc :: frest) below.
Definition WhileLeaves (cond body:list stmt) (s:sstate) (first:bool) (a:abr) (s':sstate) : Prop :=
  forall r c f fc frest below loops,
    AtM (enter s []) (if first then RNil else RNone) r c f (fc :: frest) below -> Fresh c below ->
    f_code f = compile_block cond -> f_pos f = 0 ->
    f_exit f = Some (BWhile loops WCond (compile_block cond) (compile_block body)) -> f_die f = false ->
    leaf_first cond -> leaf_first body -> f_ns f = f_ns fc -> f_base fc <= length below ->
    LeavesL a s' r f (fc :: frest) below.
(* a loop standing as a statement of the running frame f *)
Definition ExprLeaves (s:sstate) (e:expr) (a:abr) (s':sstate) : Prop :=
  forall r c f restf pre post, Mach s r c f restf ->
    f_code f = pre ++ compile_expr e ++ post -> f_pos f = length pre -> Leaves0 a s' r f restf (c_values c).

(* ---------------------------------------------------------------- an exit raised inside an operand *)
(* what lies on the operand stack above the handler's / the named frame's base may be more than was said: nils for a throw (they stay
   under the handler's nil), anything for breakOut (pop_clearing drops it) *)
Definition pend_ok (a:abr) (pend:list value) : Prop := match a with AThrow _ => under pend | ABreak _ _ => True end.
Lemma leaves0_weaken a s' r f restf pend vals :
  pend_ok a pend -> Leaves0 a s' r f restf (pend ++ vals) -> Leaves0 a s' r f restf vals.
Proof.
  intros PO H. destruct a as [x|t v]; cbn [Leaves0 pend_ok] in *.
  - intros inner ft rest h jn below_t CH HF HErr EB UJ LBT.
    apply (H inner ft rest h (pend ++ jn) below_t CH HF HErr); [rewrite EB, app_assoc; reflexivity|apply Forall_app; split; assumption|exact LBT].
  - intros k top fn fc rest jn below_n FN CH LT HB HC EB LBN.
    apply (H k top fn fc rest (pend ++ jn) below_n FN CH LT HB HC); [rewrite EB, app_assoc; reflexivity|exact LBN].
Qed.
(* the running frame has moved on (operands evaluated: pend lies on the stack), the exit happens from there *)
Lemma leaves0_back a s' r r1 f f1 restf rest1 pend vals :
  Steps r r1 -> moved f f1 -> Forall2 kept restf rest1 -> pend_ok a pend ->
  Leaves0 a s' r1 f1 rest1 (pend ++ vals) -> Leaves0 a s' r f restf vals.
Proof.
  intros S0 MV K PO H. apply (leaves0_weaken a s' r f restf pend vals PO).
  destruct a as [x|t v]; cbn [Leaves0] in *.
  - intros inner ft rest h jn below_t CH HF HErr EB UJ LBT.
    destruct (chain_kept f restf inner ft rest f1 rest1 h (cv x) CH HF HErr MV K) as (inner1 & ft1 & rest1' & CH1 & HF1 & HE1 & HH1 & LEN1 & KR1 & FB1).
    destruct (H inner1 ft1 rest1' h jn below_t CH1 HF1 HE1 EB UJ) as (r' & c' & rest' & ft0 & ST & K' & MT & CA).
    { rewrite FB1. exact LBT. }
    exists r', c', rest', ft0. split; [eapply steps_trans; eassumption|]. split; [eapply kept_all_trans; eassumption|].
    split; [eapply moved_trans; eassumption|]. rewrite LEN1 in CA. exact CA.
  - intros k top fn fc rest jn below_n FN CH LT HB HC EB LBN.
    destruct (chain_kept_b f restf top fn fc rest f1 rest1 CH MV K HB) as (top1 & fn1 & fc1 & rest1' & CH1 & LT1 & HB1 & FB1 & KC1 & KR1).
    destruct (H k top1 fn1 fc1 rest1' jn below_n FN CH1) as (r' & c' & fc' & rest' & ST & M & EV & K' & KR).
    { rewrite LT1. exact LT. } { exact HB1. } { rewrite FB1, (kept_base _ _ KC1). exact HC. } { exact EB. } { rewrite FB1. exact LBN. }
    exists r', c', fc', rest'. split; [eapply steps_trans; eassumption|]. split; [exact M|]. split; [exact EV|].
    split; [eapply kept_trans; eassumption|eapply kept_all_trans; eassumption].
Qed.

(* a block entered as a new scope (call, then, else) by the running frame fc and left by a throw / by breakOut through that scope *)
Definition ScopeLeaves (s:sstate) (vars:list (string*rvalue)) (b:list stmt) (a:abr) (s':sstate) : Prop :=
  forall r1 c0 fc restf,
    let newf := mk_frame (cur_ns c0) (compile_block b) None None (mvars vars) in
    let c1 := push_value (push_frame c0 newf) VNil in
    Good r1 c1 -> quirks r1 = ([], 0) -> c_frames c0 = fc :: restf -> Match s r1 (fc :: restf) -> f_base fc <= length (c_values c0) ->
    Leaves0 a s' r1 fc restf (c_values c0).
Lemma scope_leaves_throw s vars b y s3 : ThrowRuns (enter s vars) RNil (compile_block b) y s3 -> ScopeLeaves s vars b (AThrow y) (pop_scope s3).
Proof.
  intros TR r1 c0 fc restf newf c1 G D EF M B. cbn [Leaves0]. intros inner ft rest h jn below_t CH HF HErr EB UJ LBT.
  exact (throw_in_scope s vars b y s3 r1 c0 fc restf inner ft rest h jn below_t TR G D EF M CH HF HErr EB UJ LBT).
Qed.
Lemma scope_leaves_break s vars b t v s3 : BreakRuns (enter s vars) RNil (compile_block b) t v s3 -> top_name s3 <> t ->
  ScopeLeaves s vars b (ABreak t v) (pop_scope s3).
Proof.
  intros BR TN r1 c0 fc restf newf c1 G D EF M B. cbn [Leaves0]. intros k top fn fc0 rest jn below_n FN CH LT HB HC EB LBN.
  exact (break_in_scope s vars b t v s3 r1 c0 fc restf k top fn fc0 rest jn below_n BR G D EF M B TN FN CH LT HB HC EB LBN).
Qed.
Lemma pend_ok_nil a : pend_ok a [].
Proof. destruct a; cbn; [constructor|exact I]. Qed.
(* ... read at a statement boundary (the shape of ThrowRuns / BreakRuns) *)
Lemma expr_leaves_atm s e a s' : ExprLeaves s e a s' ->
  forall reg r c f restf below pre post, AtM s reg r c f restf below -> Fresh c below ->
    f_code f = pre ++ compile_expr e ++ post -> f_pos f = length pre -> Leaves0 a s' r f restf below.
Proof.
  intros H reg r c f restf below pre post (MA & LB & top & EV & RR) FR EC EP.
  apply (leaves0_weaken a s' r f restf top below).
  { destruct a; cbn; [exact (fresh_under c top below EV FR)|exact I]. }
  rewrite <- EV. exact (H r c f restf pre post MA EC EP).
Qed.
Definition ElemsLeaves (s:sstate) (l:list expr) (a:abr) (s':sstate) : Prop :=
  forall r c f restf pre post, Mach s r c f restf ->
    f_code f = pre ++ flat_map compile_expr l ++ post -> f_pos f = length pre -> Leaves0 a s' r f restf (c_values c).

(* the frame nf opened by a statement of the running frame f leaves (LeavesL): the statement leaves (Leaves0).  The machine reaches nf's
   state r2 from r by plain steps (leaves0_of_loop: a loop frame, the operands evaluated, the operator executed) or only as a virtual
   state, every run from which that moves is a run from r (leaves0_via: the chosen block of a switch) *)
Lemma leaves0_via a s' r r2 f f2 restf rest2 nf below topv :
  (forall r', Steps r2 r' -> r' <> r2 -> Steps r r') -> moved f f2 -> Forall2 kept restf rest2 -> f_err nf = None ->
  f_base nf = length (topv ++ below) -> under topv ->
  LeavesL a s' r2 nf (f2 :: rest2) (topv ++ below) -> Leaves0 a s' r f restf below.
Proof.
  intros S0 MV K NE NB UT H. destruct a as [x|t v]; cbn [LeavesL Leaves0] in *.
  - intros inner ft rest h jn below_t CH HF HErr EB UJ LBT.
    destruct (chain_kept f restf inner ft rest f2 rest2 h (cv x) CH HF HErr MV K) as (inner1 & ft1 & rest1' & CH1 & HF1 & HE1 & HH1 & LEN1 & KR1 & FB1).
    destruct (H inner1 ft1 rest1' h (topv ++ jn) below_t CH1 NE HF1 HE1) as (r' & c' & rest' & ft0 & ST & N' & K' & MT & CA).
    { rewrite EB, app_assoc. reflexivity. } { apply Forall_app. split; assumption. } { rewrite FB1. exact LBT. }
    exists r', c', rest', ft0. split; [apply S0; assumption|]. split; [eapply kept_all_trans; eassumption|].
    split; [eapply moved_trans; eassumption|]. rewrite LEN1 in CA. exact CA.
  - intros k top fn fc rest jn below_n FN CH LT HB HC EB LBN.
    destruct (chain_kept_b f restf top fn fc rest f2 rest2 CH MV K HB) as (top1 & fn1 & fc1 & rest1' & CH1 & LT1 & HB1 & FB1 & KC1 & KR1).
    destruct (H k top1 fn1 fc1 rest1' (topv ++ jn) below_n FN CH1) as (r' & c' & fc' & rest' & ST & N' & M & EV & K' & KR).
    { rewrite LT1. exact LT. } { rewrite FB1, NB, <- LBN, EB, !app_length. lia. } { exact HB1. }
    { rewrite FB1, (kept_base _ _ KC1). exact HC. } { rewrite EB, app_assoc. reflexivity. } { rewrite FB1. exact LBN. }
    exists r', c', fc', rest'. split; [apply S0; assumption|]. split; [exact M|]. split; [exact EV|].
    split; [eapply kept_trans; eassumption|eapply kept_all_trans; eassumption].
Qed.
Lemma leaves0_of_loop a s' r r2 f f2 restf rest2 nf below topv :
  Steps r r2 -> moved f f2 -> Forall2 kept restf rest2 -> f_err nf = None -> f_base nf = length (topv ++ below) -> under topv ->
  LeavesL a s' r2 nf (f2 :: rest2) (topv ++ below) -> Leaves0 a s' r f restf below.
Proof. intros S0. apply leaves0_via. intros r' S' _. eapply steps_trans; eassumption. Qed.

(* ---------------------------------------------------------------- switch: the chosen block is left early *)
(* switch v do {..} up to the start of the chosen block: the operands, the operator, the statements of the body, and the pass that puts
   the block's instructions into the switch frame (a virtual state: that pass also executes the block's first instruction) *)
Lemma switch_to_block s n a b v body s1 s2 sw t ts r c f rest pre post :
  lower n = "do" ->
  (forall r c f rest pre post, Mach s r c f rest -> f_code f = pre ++ compile_expr a ++ post -> f_pos f = length pre ->
     Post s1 (cv (RSwitch v)) (length (compile_expr a)) r c f rest) ->
  (forall r c f rest pre post, Mach s1 r c f rest -> f_code f = pre ++ compile_expr b ++ post -> f_pos f = length pre ->
     Post s2 (cv (RCode body)) (length (compile_expr b)) r c f rest) ->
  zswitch (enter s2 []) body (sw_start v) sw -> sw_target sw = Some (t :: ts) -> leaf_first (t :: ts) ->
  Mach s r c f rest -> f_code f = pre ++ compile_expr a ++ compile_expr b ++ [IBinary (lower n)] ++ post -> f_pos f = length pre ->
  exists rV cV fV fcur rest2,
    (forall r', Steps rV r' -> r' <> rV -> Steps r r') /\
    AtM (enter s2 []) RNil rV cV fV (fcur :: rest2) (c_values c) /\ Fresh cV (c_values c) /\
    f_code fV = compile_block (t :: ts) /\ f_pos fV = 0 /\ f_exit fV = Some (BSwitch true) /\ f_die fV = false /\ f_err fV = None /\
    moved f fcur /\ f_pos fcur = f_pos f + (length (compile_expr a) + (length (compile_expr b) + 1)) /\ Forall2 kept rest rest2 /\
    f_base fcur <= length (c_values c).
Proof.
  intros HN IHa IHb HW HT LF MA EC EP.
  destruct (switch_opens s n a b v body s1 s2 HN IHa IHb r c f rest pre post MA) as (r3 & c0 & fcur & rest2 & S3 & MVc & KR & PC & EV0 & G3 & D3 & EF0 & M0 & BC);
    [rewrite compile_binary, <- !app_assoc; exact EC|exact EP|].
  assert (NS : cur_ns c0 = cur_ns_of s2) by (unfold cur_ns; rewrite EF0; exact (match_ns _ _ _ _ M0)). rewrite NS in G3.
  destruct (enter_frame s2 (mk_scope (cur_ns_of s2) []) _ r3 c0 fcur rest2 G3 D3 EF0 M0 (switch_frame_match _ _ _ _ _)) as [(M3 & LB3 & _) FR3].
  rewrite EV0 in M3, LB3, FR3, BC.
  match type of M3 with Mach _ _ _ ?x _ => set (nf := x) in * end.
  destruct (switch_body_vm _ _ _ _ HW _ _ nf (fcur :: rest2) (c_values c) [] true M3 LB3 FR3 eq_refl eq_refl eq_refl)
    as (r4 & c4 & f4 & S4 & M4 & (t4 & EV4 & UT4) & NE4 & _ & MV4 & SI4 & DN4).
  assert (BN : body <> []).
  { intros ->. inversion HW; subst. cbn in HT. discriminate HT. }
  destruct (NE4 BN) as (t5 & EV5). rewrite EV5 in EV4.
  assert (t4 = VNil :: t5) by (apply (app_inv_tail (c_values c)); rewrite <- EV4; reflexivity). subst t4.
  pose proof M4 as (G4 & EF4 & MM4 & B4 & D4).
  destruct LF as (i0 & code' & LC & LL).
  assert (A4 : assoc "___switch" (f_vars f4) = Some (VSwitch (cv (sw_v sw)) (i0 :: code') (sw_now sw) (sw_has sw))).
  { unfold SwInv, sw_val, sw_code in SI4. rewrite HT, LC in SI4. exact SI4. }
  assert (X4 : f_exit f4 = Some (BSwitch false)) by (rewrite (moved_exit _ _ MV4); reflexivity).
  assert (E4 : f_die f4 = false) by (rewrite (moved_die _ _ MV4); reflexivity).
  pose proof (sw_back r4 c4 f4 (fcur :: rest2) _ i0 code' _ _ G4 EF4 DN4 X4 E4 LL A4) as BK.
  set (fV := sw_frame f4 (i0 :: code')) in *. set (cV := set_frames c4 (fV :: fcur :: rest2)) in *.
  exists (upd_cur r4 cV), cV, fV, fcur, rest2. split; [exact (via_virtual r r4 cV (steps_trans _ _ _ S3 S4) BK)|].
  split.
  { split.
    - split; [apply (good_upd r4 c4 cV G4); exact (good_running _ _ G4)|]. split; [reflexivity|].
      split; [apply match_upd, (match_top_same _ _ f4); [exact MM4|reflexivity|reflexivity|reflexivity|reflexivity]|].
      split; [cbn; rewrite EV5; cbn; rewrite app_length, (moved_base _ _ MV4); cbn; lia|rewrite quirks_upd_cur; exact D4].
    - split; [cbn; rewrite (moved_base _ _ MV4); reflexivity|]. exists (VNil :: t5). split; [exact EV5|].
      split; [reflexivity|]. split; [discriminate|inversion UT4; assumption]. }
  split; [exists (VNil :: t5); split; [exact EV5|exact UT4]|]. split; [cbn [fV sw_frame f_code set_pos set_code]; rewrite LC; reflexivity|].
  split; [reflexivity|]. split; [reflexivity|]. split; [exact E4|]. split; [cbn; rewrite (moved_err _ _ MV4); reflexivity|].
  split; [exact MVc|]. split; [rewrite PC, compile_binary, !app_length; reflexivity|]. split; [exact KR|exact BC].
Qed.

(* the chosen block of a switch standing as a statement is left by a throw / by breakOut to a scope outside the switch *)
Lemma switch_expr_leaves s n a b v body s1 s2 sw t ts ab s4 :
  lower n = "do" ->
  (forall r c f rest pre post, Mach s r c f rest -> f_code f = pre ++ compile_expr a ++ post -> f_pos f = length pre ->
     Post s1 (cv (RSwitch v)) (length (compile_expr a)) r c f rest) ->
  (forall r c f rest pre post, Mach s1 r c f rest -> f_code f = pre ++ compile_expr b ++ post -> f_pos f = length pre ->
     Post s2 (cv (RCode body)) (length (compile_expr b)) r c f rest) ->
  zswitch (enter s2 []) body (sw_start v) sw -> sw_target sw = Some (t :: ts) -> leaf_first (t :: ts) ->
  (forall r c f restf below, AtM (enter s2 []) RNil r c f restf below -> Fresh c below -> f_code f = compile_block (t :: ts) -> f_pos f = 0 ->
     LeavesL ab (pop_scope s4) r f restf below) ->
  ExprLeaves s (EBinary n a b) ab (pop_scope s4).
Proof.
  intros HN IHa IHb HW HT LF HL r c f restf pre post MA EC EP.
  rewrite compile_binary in EC. rewrite <- !app_assoc in EC.
  destruct (switch_to_block s n a b v body s1 s2 sw t ts r c f restf pre post HN IHa IHb HW HT LF MA EC EP)
    as (rV & cV & fV & fcur & rest2 & HS & AV & FRV & ECV & EPV & EXV & EDV & EEV & MVc & PC & KR & BC).
  pose proof AV as (_ & LBV & _).
  eapply (leaves0_via ab (pop_scope s4) r rV f fcur restf rest2 fV (c_values c) [] HS MVc KR EEV).
  - symmetry. exact LBV.
  - constructor.
  - exact (HL rV cV fV (fcur :: rest2) (c_values c) AV FRV ECV EPV).
Qed.

(* ---------------------------------------------------------------- exitWith inside an operand *)
(* the code of the running frame f - the scope that ends - is left by exitWith while pend waits on f's part of the operand stack: f is
   gone, its part of the stack with it, the handler's value stands on what lay below *)
Definition ExprExits (s:sstate) (e:expr) (v:rvalue) (s':sstate) : Prop :=
  forall r c f fc rest pre post pend below, Mach s r c f (fc :: rest) ->
    f_code f = pre ++ compile_expr e ++ post -> f_pos f = length pre ->
    c_values c = pend ++ below -> length below = f_base f -> f_base fc <= length below ->
    exists r' c' fc' rest', Steps r r' /\ Mach (pop_scope s') r' c' fc' rest' /\ c_values c' = cv v :: below /\
      kept fc fc' /\ Forall2 kept rest rest'.
Definition ElemsExit (s:sstate) (l:list expr) (v:rvalue) (s':sstate) : Prop :=
  forall r c f fc rest pre post pend below, Mach s r c f (fc :: rest) ->
    f_code f = pre ++ flat_map compile_expr l ++ post -> f_pos f = length pre ->
    c_values c = pend ++ below -> length below = f_base f -> f_base fc <= length below ->
    exists r' c' fc' rest', Steps r r' /\ Mach (pop_scope s') r' c' fc' rest' /\ c_values c' = cv v :: below /\
      kept fc fc' /\ Forall2 kept rest rest'.
(* ---------------------------------------------------------------- operators that open a block: what follows *)
(* whatever the new frame does, if it ends with the frame gone and a value y on what lay below it, y is the value of the expression *)
Lemma opens_runs s e s2 mkf sc y s' :
  Opens s e s2 mkf -> frame_match sc (mkf (cur_ns_of s2)) ->
  (forall r c fc rest below, AtM (push_scope s2 sc) RNil r c (set_base (mkf (f_ns fc)) (length below)) (fc :: rest) below -> Fresh c below ->
     f_base fc <= length below ->
     exists r' c' fc' rest', Steps r r' /\ Mach s' r' c' fc' rest' /\ c_values c' = y :: below /\ kept fc fc' /\ Forall2 kept rest rest') ->
  ExprRuns s e y s'.
Proof.
  intros OP FM H r c f rest pre post MA EC EP.
  destruct (OP r c f rest pre post MA EC EP) as (r3 & c0 & fc & rest2 & S1 & MV & K & P & EV & G & D & EF & M & B).
  assert (NS : cur_ns c0 = f_ns fc) by (unfold cur_ns; rewrite EF; reflexivity). rewrite NS in G.
  rewrite <- (match_ns _ _ _ _ M) in FM.
  destruct (enter_frame s2 sc _ r3 c0 fc rest2 G D EF M FM) as [A FR].
  destruct (H _ _ fc rest2 (c_values c0) A FR B) as (r4 & c4 & fc4 & rest4 & S4 & M4 & EV4 & K4 & KR4).
  exists r4, c4, fc4, rest4. split; [eapply steps_trans; eassumption|]. split; [exact M4|]. split; [rewrite EV4, EV; reflexivity|].
  split; [eapply moved_trans; [exact MV|apply kept_moved; exact K4]|].
  split; [rewrite (kept_pos _ _ K4); exact P|eapply kept_all_trans; eassumption].
Qed.

(* a plain scope (call, then, else, the right side of a lazy operator, try without a throw): the block ends or is left by exitWith *)
Lemma opens_scope_ends s e s2 vars code er out s3 :
  Opens s e s2 (fun ns => mk_frame ns code None er (mvars vars)) -> ScopeEnds (enter s2 vars) RNil code out s3 ->
  ExprRuns s e (cv (val_of out)) (pop_scope s3).
Proof.
  intros OP SE. apply (opens_runs s e s2 _ (mk_scope (cur_ns_of s2) vars) _ _ OP (frame_match_plain _ _ _ _ _)).
  intros r c fc rest below A FR B. exact (SE r c _ fc rest below [] A FR eq_refl eq_refl eq_refl B).
Qed.
(* ... or by breakOut to the name it was given itself *)
Lemma opens_own_break s e s2 vars b t v s3 :
  Opens s e s2 (fun ns => mk_frame ns (compile_block b) None None (mvars vars)) ->
  BreakRuns (enter s2 vars) RNil (compile_block b) t v s3 -> t <> "" -> top_name s3 = t ->
  ExprRuns s e (cv v) (pop_scope s3).
Proof.
  intros OP BR NT TN. apply (opens_runs s e s2 _ (mk_scope (cur_ns_of s2) vars) _ _ OP (frame_match_plain _ _ _ _ _)).
  intros r c fc rest below A FR B.
  destruct (own_break _ _ _ t v s3 r c _ fc rest below BR NT TN A FR eq_refl eq_refl B) as (r' & c' & fc' & rest' & S' & _ & H).
  exists r', c', fc', rest'. split; [exact S'|exact H].
Qed.
(* ... or by a throw / by breakOut that goes on through its scope *)
Lemma opens_leaves s e s2 vars b ab s3 :
  Opens s e s2 (fun ns => mk_frame ns (compile_block b) None None (mvars vars)) -> ScopeLeaves s2 vars b ab s3 -> ExprLeaves s e ab s3.
Proof.
  intros OP SL r c f restf pre post MA EC EP.
  destruct (OP r c f restf pre post MA EC EP) as (r3 & c0 & fc & rest2 & S1 & MV & K & P & EV & G & D & EF & M & B).
  apply (leaves0_back ab s3 r r3 f fc restf rest2 [] (c_values c) S1 MV K (pend_ok_nil ab)). cbn [app]. rewrite <- EV.
  exact (SL r3 c0 fc rest2 G D EF M B).
Qed.

(* an expression standing as a statement that is left by a throw / by breakOut: the block is *)
Lemma compile_block_expr e rest : compile_block (SExpr e :: rest) = compile_expr e ++ compile_block_from false rest.
Proof. reflexivity. Qed.
Lemma stmt_throws s e x s' reg rest0 : ExprLeaves s e (AThrow x) s' -> ThrowRuns s reg (compile_block (SExpr e :: rest0)) x s'.
Proof.
  intros HL r c f restf below pre inner ft rest h jn below_t A FR EC EP CH HF HErr EB UJ LBT.
  exact (expr_leaves_atm _ _ _ _ HL reg r c f restf below pre (compile_block_from false rest0) A FR EC EP inner ft rest h jn below_t CH HF HErr EB UJ LBT).
Qed.
Lemma stmt_breaks s e t v s' reg rest0 : ExprLeaves s e (ABreak t v) s' -> BreakRuns s reg (compile_block (SExpr e :: rest0)) t v s'.
Proof.
  intros HL r c f restf below pre k top fn fc rest jn below_n A FR EC EP FN CH LT HB HC EB LBN.
  exact (expr_leaves_atm _ _ _ _ HL reg r c f restf below pre (compile_block_from false rest0) A FR EC EP k top fn fc rest jn below_n FN CH LT HB HC EB LBN).
Qed.

(* ---------------------------------------------------------------- the operators that open a plain scope *)
Lemma this_match s r c f rest : c_frames c = f :: rest -> Match s r (f :: rest) ->
  match get_variable c "_this" with Some t => t | None => VNil end = cv (this_of s).
Proof.
  intros EF [F _]. unfold get_variable. rewrite EF, (lookup_match (lower "_this") eq_refl _ _ F). unfold this_of.
  change (lower "_this") with "_this". destruct (lookup_scopes "_this" (st_scopes s)); reflexivity.
Qed.
Lemma call_opens s n a b s1 : lower n = "call" -> (forall k, a <> ENum k) -> ExprRuns s a (cv (RCode b)) s1 ->
  Opens s (EUnary n a) s1 (fun ns => mk_frame ns (compile_block b) None None (mvars [("_this", this_of s1)])).
Proof.
  intros HN NL IHa. apply (unary_opens s n a (cv (RCode b)) s1 _ NL IHa); [discriminate|].
  intros r c f rest EF M. rewrite HN. cbn [cv]. unfold op_unary. cbn [String.eqb Ascii.eqb Bool.eqb]. rewrite (this_match s1 r c f rest EF M). reflexivity.
Qed.
Lemma call_with_opens s n a x va b s1 s2 : lower n = "call" -> ExprRuns s a (cv va) s1 -> nonnil va -> ExprRuns s1 x (cv (RCode b)) s2 ->
  Opens s (EBinary n a x) s2 (fun ns => mk_frame ns (compile_block b) None None (mvars [("_this", va)])).
Proof.
  intros HN IHa NNa IHx. apply (binary_opens s n a x (cv va) (cv (RCode b)) s1 s2 _ IHa IHx (nonnil_cv _ NNa)); [discriminate|].
  intros r c f rest _ _. rewrite HN. reflexivity.
Qed.
Lemma then_opens s n a b blk s1 s2 : lower n = "then" -> ExprRuns s a (cv (RIf true)) s1 -> ExprRuns s1 b (cv (RCode blk)) s2 ->
  Opens s (EBinary n a b) s2 (fun ns => mk_frame ns (compile_block blk) None None (mvars [])).
Proof.
  intros HN IHa IHb. apply (binary_opens s n a b (cv (RIf true)) (cv (RCode blk)) s1 s2 _ IHa IHb); [discriminate|discriminate|].
  intros r c f rest _ _. rewrite HN. reflexivity.
Qed.
Lemma then_else_opens s n a b (cnd:bool) x y s1 s2 : lower n = "then" -> ExprRuns s a (cv (RIf cnd)) s1 ->
  ExprRuns s1 b (cv (RArr [RCode x; RCode y])) s2 ->
  Opens s (EBinary n a b) s2 (fun ns => mk_frame ns (compile_block (if cnd then x else y)) None None (mvars [])).
Proof.
  intros HN IHa IHb. apply (binary_opens s n a b (cv (RIf cnd)) (cv (RArr [RCode x; RCode y])) s1 s2 _ IHa IHb); [discriminate|discriminate|].
  intros r c f rest _ _. rewrite HN. destruct cnd; reflexivity.
Qed.
Lemma try_opens s n a b body h s1 s2 : lower n = "catch" -> ExprRuns s a (cv (RTry body)) s1 -> ExprRuns s1 b (cv (RCode h)) s2 ->
  Opens s (EBinary n a b) s2 (fun ns => mk_frame ns (compile_block body) None (Some (ECatch (compile_block h))) (mvars [])).
Proof.
  intros HN IHa IHb. apply (binary_opens s n a b (cv (RTry body)) (cv (RCode h)) s1 s2 _ IHa IHb); [discriminate|discriminate|].
  intros r c f rest _ _. rewrite HN. reflexivity.
Qed.
Lemma lazy_vm m sk code r c : lazy_skip m = Some sk ->
  op_binary m (VBool (negb sk)) (VCode code) r c = Ok (r, push_frame c (mk_frame (cur_ns c) code None None []), VNil) /\
  op_binary m (VBool sk) (VCode code) r c = Ok (r, c, VBool sk).
Proof.
  unfold lazy_skip. intros H.
  destruct (String.eqb m "&&") eqn:E1; [apply String.eqb_eq in E1; subst m; inversion H; subst; split; reflexivity|].
  destruct (String.eqb m "and") eqn:E2; [apply String.eqb_eq in E2; subst m; inversion H; subst; split; reflexivity|].
  destruct (String.eqb m "||") eqn:E3; [apply String.eqb_eq in E3; subst m; inversion H; subst; split; reflexivity|].
  destruct (String.eqb m "or") eqn:E4; [apply String.eqb_eq in E4; subst m; inversion H; subst; split; reflexivity|].
  discriminate H.
Qed.

(* ---------------------------------------------------------------- the operators that open a loop frame *)
(* the loop leaves in some round - by a throw, by breakOut to a scope outside - : the expression that is the loop leaves *)
Lemma opens_loop_leaves s e s2 mkf sc a' s3 :
  Opens s e s2 mkf -> frame_match sc (mkf (cur_ns_of s2)) -> (forall ns, f_err (mkf ns) = None) ->
  (forall r c fc frest below, AtM (push_scope s2 sc) RNil r c (set_base (mkf (f_ns fc)) (length below)) (fc :: frest) below ->
     Fresh c below -> f_base fc <= length below -> LeavesL a' s3 r (set_base (mkf (f_ns fc)) (length below)) (fc :: frest) below) ->
  ExprLeaves s e a' s3.
Proof.
  intros OP FM NE HL r c f restf pre post MA EC EP.
  destruct (OP r c f restf pre post MA EC EP) as (r3 & c0 & fc & rest2 & S1 & MV & K & P & EV & G & D & EF & M & B).
  assert (NS : cur_ns c0 = f_ns fc) by (unfold cur_ns; rewrite EF; reflexivity). rewrite NS in G.
  rewrite <- (match_ns _ _ _ _ M) in FM.
  destruct (enter_frame s2 sc _ r3 c0 fc rest2 G D EF M FM) as [A FR]. rewrite EV in A, FR, B.
  apply (leaves0_of_loop a' s3 r r3 f fc restf rest2 (set_base (mkf (f_ns fc)) (length (c_values c))) (c_values c) [] S1 MV K (NE _) eq_refl (Forall_nil _)).
  exact (HL _ _ fc rest2 (c_values c) A FR B).
Qed.

Lemma iter_ca_opens s n a x body x0 arr k s1 s2 : kname k = lower n -> kca k = true ->
  ExprRuns s a (cv (RCode body)) s1 -> ExprRuns s1 x (cv (RArr (x0 :: arr))) s2 ->
  Opens s (EBinary n a x) s2 (fun ns => kframe k ns body (x0 :: arr) x0).
Proof.
  intros HN HK IHa IHx. apply (binary_opens s n a x (cv (RCode body)) (cv (RArr (x0 :: arr))) s1 s2 _ IHa IHx); [discriminate|discriminate|].
  intros r c f rest _ _. rewrite <- HN. destruct k; try discriminate HK; reflexivity.
Qed.
Lemma iter_ac_opens s n a x body x0 arr k s1 s2 : kname k = lower n -> kca k = false ->
  ExprRuns s a (cv (RArr (x0 :: arr))) s1 -> ExprRuns s1 x (cv (RCode body)) s2 ->
  Opens s (EBinary n a x) s2 (fun ns => kframe k ns body (x0 :: arr) x0).
Proof.
  intros HN HK IHa IHx. apply (binary_opens s n a x (cv (RArr (x0 :: arr))) (cv (RCode body)) s1 s2 _ IHa IHx); [discriminate|discriminate|].
  intros r c f rest _ _. rewrite <- HN. destruct k; try discriminate HK; reflexivity.
Qed.
Lemma for_opens s n a b var fr to st body s1 s2 : lower n = "do" ->
  ExprRuns s a (cv (RFor var fr to st)) s1 -> ExprRuns s1 b (cv (RCode body)) s2 -> for_empty fr to st = false ->
  Opens s (EBinary n a b) s2 (fun ns => mk_frame ns (compile_block body) (Some (BFor var to st)) None [(lower var, VNum fr)]).
Proof.
  intros HN IHa IHb HE. apply (binary_opens s n a b (cv (RFor var fr to st)) (cv (RCode body)) s1 s2 _ IHa IHb); [discriminate|discriminate|].
  intros r c f rest _ _. rewrite HN. cbn [cv]. rewrite for_do_vm, HE. reflexivity.
Qed.
Lemma while_opens s n a b cond body s1 s2 : lower n = "do" ->
  ExprRuns s a (cv (RWhile cond)) s1 -> ExprRuns s1 b (cv (RCode body)) s2 -> leaf_first cond ->
  Opens s (EBinary n a b) s2 (fun ns => mk_frame ns (compile_block cond) (Some (BWhile 0 WCond (compile_block cond) (compile_block body))) None []).
Proof.
  intros HN IHa IHb (ic & codec & LCc & _). apply (binary_opens s n a b (cv (RWhile cond)) (cv (RCode body)) s1 s2 _ IHa IHb); [discriminate|discriminate|].
  intros r c f rest _ _. rewrite HN. cbn [cv]. rewrite LCc. apply while_do_vm.
Qed.

Lemma iter_frame_match k ns body all x0 : frame_match (mk_scope ns (kvars k 0 x0)) (kframe k ns body all x0).
Proof. split; [apply kvars0_match|split; [reflexivity|split; reflexivity]]. Qed.
Lemma iter_loop_runs s e s2 k body x0 arr acc s3 : Opens s e s2 (fun ns => kframe k ns body (x0 :: arr) x0) -> leaf_first body ->
  IterRuns k s2 (x0 :: arr) 0 body (kinit k) acc s3 -> ExprRuns s e (cv acc) s3.
Proof.
  intros OP LF IHi. apply (opens_runs s e s2 _ (mk_scope (cur_ns_of s2) (kvars k 0 x0)) _ _ OP (iter_frame_match _ _ _ _ _)).
  intros r c fc rest below A FR B. apply loop_done_post.
  exact (IHi r c _ fc rest below (x0 :: arr) (kbeh0 k (map cv (x0 :: arr))) A FR eq_refl eq_refl eq_refl (kb_init _ _) eq_refl eq_refl LF eq_refl B).
Qed.
Lemma iter_loop_leaves s e s2 k body x0 arr ab s3 : Opens s e s2 (fun ns => kframe k ns body (x0 :: arr) x0) -> leaf_first body ->
  IterLeaves k s2 (x0 :: arr) 0 body (kinit k) ab s3 -> ExprLeaves s e ab s3.
Proof.
  intros OP LF IHi. apply (opens_loop_leaves s e s2 _ (mk_scope (cur_ns_of s2) (kvars k 0 x0)) _ _ OP (iter_frame_match _ _ _ _ _) (fun _ => eq_refl)).
  intros r c fc rest below A FR B.
  exact (IHi r c _ fc rest below (x0 :: arr) (kbeh0 k (map cv (x0 :: arr))) A FR eq_refl eq_refl eq_refl (kb_init _ _) eq_refl eq_refl LF eq_refl B).
Qed.

(* ---------------------------------------------------------------- exitWith with a true condition *)
(* the operator marks the running frame as finished (position behind its end, die flag) and opens the handler's block on top of it; the
   handler's frame completes: the marked frame fd has the handler's value on top of whatever its part of the stack held *)
Lemma exitwith_dead s n l x b s1 s2 out s3 : lower n = "exitwith" ->
  ExprRuns s l (cv (RIf true)) s1 -> ExprRuns s1 x (cv (RCode b)) s2 -> ScopeEnds (enter s2 []) RNil (compile_block b) out s3 ->
  forall r c f rest pre post, Mach s r c f rest -> f_code f = pre ++ compile_expr (EBinary n l x) ++ post -> f_pos f = length pre ->
  exists r4 c4 fd rest4, Steps r r4 /\ Mach (pop_scope s3) r4 c4 fd rest4 /\ c_values c4 = cv (val_of out) :: c_values c /\
    f_pos fd = S (length (f_code fd)) /\ f_die fd = true /\ f_base fd = f_base f /\ Forall2 kept rest rest4.
Proof.
  intros HN IHl IHx SE r c f rest pre post MA EC EP.
  destruct (binary_operands s n l x _ _ s1 s2 r c f rest pre post IHl IHx MA EC EP)
    as (r2 & c2 & f2 & rest2 & S2 & MV & KK & (G2 & EF2 & MM2 & _ & D2) & EV2 & N2 & _ & B2).
  set (c0 := set_values (set_frames c2 (set_pos f2 (S (f_pos f2)) :: rest2)) (c_values c)).
  set (fdie := set_die (set_pos (set_pos f2 (S (f_pos f2))) (S (length (f_code f2)))) true).
  set (cD := upd_top c0 (fun f => set_die (set_pos f (S (length (f_code f)))) true)).
  set (newf := mk_frame (f_ns f2) (compile_block b) None None (mvars [])).
  destruct (binary_step r2 c2 f2 rest2 (lower n) (cv (RIf true)) (cv (RCode b)) (c_values c) r2 (push_frame cD newf) VNil G2 EF2 N2 EV2 B2) as [S3 G3];
    [discriminate|discriminate|rewrite lower_idem, HN; reflexivity|exact (good_running _ _ G2)|apply ctl_same_refl|].
  destruct (enter_frame s2 (mk_scope (cur_ns_of s2) []) newf _ cD fdie rest2 G3 (eq_trans (quirks_upd_cur _ _) D2) eq_refl) as [A3 FR3].
  { apply match_upd, (match_top_same _ _ f2); [exact MM2|reflexivity|reflexivity|reflexivity|reflexivity]. }
  { rewrite <- (match_ns _ _ _ _ MM2). apply frame_match_plain. }
  destruct (SE _ _ _ fdie rest2 (c_values c) [] A3 FR3 eq_refl eq_refl eq_refl B2) as (r4 & c4 & fd4 & rest4 & S4 & M4 & EV4 & K4 & KR4).
  exists r4, c4, fd4, rest4. split; [eapply steps_trans; [exact S2|eapply steps_trans; eassumption]|]. split; [exact M4|]. split; [exact EV4|].
  split; [rewrite (kept_pos _ _ K4), (kept_code _ _ K4); reflexivity|]. split; [rewrite (kept_die _ _ K4); reflexivity|].
  split; [rewrite (kept_base _ _ K4); exact (moved_base _ _ MV)|eapply kept_all_trans; eassumption].
Qed.
(* ... and completes in its turn with that value, whatever waits (pend) in its part of the stack *)
Lemma exitwith_exits s n l x b s1 s2 out s3 : lower n = "exitwith" ->
  ExprRuns s l (cv (RIf true)) s1 -> ExprRuns s1 x (cv (RCode b)) s2 -> ScopeEnds (enter s2 []) RNil (compile_block b) out s3 ->
  ExprExits s (EBinary n l x) (val_of out) (pop_scope s3).
Proof.
  intros HN IHl IHx SE r c f fc rest pre post pend below MA EC EP EV LB HBf.
  destruct (exitwith_dead s n l x b s1 s2 out s3 HN IHl IHx SE r c f (fc :: rest) pre post MA EC EP)
    as (r4 & c4 & fd & rest4 & S4 & M4 & EV4 & P4 & D4 & B4 & KR4).
  inversion KR4 as [|fb fc4 rb rest4' Kc Kd Ec Ed]; subst. pose proof M4 as (G4 & EF4 & _ & _ & Q4).
  destruct (complete_dead r4 c4 fd fc4 rest4' (cv (val_of out) :: pend) below G4 Q4 EF4 P4 D4) as [S5 G5];
    [rewrite EV4, EV; reflexivity|rewrite B4; exact LB|].
  eexists _, _, fc4, rest4'. split; [eapply steps_trans; eassumption|].
  split; [apply (frame_popped _ _ _ _ _ _ _ M4); [cbn; rewrite (kept_base _ _ Kc); lia|exact G5]|]. split; [reflexivity|]. split; assumption.
Qed.
(* an expression standing as a statement that is left by exitWith: the scope ends *)
Lemma stmt_exits s e v s1 reg rest0 : ExprExits s e v s1 -> BodyEnds s reg (compile_block (SExpr e :: rest0)) (BExit v) s1.
Proof.
  intros HX r c f fc rest below pre (MA & LB & top & EV & RR) FR EC EP HBf.
  exact (HX r c f fc rest pre (compile_block_from false rest0) top below MA EC EP EV LB HBf).
Qed.

(* ---------------------------------------------------------------- switch v do {..}: the chosen block *)
Lemma switch_over r c f rest0 top below : c_values c = top ++ below -> loop_over r c f rest0 (BSwitch true) top below.
Proof. intros EV. exists (BSwitch true). cbn [enact]. rewrite <- (set_values_same c _ _ EV). reflexivity. Qed.

(* whatever the chosen block does in the switch frame, if it ends with that frame gone and a value on what lay below it, that is the value
   of the switch *)
Lemma switch_block_runs s n a b v body s1 s2 sw t ts y s' :
  lower n = "do" -> ExprRuns s a (cv (RSwitch v)) s1 -> ExprRuns s1 b (cv (RCode body)) s2 ->
  zswitch (enter s2 []) body (sw_start v) sw -> sw_target sw = Some (t :: ts) -> leaf_first (t :: ts) ->
  (forall r c f fc rest below, AtM (enter s2 []) RNil r c f (fc :: rest) below -> Fresh c below -> f_code f = compile_block (t :: ts) ->
     f_pos f = 0 -> f_exit f = Some (BSwitch true) -> f_die f = false -> f_base fc <= length below -> LoopDone s' y r fc rest below) ->
  ExprRuns s (EBinary n a b) (cv y) s'.
Proof.
  intros HN IHa IHb HW HT LF H r c f rest pre post MA EC EP.
  rewrite compile_binary in *. rewrite !app_length. cbn [length]. rewrite <- !app_assoc in EC.
  destruct (switch_to_block s n a b v body s1 s2 sw t ts r c f rest pre post HN IHa IHb HW HT LF MA EC EP)
    as (rV & cV & fV & fcur & rest2 & HS & AV & FRV & ECV & EPV & EXV & EDV & EEV & MVc & PC & KR & BC).
  destruct (H rV cV fV fcur rest2 (c_values c) AV FRV ECV EPV EXV EDV BC) as (r5 & c5 & fc5 & rest5 & S5 & N5 & M5 & EV5 & K5 & KR5).
  exists r5, c5, fc5, rest5. split; [apply HS; assumption|]. split; [exact M5|]. split; [exact EV5|].
  split; [eapply moved_trans; [exact MVc|apply kept_moved; exact K5]|].
  split; [rewrite (kept_pos _ _ K5), PC; reflexivity|eapply kept_all_trans; eassumption].
Qed.

(* ---------------------------------------------------------------- try {.. throw ..} catch {..}: where the handler starts *)
Lemma try_caught s n a b body h s1 s2 x s3 : lower n = "catch" -> ExprRuns s a (cv (RTry body)) s1 -> ExprRuns s1 b (cv (RCode h)) s2 ->
  ThrowRuns (enter s2 []) RNil (compile_block body) x s3 ->
  forall r c f rest pre post, Mach s r c f rest -> f_code f = pre ++ compile_expr (EBinary n a b) ++ post -> f_pos f = length pre ->
  exists r4 c4 hf fc4 rest4, Steps r r4 /\ moved f fc4 /\ Forall2 kept rest rest4 /\
    f_pos fc4 = f_pos f + length (compile_expr (EBinary n a b)) /\ f_base fc4 <= length (c_values c) /\
    AtM (set_top_vars s3 [("_exception", x)]) RNil r4 c4 hf (fc4 :: rest4) (c_values c) /\ Fresh c4 (c_values c) /\
    f_code hf = compile_block h /\ f_pos hf = 0 /\ f_exit hf = None /\ f_err hf = None.
Proof.
  intros HN IHa IHb TR r c f rest pre post MA EC EP.
  destruct (try_opens s n a b body h s1 s2 HN IHa IHb r c f rest pre post MA EC EP) as (r3 & c0 & fc & rest2 & S3 & MV & K & P & EV & G & D & EF & M & B).
  destruct (throw_in_try s2 body x s3 r3 c0 fc rest2 (compile_block h) TR G D EF M) as (r4 & c4 & rest4 & ft0 & S4 & K4 & MT & CA).
  inversion K4 as [|fa fc4 ra rest4' Ka Kb Ea Eb]; subst.
  destruct (caught_at _ _ _ _ _ _ CA (eq_sym (moved_base _ _ MT))) as [A5 FR5]. rewrite EV in A5, FR5, B.
  exists r4, c4, (handler_frame ft0 (compile_block h) (cv x)), fc4, rest4'.
  split; [eapply steps_trans; eassumption|]. split; [eapply moved_trans; [exact MV|apply kept_moved; exact Ka]|].
  split; [eapply kept_all_trans; eassumption|]. split; [rewrite (kept_pos _ _ Ka); exact P|]. split; [rewrite (kept_base _ _ Ka); exact B|].
  split; [exact A5|]. split; [exact FR5|]. split; [reflexivity|]. split; [reflexivity|]. split; [exact (moved_exit _ _ MT)|reflexivity].
Qed.

(* ---------------------------------------------------------------- throw and breakOut themselves *)
(* the throw instruction has been executed on the operands' values: the handler's frame has taken over *)
Lemma thrown s1 i ws k r c f restf r1 c1 f1 rest1 x top below :
  Operands s1 i ws k r c f restf r1 c1 f1 rest1 -> c_values c = top ++ below -> length below = f_base f ->
  (forall inner1 ft1 rest1' h, f1 :: rest1 = inner1 ++ ft1 :: rest1' -> Forall (fun m => f_err m = None) inner1 -> f_err ft1 = Some (ECatch h) ->
     let c' := push_value (set_values (set_frames c1 (handler_frame ft1 h (cv x) :: rest1'))
                                      (skipn (length (c_values c) - f_base f1) (c_values c))) VNil in
     Steps r1 (upd_cur r1 c') /\ Good (upd_cur r1 c') c') ->
  Leaves0 (AThrow x) s1 r f restf below.
Proof.
  intros (S1 & MV1 & K1 & (_ & _ & MM1 & _ & D1) & _) EV LB RUN. cbn [Leaves0]. intros inner ft rest h jn below_t CH HF HErr EB UJ LBT.
  destruct (chain_kept f restf inner ft rest f1 rest1 h (cv x) CH HF HErr MV1 K1) as (inner1 & ft1 & rest1' & CH1 & HF1 & HE1 & HH1 & LEN1 & KR1 & FB1).
  destruct (RUN inner1 ft1 rest1' h CH1 HF1 HE1) as [S2 G2].
  eexists _, _, rest1', ft1. split; [eapply steps_trans; [exact S1|exact S2]|]. split; [exact KR1|]. split; [exact HH1|].
  split; [exact G2|]. split; [rewrite quirks_upd_cur; exact D1|]. split; [reflexivity|]. split.
  - apply match_upd. rewrite <- LEN1. apply match_after_throw. rewrite <- CH1. exact MM1.
  - exists jn. split; [|exact UJ]. cbn [push_value set_values set_frames c_values].
    rewrite (moved_base _ _ MV1), <- LB, EV, app_length. replace (length top + length below - length below) with (length top) by lia.
    rewrite skipn_app, skipn_all, Nat.sub_diag. cbn [skipn app]. rewrite EB. reflexivity.
Qed.
(* breakOut has been executed: the named frame and those above it are gone, the value stands on what lay below the named frame's base *)
Lemma broken_out s1 i ws k r c f restf r1 c1 f1 rest1 t v topv below :
  Operands s1 i ws k r c f restf r1 c1 f1 rest1 -> c_values c = topv ++ below ->
  (forall top1 fn1 more, f1 :: rest1 = top1 ++ fn1 :: more -> Forall (fun m => f_scope m <> t) top1 -> f_scope fn1 = t ->
     Forall (fun m => f_base fn1 <= f_base m) top1 -> f_base fn1 <= length (c_values c) ->
     let c' := push_value (set_values (set_frames c1 more) (skipn (length (c_values c) - f_base fn1) (c_values c))) (cv v) in
     Steps r1 (upd_cur r1 c') /\ Good (upd_cur r1 c') c') ->
  Leaves0 (ABreak t v) s1 r f restf below.
Proof.
  intros (S1 & MV1 & K1 & (_ & _ & MM1 & _ & D1) & _) EV RUN. cbn [Leaves0]. intros k0 top fn fc rest jn below_n FN CH LT HB HC EB LBN.
  destruct (chain_kept_b f restf top fn fc rest f1 rest1 CH MV1 K1 HB) as (top1 & fn1 & fc1 & rest1' & CH1 & LT1 & HB1 & FB1 & KC1 & KR1).
  destruct (find_name_frames t (st_scopes s1) (f1 :: rest1) 0 top1 fn1 (fc1 :: rest1') (proj1 MM1)) as [HS1 HE1]; [cbn; rewrite LT1, LT; exact FN|exact CH1|].
  assert (LV : f_base fn1 <= length (c_values c)) by (rewrite FB1, <- LBN, EV, EB, !app_length; lia).
  destruct (RUN top1 fn1 (fc1 :: rest1') CH1 HS1 HE1 HB1 LV) as [S2 G2].
  match type of G2 with Good _ ?x => set (cX := x) in * end.
  assert (VB : skipn (length (c_values c) - f_base fn1) (c_values c) = below_n).
  { rewrite FB1, <- LBN, EV, EB, !app_length. replace (length topv + (length jn + length below_n) - length below_n) with (length (topv ++ jn)) by (rewrite app_length; lia).
    rewrite app_assoc, skipn_app, skipn_all, Nat.sub_diag. reflexivity. }
  exists (upd_cur r1 cX), cX, fc1, rest1'. split; [eapply steps_trans; [exact S1|exact S2]|].
  split; [|split; [unfold cX; cbn [push_value set_values set_frames c_values]; rewrite VB; reflexivity|split; [exact KC1|exact KR1]]].
  split; [exact G2|]. split; [reflexivity|]. split; [|split; [|rewrite quirks_upd_cur; exact D1]].
  - apply match_upd. rewrite <- LT, <- LT1. apply (match_after_break s1 r1 top1 fn1 (fc1 :: rest1')). rewrite <- CH1. exact MM1.
  - unfold cX. cbn [push_value set_values set_frames c_values length]. rewrite VB, (kept_base _ _ KC1), LBN. lia.
Qed.

(* ---------------------------------------------------------------- a statement, then the rest of the block *)
(* the statement has run and the separator has emptied the region: the frame stands at the next statement *)
Lemma stmt_step s reg st reg1 s1 tail r c f restf below pre :
  BlockRuns s reg (compile_stmt st) reg1 s1 -> AtM s reg r c f restf below -> Fresh c below ->
  f_code f = pre ++ compile_stmt st ++ IEnd :: tail -> f_pos f = length pre ->
  exists r2 c2 f2 rest2, Steps r r2 /\ moved f f2 /\ Forall2 kept restf rest2 /\ AtM s1 RNone r2 c2 f2 rest2 below /\ Fresh c2 below /\
    f_code f2 = (pre ++ compile_stmt st ++ [IEnd]) ++ tail /\ f_pos f2 = length (pre ++ compile_stmt st ++ [IEnd]).
Proof.
  intros IHs A FR EC EP.
  destruct (IHs r c f restf below pre _ A FR EC EP) as (r1 & c1 & f1 & rest1 & S1 & A1 & MV1 & P1 & K1).
  assert (EC1 : f_code f1 = (pre ++ compile_stmt st) ++ IEnd :: tail) by (rewrite (moved_code _ _ MV1), EC, <- app_assoc; reflexivity).
  assert (EP1 : f_pos f1 = length (pre ++ compile_stmt st)) by (rewrite app_length, P1, EP; reflexivity).
  destruct (end_run s1 reg1 r1 c1 f1 rest1 below _ _ A1 EC1 EP1) as (r2 & c2 & S2 & A2 & FR2).
  exists r2, c2, (set_pos f1 (S (f_pos f1))), rest1. split; [eapply steps_trans; eassumption|].
  split; [eapply moved_trans; [exact MV1|apply moved_set_pos]|]. split; [exact K1|]. split; [exact A2|]. split; [exact FR2|].
  split; [cbn [set_pos f_code]; rewrite EC1, <- !app_assoc; reflexivity|cbn [set_pos f_pos]; rewrite EP1, !app_length; cbn; lia].
Qed.

Theorem vm_runs_z :
  (forall s e v s', zev s e v s' -> forall r c f rest pre post, Mach s r c f rest ->
      f_code f = pre ++ compile_expr e ++ post -> f_pos f = length pre -> Post s' (cv v) (length (compile_expr e)) r c f rest) /\
  (forall s l vs s', zevs s l vs s' -> forall r c f rest pre post, Mach s r c f rest ->
      f_code f = pre ++ flat_map compile_expr l ++ post -> f_pos f = length pre ->
      (exists r' c' f' rest', Steps r r' /\ Mach s' r' c' f' rest' /\ c_values c' = rev (map cv vs) ++ c_values c /\
         moved f f' /\ f_pos f' = f_pos f + length (flat_map compile_expr l) /\ Forall2 kept rest rest') /\ length l = length vs) /\
  (forall s reg st reg1 s1, zstmt s reg st reg1 s1 -> BlockRuns s reg (compile_stmt st) reg1 s1) /\
  (forall s reg b out s', zblock s reg b out s' -> BodyEnds s reg (compile_block b) out s') /\
  (forall k s arr i body acc acc' s', ziter k s arr i body acc acc' s' -> IterRuns k s arr i body acc acc' s') /\
  (forall var to st s x first body acc s', zfor var to st s x first body acc s' -> ForRuns var to st s x first body acc s') /\
  (forall cond body s first v s', zwhile cond body s first v s' -> WhileRuns cond body s first v s') /\
  (forall s reg b x s', zthrow s reg b x s' -> ThrowRuns s reg (compile_block b) x s') /\
  (forall s reg b t v s', zbreak s reg b t v s' -> BreakRuns s reg (compile_block b) t v s') /\
  (forall s e a s', zloopleave s e a s' -> ExprLeaves s e a s') /\
  (forall k s arr i body acc a s', zileave k s arr i body acc a s' -> IterLeaves k s arr i body acc a s') /\
  (forall var to st s x first body a s', zfleave var to st s x first body a s' -> ForLeaves var to st s x first body a s') /\
  (forall cond body s first a s', zwleave cond body s first a s' -> WhileLeaves cond body s first a s') /\
  (forall s vars b a s', zscopeleave s vars b a s' -> ScopeLeaves s vars b a s') /\
  (forall s l a s', zelemsleave s l a s' -> ElemsLeaves s l a s') /\
  (forall s e v s', zexexit s e v s' -> ExprExits s e v s') /\
  (forall s l v s', zelemsexit s l v s' -> ElemsExit s l v s').
Proof.
  apply z_ind.
  - (* pure *) intros s e v HE. exact (pure_runs s e v HE).
  - (* local variable *) intros s n v IL HH HL NN r c f rest pre post MA EC EP. cbn [compile_expr app length] in *.
    eapply push_post; eauto. intros c1 F1. cbn [exec_instr]. rewrite IL. unfold get_variable. rewrite F1.
    rewrite lookup_frames_set_pos. destruct MA as (_ & _ & [F _] & _). rewrite (lookup_match _ HH _ _ F). unfold loc_of in HL. rewrite HL. reflexivity.
  - (* global variable *) intros s n v IL HL NN r c f rest pre post MA EC EP. cbn [compile_expr app length] in *.
    eapply push_post; eauto. intros c1 F1. cbn [exec_instr]. rewrite IL, F1. unfold ns_get. cbn [f_ns set_pos].
    destruct MA as (_ & _ & MM & _). destruct (env_ok_of s r f rest MM) as [_ EG]. rewrite (EG _ _ HL). reflexivity.
  - (* code *) intros s b r c f rest pre post MA EC EP. rewrite compile_code in *. cbn [app length] in *.
    eapply push_post; eauto; intros c1 F1; reflexivity.
  - (* array *) intros s l vs s' HL IH r c f rest pre post MA EC EP.
    rewrite compile_array in *. rewrite app_length. cbn [length]. rewrite <- app_assoc in EC.
    destruct (IH r c f rest pre ([IMakeArray (length l)] ++ post) MA EC EP) as [(r1 & c1 & f1 & rest1 & S1 & M1 & EV1 & MV1 & P1 & K1) LEN].
    destruct (after_operands_code f f1 pre _ _ MV1 EC EP P1) as [EC1 EP1].
    destruct M1 as (G1 & EF1 & MM1 & B1 & D1). destruct MA as (_ & _ & _ & B & _).
    assert (N : nth_error (f_code f1) (f_pos f1) = Some (IMakeArray (length l))) by (rewrite EC1, EP1; apply nth_error_mid).
    set (c2 := set_values (set_frames c1 (set_pos f1 (S (f_pos f1)) :: rest1)) (cv (RArr vs) :: c_values c)).
    destruct (run_one r1 c1 f1 rest1 (IMakeArray (length l)) c2 G1 EF1 N) as [S2 G2].
    + cbn [exec_instr]. rewrite LEN, <- (map_length cv vs), <- (rev_length (map cv vs)).
      match goal with |- context [pop_args _ ?x []] =>
        replace x with (set_values (set_frames c1 (set_pos f1 (S (f_pos f1)) :: rest1)) (rev (map cv vs) ++ c_values c))
          by (destruct c1; cbn in *; rewrite EV1; reflexivity) end.
      erewrite pop_args_stack; [|reflexivity|cbn; rewrite (moved_base _ _ MV1); exact B]. rewrite rev_involutive, app_nil_r. reflexivity.
    + exact (good_running _ _ G1).
    + eexists _, _, _, rest1. split; [eapply steps_trans; [exact S1|exact S2]|]. split.
      * split; [exact G2|]. split; [reflexivity|]. split; [apply match_upd, match_set_pos; exact MM1|].
        split; [cbn; rewrite (moved_base _ _ MV1); lia|rewrite quirks_upd_cur; exact D1].
      * split; [reflexivity|]. split; [eapply moved_trans; [exact MV1|apply moved_set_pos]|]. split; [cbn; rewrite P1; lia|exact K1].
  - (* pure unary on any operand *) intros s n a va v s1 NL HA IHa HU.
    apply (unary_value s n a (cv va) s1 (cv v) NL IHa (nonnil_cv _ (pure_unary_arg _ _ _ HU))).
    intros r c f rest _ _. exact (proj1 (pure_unary_vm (lower n) va v r c HU)).
  - (* pure binary on any operands *) intros s n a b va vb v s1 s2 HA IHa HB IHb HBin. destruct (pure_binary_args _ _ _ _ HBin) as [NA NB].
    apply (binary_value s n a b (cv va) (cv vb) s1 s2 (cv v) IHa IHb (nonnil_cv _ NA) (nonnil_cv _ NB)).
    intros r c f rest _ _. exact (proj1 (pure_binary_vm (lower n) va vb v r c HBin)).
  - (* call {..} *) intros s n a b s1 out s2 HN NL HA IHa HB IHb.
    exact (opens_scope_ends s _ s1 _ _ None out s2 (call_opens s n a b s1 HN NL IHa) (scope_ends_of_body _ _ _ _ _ IHb)).
  - (* x call {..} *) intros s n a x va b s1 s2 out s3 HN HA IHa NNa HX IHx HB IHb.
    exact (opens_scope_ends s _ s2 _ _ None out s3 (call_with_opens s n a x va b s1 s2 HN IHa NNa IHx) (scope_ends_of_body _ _ _ _ _ IHb)).
  - (* if c *) intros s n a cnd s1 HN NL HA IHa. apply (unary_value s n a (cv (RBool cnd)) s1 (cv (RIf cnd)) NL IHa); [discriminate|].
    intros r c f rest _ _. rewrite HN. reflexivity.
  - (* {..} else {..} *) intros s n a b x y s1 s2 HN HA IHa HB IHb.
    apply (binary_value s n a b (cv (RCode x)) (cv (RCode y)) s1 s2 (cv (RArr [RCode x; RCode y])) IHa IHb); [discriminate|discriminate|].
    intros r c f rest _ _. rewrite HN. reflexivity.
  - (* if false then {..} *) intros s n a b x s1 s2 HN HA IHa HB IHb.
    apply (binary_value s n a b (cv (RIf false)) (cv (RCode x)) s1 s2 VNil IHa IHb); [discriminate|discriminate|].
    intros r c f rest _ _. rewrite HN. reflexivity.
  - (* if true then {..} *) intros s n a b x s1 s2 out s3 HN HA IHa HB IHb HX IHx.
    exact (opens_scope_ends s _ s2 [] _ None out s3 (then_opens s n a b x s1 s2 HN IHa IHb) (scope_ends_of_body _ _ _ _ _ IHx)).
  - (* if c then {..} else {..} *) intros s n a b cnd x y s1 s2 out s3 HN HA IHa HB IHb HX IHx.
    exact (opens_scope_ends s _ s2 [] _ None out s3 (then_else_opens s n a b cnd x y s1 s2 HN IHa IHb) (scope_ends_of_body _ _ _ _ _ IHx)).
  - (* if false exitWith {..} *) intros s n a b x s1 s2 HN HA IHa HB IHb.
    apply (binary_value s n a b (cv (RIf false)) (cv (RCode x)) s1 s2 VNil IHa IHb); [discriminate|discriminate|].
    intros r c f rest _ _. rewrite HN. reflexivity.
  - (* {..} forEach / count [] *) intros s n a x body k s1 s2 HN HK HA IHa HX IHx.
    apply (binary_value s n a x (cv (RCode body)) (cv (RArr [])) s1 s2 (cv (kinit k)) IHa IHx); [discriminate|discriminate|].
    intros r c f rest _ _. rewrite <- HN. destruct k; try discriminate HK; reflexivity.
  - (* [] apply / select / findIf {..} *) intros s n a x body k s1 s2 HN HK HA IHa HX IHx.
    apply (binary_value s n a x (cv (RArr [])) (cv (RCode body)) s1 s2 (cv (kinit k)) IHa IHx); [discriminate|discriminate|].
    intros r c f rest _ _. rewrite <- HN. destruct k; try discriminate HK; reflexivity.
  - (* {..} forEach / count [x0, ..] *) intros s n a x body x0 arr k s1 s2 acc s3 HN HK LF HA IHa HX IHx HI IHi.
    exact (iter_loop_runs s _ s2 k body x0 arr acc s3 (iter_ca_opens s n a x body x0 arr k s1 s2 HN HK IHa IHx) LF IHi).
  - (* [x0, ..] apply / select / findIf {..} *) intros s n a x body x0 arr k s1 s2 acc s3 HN HK LF HA IHa HX IHx HI IHi.
    exact (iter_loop_runs s _ s2 k body x0 arr acc s3 (iter_ac_opens s n a x body x0 arr k s1 s2 HN HK IHa IHx) LF IHi).
  - (* lazy operator, right side not needed *) intros s n a b x sk s1 s2 HN HA IHa HB IHb.
    apply (binary_value s n a b (cv (RBool sk)) (cv (RCode x)) s1 s2 (cv (RBool sk)) IHa IHb); [discriminate|discriminate|].
    intros r c f rest _ _. exact (proj2 (lazy_vm _ sk _ r c HN)).
  - (* lazy operator, right side evaluated *) intros s n a b x sk s1 s2 out s3 HN HA IHa HB IHb HX IHx.
    apply (opens_scope_ends s _ s2 [] (compile_block x) None out s3); [|exact (scope_ends_of_body _ _ _ _ _ IHx)].
    apply (binary_opens s n a b (cv (RBool (negb sk))) (cv (RCode x)) s1 s2 _ IHa IHb); [discriminate|discriminate|].
    intros r c f rest _ _. exact (proj1 (lazy_vm _ sk _ r c HN)).
  - (* for "_i" *) intros s n a var s1 HN NL HA IHa. apply (unary_value s n a (cv (RStr var)) s1 (cv (RFor var 0 0 1)) NL IHa); [discriminate|].
    intros r c f rest _ _. rewrite HN. reflexivity.
  - (* from / to / step *) intros s n a b var fr to st x fr' to' st' s1 s2 HN HA IHa HB IHb.
    apply (binary_value s n a b (cv (RFor var fr to st)) (cv (RNum x)) s1 s2 (cv (RFor var fr' to' st')) IHa IHb); [discriminate|discriminate|].
    intros r c f rest _ _. apply for_set_vm. exact HN.
  - (* for .. do {..} over an empty range *) intros s n a b var fr to st body s1 s2 HN HA IHa HB IHb HE.
    apply (binary_value s n a b (cv (RFor var fr to st)) (cv (RCode body)) s1 s2 VNil IHa IHb); [discriminate|discriminate|].
    intros r c f rest _ _. rewrite HN. cbn [cv]. rewrite for_do_vm, HE. reflexivity.
  - (* for .. do {..} *) intros s n a b var fr to st body s1 s2 acc s3 HN HA IHa HB IHb HE LF HI IHi.
    apply (opens_runs s _ s2 _ (mk_scope (cur_ns_of s2) [(lower var, RNum fr)]) _ _ (for_opens s n a b var fr to st body s1 s2 HN IHa IHb HE)
             (frame_match_plain _ _ _ _ [(lower var, RNum fr)])).
    intros r c fc rest below A FR B. apply loop_done_post. exact (IHi r c _ fc rest below A FR eq_refl eq_refl eq_refl eq_refl LF eq_refl B).
  - (* while {..} *) intros s n a cond s1 HN NL HA IHa. apply (unary_value s n a (cv (RCode cond)) s1 (cv (RWhile cond)) NL IHa); [discriminate|].
    intros r c f rest _ _. rewrite HN. reflexivity.
  - (* while {..} do {..} *) intros s n a b cond body s1 s2 v s3 HN HA IHa HB IHb LFc LFb HW IHw.
    apply (opens_runs s _ s2 _ (mk_scope (cur_ns_of s2) []) _ _ (while_opens s n a b cond body s1 s2 HN IHa IHb LFc) (frame_match_plain _ _ _ _ [])).
    intros r c fc rest below A FR B. apply loop_done_post. exact (IHw r c _ fc rest below 0 A FR eq_refl eq_refl eq_refl eq_refl LFc LFb eq_refl B).
  - (* diag_log *) intros s n a va t s1 HN NL HA IHa NNa HS.
    apply (unary_effect s n a (cv va) s1 (rmark s1 t) VNil NL IHa (nonnil_cv _ NNa)). intros r c f rest EF M.
    exists (mark (logmsg r d_InfoMessage) t), c, f.
    split; [rewrite HN; unfold op_unary; cbn [String.eqb Ascii.eqb Bool.eqb]; rewrite (show_cv false va t HS); reflexivity|].
    split; [apply ctl_same_mark|]. split; [reflexivity|]. split; [reflexivity|]. split; [exact EF|].
    split; [apply match_mark; exact M|]. split; [apply moved_refl|reflexivity].
  - (* missionNamespace, uiNamespace *) intros s n ns HN r c f rest pre post MA EC EP. cbn [compile_expr app length] in *.
    eapply push_post; eauto. intros c1 F1. cbn [exec_instr]. rewrite lower_idem. unfold ns_nular in HN. unfold op_nular.
    destruct (String.eqb (lower n) "missionnamespace") eqn:E1.
    { apply String.eqb_eq in E1. rewrite E1. inversion HN; subst. reflexivity. }
    destruct (String.eqb (lower n) "uinamespace") eqn:E2; [|discriminate HN].
    apply String.eqb_eq in E2. rewrite E2. inversion HN; subst. reflexivity.
  - (* with ns *) intros s n a ns s1 HN NL HA IHa. apply (unary_value s n a (cv (RNs ns)) s1 (cv (RWith ns)) NL IHa); [discriminate|].
    intros r c f rest _ _. rewrite HN. reflexivity.
  - (* with ns do {..} *) intros s n a b ns body s1 s2 out s3 HN HA IHa HB IHb HX IHx.
    apply (opens_runs s _ s2 (fun _ => mk_frame ns (compile_block body) None None (mvars [])) (mk_scope ns []) _ _); [|apply frame_match_plain|].
    + apply (binary_opens s n a b (cv (RWith ns)) (cv (RCode body)) s1 s2 _ IHa IHb); [discriminate|discriminate|].
      intros r c f rest _ _. rewrite HN. reflexivity.
    + intros r c fc rest below A FR B. exact (scope_ends_of_body _ _ _ _ _ IHx r c _ fc rest below [] A FR eq_refl eq_refl eq_refl B).
  - (* ns getVariable "x", bound *) intros s n a b ns x s1 s2 v HN HA IHa HB IHb HG NV.
    apply (binary_value s n a b (cv (RNs ns)) (cv (RStr x)) s1 s2 (cv v) IHa IHb); [discriminate|discriminate|].
    intros r c f rest _ M. rewrite HN. unfold op_binary. cbn [String.eqb Ascii.eqb Bool.eqb cv]. rewrite (ns_get_match _ _ _ ns x M), HG. reflexivity.
  - (* ns getVariable "x", not bound *) intros s n a b ns x s1 s2 HN HA IHa HB IHb HG.
    apply (binary_value s n a b (cv (RNs ns)) (cv (RStr x)) s1 s2 (cv RNil) IHa IHb); [discriminate|discriminate|].
    intros r c f rest _ M. rewrite HN. unfold op_binary. cbn [String.eqb Ascii.eqb Bool.eqb cv]. rewrite (ns_get_match _ _ _ ns x M), HG. reflexivity.
  - (* ns setVariable ["x", v] *) intros s n a b ns x v s1 s2 HN HA IHa HB IHb.
    apply (binary_effect s n a b (cv (RNs ns)) (cv (RArr [RStr x; v])) s1 s2 (rns_set s2 ns x v) VNil IHa IHb); [discriminate|discriminate|].
    intros r c f rest EF M. exists (ns_set r ns x (cv v)), c, f. split; [rewrite HN; reflexivity|].
    split; [apply ctl_same_ns_set|]. split; [reflexivity|]. split; [reflexivity|]. split; [exact EF|].
    split; [apply match_ns_set; exact M|]. split; [apply moved_refl|reflexivity].
  - (* private "x" *) intros s n a x s1 HN NL HA IHa HH.
    apply (unary_effect s n a (cv (RStr x)) s1 (declare s1 x) VNil NL IHa); [discriminate|]. intros r c f rest EF M.
    destruct (match_declare s1 r c f rest x HH EF M) as (f2 & EF2 & M2 & K2 & EV2 & SU2).
    exists r, (declare_top_var c x), f2. split; [rewrite HN; reflexivity|]. split; [apply ctl_same_refl|]. split; [exact SU2|].
    split; [exact EV2|]. split; [exact EF2|]. split; [exact M2|]. split; [apply kept_moved; exact K2|apply (kept_pos _ _ K2)].
  - (* try {..} *) intros s n a b s1 HN NL HA IHa. apply (unary_value s n a (cv (RCode b)) s1 (cv (RTry b)) NL IHa); [discriminate|].
    intros r c f rest _ _. rewrite HN. reflexivity.
  - (* try {..} catch {..}, no throw *) intros s n a b body h s1 s2 out s3 HN HA IHa HB IHb HX IHx.
    exact (opens_scope_ends s _ s2 [] _ _ out s3 (try_opens s n a b body h s1 s2 HN IHa IHb) (scope_ends_of_body _ _ _ _ _ IHx)).
  - (* try {.. throw ..} catch {..} *) intros s n a b body h s1 s2 x s3 out s4 HN HA IHa HB IHb HX IHx HH IHh r c f rest pre post MA EC EP.
    destruct (try_caught s n a b body h s1 s2 x s3 HN IHa IHb IHx r c f rest pre post MA EC EP)
      as (r4 & c4 & hf & fc4 & rest4 & S4 & MV4 & K4 & P4 & B4 & A5 & FR5 & EC5 & EP5 & EX5 & _).
    exact (post_after _ _ _ r c f rest r4 fc4 rest4 S4 MV4 K4 P4
             (scope_ends_of_body _ _ _ _ _ IHh r4 c4 hf fc4 rest4 (c_values c) [] A5 FR5 EC5 EP5 EX5 B4)).
  - (* scopeName "t" *) intros s n a t s1 sc scs HN NL HA IHa ES EN.
    apply (unary_effect s n a (cv (RStr t)) s1 _ VNil NL IHa); [discriminate|]. intros r c f rest EF M.
    destruct (match_name s1 r c f rest t sc scs EF M ES EN) as [FS M2].
    exists r, (set_frames c (set_scope f t :: rest)), (set_scope f t).
    split; [rewrite HN; unfold op_unary; cbn [String.eqb Ascii.eqb Bool.eqb cv]; rewrite EF, FS, (upd_top_frames c f rest _ EF); reflexivity|].
    split; [apply ctl_same_refl|]. split; [reflexivity|]. split; [reflexivity|]. split; [reflexivity|]. split; [exact M2|].
    split; [destruct f; reflexivity|reflexivity].
  - (* call {.. breakOut own name ..} *) intros s n a b s1 t v s2 HN NL HA IHa HK IHk TN.
    exact (opens_own_break s _ s1 _ b t v s2 (call_opens s n a b s1 HN NL IHa) IHk (proj1 (zbreak_facts _ _ _ _ _ _ HK)) TN).
  - (* if true then {.. breakOut own name ..} *) intros s n a b blk s1 s2 t v s3 HN HA IHa HB IHb HK IHk TN.
    exact (opens_own_break s _ s2 [] blk t v s3 (then_opens s n a b blk s1 s2 HN IHa IHb) IHk (proj1 (zbreak_facts _ _ _ _ _ _ HK)) TN).
  - (* if c then {..} else {..}, the chosen block breaks out of its own scope *) intros s n a b cnd x0 y0 s1 s2 t v s3 HN HA IHa HB IHb HK IHk TN.
    exact (opens_own_break s _ s2 [] _ t v s3 (then_else_opens s n a b cnd x0 y0 s1 s2 HN IHa IHb) IHk (proj1 (zbreak_facts _ _ _ _ _ _ HK)) TN).
  - (* switch v *) intros s n a v s1 HN NL HA IHa NNv. apply (unary_value s n a (cv v) s1 (cv (RSwitch v)) NL IHa (nonnil_cv _ NNv)).
    intros r c f rest _ _. rewrite HN. reflexivity.
  - (* switch v do {..}, no block chosen *) intros s n a b v body s1 s2 sw HN HA IHa HB IHb HW HT. rewrite <- (pop_enter s2 []).
    apply (opens_runs s _ s2 _ (mk_scope (cur_ns_of s2) []) _ _ (switch_opens s n a b v body s1 s2 HN IHa IHb) (switch_frame_match _ _ _ _ _)).
    intros r c fc rest below (MA & LB & _) FR B.
    destruct (switch_body_vm _ _ _ _ HW r c _ (fc :: rest) below [] true MA LB FR eq_refl eq_refl eq_refl)
      as (r4 & c4 & f4 & S4 & M4 & (t4 & EV4 & UT4) & _ & _ & MV4 & SI4 & DN4).
    pose proof M4 as (G4 & EF4 & _ & _ & D4).
    destruct (sw_complete r4 c4 f4 fc rest false t4 below G4 D4 EF4 DN4) as [S5 G5].
    { rewrite (moved_exit _ _ MV4). reflexivity. } { rewrite (moved_die _ _ MV4). reflexivity. }
    { right. unfold SwInv, sw_val, sw_code in SI4. destruct HT as [HT|HT]; rewrite HT in SI4; eexists _, _, _; exact SI4. }
    { exact EV4. } { rewrite (moved_base _ _ MV4). exact LB. }
    rewrite (under_top t4 UT4) in S5, G5.
    eexists _, _, fc, rest. split; [eapply steps_trans; eassumption|].
    split; [apply (frame_popped _ _ _ _ _ _ _ M4); [cbn; lia|exact G5]|]. split; [reflexivity|]. split; [apply kept_refl|apply kept_all_refl].
  - (* switch v do {..}, the chosen block runs *) intros s n a b v body s1 s2 sw t ts reg s4 HN HA IHa HB IHb HW HT LF HK IHk.
    apply (switch_block_runs s n a b v body s1 s2 sw t ts (res_of reg) (pop_scope s4) HN IHa IHb HW HT LF).
    intros r c f fc rest below A FR EC EP EX ED B. apply (loop_ends _ _ _ _ _ r c f fc rest below _ (res_of reg) IHk A FR EC EP EX ED B).
    intros r1 c1 f1 rest1 top1 _ _ EV1 _ RR1. exists top1. split; [exact (switch_over r1 c1 f1 rest1 top1 below EV1)|exact (region_value reg top1 RR1)].
  - (* switch v do {..}, the chosen block is left by exitWith: the switch frame is gone, the handler's value handed over *)
    intros s n a b v body s1 s2 sw t ts x s4 HN HA IHa HB IHb HW HT LF HK IHk.
    apply (switch_block_runs s n a b v body s1 s2 sw t ts x (pop_scope s4) HN IHa IHb HW HT LF).
    intros r c f fc rest below A FR EC EP _ _ B. exact (body_exit_done _ _ _ x s4 r c f fc rest below IHk A FR EC EP B).
  - (* switch v do {..}, the chosen block is left by breakOut to the name of the switch's own scope *)
    intros s n a b v body s1 s2 sw t ts t0 x s4 HN HA IHa HB IHb HW HT LF HK IHk TN.
    apply (switch_block_runs s n a b v body s1 s2 sw t ts x (pop_scope s4) HN IHa IHb HW HT LF).
    intros r c f fc rest below A FR EC EP _ _ B. exact (own_break _ _ _ t0 x s4 r c f fc rest below IHk (proj1 (zbreak_facts _ _ _ _ _ _ HK)) TN A FR EC EP B).
  - (* no elements *) intros s r c f rest pre post MA EC EP. split; [|reflexivity].
    exists r, c, f, rest. split; [apply StepsRefl|]. split; [exact MA|]. split; [reflexivity|]. split; [apply moved_refl|].
    split; [cbn; lia|apply kept_all_refl].
  - (* element, elements *) intros s e v s1 l vs s2 HE IHe NN HL IHl r c f rest pre post MA EC EP.
    cbn [flat_map map rev] in *. rewrite app_length. rewrite <- app_assoc in EC.
    post_intro (IHe r c f rest pre (flat_map compile_expr l ++ post) MA EC EP) r1 c1 f1 rest1 S1 M1 EV1 MV1 P1 K1.
    destruct (after_operands_code f f1 pre _ _ MV1 EC EP P1) as [EC1 EP1].
    destruct (IHl r1 c1 f1 rest1 (pre ++ compile_expr e) post M1 EC1 EP1) as [(r2 & c2 & f2 & rest2 & S2 & M2 & EV2 & MV2 & P2 & K2) LEN].
    split; [|cbn; lia].
    exists r2, c2, f2, rest2. split; [eapply steps_trans; eassumption|]. split; [exact M2|].
    split; [rewrite EV2, EV1, <- app_assoc; reflexivity|]. split; [eapply moved_trans; eassumption|].
    split; [rewrite P2, P1; lia|eapply kept_all_trans; eassumption].
  - (* statement: expression *) intros s reg e v s1 HE IHe r c f rest below pre post (MA & LB & top & EV & RR) FR EC EP.
    cbn [compile_stmt] in *.
    post_intro (IHe r c f rest pre post MA EC EP) r1 c1 f1 rest1 S1 M1 EV1 MV1 P1 K1.
    exists r1, c1, f1, rest1. split; [exact S1|]. split; [|split; [exact MV1|split; [exact P1|exact K1]]].
    split; [exact M1|]. split; [rewrite (moved_base _ _ MV1); exact LB|]. exists (cv v :: top). split; [rewrite EV1, EV; reflexivity|].
    split; [reflexivity|]. split; [exact (zev_not_none _ _ _ _ HE)|exact (fresh_under c top below EV FR)].
  - (* statement: x = e *) intros s reg n e v s1 NN HH HE IHe NV r c f rest below pre post (MA & LB & top & EV & RR) FR EC EP.
    cbn [compile_stmt] in *. rewrite app_length. cbn [length]. rewrite <- app_assoc in EC.
    post_intro (IHe r c f rest pre ([IAssign n] ++ post) MA EC EP) r1 c1 f1 rest1 S1 M1 EV1 MV1 P1 K1.
    destruct (after_operands_code f f1 pre _ _ MV1 EC EP P1) as [EC1 EP1].
    destruct MA as (_ & _ & _ & B & _).
    destruct (assign_run s1 r1 c1 f1 rest1 _ _ n v (c_values c) M1 EC1 EP1 EV1) as (r2 & c2 & f2 & rest2 & S2 & M2 & EV2 & MV2 & P2 & K2).
    { rewrite (moved_base _ _ MV1); exact B. } { exact NN. } { exact HH. } { exact NV. }
    exists r2, c2, f2, rest2. split; [eapply steps_trans; eassumption|]. split.
    + split; [exact M2|]. split; [rewrite (moved_base _ _ MV2), (moved_base _ _ MV1); exact LB|]. exists top. split; [rewrite EV2; exact EV|exact RR].
    + split; [eapply moved_trans; eassumption|]. split; [rewrite P2, P1; lia|eapply kept_all_trans; eassumption].
  - (* statement: private _x = e *) intros s reg n e v s1 NN HE IHe NV r c f rest below pre post (MA & LB & top & EV & RR) FR EC EP.
    cbn [compile_stmt] in *. rewrite app_length. cbn [length]. rewrite <- app_assoc in EC.
    post_intro (IHe r c f rest pre ([IAssignLocal n] ++ post) MA EC EP) r1 c1 f1 rest1 S1 M1 EV1 MV1 P1 K1.
    destruct (after_operands_code f f1 pre _ _ MV1 EC EP P1) as [EC1 EP1].
    destruct MA as (_ & _ & _ & B & _).
    destruct (local_run s1 r1 c1 f1 rest1 _ _ n v (c_values c) M1 EC1 EP1 EV1) as (r2 & c2 & f2 & rest2 & S2 & M2 & EV2 & MV2 & P2 & K2).
    { rewrite (moved_base _ _ MV1); exact B. } { exact NN. } { exact NV. }
    exists r2, c2, f2, rest2. split; [eapply steps_trans; eassumption|]. split.
    + split; [exact M2|]. split; [rewrite (moved_base _ _ MV2), (moved_base _ _ MV1); exact LB|]. exists top. split; [rewrite EV2; exact EV|exact RR].
    + split; [eapply moved_trans; eassumption|]. split; [rewrite P2, P1; lia|eapply kept_all_trans; eassumption].
  - (* empty block *) intros s reg r c f fc rest below pre A FR EC EP HB.
    unfold compile_block in EC. cbn [compile_block_from] in EC. rewrite app_nil_r in EC.
    exists r, c, f, (fc :: rest). split; [apply StepsRefl|]. split; [exact A|]. split; [apply moved_refl|]. split; [rewrite EP, EC; reflexivity|apply kept_all_refl].
  - (* last statement *) intros s reg st reg1 s1 HS IHs r c f fc rest below pre A FR EC EP HB.
    unfold compile_block in EC. cbn [compile_block_from app] in EC.
    destruct (IHs r c f (fc :: rest) below pre [] A FR EC EP) as (r1 & c1 & f1 & rest1 & S1 & A1 & MV1 & P1 & K1).
    exists r1, c1, f1, rest1. split; [exact S1|]. split; [exact A1|]. split; [exact MV1|]. split; [|exact K1].
    rewrite P1, EP, EC, !app_length. cbn. lia.
  - (* statement; rest of the block *) intros s reg st reg1 s1 st2 rest0 out s' HS IHs HB IHb r c f fc rest below pre A FR EC EP HBf.
    rewrite compile_block_cons2 in EC.
    destruct (stmt_step s reg st reg1 s1 _ r c f (fc :: rest) below pre IHs A FR EC EP) as (r2 & c2 & f2 & rest2 & S2 & MV2 & K2 & A2 & FR2 & EC2 & EP2).
    inversion K2 as [|fa fc2 ra rest2' Ka Kb Ea Eb]; subst.
    assert (HB2 : f_base fc2 <= length below) by (rewrite (kept_base _ _ Ka); exact HBf).
    specialize (IHb r2 c2 f2 fc2 rest2' below _ A2 FR2 EC2 EP2 HB2).
    destruct out as [reg'|v].
    + destruct IHb as (r3 & c3 & f3 & rest3 & S3 & A3 & MV3 & P3 & K3).
      exists r3, c3, f3, rest3. split; [eapply steps_trans; eassumption|]. split; [exact A3|]. split; [eapply moved_trans; eassumption|].
      split; [rewrite P3, (moved_code _ _ MV2); reflexivity|eapply kept_all_trans; eassumption].
    + destruct IHb as (r3 & c3 & fc3 & rest3 & S3 & M3 & EV3 & K3 & KR3).
      exists r3, c3, fc3, rest3. split; [eapply steps_trans; eassumption|].
      split; [exact M3|]. split; [exact EV3|]. split; [eapply kept_trans; eassumption|eapply kept_all_trans; eassumption].
  - (* if true exitWith {..}: the scope ends here *) intros s reg n l x b s1 s2 out s3 rest0 HN HL IHl HX IHx HB IHb.
    exact (stmt_exits s _ _ _ reg rest0 (exitwith_exits s n l x b s1 s2 out s3 HN IHl IHx (scope_ends_of_body _ _ _ _ _ IHb))).
  - (* a statement whose expression is left by an exitWith inside an operand *) intros s reg e v s1 rest0 HX IHx. exact (stmt_exits s e v s1 reg rest0 IHx).
  - (* x = e, e left by exitWith *)
    intros s reg n e v s1 rest0 HX IHx r c f fc rest below pre (MA & LB & top & EV & RR) FR EC EP HBf.
    unfold compile_block in EC. cbn [compile_block_from compile_stmt app] in EC. rewrite <- app_assoc in EC.
    exact (IHx r c f fc rest pre _ top below MA EC EP EV LB HBf).
  - (* private _x = e, e left by exitWith *)
    intros s reg n e v s1 rest0 HX IHx r c f fc rest below pre (MA & LB & top & EV & RR) FR EC EP HBf.
    unfold compile_block in EC. cbn [compile_block_from compile_stmt app] in EC. rewrite <- app_assoc in EC.
    exact (IHx r c f fc rest pre _ top below MA EC EP EV LB HBf).
  - (* no more rounds *) intros k s i body acc. exact I.
  - (* a round, then the rest *) intros k s x rest0 i body acc reg s1 acc1 acc' s' HB IHb KS KO HI IHi.
    cbn [IterRuns]. intros r c f fc frest below allarr b A FR EC EP EX KB ED SK LF ENS HBf.
    destruct rest0 as [|x2 rest2].
    + (* that was the last element *)
      assert (EA : acc' = acc1 /\ s' = pop_scope s1) by (inversion HI; subst; split; reflexivity). destruct EA as [-> ->].
      apply (loop_ends _ _ _ _ _ r c f fc frest below b acc1 IHb A FR EC EP EX ED HBf).
      intros r1 c1 f1 rest1 top1 _ EF1 EV1 LB1 RR1. destruct (skipn_cons_nth _ _ _ _ SK) as [NX0 _].
      apply (kind_over k allarr i x acc acc1 reg b r1 c1 f1 rest1 top1 below true KB KS KO NX0); [|exact EF1|exact EV1|exact LB1|exact RR1].
      intros _. rewrite (skipn_cons_length _ _ _ _ SK). cbn [length]. lia.
    + (* another element: the pass that goes round is the first pass of the next round *)
      destruct (iter_round k s x x2 rest2 i body acc reg s1 acc1 r c f fc frest below allarr b IHb KS KO A FR EC EP EX KB ED SK LF ENS HBf)
        as (rV & cV & fV & fc1 & frest1 & b' & HS & AV & FRV & ECV & EPV & EXV & KBV & EDV & SKV & ENSV & HBV & Ka & Kb & _).
      destruct A as ((G0 & EF0 & _) & _). destruct G0 as (C0 & _).
      apply (loop_done_transfer s' acc' r c f fc frest rV fc1 frest1 below C0 EF0 HS Ka Kb).
      cbn [IterRuns] in IHi. exact (IHi rV cV fV fc1 frest1 below allarr b' AV FRV ECV EPV EXV KBV EDV SKV LF ENSV HBV).
  - (* a round after which the loop stops (findIf found its element) *) intros k s x rest0 i body acc reg s1 acc1 HB IHb KS KO.
    cbn [IterRuns]. intros r c f fc frest below allarr b A FR EC EP EX KB ED SK LF ENS HBf.
    apply (loop_ends _ _ _ _ _ r c f fc frest below b acc1 IHb A FR EC EP EX ED HBf).
    intros r1 c1 f1 rest1 top1 _ EF1 EV1 LB1 RR1. destruct (skipn_cons_nth _ _ _ _ SK) as [NX0 _].
    apply (kind_over k allarr i x acc acc1 reg b r1 c1 f1 rest1 top1 below false KB KS KO NX0); [discriminate|exact EF1|exact EV1|exact LB1|exact RR1].
  - (* a round left by exitWith: the loop is over *) intros k s x rest0 i body acc v s1 HB IHb.
    cbn [IterRuns]. intros r c f fc frest below allarr b A FR EC EP EX KB ED SK LF ENS HBf.
    exact (body_exit_done _ _ _ v s1 r c f fc frest below IHb A FR EC EP HBf).
  - (* a round left by breakOut to the name of its own scope: the loop is over *) intros k s x rest0 i body acc t v s1 HK IHk TN.
    cbn [IterRuns]. intros r c f fc frest below allarr b A FR EC EP EX KB ED SK LF ENS HBf.
    exact (own_break _ _ _ t v s1 r c f fc frest below IHk (proj1 (zbreak_facts _ _ _ _ _ _ HK)) TN A FR EC EP HBf).
  - (* a round of for, then the rest *) intros var to st s x first body reg s1 y acc' s' HB IHb HV TV BY HI IHi.
    intros r c f fc frest below A FR EC EP EX ED LF ENS HBf.
    destruct (for_round_next var to st s x first body reg s1 y r c f fc frest below IHb HV TV BY A FR EC EP EX ED LF ENS HBf)
      as (rV & cV & fV & fc1 & frest1 & HS & AV & FRV & ECV & EPV & EXV & EDV & ENSV & HBV & Ka & Kb & _).
    destruct A as ((G0 & EF0 & _) & _). destruct G0 as (C0 & _).
    apply (loop_done_transfer s' acc' r c f fc frest rV fc1 frest1 below C0 EF0 HS Ka Kb).
    exact (IHi rV cV fV fc1 frest1 below AV FRV ECV EPV EXV EDV LF ENSV HBV).
  - (* the last round of for *) intros var to st s x first body reg s1 y HB IHb HV TV BY.
    intros r c f fc frest below A FR EC EP EX ED LF ENS HBf.
    apply (loop_ends _ _ _ _ _ r c f fc frest below (BFor var to st) (res_of reg) IHb A FR EC EP EX ED HBf).
    intros r1 c1 f1 rest1 top1 M1 EF1 EV1 LB1 RR1. exists top1.
    split; [exact (for_over var to st y r1 c1 f1 rest1 top1 below EF1 EV1 (top_var_match _ _ _ _ _ _ M1 HV TV) BY)|exact (region_value reg top1 RR1)].
  - (* a round of for left by exitWith *) intros var to st s x first body v s1 HB IHb.
    intros r c f fc frest below A FR EC EP EX ED LF ENS HBf.
    exact (body_exit_done _ _ _ v s1 r c f fc frest below IHb A FR EC EP HBf).
  - (* a round of for left by breakOut to the name of its own scope *) intros var to st s x first body t v s1 HK IHk TN.
    intros r c f fc frest below A FR EC EP EX ED LF ENS HBf.
    exact (own_break _ _ _ t v s1 r c f fc frest below IHk (proj1 (zbreak_facts _ _ _ _ _ _ HK)) TN A FR EC EP HBf).
  - (* while: the condition comes out false *) intros cond body s first s1 HC IHc.
    intros r c f fc frest below loops A FR EC EP EX ED LFc LFb ENS HBf.
    apply (loop_ends _ _ _ _ _ r c f fc frest below _ RNil IHc A FR EC EP EX ED HBf).
    intros r1 c1 f1 rest1 top1 _ EF1 EV1 LB1 RR1.
    destruct top1 as [|x0 t]; [discriminate RR1|]. destruct RR1 as (-> & _ & UT). exists t.
    split; [exact (while_over r1 c1 f1 rest1 loops _ _ t below EF1 EV1 LB1)|exact (under_top t UT)].
  - (* while: a round, then the rest *) intros cond body s first s1 reg s2 v s' HC IHc HB IHb HW IHw.
    intros r c f fc frest below loops A FR EC EP EX ED LFc LFb ENS HBf.
    destruct (while_cond_body cond body s first s1 r c f fc frest below loops IHc A FR EC EP EX ED LFc LFb ENS HBf)
      as (rB & cB & fB & fc1 & frest1 & HS1 & AB & FRB & ECB & EPB & EXB & EDB & ENSB & HBB & Ka & Kb & _).
    destruct (while_body_cond cond body s1 reg s2 rB cB fB fc1 frest1 below loops IHb AB FRB ECB EPB EXB EDB LFc LFb ENSB HBB)
      as (rC & cC & fC & fc2 & frest2 & loops' & HS2 & AC & FRC & ECC & EPC & EXC & EDC & ENSC & HBC & Kc & Kd & _).
    destruct A as ((G0 & EF0 & _) & _). destruct G0 as (C0 & _).
    apply (loop_done_transfer s' v r c f fc frest rB fc1 frest1 below C0 EF0 HS1 Ka Kb).
    pose proof AB as (((CB & _) & EFB & _) & _).
    apply (loop_done_transfer s' v rB cB fB fc1 frest1 rC fc2 frest2 below CB EFB HS2 Kc Kd).
    exact (IHw rC cC fC fc2 frest2 below loops' AC FRC ECC EPC EXC EDC LFc LFb ENSC HBC).
  - (* while: the condition is left by exitWith *) intros cond body s first v s1 HC IHc.
    intros r c f fc frest below loops A FR EC EP EX ED LFc LFb ENS HBf.
    exact (body_exit_done _ _ _ v s1 r c f fc frest below IHc A FR EC EP HBf).
  - (* while: the body is left by exitWith *) intros cond body s first s1 v s2 HC IHc HB IHb.
    intros r c f fc frest below loops A FR EC EP EX ED LFc LFb ENS HBf.
    destruct (while_cond_body cond body s first s1 r c f fc frest below loops IHc A FR EC EP EX ED LFc LFb ENS HBf)
      as (rB & cB & fB & fc1 & frest1 & HS1 & AB & FRB & ECB & EPB & EXB & EDB & ENSB & HBB & Ka & Kb & _).
    destruct A as ((G0 & EF0 & _) & _). destruct G0 as (C0 & _).
    apply (loop_done_transfer (pop_scope s2) v r c f fc frest rB fc1 frest1 below C0 EF0 HS1 Ka Kb).
    exact (body_exit_done _ _ _ v s2 rB cB fB fc1 frest1 below IHb AB FRB ECB EPB HBB).
  - (* while: the condition is left by breakOut to the name of the loop's scope *) intros cond body s first t v s1 HK IHk TN.
    intros r c f fc frest below loops A FR EC EP EX ED LFc LFb ENS HBf.
    exact (own_break _ _ _ t v s1 r c f fc frest below IHk (proj1 (zbreak_facts _ _ _ _ _ _ HK)) TN A FR EC EP HBf).
  - (* while: the body is left by breakOut to the name of the loop's scope *) intros cond body s first s1 t v s2 HC IHc HK IHk TN.
    intros r c f fc frest below loops A FR EC EP EX ED LFc LFb ENS HBf.
    destruct (while_cond_body cond body s first s1 r c f fc frest below loops IHc A FR EC EP EX ED LFc LFb ENS HBf)
      as (rB & cB & fB & fc1 & frest1 & HS1 & AB & FRB & ECB & EPB & EXB & EDB & ENSB & HBB & Ka & Kb & _).
    destruct A as ((G0 & EF0 & _) & _). destruct G0 as (C0 & _).
    apply (loop_done_transfer (pop_scope s2) v r c f fc frest rB fc1 frest1 below C0 EF0 HS1 Ka Kb).
    exact (own_break _ _ _ t v s2 rB cB fB fc1 frest1 below IHk (proj1 (zbreak_facts _ _ _ _ _ _ HK)) TN AB FRB ECB EPB HBB).
  - (* throw: a statement, then the rest of the block that throws *)
    intros s reg st reg1 s1 st2 rest0 x s' HS IHs HT IHt r c f restf below pre inner ft rest h jn below_t A FR EC EP CH HF HErr EB UJ LBT.
    rewrite compile_block_cons2 in EC.
    destruct (stmt_step s reg st reg1 s1 _ r c f restf below pre IHs A FR EC EP) as (r2 & c2 & f2 & rest2 & S2 & MV2 & K2 & A2 & FR2 & EC2 & EP2).
    destruct (chain_kept f restf inner ft rest f2 rest2 h (cv x) CH HF HErr MV2 K2) as (inner1 & ft1 & rest1' & CH1 & HF1 & HE1 & HH1 & LEN1 & KR1 & FB1).
    destruct (IHt r2 c2 f2 rest2 below _ inner1 ft1 rest1' h jn below_t A2 FR2 EC2 EP2 CH1 HF1 HE1 EB UJ) as (r3 & c3 & rest3 & ft0 & S3 & K3 & MT & CA);
      [rewrite FB1; exact LBT|].
    exists r3, c3, rest3, ft0. split; [eapply steps_trans; eassumption|].
    split; [eapply kept_all_trans; eassumption|]. split; [eapply moved_trans; eassumption|]. rewrite LEN1 in CA. exact CA.
  - (* throw v *) intros s reg n e v s1 rest0 HN NL HE IHe NNv r c f restf below pre inner ft rest h jn below_t (MA & LB & top & EV & RR) FR EC EP.
    rewrite compile_block_expr in EC.
    destruct (unary_operands s n e (cv v) s1 r c f restf pre _ NL IHe MA EC EP) as (r1 & c1 & f1 & rest1 & OD).
    apply (thrown s1 _ _ _ r c f restf r1 c1 f1 rest1 v top below OD EV LB).
    destruct OD as (_ & _ & _ & (G1 & EF1 & _) & EV1 & N1 & _ & B1). intros inner1 ft1 rest1' h1 CH1 HF1 HE1.
    exact (throw_run r1 c1 f1 rest1 (lower n) (cv v) (c_values c) inner1 ft1 rest1' h1 G1 EF1 N1 (eq_trans (lower_idem _) HN) EV1 (nonnil_cv _ NNv) B1 CH1 HF1 HE1).
  - (* if true throw v *) intros s reg n a b v s1 s2 rest0 HN HA IHa HB IHb NNv r c f restf below pre inner ft rest h jn below_t (MA & LB & top & EV & RR) FR EC EP.
    rewrite compile_block_expr in EC.
    destruct (binary_operands s n a b (cv (RIf true)) (cv v) s1 s2 r c f restf pre _ IHa IHb MA EC EP) as (r2 & c2 & f2 & rest2 & OD).
    apply (thrown s2 _ _ _ r c f restf r2 c2 f2 rest2 v top below OD EV LB).
    destruct OD as (_ & _ & _ & (G2 & EF2 & _) & EV2 & N2 & _ & B2). intros inner1 ft1 rest1' h1 CH1 HF1 HE1.
    exact (throw_if_run r2 c2 f2 rest2 (lower n) (cv v) (c_values c) inner1 ft1 rest1' h1 G2 EF2 N2 (eq_trans (lower_idem _) HN) EV2 (nonnil_cv _ NNv) B2 CH1 HF1 HE1).
  - (* call {.. throw ..} as a statement *) intros s reg n a b s1 x s2 rest0 HN NL HA IHa HT IHt.
    exact (stmt_throws s _ x _ reg rest0 (opens_leaves s _ s1 _ b _ _ (call_opens s n a b s1 HN NL IHa) (scope_leaves_throw _ _ _ _ _ IHt))).
  - (* if true then {.. throw ..} as a statement *) intros s reg n a b blk s1 s2 x s3 rest0 HN HA IHa HB IHb HT IHt.
    exact (stmt_throws s _ x _ reg rest0 (opens_leaves s _ s2 [] blk _ _ (then_opens s n a b blk s1 s2 HN IHa IHb) (scope_leaves_throw _ _ _ _ _ IHt))).
  - (* if c then {..} else {..} as a statement, the chosen block throws *) intros s reg n a b cnd x0 y0 s1 s2 x s3 rest0 HN HA IHa HB IHb HT IHt.
    exact (stmt_throws s _ x _ reg rest0 (opens_leaves s _ s2 [] _ _ _ (then_else_opens s n a b cnd x0 y0 s1 s2 HN IHa IHb) (scope_leaves_throw _ _ _ _ _ IHt))).
  - (* try {.. throw ..} catch {.. throw ..} as a statement: the handler's throw goes on outwards *)
    intros s reg n a b body hb s1 s2 x s3 y s4 rest0 HN HA IHa HB IHb HX IHx HY IHy.
    apply stmt_throws. intros r c f restf pre post MA EC EP.
    destruct (try_caught s n a b body hb s1 s2 x s3 HN IHa IHb IHx r c f restf pre post MA EC EP)
      as (r4 & c4 & hf & fc4 & rest4 & S4 & MV4 & K4 & P4 & B4 & A5 & FR5 & EC5 & EP5 & EX5 & EE5).
    pose proof A5 as (_ & LB5 & _).
    apply (leaves0_of_loop (AThrow y) (pop_scope s4) r r4 f fc4 restf rest4 hf (c_values c) [] S4 MV4 K4 EE5 (eq_sym LB5) (Forall_nil _)).
    exact (leavesL_throw _ _ _ y s4 r4 c4 hf (fc4 :: rest4) (c_values c) IHy A5 FR5 EC5 EP5).
  - (* a loop standing as a statement is left by a throw *) intros s reg e y s3 rest0 HL IHl. exact (stmt_throws s e y s3 reg rest0 IHl).
  - (* x = e, the expression is left by a throw *)
    intros s reg n e y s3 rest0 HL IHl r c f restf below pre inner ft rest h jn below_t A FR EC EP CH HF HErr EB UJ LBT.
    unfold compile_block in EC. cbn [compile_block_from compile_stmt app] in EC. rewrite <- app_assoc in EC.
    exact (expr_leaves_atm _ _ _ _ IHl reg r c f restf below pre _ A FR EC EP inner ft rest h jn below_t CH HF HErr EB UJ LBT).
  - (* private _x = e, the expression is left by a throw *)
    intros s reg n e y s3 rest0 HL IHl r c f restf below pre inner ft rest h jn below_t A FR EC EP CH HF HErr EB UJ LBT.
    unfold compile_block in EC. cbn [compile_block_from compile_stmt app] in EC. rewrite <- app_assoc in EC.
    exact (expr_leaves_atm _ _ _ _ IHl reg r c f restf below pre _ A FR EC EP inner ft rest h jn below_t CH HF HErr EB UJ LBT).
  - (* breakOut: a statement, then the rest of the block that breaks out *)
    intros s reg st reg1 s1 st2 rest0 t v s' HS IHs HK IHk r c f restf below pre k top fn fc rest jn below_n A FR EC EP FN CH LT HB HC EB LBN.
    rewrite compile_block_cons2 in EC.
    destruct (stmt_step s reg st reg1 s1 _ r c f restf below pre IHs A FR EC EP) as (r2 & c2 & f2 & rest2 & S2 & MV2 & K2 & A2 & FR2 & EC2 & EP2).
    destruct (chain_kept_b f restf top fn fc rest f2 rest2 CH MV2 K2 HB) as (top1 & fn1 & fc1 & rest1' & CH1 & LT1 & HB1 & FB1 & KC1 & KR1).
    destruct (IHk r2 c2 f2 rest2 below _ k top1 fn1 fc1 rest1' jn below_n A2 FR2 EC2 EP2 FN CH1) as (r3 & c3 & fc3 & rest3 & S3 & M3 & EV3 & K3 & KR3);
      [rewrite LT1; exact LT|exact HB1|rewrite FB1, (kept_base _ _ KC1); exact HC|exact EB|rewrite FB1; exact LBN|].
    exists r3, c3, fc3, rest3. split; [eapply steps_trans; eassumption|].
    split; [exact M3|]. split; [exact EV3|]. split; [eapply kept_trans; eassumption|eapply kept_all_trans; eassumption].
  - (* breakOut "t" *) intros s reg n e t s1 rest0 HN NL HE IHe NT r c f restf below pre k top fn fc rest jn below_n (MA & LB & topv & EV & RR) FR EC EP.
    rewrite compile_block_expr in EC.
    destruct (unary_operands s n e (cv (RStr t)) s1 r c f restf pre _ NL IHe MA EC EP) as (r1 & c1 & f1 & rest1 & OD).
    apply (broken_out s1 _ _ _ r c f restf r1 c1 f1 rest1 t RNil topv below OD EV).
    destruct OD as (_ & _ & _ & (G1 & EF1 & _ & _ & D1) & EV1 & N1 & _ & B1). intros top1 fn1 more CH1 HS1 HE1 HB1 LV.
    exact (breakout_run r1 c1 f1 rest1 (lower n) t (c_values c) top1 fn1 more G1 (quirks_defects _ D1) EF1 N1 (eq_trans (lower_idem _) HN) NT EV1 B1 CH1 HS1 HE1 HB1 LV).
  - (* v breakOut "t" *) intros s reg n a b v t s1 s2 rest0 HN HA IHa NNv HB0 IHb NT r c f restf below pre k top fn fc rest jn below_n (MA & LB & topv & EV & RR) FR EC EP.
    rewrite compile_block_expr in EC.
    destruct (binary_operands s n a b (cv v) (cv (RStr t)) s1 s2 r c f restf pre _ IHa IHb MA EC EP) as (r2 & c2 & f2 & rest2 & OD).
    apply (broken_out s2 _ _ _ r c f restf r2 c2 f2 rest2 t v topv below OD EV).
    destruct OD as (_ & _ & _ & (G2 & EF2 & _ & _ & D2) & EV2 & N2 & _ & B2). intros top1 fn1 more CH1 HS1 HE1 HB1 LV.
    exact (breakout_value_run r2 c2 f2 rest2 (lower n) t (cv v) (c_values c) top1 fn1 more G2 (quirks_defects _ D2) EF2 N2 (eq_trans (lower_idem _) HN) NT EV2 (nonnil_cv _ NNv) B2 CH1 HS1 HE1 HB1 LV).
  - (* call {.. breakOut ..} as a statement, the scope of the call is not the one *) intros s reg n a b s1 t v s2 rest0 HN NL HA IHa HK IHk TN.
    exact (stmt_breaks s _ t v _ reg rest0 (opens_leaves s _ s1 _ b _ _ (call_opens s n a b s1 HN NL IHa) (scope_leaves_break _ _ _ _ _ _ IHk TN))).
  - (* if true then {.. breakOut ..} as a statement, passing through *) intros s reg n a b blk s1 s2 t v s3 rest0 HN HA IHa HB0 IHb HK IHk TN.
    exact (stmt_breaks s _ t v _ reg rest0 (opens_leaves s _ s2 [] blk _ _ (then_opens s n a b blk s1 s2 HN IHa IHb) (scope_leaves_break _ _ _ _ _ _ IHk TN))).
  - (* if c then {..} else {..} as a statement, passing through *) intros s reg n a b cnd x0 y0 s1 s2 t v s3 rest0 HN HA IHa HB0 IHb HK IHk TN.
    exact (stmt_breaks s _ t v _ reg rest0 (opens_leaves s _ s2 [] _ _ _ (then_else_opens s n a b cnd x0 y0 s1 s2 HN IHa IHb) (scope_leaves_break _ _ _ _ _ _ IHk TN))).
  - (* a loop standing as a statement is left by breakOut *) intros s reg e t v s3 rest0 HL IHl. exact (stmt_breaks s e t v s3 reg rest0 IHl).
  - (* x = e, the expression is left by breakOut *)
    intros s reg n e t v s3 rest0 HL IHl r c f restf below pre k top fn fc rest jn below_n A FR EC EP FN CH LT HB HC EB LBN.
    unfold compile_block in EC. cbn [compile_block_from compile_stmt app] in EC. rewrite <- app_assoc in EC.
    exact (expr_leaves_atm _ _ _ _ IHl reg r c f restf below pre _ A FR EC EP k top fn fc rest jn below_n FN CH LT HB HC EB LBN).
  - (* private _x = e, the expression is left by breakOut *)
    intros s reg n e t v s3 rest0 HL IHl r c f restf below pre k top fn fc rest jn below_n A FR EC EP FN CH LT HB HC EB LBN.
    unfold compile_block in EC. cbn [compile_block_from compile_stmt app] in EC. rewrite <- app_assoc in EC.
    exact (expr_leaves_atm _ _ _ _ IHl reg r c f restf below pre _ A FR EC EP k top fn fc rest jn below_n FN CH LT HB HC EB LBN).
  - (* {..} forEach / count [x0, ..] is left *) intros s n a x body x0 arr k s1 s2 ab s3 HN HK LF HA IHa HX IHx HI IHi.
    exact (iter_loop_leaves s _ s2 k body x0 arr ab s3 (iter_ca_opens s n a x body x0 arr k s1 s2 HN HK IHa IHx) LF IHi).
  - (* [x0, ..] apply / select / findIf {..} is left *) intros s n a x body x0 arr k s1 s2 ab s3 HN HK LF HA IHa HX IHx HI IHi.
    exact (iter_loop_leaves s _ s2 k body x0 arr ab s3 (iter_ac_opens s n a x body x0 arr k s1 s2 HN HK IHa IHx) LF IHi).
  - (* for .. do {..} is left *) intros s n a b var fr to st body s1 s2 ab s3 HN HA IHa HB IHb HE LF HI IHi.
    apply (opens_loop_leaves s _ s2 _ (mk_scope (cur_ns_of s2) [(lower var, RNum fr)]) _ _ (for_opens s n a b var fr to st body s1 s2 HN IHa IHb HE)
             (frame_match_plain _ _ _ _ [(lower var, RNum fr)]) (fun _ => eq_refl)).
    intros r c fc rest below A FR B. exact (IHi r c _ fc rest below A FR eq_refl eq_refl eq_refl eq_refl LF eq_refl B).
  - (* while {..} do {..} is left *) intros s n a b cond body s1 s2 ab s3 HN HA IHa HB IHb LFc LFb HW IHw.
    apply (opens_loop_leaves s _ s2 _ (mk_scope (cur_ns_of s2) []) _ _ (while_opens s n a b cond body s1 s2 HN IHa IHb LFc)
             (frame_match_plain _ _ _ _ []) (fun _ => eq_refl)).
    intros r c fc rest below A FR B. exact (IHw r c _ fc rest below 0 A FR eq_refl eq_refl eq_refl eq_refl LFc LFb eq_refl B).
  - (* switch v do {..} is left by a throw out of the chosen block *)
    intros s n a b v body s1 s2 sw t ts y s4 HN HA IHa HB IHb HW HT LF HK IHk.
    apply (switch_expr_leaves s n a b v body s1 s2 sw t ts (AThrow y) s4 HN IHa IHb HW HT LF).
    intros r c f restf below A FR EC EP. exact (leavesL_throw _ _ _ y s4 r c f restf below IHk A FR EC EP).
  - (* switch v do {..} is left by breakOut out of the chosen block to a scope outside *)
    intros s n a b v body s1 s2 sw t ts t0 x s4 HN HA IHa HB IHb HW HT LF HK IHk TN.
    apply (switch_expr_leaves s n a b v body s1 s2 sw t ts (ABreak t0 x) s4 HN IHa IHb HW HT LF).
    intros r c f restf below A FR EC EP. exact (leavesL_break _ _ _ t0 x s4 r c f restf below IHk TN A FR EC EP).
  - (* the operand of a unary operator is left *)
    intros s n a ab s1 NL HL IHl r c f restf pre post MA EC EP.
    rewrite (compile_unary_nonlit n a NL), <- app_assoc in EC. exact (IHl r c f restf pre _ MA EC EP).
  - (* the left operand of a binary operator is left *)
    intros s n a b ab s1 HL IHl r c f restf pre post MA EC EP.
    rewrite compile_binary, <- !app_assoc in EC. exact (IHl r c f restf pre _ MA EC EP).
  - (* the right operand is left by breakOut: the left operand's value waits on the stack and is dropped *)
    intros s n a b va t v s1 s2 HA IHa HL IHl r c f restf pre post MA EC EP.
    rewrite compile_binary, <- !app_assoc in EC.
    post_intro (IHa r c f restf pre _ MA EC EP) r1 c1 f1 rest1 S1 M1 EV1 MV1 P1 K1.
    destruct (after_operands_code f f1 pre _ _ MV1 EC EP P1) as [EC1 EP1].
    apply (leaves0_back (ABreak t v) s2 r r1 f f1 restf rest1 [cv va] (c_values c) S1 MV1 K1 I).
    change ([cv va] ++ c_values c) with (cv va :: c_values c). rewrite <- EV1.
    exact (IHl r1 c1 f1 rest1 (pre ++ compile_expr a) _ M1 EC1 EP1).
  - (* an element of an array is left *)
    intros s l ab s1 HL IHl r c f restf pre post MA EC EP.
    rewrite compile_array, <- app_assoc in EC. exact (IHl r c f restf pre _ MA EC EP).
  - (* call {..} as an operand, its block is left *) intros s n a b s1 ab s2 HN NL HA IHa HS IHs.
    exact (opens_leaves s _ s1 _ b ab s2 (call_opens s n a b s1 HN NL IHa) IHs).
  - (* x call {..} as an operand, its block is left *) intros s n a x va b s1 s2 ab s3 HN HA IHa NNa HX IHx HS IHs.
    exact (opens_leaves s _ s2 _ b ab s3 (call_with_opens s n a x va b s1 s2 HN IHa NNa IHx) IHs).
  - (* if true then {..} as an operand, its block is left *) intros s n a b blk s1 s2 ab s3 HN HA IHa HB IHb HS IHs.
    exact (opens_leaves s _ s2 [] blk ab s3 (then_opens s n a b blk s1 s2 HN IHa IHb) IHs).
  - (* if c then {..} else {..} as an operand, the chosen block is left *) intros s n a b cnd x0 y0 s1 s2 ab s3 HN HA IHa HB IHb HS IHs.
    exact (opens_leaves s _ s2 [] _ ab s3 (then_else_opens s n a b cnd x0 y0 s1 s2 HN IHa IHb) IHs).
  - (* loop over an array: a round, then the rest in which the loop is left *)
    intros k s x rest0 i body acc reg s1 acc1 ab s' HB IHb KS KO HI IHi.
    destruct rest0 as [|x2 rest2]; [inversion HI|].
    cbn [IterLeaves]. intros r c f fc frest below allarr b A FR EC EP EX KB ED SK LF ENS HBf.
    destruct (iter_round k s x x2 rest2 i body acc reg s1 acc1 r c f fc frest below allarr b IHb KS KO A FR EC EP EX KB ED SK LF ENS HBf)
      as (rV & cV & fV & fc1 & frest1 & b' & HS & AV & FRV & ECV & EPV & EXV & KBV & EDV & SKV & ENSV & HBV & Ka & Kb & EE & EBs).
    destruct A as ((G0 & EF0 & _) & _). destruct G0 as (C0 & _).
    apply (leavesL_transfer ab s' r c f fc frest rV fV fc1 frest1 below C0 EF0 HS Ka Kb EE EBs).
    cbn [IterLeaves] in IHi. exact (IHi rV cV fV fc1 frest1 below allarr b' AV FRV ECV EPV EXV KBV EDV SKV LF ENSV HBV).
  - (* loop over an array: the body of this round is left by a throw *)
    intros k s x rest0 i body acc y s1 HT IHt.
    cbn [IterLeaves]. intros r c f fc frest below allarr b A FR EC EP EX KB ED SK LF ENS HBf.
    exact (leavesL_throw _ _ _ y s1 r c f (fc :: frest) below IHt A FR EC EP).
  - (* loop over an array: the body of this round is left by breakOut *)
    intros k s x rest0 i body acc t v s1 HK IHk TN.
    cbn [IterLeaves]. intros r c f fc frest below allarr b A FR EC EP EX KB ED SK LF ENS HBf.
    exact (leavesL_break _ _ _ t v s1 r c f (fc :: frest) below IHk TN A FR EC EP).
  - (* for: a round, then the rest in which the loop is left *)
    intros var to st s x first body reg s1 y ab s' HB IHb HV TV BY HI IHi.
    intros r c f fc frest below A FR EC EP EX ED LF ENS HBf.
    destruct (for_round_next var to st s x first body reg s1 y r c f fc frest below IHb HV TV BY A FR EC EP EX ED LF ENS HBf)
      as (rV & cV & fV & fc1 & frest1 & HS & AV & FRV & ECV & EPV & EXV & EDV & ENSV & HBV & Ka & Kb & EE & EBs).
    destruct A as ((G0 & EF0 & _) & _). destruct G0 as (C0 & _).
    apply (leavesL_transfer ab s' r c f fc frest rV fV fc1 frest1 below C0 EF0 HS Ka Kb EE EBs).
    exact (IHi rV cV fV fc1 frest1 below AV FRV ECV EPV EXV EDV LF ENSV HBV).
  - (* for: the body of this round is left by a throw *)
    intros var to st s x first body y s1 HT IHt.
    intros r c f fc frest below A FR EC EP EX ED LF ENS HBf.
    exact (leavesL_throw _ _ _ y s1 r c f (fc :: frest) below IHt A FR EC EP).
  - (* for: the body of this round is left by breakOut *)
    intros var to st s x first body t v s1 HK IHk TN.
    intros r c f fc frest below A FR EC EP EX ED LF ENS HBf.
    exact (leavesL_break _ _ _ t v s1 r c f (fc :: frest) below IHk TN A FR EC EP).
  - (* while: a round, then the rest in which the loop is left *)
    intros cond body s first s1 reg s2 ab s' HC IHc HB IHb HW IHw.
    intros r c f fc frest below loops A FR EC EP EX ED LFc LFb ENS HBf.
    destruct (while_cond_body cond body s first s1 r c f fc frest below loops IHc A FR EC EP EX ED LFc LFb ENS HBf)
      as (rB & cB & fB & fc1 & frest1 & HS1 & AB & FRB & ECB & EPB & EXB & EDB & ENSB & HBB & Ka & Kb & EE1 & EB1).
    destruct (while_body_cond cond body s1 reg s2 rB cB fB fc1 frest1 below loops IHb AB FRB ECB EPB EXB EDB LFc LFb ENSB HBB)
      as (rC & cC & fC & fc2 & frest2 & loops' & HS2 & AC & FRC & ECC & EPC & EXC & EDC & ENSC & HBC & Kc & Kd & EE2 & EB2).
    destruct A as ((G0 & EF0 & _) & _). destruct G0 as (C0 & _).
    apply (leavesL_transfer ab s' r c f fc frest rB fB fc1 frest1 below C0 EF0 HS1 Ka Kb EE1 EB1).
    pose proof AB as (((CB & _) & EFB & _) & _).
    apply (leavesL_transfer ab s' rB cB fB fc1 frest1 rC fC fc2 frest2 below CB EFB HS2 Kc Kd EE2 EB2).
    exact (IHw rC cC fC fc2 frest2 below loops' AC FRC ECC EPC EXC EDC LFc LFb ENSC HBC).
  - (* while: the condition is left by a throw *)
    intros cond body s first y s1 HT IHt.
    intros r c f fc frest below loops A FR EC EP EX ED LFc LFb ENS HBf.
    exact (leavesL_throw _ _ _ y s1 r c f (fc :: frest) below IHt A FR EC EP).
  - (* while: the condition is left by breakOut *)
    intros cond body s first t v s1 HK IHk TN.
    intros r c f fc frest below loops A FR EC EP EX ED LFc LFb ENS HBf.
    exact (leavesL_break _ _ _ t v s1 r c f (fc :: frest) below IHk TN A FR EC EP).
  - (* while: the body is left by a throw *)
    intros cond body s first s1 y s2 HC IHc HT IHt.
    intros r c f fc frest below loops A FR EC EP EX ED LFc LFb ENS HBf.
    destruct (while_cond_body cond body s first s1 r c f fc frest below loops IHc A FR EC EP EX ED LFc LFb ENS HBf)
      as (rB & cB & fB & fc1 & frest1 & HS1 & AB & FRB & ECB & EPB & EXB & EDB & ENSB & HBB & Ka & Kb & EE1 & EB1).
    destruct A as ((G0 & EF0 & _) & _). destruct G0 as (C0 & _).
    apply (leavesL_transfer (AThrow y) (pop_scope s2) r c f fc frest rB fB fc1 frest1 below C0 EF0 HS1 Ka Kb EE1 EB1).
    exact (leavesL_throw _ _ _ y s2 rB cB fB (fc1 :: frest1) below IHt AB FRB ECB EPB).
  - (* while: the body is left by breakOut *)
    intros cond body s first s1 t v s2 HC IHc HK IHk TN.
    intros r c f fc frest below loops A FR EC EP EX ED LFc LFb ENS HBf.
    destruct (while_cond_body cond body s first s1 r c f fc frest below loops IHc A FR EC EP EX ED LFc LFb ENS HBf)
      as (rB & cB & fB & fc1 & frest1 & HS1 & AB & FRB & ECB & EPB & EXB & EDB & ENSB & HBB & Ka & Kb & EE1 & EB1).
    destruct A as ((G0 & EF0 & _) & _). destruct G0 as (C0 & _).
    apply (leavesL_transfer (ABreak t v) (pop_scope s2) r c f fc frest rB fB fc1 frest1 below C0 EF0 HS1 Ka Kb EE1 EB1).
    exact (leavesL_break _ _ _ t v s2 rB cB fB (fc1 :: frest1) below IHk TN AB FRB ECB EPB).
  - (* a block in its own scope is left by a throw *) intros s vars b y s2 HT IHt. exact (scope_leaves_throw s vars b y s2 IHt).
  - (* ... by breakOut *) intros s vars b t v s2 HK IHk TN. exact (scope_leaves_break s vars b t v s2 IHk TN).
  - (* the first element is left *) intros s e l ab s1 HL IHl r c f restf pre post MA EC EP.
    cbn [flat_map] in EC. rewrite <- app_assoc in EC. exact (IHl r c f restf pre _ MA EC EP).
  - (* a later element is left by breakOut: the elements evaluated so far wait on the stack and are dropped *)
    intros s e v l t v0 s1 s2 HE IHe NN HL IHl r c f restf pre post MA EC EP.
    cbn [flat_map] in EC. rewrite <- app_assoc in EC.
    post_intro (IHe r c f restf pre _ MA EC EP) r1 c1 f1 rest1 S1 M1 EV1 MV1 P1 K1.
    destruct (after_operands_code f f1 pre _ _ MV1 EC EP P1) as [EC1 EP1].
    apply (leaves0_back (ABreak t v0) s2 r r1 f f1 restf rest1 [cv v] (c_values c) S1 MV1 K1 I).
    change ([cv v] ++ c_values c) with (cv v :: c_values c). rewrite <- EV1.
    exact (IHl r1 c1 f1 rest1 (pre ++ compile_expr e) post M1 EC1 EP1).
  - (* if true exitWith {..} in an operand position: pend waits on the stack of the scope that ends *)
    intros s n l x b s1 s2 out s3 HN HL IHl HX IHx HB IHb.
    exact (exitwith_exits s n l x b s1 s2 out s3 HN IHl IHx (scope_ends_of_body _ _ _ _ _ IHb)).
  - (* the operand of a unary operator is left by exitWith *)
    intros s n a v s1 NL HX IHx r c f fc rest pre post pend below MA EC EP EV LB HBf.
    rewrite (compile_unary_nonlit n a NL), <- app_assoc in EC. exact (IHx r c f fc rest pre _ pend below MA EC EP EV LB HBf).
  - (* the left operand is left by exitWith *)
    intros s n a b v s1 HX IHx r c f fc rest pre post pend below MA EC EP EV LB HBf.
    rewrite compile_binary, <- !app_assoc in EC. exact (IHx r c f fc rest pre _ pend below MA EC EP EV LB HBf).
  - (* the right operand is left by exitWith: the left operand's value joins what waits *)
    intros s n a b va v s1 s2 HA IHa HX IHx r c f fc rest pre post pend below MA EC EP EV LB HBf.
    rewrite compile_binary, <- !app_assoc in EC.
    post_intro (IHa r c f (fc :: rest) pre _ MA EC EP) r1 c1 f1 rest1 S1 M1 EV1 MV1 P1 K1.
    destruct (after_operands_code f f1 pre _ _ MV1 EC EP P1) as [EC1 EP1].
    inversion K1 as [|fa fc1 ra rest1' Ka Kb Ea Eb]; subst.
    destruct (IHx r1 c1 f1 fc1 rest1' (pre ++ compile_expr a) _ (cv va :: pend) below M1 EC1 EP1) as (r' & c' & fc' & rest' & S2 & M2 & EV2 & K2 & KR2).
    { rewrite EV1, EV. reflexivity. } { rewrite (moved_base _ _ MV1). exact LB. } { rewrite (kept_base _ _ Ka). exact HBf. }
    exists r', c', fc', rest'. split; [eapply steps_trans; eassumption|]. split; [exact M2|]. split; [exact EV2|].
    split; [eapply kept_trans; eassumption|eapply kept_all_trans; eassumption].
  - (* an element of an array is left by exitWith *)
    intros s l v s1 HX IHx r c f fc rest pre post pend below MA EC EP EV LB HBf.
    rewrite compile_array, <- app_assoc in EC. exact (IHx r c f fc rest pre _ pend below MA EC EP EV LB HBf).
  - (* the first element *)
    intros s e l v s1 HX IHx r c f fc rest pre post pend below MA EC EP EV LB HBf.
    cbn [flat_map] in EC. rewrite <- app_assoc in EC. exact (IHx r c f fc rest pre _ pend below MA EC EP EV LB HBf).
  - (* a later element: the elements evaluated so far join what waits *)
    intros s e v0 l v s1 s2 HE IHe NN HX IHx r c f fc rest pre post pend below MA EC EP EV LB HBf.
    cbn [flat_map] in EC. rewrite <- app_assoc in EC.
    post_intro (IHe r c f (fc :: rest) pre _ MA EC EP) r1 c1 f1 rest1 S1 M1 EV1 MV1 P1 K1.
    destruct (after_operands_code f f1 pre _ _ MV1 EC EP P1) as [EC1 EP1].
    inversion K1 as [|fa fc1 ra rest1' Ka Kb Ea Eb]; subst.
    destruct (IHx r1 c1 f1 fc1 rest1' (pre ++ compile_expr e) post (cv v0 :: pend) below M1 EC1 EP1) as (r' & c' & fc' & rest' & S2 & M2 & EV2 & K2 & KR2).
    { rewrite EV1, EV. reflexivity. } { rewrite (moved_base _ _ MV1). exact LB. } { rewrite (kept_base _ _ Ka). exact HBf. }
    exists r', c', fc', rest'. split; [eapply steps_trans; eassumption|]. split; [exact M2|]. split; [exact EV2|].
    split; [eapply kept_trans; eassumption|eapply kept_all_trans; eassumption].
Qed.

Lemma abrupt_oa a : abrupt (oa a). Proof. destruct a; exact I. Qed.

(* closing a scope: what becomes of the outcome of the block that ran in it.  in_scope does this to the block of call / if-then /
   with-do / a lazy operator, the loops to each round that does not end normally, try-catch to its block or handler, switch to the
   chosen block. *)
Definition finish_f (o:outcome) (s1:sstate) : outcome * sstate :=
  match o with
  | ONormal RNone => (ONormal RNil, pop_scope s1)
  | OExit v => (ONormal v, pop_scope s1)
  | OBreak name v => match st_scopes s1 with
                     | sc' :: _ => if String.eqb (sc_name sc') name then (ONormal v, pop_scope s1) else (OBreak name v, pop_scope s1)
                     | [] => (OBreak name v, pop_scope s1) end
  | other => (other, pop_scope s1) end.
Lemma finish_out out s : finish_f (oc out) s = (ONormal (val_of out), pop_scope s).
Proof. destruct out as [reg|v]; [destruct reg|]; reflexivity. Qed.

Lemma break_own_f (t:string) (v:rvalue) s1 : t <> "" -> top_name s1 = t ->
  match st_scopes s1 with
  | sc' :: _ => if String.eqb (sc_name sc') t then (ONormal v, pop_scope s1) else (OBreak t v, pop_scope s1)
  | [] => (OBreak t v, pop_scope s1) end = (ONormal v, pop_scope s1).
Proof.
  unfold top_name. destruct (st_scopes s1) as [|sc' l]; intros NT TN; [exfalso; apply NT; symmetry; exact TN|].
  rewrite TN, String.eqb_refl. reflexivity.
Qed.
Lemma break_pass_f (t:string) (v:rvalue) s1 : top_name s1 <> t ->
  match st_scopes s1 with
  | sc' :: _ => if String.eqb (sc_name sc') t then (ONormal v, pop_scope s1) else (OBreak t v, pop_scope s1)
  | [] => (OBreak t v, pop_scope s1) end = (OBreak t v, pop_scope s1).
Proof.
  unfold top_name. destruct (st_scopes s1) as [|sc' l]; intros TN; [reflexivity|].
  destruct (String.eqb_spec (sc_name sc') t) as [E|_]; [contradiction|reflexivity].
Qed.

Lemma in_scope_closes f s sc b o s2 : eval_block f (push_scope s sc) b RNil = (o, s2) -> in_scope_f f s sc b = finish_f o s2.
Proof. intros H. unfold in_scope_f. rewrite H. reflexivity. Qed.
Lemma scopes_finish {s sc b o1 s1 o s'} : blocks (push_scope s sc) b RNil o1 s1 -> finish_f o1 s1 = (o, s') -> scopes s sc b o s'.
Proof. intros H E. apply (enough_mono H). intros f B. rewrite (in_scope_closes f s sc b o1 s1 B). exact E. Qed.
Lemma scopes_out {s sc b out s2} : blocks (push_scope s sc) b RNil (oc out) s2 -> scopes s sc b (ONormal (val_of out)) (pop_scope s2).
Proof. intros H. exact (scopes_finish H (finish_out out s2)). Qed.

Lemma scopes_break_own {s sc b t v s2} : blocks (push_scope s sc) b RNil (OBreak t v) s2 -> t <> "" -> top_name s2 = t ->
  scopes s sc b (ONormal v) (pop_scope s2).
Proof. intros H NT TN. exact (scopes_finish H (break_own_f t v s2 NT TN)). Qed.
Lemma scopes_break_pass {s sc b t v s2} : blocks (push_scope s sc) b RNil (OBreak t v) s2 -> top_name s2 <> t ->
  scopes s sc b (OBreak t v) (pop_scope s2).
Proof. intros H TN. exact (scopes_finish H (break_pass_f t v s2 TN)). Qed.

Lemma blocks_out {s} st {rest reg o s1} : evals s (expr_of st) o s1 -> abrupt o -> blocks s (st :: rest) reg o s1.
Proof. intros H AB. apply (enough_S H). intros f E. exact (block_out E AB). Qed.
Lemma blocks_cons {s reg st s1 reg1 st2 rest o s'} :
  enough (fun f => forall rest, eval_block (S f) s (st :: rest) reg = cont f rest s1 reg1) -> blocks s1 (st2 :: rest) RNone o s' ->
  blocks s (st :: st2 :: rest) reg o s'.
Proof. intros HS HB. apply (enough_S (enough_and HS HB)). intros f [H B]. rewrite H. exact B. Qed.

(* Each equation says what one operator does at fuel S f in terms of runs at fuel f; the scope functions are those of
   some fuel F of their own, since the operator does not look at them. *)
Lemma binops_eq {s n l r} (R: nat -> outcome * sstate) {o s'} :
  (forall f, eval_binary (S f) s n l r (in_scope_f (S f)) plain_scope_f = R f) -> enough (fun f => R f = (o, s')) -> binops s n l r o s'.
Proof. intros E H. apply (enough_S H). intros f HR. rewrite E. exact HR. Qed.

Lemma eval_binary_exitwith f F s b :
  eval_binary (S f) s "exitwith" (RIf true) (RCode b) (in_scope_f F) plain_scope_f =
  match in_scope_f F s (plain_scope_f s []) b with (ONormal v, s') => (OExit v, s') | other => other end.
Proof. reflexivity. Qed.

Lemma evals_exitwith {s n l x b s1 s2 out s3} : lower n = "exitwith" -> evals s l (ONormal (RIf true)) s1 -> evals s1 x (ONormal (RCode b)) s2 ->
  blocks (enter s2 []) b RNil (oc out) s3 -> evals s (EBinary n l x) (OExit (val_of out)) (pop_scope s3).
Proof.
  intros HN HL HX HB. apply (evals_binary HL HX); [split; discriminate|split; discriminate|]. rewrite HN.
  apply (enough_pos (scopes_out (sc:=plain_scope_f s2 []) HB)). intros f H. rewrite eval_binary_exitwith, H. reflexivity.
Qed.

Lemma lazy_ref m sk f F s b : lazy_skip m = Some sk ->
  eval_binary (S f) s m (RBool (negb sk)) (RCode b) (in_scope_f F) plain_scope_f = in_scope_f F s (plain_scope_f s []) b /\
  eval_binary (S f) s m (RBool sk) (RCode b) (in_scope_f F) plain_scope_f = (ONormal (RBool sk), s).
Proof.
  unfold lazy_skip. intros H.
  destruct (String.eqb m "&&") eqn:E1; [apply String.eqb_eq in E1; subst m; inversion H; subst; split; reflexivity|].
  destruct (String.eqb m "and") eqn:E2; [apply String.eqb_eq in E2; subst m; inversion H; subst; split; reflexivity|].
  destruct (String.eqb m "||") eqn:E3; [apply String.eqb_eq in E3; subst m; inversion H; subst; split; reflexivity|].
  destruct (String.eqb m "or") eqn:E4; [apply String.eqb_eq in E4; subst m; inversion H; subst; split; reflexivity|].
  discriminate H.
Qed.

Definition handler_after (p:outcome * sstate) : outcome * sstate := let '(o2, s2) := p in finish_f o2 s2.
Definition catch_after (f:nat) (h:list stmt) (p:outcome * sstate) : outcome * sstate :=
  let '(o, s1) := p in
  match o with
  | OThrow x => handler_after (eval_block f (set_top_vars s1 [("_exception", x)]) h RNil)
  | other => finish_f other s1 end.
Lemma eval_binary_catch f F s body h :
  eval_binary (S f) s "catch" (RTry body) (RCode h) (in_scope_f F) plain_scope_f =
  catch_after f h (eval_block f (push_scope s (plain_scope_f s [])) body RNil).
Proof. reflexivity. Qed.
Lemma handler_after_out out s : handler_after (oc out, s) = (ONormal (val_of out), pop_scope s).
Proof. destruct out as [reg|v]; cbn; [destruct reg; reflexivity|reflexivity]. Qed.
Lemma handler_after_throw y s : handler_after (OThrow y, s) = (OThrow y, pop_scope s).
Proof. reflexivity. Qed.
Lemma catch_after_out f h out s : catch_after f h (oc out, s) = (ONormal (val_of out), pop_scope s).
Proof. destruct out as [reg|v]; cbn; [destruct reg; reflexivity|reflexivity]. Qed.
Lemma catch_after_throw f h x s : catch_after f h (OThrow x, s) = handler_after (eval_block f (set_top_vars s [("_exception", x)]) h RNil).
Proof. reflexivity. Qed.
Lemma binops_catch s body h o s' : enough (fun f => catch_after f h (eval_block f (enter s []) body RNil) = (o, s')) ->
  binops s "catch" (RTry body) (RCode h) o s'.
Proof. apply binops_eq. intros f. apply eval_binary_catch. Qed.

(* the iteration of eval_binary, named *)
Definition iterate_f (f:nat) :=
  fix iterate (k:nat) (s:sstate) (arr:list rvalue) (i:nat) (body:list stmt) (with_index:bool)
              (acc:rvalue) (step:rvalue -> nat -> rvalue -> rvalue -> option (bool * rvalue)) {struct k} : outcome * sstate :=
    match k with O => (OFuel, s) | S k =>
    match arr with
    | [] => (ONormal acc, s)
    | x :: rest =>
        let vars := if with_index then [("_foreachindex", RNum (Z.of_nat i)); ("_x", x)] else [("_x", x)] in
        let '(o, s1) := eval_block f (push_scope s (plain_scope_f s vars)) body (match i with O => RNil | _ => RNone end) in
        let s2 := pop_scope s1 in
        match o with
        | ONormal v => match step x i v acc with
                       | Some (true, acc') => iterate k s2 rest (S i) body with_index acc' step
                       | Some (false, acc') => (ONormal acc', s2)
                       | None => (OError, s2) end
        | OExit v => (ONormal v, s2)
        | OBreak name v => match st_scopes s1 with
                           | sc' :: _ => if String.eqb (sc_name sc') name then (ONormal v, s2) else (OBreak name v, s2)
                           | [] => (OBreak name v, s2) end
        | other => (other, s2) end end end.
Lemma eval_binary_loop_ca f F s k body arr : kca k = true ->
  eval_binary (S f) s (kname k) (RCode body) (RArr arr) (in_scope_f F) plain_scope_f =
  iterate_f f (S (length arr)) s arr O body (kwith k) (kinit k) (kstep k).
Proof. destruct k; intros H; try discriminate H; reflexivity. Qed.
Lemma eval_binary_loop_ac f F s k body arr : kca k = false ->
  eval_binary (S f) s (kname k) (RArr arr) (RCode body) (in_scope_f F) plain_scope_f =
  iterate_f f (S (length arr)) s arr O body (kwith k) (kinit k) (kstep k).
Proof. destruct k; intros H; try discriminate H; reflexivity. Qed.
Lemma kvars_iter k i x : (if kwith k then [("_foreachindex", RNum (Z.of_nat i)); ("_x", x)] else [("_x", x)]) = kvars k i x.
Proof. destruct k; reflexivity. Qed.

Lemma iterate_S k f kk s x rest i body acc :
  iterate_f f (S kk) s (x :: rest) i body (kwith k) acc (kstep k) =
  match eval_block f (enter s (kvars k i x)) body (match i with O => RNil | _ => RNone end) with
  | (ONormal v, s1) => match kstep k x i v acc with
                       | Some (true, acc') => iterate_f f kk (pop_scope s1) rest (S i) body (kwith k) acc' (kstep k)
                       | Some (false, acc') => (ONormal acc', pop_scope s1)
                       | None => (OError, pop_scope s1) end
  | (o, s1) => finish_f o s1 end.
Proof.
  cbn [iterate_f]. fold (iterate_f f). rewrite kvars_iter. change (push_scope s (plain_scope_f s (kvars k i x))) with (enter s (kvars k i x)).
  destruct (eval_block f (enter s (kvars k i x)) body _) as [[] s1]; reflexivity.
Qed.
Lemma binops_loop_ca {k s body arr o s'} : kca k = true ->
  enough (fun f => forall kk, length arr < kk -> iterate_f f kk s arr 0 body (kwith k) (kinit k) (kstep k) = (o, s')) ->
  binops s (kname k) (RCode body) (RArr arr) o s'.
Proof. intros HK H. apply (enough_S H). intros f HI. rewrite (eval_binary_loop_ca f (S f) s k body arr HK). apply HI, Nat.lt_succ_diag_r. Qed.
Lemma binops_loop_ac {k s body arr o s'} : kca k = false ->
  enough (fun f => forall kk, length arr < kk -> iterate_f f kk s arr 0 body (kwith k) (kinit k) (kstep k) = (o, s')) ->
  binops s (kname k) (RArr arr) (RCode body) o s'.
Proof. intros HK H. apply (enough_S H). intros f HI. rewrite (eval_binary_loop_ac f (S f) s k body arr HK). apply HI, Nat.lt_succ_diag_r. Qed.
Lemma iterate_none k s i body acc : enough (fun f => forall kk, length (@nil rvalue) < kk -> iterate_f f kk s [] i body (kwith k) acc (kstep k) = (ONormal acc, s)).
Proof. exists 0. intros f _ [|kk] L; [inversion L|reflexivity]. Qed.

(* the for loop of eval_binary, named *)
Definition for_loop_f (f:nat) (var:string) (to step:Z) (body:list stmt) :=
  fix loop (k:nat) (s:sstate) (x:Z) (first:bool) : outcome * sstate :=
    match k with O => (OFuel, s) | S k =>
    let '(o, s1) := eval_block f (push_scope s (plain_scope_f s [(lower var, RNum x)])) body (if first then RNil else RNone) in
    let s2 := pop_scope s1 in
    match o with
    | ONormal v0 =>
        let v := match v0 with RNone => RNil | _ => v0 end in
        match st_scopes s1 with
        | sc :: _ => match assoc (lower var) (sc_vars sc) with
                     | Some (RNum y) => let u := (y + step)%Z in
                                        if (if Z.leb 0 step then Z.ltb to u else Z.ltb u to) then (ONormal v, s2)
                                        else loop k s2 u false
                     | _ => (ONormal v, s2) end
        | [] => (ONormal v, s2) end
    | OExit v => (ONormal v, s2)
    | OBreak name v => match st_scopes s1 with
                       | sc' :: _ => if String.eqb (sc_name sc') name then (ONormal v, s2) else (OBreak name v, s2)
                       | [] => (OBreak name v, s2) end
    | other => (other, s2) end end.
Lemma eval_binary_for f F s var fr to st body :
  eval_binary (S f) s "do" (RFor var fr to st) (RCode body) (in_scope_f F) plain_scope_f =
  if for_empty fr to st then (ONormal RNil, s) else for_loop_f f var to st body f s fr true.
Proof. reflexivity. Qed.
Lemma for_set_ref m var fr to st x fr' to' st' f F s : for_set m fr to st x = Some (fr', to', st') ->
  eval_binary (S f) s m (RFor var fr to st) (RNum x) (in_scope_f F) plain_scope_f = (ONormal (RFor var fr' to' st'), s).
Proof.
  unfold for_set. intros H.
  destruct (String.eqb m "from") eqn:E1; [apply String.eqb_eq in E1; subst m; inversion H; subst; reflexivity|].
  destruct (String.eqb m "to") eqn:E2; [apply String.eqb_eq in E2; subst m; inversion H; subst; reflexivity|].
  destruct (String.eqb m "step") eqn:E3; [apply String.eqb_eq in E3; subst m; inversion H; subst; reflexivity|discriminate H].
Qed.

Lemma for_loop_round {f var} {to:Z} {st:Z} {body k s} {x:Z} {first:bool} {reg s1} {y:Z} :
  eval_block f (enter s [(lower var, RNum x)]) body (if first then RNil else RNone) = (ONormal reg, s1) ->
  top_var s1 (lower var) = Some (RNum y) ->
  for_loop_f f var to st body (S k) s x first =
  if beyond to st (y + st)%Z then (ONormal (res_of reg), pop_scope s1) else for_loop_f f var to st body k (pop_scope s1) (y + st)%Z false.
Proof.
  intros B TV. cbn [for_loop_f]. fold (for_loop_f f var to st body).
  change (push_scope s (plain_scope_f s [(lower var, RNum x)])) with (enter s [(lower var, RNum x)]). rewrite B.
  unfold top_var in TV. destruct (st_scopes s1) as [|sc scs]; [discriminate TV|]. rewrite TV. reflexivity.
Qed.
Lemma for_loop_leave {f var} {to:Z} {st:Z} {body k s} {x:Z} {first:bool} {o s1} :
  eval_block f (enter s [(lower var, RNum x)]) body (if first then RNil else RNone) = (o, s1) -> abrupt o ->
  for_loop_f f var to st body (S k) s x first = finish_f o s1.
Proof.
  intros B AB. cbn [for_loop_f]. fold (for_loop_f f var to st body).
  change (push_scope s (plain_scope_f s [(lower var, RNum x)])) with (enter s [(lower var, RNum x)]). rewrite B.
  destruct o; [destruct AB|..]; reflexivity.
Qed.

(* the while loop of eval_binary, named *)
Definition while_loop_f (f:nat) (cond body:list stmt) :=
  fix loop (k:nat) (s:sstate) (n:nat) : outcome * sstate :=
    match k with O => (OFuel, s) | S k =>
    let '(o1, s1) := eval_block f (push_scope s (plain_scope_f s [])) cond (match n with O => RNil | _ => RNone end) in
    let leave := fun (o:outcome) (s1:sstate) =>
      match o with
      | OExit v => (ONormal v, pop_scope s1)
      | OBreak name v => match st_scopes s1 with
                         | sc' :: _ => if String.eqb (sc_name sc') name then (ONormal v, pop_scope s1) else (OBreak name v, pop_scope s1)
                         | [] => (OBreak name v, pop_scope s1) end
      | other => (other, pop_scope s1) end in
    match o1 with
    | ONormal (RBool true) =>
        let '(ob, s2) := eval_block f (set_top_vars s1 []) body RNone in
        match ob with
        | ONormal v => loop k (pop_scope s2) (S n)
        | other => leave other s2 end
    | ONormal (RBool false) => (ONormal RNil, pop_scope s1)
    | ONormal RNil => (ONormal RNil, pop_scope s1)
    | ONormal _ => (OError, pop_scope s1)
    | other => leave other s1 end end.
Lemma eval_binary_while f F s st cond body :
  eval_binary (S f) s "do" (RWhile (st :: cond)) (RCode body) (in_scope_f F) plain_scope_f = while_loop_f f (st :: cond) body f s O.
Proof. reflexivity. Qed.
Lemma leaf_first_cons b : leaf_first b -> exists st rest, b = st :: rest.
Proof. intros (i & code & E & _). destruct b as [|st rest]; [discriminate E|eauto]. Qed.

Lemma while_region n : match n with O => RNil | _ => RNone end = if Nat.eqb n 0 then RNil else RNone.
Proof. destruct n; reflexivity. Qed.
Lemma while_loop_leave_cond {f cond body k s n o s1} :
  eval_block f (enter s []) cond (if Nat.eqb n 0 then RNil else RNone) = (o, s1) -> abrupt o ->
  while_loop_f f cond body (S k) s n = finish_f o s1.
Proof.
  intros C AB. cbn [while_loop_f]. fold (while_loop_f f cond body). rewrite while_region.
  change (push_scope s (plain_scope_f s [])) with (enter s []). rewrite C. destruct o; [destruct AB|..]; reflexivity.
Qed.
Lemma while_loop_stop {f cond body k s n s1} :
  eval_block f (enter s []) cond (if Nat.eqb n 0 then RNil else RNone) = (ONormal (RBool false), s1) ->
  while_loop_f f cond body (S k) s n = (ONormal RNil, pop_scope s1).
Proof.
  intros C. cbn [while_loop_f]. fold (while_loop_f f cond body). rewrite while_region.
  change (push_scope s (plain_scope_f s [])) with (enter s []). rewrite C. reflexivity.
Qed.
Lemma while_loop_body {f cond body k s n s1 ob s2} :
  eval_block f (enter s []) cond (if Nat.eqb n 0 then RNil else RNone) = (ONormal (RBool true), s1) ->
  eval_block f (set_top_vars s1 []) body RNone = (ob, s2) ->
  while_loop_f f cond body (S k) s n = match ob with ONormal _ => while_loop_f f cond body k (pop_scope s2) (S n) | o => finish_f o s2 end.
Proof.
  intros C B. cbn [while_loop_f]. fold (while_loop_f f cond body). rewrite while_region.
  change (push_scope s (plain_scope_f s [])) with (enter s []). rewrite C, B. destruct ob; reflexivity.
Qed.

(* switch in the reference semantics, named *)
Definition switch_after (f:nat) (p:outcome * sstate * swst) : outcome * sstate :=
  let '(o, s1, sw) := p in
  match o with
  | ONormal _ =>
      match sw_target sw with
      | Some (t :: ts) => let '(o2, s2) := eval_block f s1 (t :: ts) RNil in
                     let s3 := pop_scope s2 in
                     match o2 with
                     | ONormal RNone => (ONormal RNil, s3)
                     | OExit x => (ONormal x, s3)
                     | OBreak name x => match st_scopes s2 with
                                        | sc' :: _ => if String.eqb (sc_name sc') name then (ONormal x, s3) else (OBreak name x, s3)
                                        | [] => (OBreak name x, s3) end
                     | other => (other, s3) end
      | _ => (ONormal RNil, pop_scope s1) end
  | other => (other, pop_scope s1) end.
Lemma eval_binary_switch f F s v body :
  eval_binary (S f) s "do" (RSwitch v) (RCode body) (in_scope_f F) plain_scope_f =
  switch_after f (eval_switch_body f (push_scope s (plain_scope_f s [])) body (sw_start v)).
Proof. reflexivity. Qed.

Lemma switch_S_label {f s n x rest sw v s1} : lower n = "case" -> eval f s x = (ONormal v, s1) ->
  eval_switch_body (S f) s (SExpr (EUnary n x) :: rest) sw = eval_switch_body f s1 rest (sw_see sw v).
Proof. intros HN E. cbn [eval_switch_body]. rewrite HN, E. reflexivity. Qed.
Lemma switch_S_case {f s c k x blk rest sw v s1} : lower c = ":" -> lower k = "case" -> eval f s x = (ONormal v, s1) ->
  eval_switch_body (S f) s (SExpr (EBinary c (EUnary k x) (ECode blk)) :: rest) sw =
  if andb (negb (sw_has sw)) (sw_now (sw_see sw v)) then (ONormal RNil, s1, sw_hit sw blk) else eval_switch_body f s1 rest (sw_see sw v).
Proof. intros HC HK E. cbn [eval_switch_body]. rewrite HC, HK, E. reflexivity. Qed.
Lemma switch_S_default {f s n blk rest sw} : lower n = "default" ->
  eval_switch_body (S f) s (SExpr (EUnary n (ECode blk)) :: rest) sw = eval_switch_body f s rest (sw_dflt sw blk).
Proof. intros HN. cbn [eval_switch_body]. rewrite HN. reflexivity. Qed.

Lemma switch_body_ref s body sw sw' : zswitch s body sw sw' ->
  exists f0, forall f, f0 <= f -> eval_switch_body f s body sw = (ONormal RNil, s, sw').
Proof.
  induction 1 as [sw|n x v st2 rest0 sw sw' HN HX HR IH|cc k x blk v rest0 sw sw' HC HK HX HD HR IH|cc k x blk v rest0 sw HC HK HX HD|n blk rest0 sw sw' HN HR IH].
  - apply enough_now. reflexivity.
  - apply (enough_S (enough_and (evals_pure HX) IH)). intros f [E H]. rewrite (switch_S_label HN E). exact H.
  - apply (enough_S (enough_and (evals_pure HX) IH)). intros f [E H]. rewrite (switch_S_case HC HK E), HD. exact H.
  - apply (enough_S (evals_pure HX)). intros f E. rewrite (switch_S_case HC HK E), HD. reflexivity.
  - apply (enough_S IH). intros f H. rewrite (switch_S_default HN). exact H.
Qed.

Lemma switch_target {f s1 sw t ts o2 s2} : sw_target sw = Some (t :: ts) -> eval_block f s1 (t :: ts) RNil = (o2, s2) ->
  switch_after f (ONormal RNil, s1, sw) = finish_f o2 s2.
Proof. intros HT B. cbn [switch_after]. rewrite HT, B. reflexivity. Qed.

Lemma binops_switch {s v body sw t ts o2 s4 o s'} : zswitch (enter s []) body (sw_start v) sw -> sw_target sw = Some (t :: ts) ->
  blocks (enter s []) (t :: ts) RNil o2 s4 -> finish_f o2 s4 = (o, s') -> binops s "do" (RSwitch v) (RCode body) o s'.
Proof.
  intros HW HT HB E.
  apply (binops_eq (fun f => switch_after f (eval_switch_body f (enter s []) body (sw_start v)))); [intros f; apply eval_binary_switch|].
  apply (enough_mono (enough_and (switch_body_ref _ _ _ _ HW) HB)). intros f [W B]. rewrite W, (switch_target HT B). exact E.
Qed.

(* an operand that is visibly a value other than nil / nothing *)
Ltac is_value := split; discriminate.

Theorem ref_runs_z :
  (forall s e v s', zev s e v s' -> exists f0, forall f, f0 <= f -> eval f s e = (ONormal v, s')) /\
  (forall s l vs s', zevs s l vs s' -> exists f0, forall f, f0 <= f -> forall acc, go_arr f s l acc = (ONormal (RArr (rev acc ++ vs)), s')) /\
  (forall s reg st reg1 s1, zstmt s reg st reg1 s1 -> exists f0, forall f, f0 <= f -> forall rest,
      eval_block (S f) s (st :: rest) reg = cont f rest s1 reg1) /\
  (forall s reg b out s', zblock s reg b out s' -> exists f0, forall f, f0 <= f -> eval_block f s b reg = (oc out, s')) /\
  (forall k s arr i body acc acc' s', ziter k s arr i body acc acc' s' -> exists f0, forall f, f0 <= f -> forall kk, length arr < kk ->
      iterate_f f kk s arr i body (kwith k) acc (kstep k) = (ONormal acc', s')) /\
  (forall var to st s x first body acc s', zfor var to st s x first body acc s' -> exists f0 k0, forall f, f0 <= f -> forall k, k0 <= k ->
      for_loop_f f var to st body k s x first = (ONormal acc, s')) /\
  (forall cond body s first v s', zwhile cond body s first v s' -> exists f0 k0, forall f, f0 <= f -> forall k, k0 <= k -> forall n, first = Nat.eqb n 0 ->
      while_loop_f f cond body k s n = (ONormal v, s')) /\
  (forall s reg b x s', zthrow s reg b x s' -> exists f0, forall f, f0 <= f -> eval_block f s b reg = (OThrow x, s')) /\
  (forall s reg b t v s', zbreak s reg b t v s' -> exists f0, forall f, f0 <= f -> eval_block f s b reg = (OBreak t v, s')) /\
  (forall s e a s', zloopleave s e a s' -> exists f0, forall f, f0 <= f -> eval f s e = (oa a, s')) /\
  (forall k s arr i body acc a s', zileave k s arr i body acc a s' -> exists f0, forall f, f0 <= f -> forall kk, length arr < kk ->
      iterate_f f kk s arr i body (kwith k) acc (kstep k) = (oa a, s')) /\
  (forall var to st s x first body a s', zfleave var to st s x first body a s' -> exists f0 k0, forall f, f0 <= f -> forall k, k0 <= k ->
      for_loop_f f var to st body k s x first = (oa a, s')) /\
  (forall cond body s first a s', zwleave cond body s first a s' -> exists f0 k0, forall f, f0 <= f -> forall k, k0 <= k -> forall n, first = Nat.eqb n 0 ->
      while_loop_f f cond body k s n = (oa a, s')) /\
  (forall s vars b a s', zscopeleave s vars b a s' -> exists f0, forall f, f0 <= f -> in_scope_f f s (plain_scope_f s vars) b = (oa a, s')) /\
  (forall s l a s', zelemsleave s l a s' -> exists f0, forall f, f0 <= f -> forall acc, go_arr f s l acc = (oa a, s')) /\
  (forall s e v s', zexexit s e v s' -> exists f0, forall f, f0 <= f -> eval f s e = (OExit v, s')) /\
  (forall s l v s', zelemsexit s l v s' -> exists f0, forall f, f0 <= f -> forall acc, go_arr f s l acc = (OExit v, s')).
Proof.
  apply z_ind.
  - (* pure *) intros s e v HE. exact (evals_pure HE).
  - (* local *) intros s n v IL HH HL NN. apply enough_now. intros f. exact (eval_var_local IL HL).
  - (* global *) intros s n v IL HL NN. apply enough_now. intros f. exact (eval_var_global IL HL).
  - (* code *) intros s b. apply enough_now. reflexivity.
  - (* array *) intros s l vs s' HL IH. apply (enough_S IH). intros f H. rewrite eval_S_arr. apply H.
  - (* pure unary *) intros s n a va v s1 NL HA IH HU.
    exact (evals_unary NL IH (pure_unary_arg _ _ _ HU) (unops_pure HU)).
  - (* pure binary *) intros s n a b va vb v s1 s2 HA IHa HB IHb HP. destruct (pure_binary_args _ _ _ _ HP) as [NA NB].
    exact (evals_binary IHa IHb NA NB (binops_pure HP)).
  - (* call {..} *) intros s n a b s1 out s2 HN NL HA IHa HB IHb.
    apply (evals_unary NL IHa); [is_value|]. rewrite HN.
    apply (unops_scope (plain_scope_f s1 [("_this", this_of s1)]) b); [reflexivity|]. exact (scopes_out IHb).
  - (* x call {..} *) intros s n a x va b s1 s2 out s3 HN HA IHa NNa HX IHx HB IHb.
    apply (evals_binary IHa IHx NNa); [is_value|]. rewrite HN.
    apply (binops_scope (plain_scope_f s2 [("_this", va)]) b); [reflexivity|]. exact (scopes_out IHb).
  - (* if *) intros s n a c s1 HN NL HA IHa. apply (evals_unary NL IHa); [is_value|]. rewrite HN. apply enough_now. reflexivity.
  - (* else *) intros s n a b x y s1 s2 HN HA IHa HB IHb.
    apply (evals_binary IHa IHb); [is_value|is_value|]. rewrite HN. apply enough_now. reflexivity.
  - (* if false then *) intros s n a b x s1 s2 HN HA IHa HB IHb.
    apply (evals_binary IHa IHb); [is_value|is_value|]. rewrite HN. apply enough_now. reflexivity.
  - (* if true then *) intros s n a b x s1 s2 out s3 HN HA IHa HB IHb HX IHx.
    apply (evals_binary IHa IHb); [is_value|is_value|]. rewrite HN.
    apply (binops_scope (plain_scope_f s2 []) x); [reflexivity|]. exact (scopes_out IHx).
  - (* if then else *) intros s n a b c x y s1 s2 out s3 HN HA IHa HB IHb HX IHx.
    apply (evals_binary IHa IHb); [is_value|is_value|]. rewrite HN.
    apply (binops_scope (plain_scope_f s2 []) (if c then x else y)); [reflexivity|]. exact (scopes_out IHx).
  - (* if false exitWith *) intros s n a b x s1 s2 HN HA IHa HB IHb.
    apply (evals_binary IHa IHb); [is_value|is_value|]. rewrite HN. apply enough_now. reflexivity.
  - (* forEach / count [] *) intros s n a x body k s1 s2 HN HK HA IHa HX IHx.
    apply (evals_binary IHa IHx); [is_value|is_value|]. rewrite <- HN. exact (binops_loop_ca HK (iterate_none k s2 0 body _)).
  - (* [] apply / select / findIf *) intros s n a x body k s1 s2 HN HK HA IHa HX IHx.
    apply (evals_binary IHa IHx); [is_value|is_value|]. rewrite <- HN. exact (binops_loop_ac HK (iterate_none k s2 0 body _)).
  - (* forEach / count *) intros s n a x body x0 arr k s1 s2 acc s3 HN HK LF HA IHa HX IHx HI IHi.
    apply (evals_binary IHa IHx); [is_value|is_value|]. rewrite <- HN. exact (binops_loop_ca HK IHi).
  - (* apply / select / findIf *) intros s n a x body x0 arr k s1 s2 acc s3 HN HK LF HA IHa HX IHx HI IHi.
    apply (evals_binary IHa IHx); [is_value|is_value|]. rewrite <- HN. exact (binops_loop_ac HK IHi).
  - (* lazy operator, right side not needed *) intros s n a b x sk s1 s2 HN HA IHa HB IHb.
    apply (evals_binary IHa IHb); [is_value|is_value|]. apply enough_now. intros f. exact (proj2 (lazy_ref _ sk f (S f) s2 x HN)).
  - (* lazy operator, right side evaluated *) intros s n a b x sk s1 s2 out s3 HN HA IHa HB IHb HX IHx.
    apply (evals_binary IHa IHb); [is_value|is_value|].
    apply (binops_scope (plain_scope_f s2 []) x); [intros f; exact (proj1 (lazy_ref _ sk f (S f) s2 x HN))|]. exact (scopes_out IHx).
  - (* for "_i" *) intros s n a var s1 HN NL HA IHa. apply (evals_unary NL IHa); [is_value|]. rewrite HN. apply enough_now. reflexivity.
  - (* from / to / step *) intros s n a b var fr to st x fr' to' st' s1 s2 HN HA IHa HB IHb.
    apply (evals_binary IHa IHb); [is_value|is_value|]. apply enough_now. intros f. exact (for_set_ref _ var fr to st x fr' to' st' f (S f) s2 HN).
  - (* for over an empty range *) intros s n a b var fr to st body s1 s2 HN HA IHa HB IHb HE.
    apply (evals_binary IHa IHb); [is_value|is_value|]. rewrite HN. apply enough_now. intros f. rewrite eval_binary_for, HE. reflexivity.
  - (* for *) intros s n a b var fr to st body s1 s2 acc s3 HN HA IHa HB IHb HE LF HI IHi.
    apply (evals_binary IHa IHb); [is_value|is_value|]. rewrite HN.
    apply (binops_eq (fun f => for_loop_f f var to st body f s2 fr true)); [intros f; rewrite eval_binary_for, HE; reflexivity|].
    exact (enough2_diag IHi).
  - (* while {..} *) intros s n a cond s1 HN NL HA IHa. apply (evals_unary NL IHa); [is_value|]. rewrite HN. apply enough_now. reflexivity.
  - (* while {..} do {..} *) intros s n a b cond body s1 s2 v s3 HN HA IHa HB IHb LFc LFb HW IHw.
    apply (evals_binary IHa IHb); [is_value|is_value|]. rewrite HN. destruct (leaf_first_cons _ LFc) as (st & crest & ->).
    apply (binops_eq (fun f => while_loop_f f (st :: crest) body f s2 0)); [intros f; apply eval_binary_while|].
    apply (enough_mono (enough2_diag IHw)). intros f H. exact (H 0 eq_refl).
  - (* diag_log *) intros s n a va t s1 HN NL HA IHa NNa HS. apply (evals_unary NL IHa NNa). rewrite HN.
    apply enough_now. intros f. unfold eval_unary. cbn [String.eqb Ascii.eqb Bool.eqb]. rewrite HS. reflexivity.
  - (* missionNamespace, uiNamespace *) intros s n ns HN. apply enough_now. intros f. cbn [eval]. unfold ns_nular in HN.
    destruct (String.eqb (lower n) "nil") eqn:E0. { apply String.eqb_eq in E0. rewrite E0 in HN. discriminate HN. }
    destruct (String.eqb (lower n) "missionnamespace"); [inversion HN; reflexivity|].
    destruct (String.eqb (lower n) "uinamespace"); [inversion HN; reflexivity|discriminate HN].
  - (* with ns *) intros s n a ns s1 HN NL HA IHa. apply (evals_unary NL IHa); [is_value|]. rewrite HN. apply enough_now. reflexivity.
  - (* with ns do {..} *) intros s n a b ns body s1 s2 out s3 HN HA IHa HB IHb HX IHx.
    apply (evals_binary IHa IHb); [is_value|is_value|]. rewrite HN.
    apply (binops_scope (mk_scope ns []) body); [reflexivity|]. exact (scopes_out IHx).
  - (* getVariable, bound *) intros s n a b ns x s1 s2 v HN HA IHa HB IHb HG NV.
    apply (evals_binary IHa IHb); [is_value|is_value|]. rewrite HN.
    apply enough_now. intros f. unfold eval_binary. cbn [String.eqb Ascii.eqb Bool.eqb]. rewrite HG. reflexivity.
  - (* getVariable, not bound *) intros s n a b ns x s1 s2 HN HA IHa HB IHb HG.
    apply (evals_binary IHa IHb); [is_value|is_value|]. rewrite HN.
    apply enough_now. intros f. unfold eval_binary. cbn [String.eqb Ascii.eqb Bool.eqb]. rewrite HG. reflexivity.
  - (* setVariable *) intros s n a b ns x v s1 s2 HN HA IHa HB IHb.
    apply (evals_binary IHa IHb); [is_value|is_value|]. rewrite HN. apply enough_now. reflexivity.
  - (* private "x" *) intros s n a x s1 HN NL HA IHa HH. apply (evals_unary NL IHa); [is_value|]. rewrite HN. apply enough_now. reflexivity.
  - (* try {..} *) intros s n a b s1 HN NL HA IHa. apply (evals_unary NL IHa); [is_value|]. rewrite HN. apply enough_now. reflexivity.
  - (* try {..} catch {..}, no throw *) intros s n a b body h s1 s2 out s3 HN HA IHa HB IHb HX IHx.
    apply (evals_binary IHa IHb); [is_value|is_value|]. rewrite HN. apply binops_catch.
    apply (enough_mono IHx). intros f B. rewrite B. apply catch_after_out.
  - (* try {.. throw ..} catch {..} *) intros s n a b body h s1 s2 x s3 out s4 HN HA IHa HB IHb HX IHx HH IHh.
    apply (evals_binary IHa IHb); [is_value|is_value|]. rewrite HN. apply binops_catch.
    apply (enough_mono (enough_and IHx IHh)). intros f [B H]. rewrite B, catch_after_throw, H. apply handler_after_out.
  - (* scopeName "t" *) intros s n a t s1 sc scs HN NL HA IHa ES EN. apply (evals_unary NL IHa); [is_value|]. rewrite HN.
    apply enough_now. intros f. unfold eval_unary. cbn [String.eqb Ascii.eqb Bool.eqb]. rewrite ES, EN. reflexivity.
  - (* call {.. breakOut own name ..} *) intros s n a b s1 t v s2 HN NL HA IHa HK IHk TN.
    apply (evals_unary NL IHa); [is_value|]. rewrite HN.
    apply (unops_scope (plain_scope_f s1 [("_this", this_of s1)]) b); [reflexivity|].
    exact (scopes_break_own IHk (proj1 (zbreak_facts _ _ _ _ _ _ HK)) TN).
  - (* if true then {.. breakOut own name ..} *) intros s n a b blk s1 s2 t v s3 HN HA IHa HB IHb HK IHk TN.
    apply (evals_binary IHa IHb); [is_value|is_value|]. rewrite HN.
    apply (binops_scope (plain_scope_f s2 []) blk); [reflexivity|].
    exact (scopes_break_own IHk (proj1 (zbreak_facts _ _ _ _ _ _ HK)) TN).
  - (* if c then {..} else {..}, own name *) intros s n a b c x0 y0 s1 s2 t v s3 HN HA IHa HB IHb HK IHk TN.
    apply (evals_binary IHa IHb); [is_value|is_value|]. rewrite HN.
    apply (binops_scope (plain_scope_f s2 []) (if c then x0 else y0)); [reflexivity|].
    exact (scopes_break_own IHk (proj1 (zbreak_facts _ _ _ _ _ _ HK)) TN).
  - (* switch v *) intros s n a v s1 HN NL HA IHa NNv. apply (evals_unary NL IHa NNv). rewrite HN. apply enough_now. reflexivity.
  - (* switch v do {..}, no block chosen *) intros s n a b v body s1 s2 sw HN HA IHa HB IHb HW HT.
    apply (evals_binary IHa IHb); [is_value|is_value|]. rewrite HN.
    apply (binops_eq (fun f => switch_after f (eval_switch_body f (enter s2 []) body (sw_start v)))); [intros f; apply eval_binary_switch|].
    apply (enough_mono (switch_body_ref _ _ _ _ HW)). intros f W. rewrite W. cbn [switch_after]. rewrite pop_enter.
    destruct HT as [-> | ->]; reflexivity.
  - (* switch v do {..}, the chosen block runs *) intros s n a b v body s1 s2 sw t ts reg s4 HN HA IHa HB IHb HW HT LF HK IHk.
    apply (evals_binary IHa IHb); [is_value|is_value|]. rewrite HN.
    exact (binops_switch HW HT IHk (finish_out (BNorm reg) s4)).
  - (* switch v do {..}, the chosen block is left by exitWith *) intros s n a b v body s1 s2 sw t ts x s4 HN HA IHa HB IHb HW HT LF HK IHk.
    apply (evals_binary IHa IHb); [is_value|is_value|]. rewrite HN.
    exact (binops_switch HW HT IHk (finish_out (BExit x) s4)).
  - (* switch v do {..}, the chosen block breaks out of the switch's own scope *) intros s n a b v body s1 s2 sw t ts t0 x s4 HN HA IHa HB IHb HW HT LF HK IHk TN.
    apply (evals_binary IHa IHb); [is_value|is_value|]. rewrite HN.
    exact (binops_switch HW HT IHk (break_own_f t0 x s4 (proj1 (zbreak_facts _ _ _ _ _ _ HK)) TN)).
  - (* no elements *) intros s. exists 0. intros f _ acc. cbn [go_arr]. rewrite app_nil_r. reflexivity.
  - (* elements *) intros s e v s1 l vs s2 HE IHe NN HL IHl. apply (enough_mono (enough_and IHe IHl)). intros f [E H] acc.
    rewrite (go_arr_ok E (proj2 NN)), H. cbn [rev]. rewrite <- app_assoc. reflexivity.
  - (* expression statement *) intros s reg e v s1 HE IHe. apply (enough_mono IHe). intros f E rest.
    exact (block_expr E (zev_not_none _ _ _ _ HE)).
  - (* assignment *) intros s reg n e v s1 NN HH HE IHe NV. apply (enough_mono IHe). intros f E rest.
    exact (block_assign E (proj2 NV)).
  - (* private *) intros s reg n e v s1 NN HE IHe NV. apply (enough_mono IHe). intros f E rest.
    exact (block_local E (proj2 NV)).
  - (* empty block *) intros s reg. apply enough_now. reflexivity.
  - (* last statement *) intros s reg st reg1 s1 HS IHs. apply (enough_S IHs). intros f H. apply H.
  - (* statement; block *) intros s reg st reg1 s1 st2 rest out s' HS IHs HB IHb. exact (blocks_cons IHs IHb).
  - (* exitWith *) intros s reg n l x b s1 s2 out s3 rest HN HL IHl HX IHx HB IHb.
    exact (blocks_out (SExpr (EBinary n l x)) (evals_exitwith HN IHl IHx IHb) I).
  - (* expression left by exitWith *) intros s reg e v s1 rest HX IHx. exact (blocks_out (SExpr e) IHx I).
  - (* x = e left by exitWith *) intros s reg n e v s1 rest HX IHx. exact (blocks_out (SAssign n e) IHx I).
  - (* private _x = e left by exitWith *) intros s reg n e v s1 rest HX IHx. exact (blocks_out (SLocal n e) IHx I).
  - (* no more rounds *) intros k s i body acc. apply iterate_none.
  - (* a round, then the rest *) intros k s x rest0 i body acc reg s1 acc1 acc' s' HB IHb KS KO HI IHi.
    apply (enough_mono (enough_and IHb IHi)). intros f [B H] [|kk] LK; [inversion LK|].
    rewrite iterate_S, B. cbn [oc]. rewrite KS. apply H. cbn [length] in LK. lia.
  - (* a round after which the loop stops *) intros k s x rest0 i body acc reg s1 acc1 HB IHb KS KO.
    apply (enough_mono IHb). intros f B [|kk] LK; [inversion LK|]. rewrite iterate_S, B. cbn [oc]. rewrite KS. reflexivity.
  - (* a round left by exitWith *) intros k s x rest0 i body acc v s1 HB IHb.
    apply (enough_mono IHb). intros f B [|kk] LK; [inversion LK|]. rewrite iterate_S, B. reflexivity.
  - (* a round left by breakOut to its own name *) intros k s x rest0 i body acc t v s1 HK IHk TN.
    apply (enough_mono IHk). intros f B [|kk] LK; [inversion LK|]. rewrite iterate_S, B.
    exact (break_own_f t v s1 (proj1 (zbreak_facts _ _ _ _ _ _ HK)) TN).
  - (* a round of for, then the rest *) intros var to st s x first body reg s1 y acc' s' HB IHb HV TV BY HI IHi.
    apply (enough2_round IHb IHi). intros f k B H. rewrite (for_loop_round B TV), BY. exact H.
  - (* the last round of for *) intros var to st s x first body reg s1 y HB IHb HV TV BY.
    apply (enough2_last IHb). intros f k B. rewrite (for_loop_round B TV), BY. reflexivity.
  - (* a round of for left by exitWith *) intros var to st s x first body v s1 HB IHb.
    apply (enough2_last IHb). intros f k B. exact (for_loop_leave B I).
  - (* a round of for left by breakOut to its own name *) intros var to st s x first body t v s1 HK IHk TN.
    apply (enough2_last IHk). intros f k B. rewrite (for_loop_leave B I).
    exact (break_own_f t v s1 (proj1 (zbreak_facts _ _ _ _ _ _ HK)) TN).
  - (* while: the condition comes out false *) intros cond body s first s1 HC IHc.
    apply (enough2_last IHc). intros f k C n ->. exact (while_loop_stop C).
  - (* while: a round, then the rest *) intros cond body s first s1 reg s2 v s' HC IHc HB IHb HW IHw.
    apply (enough2_round (enough_and IHc IHb) IHw). intros f k [C B] H n ->.
    rewrite (while_loop_body C B). exact (H (S n) eq_refl).
  - (* while: the condition is left by exitWith *) intros cond body s first v s1 HC IHc.
    apply (enough2_last IHc). intros f k C n ->. exact (while_loop_leave_cond C I).
  - (* while: the body is left by exitWith *) intros cond body s first s1 v s2 HC IHc HB IHb.
    apply (enough2_last (enough_and IHc IHb)). intros f k [C B] n ->. exact (while_loop_body C B).
  - (* while: the condition is left by breakOut to the loop's own name *) intros cond body s first t v s1 HK IHk TN.
    apply (enough2_last IHk). intros f k C n ->. rewrite (while_loop_leave_cond C I).
    exact (break_own_f t v s1 (proj1 (zbreak_facts _ _ _ _ _ _ HK)) TN).
  - (* while: the body is left by breakOut to the loop's own name *) intros cond body s first s1 t v s2 HC IHc HK IHk TN.
    apply (enough2_last (enough_and IHc IHk)). intros f k [C B] n ->. rewrite (while_loop_body C B).
    exact (break_own_f t v s2 (proj1 (zbreak_facts _ _ _ _ _ _ HK)) TN).
  - (* throw: a statement, then the rest *) intros s reg st reg1 s1 st2 rest x s' HS IHs HT IHt. exact (blocks_cons IHs IHt).
  - (* throw v *) intros s reg n e v s1 rest HN NL HE IHe NNv. apply (blocks_out (SExpr (EUnary n e))); [|exact I].
    apply (evals_unary NL IHe NNv). rewrite HN. apply enough_now. reflexivity.
  - (* if true throw v *) intros s reg n a b v s1 s2 rest HN HA IHa HB IHb NNv. apply (blocks_out (SExpr (EBinary n a b))); [|exact I].
    apply (evals_binary IHa IHb); [is_value|exact NNv|]. rewrite HN. apply enough_now. reflexivity.
  - (* call {.. throw ..} *) intros s reg n a b s1 x s2 rest HN NL HA IHa HT IHt. apply (blocks_out (SExpr (EUnary n a))); [|exact I].
    apply (evals_unary NL IHa); [is_value|]. rewrite HN.
    apply (unops_scope (plain_scope_f s1 [("_this", this_of s1)]) b); [reflexivity|]. exact (scopes_finish IHt eq_refl).
  - (* if true then {.. throw ..} *) intros s reg n a b blk s1 s2 x s3 rest HN HA IHa HB IHb HT IHt. apply (blocks_out (SExpr (EBinary n a b))); [|exact I].
    apply (evals_binary IHa IHb); [is_value|is_value|]. rewrite HN.
    apply (binops_scope (plain_scope_f s2 []) blk); [reflexivity|]. exact (scopes_finish IHt eq_refl).
  - (* if c then {..} else {..}, the chosen block throws *) intros s reg n a b c x0 y0 s1 s2 x s3 rest HN HA IHa HB IHb HT IHt.
    apply (blocks_out (SExpr (EBinary n a b))); [|exact I].
    apply (evals_binary IHa IHb); [is_value|is_value|]. rewrite HN.
    apply (binops_scope (plain_scope_f s2 []) (if c then x0 else y0)); [reflexivity|]. exact (scopes_finish IHt eq_refl).
  - (* try {.. throw ..} catch {.. throw ..} *) intros s reg n a b body h s1 s2 x s3 y s4 rest HN HA IHa HB IHb HX IHx HY IHy.
    apply (blocks_out (SExpr (EBinary n a b))); [|exact I].
    apply (evals_binary IHa IHb); [is_value|is_value|]. rewrite HN. apply binops_catch.
    apply (enough_mono (enough_and IHx IHy)). intros f [B H]. rewrite B, catch_after_throw, H. apply handler_after_throw.
  - (* a loop standing as a statement is left by a throw *) intros s reg e y s3 rest HL IHl. exact (blocks_out (SExpr e) IHl I).
  - (* x = e left by a throw *) intros s reg n e y s3 rest HL IHl. exact (blocks_out (SAssign n e) IHl I).
  - (* private _x = e left by a throw *) intros s reg n e y s3 rest HL IHl. exact (blocks_out (SLocal n e) IHl I).
  - (* breakOut: a statement, then the rest *) intros s reg st reg1 s1 st2 rest t v s' HS IHs HK IHk. exact (blocks_cons IHs IHk).
  - (* breakOut "t" *) intros s reg n e t s1 rest HN NL HE IHe NT. apply (blocks_out (SExpr (EUnary n e))); [|exact I].
    apply (evals_unary NL IHe); [is_value|]. rewrite HN. apply enough_now. reflexivity.
  - (* v breakOut "t" *) intros s reg n a b v t s1 s2 rest HN HA IHa NNv HB IHb NT. apply (blocks_out (SExpr (EBinary n a b))); [|exact I].
    apply (evals_binary IHa IHb NNv); [is_value|]. rewrite HN. apply enough_now. reflexivity.
  - (* call {.. breakOut ..}, passing through *) intros s reg n a b s1 t v s2 rest HN NL HA IHa HK IHk TN. apply (blocks_out (SExpr (EUnary n a))); [|exact I].
    apply (evals_unary NL IHa); [is_value|]. rewrite HN.
    apply (unops_scope (plain_scope_f s1 [("_this", this_of s1)]) b); [reflexivity|]. exact (scopes_break_pass IHk TN).
  - (* if true then {.. breakOut ..}, passing through *) intros s reg n a b blk s1 s2 t v s3 rest HN HA IHa HB IHb HK IHk TN.
    apply (blocks_out (SExpr (EBinary n a b))); [|exact I].
    apply (evals_binary IHa IHb); [is_value|is_value|]. rewrite HN.
    apply (binops_scope (plain_scope_f s2 []) blk); [reflexivity|]. exact (scopes_break_pass IHk TN).
  - (* if c then {..} else {..}, passing through *) intros s reg n a b c x0 y0 s1 s2 t v s3 rest HN HA IHa HB IHb HK IHk TN.
    apply (blocks_out (SExpr (EBinary n a b))); [|exact I].
    apply (evals_binary IHa IHb); [is_value|is_value|]. rewrite HN.
    apply (binops_scope (plain_scope_f s2 []) (if c then x0 else y0)); [reflexivity|]. exact (scopes_break_pass IHk TN).
  - (* a loop standing as a statement is left by breakOut *) intros s reg e t v s3 rest HL IHl. exact (blocks_out (SExpr e) IHl I).
  - (* x = e left by breakOut *) intros s reg n e t v s3 rest HL IHl. exact (blocks_out (SAssign n e) IHl I).
  - (* private _x = e left by breakOut *) intros s reg n e t v s3 rest HL IHl. exact (blocks_out (SLocal n e) IHl I).
  - (* forEach / count is left *) intros s n a x body x0 arr k s1 s2 ab s3 HN HK LF HA IHa HX IHx HI IHi.
    apply (evals_binary IHa IHx); [is_value|is_value|]. rewrite <- HN. exact (binops_loop_ca HK IHi).
  - (* apply / select / findIf is left *) intros s n a x body x0 arr k s1 s2 ab s3 HN HK LF HA IHa HX IHx HI IHi.
    apply (evals_binary IHa IHx); [is_value|is_value|]. rewrite <- HN. exact (binops_loop_ac HK IHi).
  - (* for is left *) intros s n a b var fr to st body s1 s2 ab s3 HN HA IHa HB IHb HE LF HI IHi.
    apply (evals_binary IHa IHb); [is_value|is_value|]. rewrite HN.
    apply (binops_eq (fun f => for_loop_f f var to st body f s2 fr true)); [intros f; rewrite eval_binary_for, HE; reflexivity|].
    exact (enough2_diag IHi).
  - (* while is left *) intros s n a b cond body s1 s2 ab s3 HN HA IHa HB IHb LFc LFb HW IHw.
    apply (evals_binary IHa IHb); [is_value|is_value|]. rewrite HN. destruct (leaf_first_cons _ LFc) as (st & crest & ->).
    apply (binops_eq (fun f => while_loop_f f (st :: crest) body f s2 0)); [intros f; apply eval_binary_while|].
    apply (enough_mono (enough2_diag IHw)). intros f H. exact (H 0 eq_refl).
  - (* switch is left by a throw *) intros s n a b v body s1 s2 sw t ts y s4 HN HA IHa HB IHb HW HT LF HK IHk.
    apply (evals_binary IHa IHb); [is_value|is_value|]. rewrite HN.
    exact (binops_switch HW HT IHk eq_refl).
  - (* switch is left by breakOut *) intros s n a b v body s1 s2 sw t ts t0 x s4 HN HA IHa HB IHb HW HT LF HK IHk TN.
    apply (evals_binary IHa IHb); [is_value|is_value|]. rewrite HN.
    exact (binops_switch HW HT IHk (break_pass_f t0 x s4 TN)).
  - (* operand of a unary operator *) intros s n a ab s1 NL HL IHl. exact (evals_unary_out NL IHl (abrupt_oa ab)).
  - (* left operand *) intros s n a b ab s1 HL IHl. exact (evals_binary_left IHl (abrupt_oa ab)).
  - (* right operand, breakOut *) intros s n a b va t v s1 s2 HA IHa HL IHl. exact (evals_binary_right IHa IHl I).
  - (* array *) intros s l ab s1 HL IHl. apply (enough_S IHl). intros f H. rewrite eval_S_arr. apply H.
  - (* call {..} *) intros s n a b s1 ab s2 HN NL HA IHa HS IHs.
    apply (evals_unary NL IHa); [is_value|]. rewrite HN.
    apply (unops_scope (plain_scope_f s1 [("_this", this_of s1)]) b); [reflexivity|exact IHs].
  - (* x call {..} *) intros s n a x va b s1 s2 ab s3 HN HA IHa NNa HX IHx HS IHs.
    apply (evals_binary IHa IHx NNa); [is_value|]. rewrite HN.
    apply (binops_scope (plain_scope_f s2 [("_this", va)]) b); [reflexivity|exact IHs].
  - (* if true then {..} *) intros s n a b blk s1 s2 ab s3 HN HA IHa HB IHb HS IHs.
    apply (evals_binary IHa IHb); [is_value|is_value|]. rewrite HN.
    apply (binops_scope (plain_scope_f s2 []) blk); [reflexivity|exact IHs].
  - (* if c then {..} else {..} *) intros s n a b c x0 y0 s1 s2 ab s3 HN HA IHa HB IHb HS IHs.
    apply (evals_binary IHa IHb); [is_value|is_value|]. rewrite HN.
    apply (binops_scope (plain_scope_f s2 []) (if c then x0 else y0)); [reflexivity|exact IHs].
  - (* loop over an array: a round, then the rest *) intros k s x rest0 i body acc reg s1 acc1 ab s' HB IHb KS KO HI IHi.
    apply (enough_mono (enough_and IHb IHi)). intros f [B H] [|kk] LK; [inversion LK|].
    rewrite iterate_S, B. cbn [oc]. rewrite KS. apply H. cbn [length] in LK. lia.
  - (* loop over an array: the round is left by a throw *) intros k s x rest0 i body acc y s1 HT IHt.
    apply (enough_mono IHt). intros f B [|kk] LK; [inversion LK|]. rewrite iterate_S, B. reflexivity.
  - (* loop over an array: the round is left by breakOut *) intros k s x rest0 i body acc t v s1 HK IHk TN.
    apply (enough_mono IHk). intros f B [|kk] LK; [inversion LK|]. rewrite iterate_S, B. exact (break_pass_f t v s1 TN).
  - (* for: a round, then the rest *) intros var to st s x first body reg s1 y ab s' HB IHb HV TV BY HI IHi.
    apply (enough2_round IHb IHi). intros f k B H. rewrite (for_loop_round B TV), BY. exact H.
  - (* for: the round is left by a throw *) intros var to st s x first body y s1 HT IHt.
    apply (enough2_last IHt). intros f k B. exact (for_loop_leave B I).
  - (* for: the round is left by breakOut *) intros var to st s x first body t v s1 HK IHk TN.
    apply (enough2_last IHk). intros f k B. rewrite (for_loop_leave B I). exact (break_pass_f t v s1 TN).
  - (* while: a round, then the rest *) intros cond body s first s1 reg s2 ab s' HC IHc HB IHb HW IHw.
    apply (enough2_round (enough_and IHc IHb) IHw). intros f k [C B] H n ->.
    rewrite (while_loop_body C B). exact (H (S n) eq_refl).
  - (* while: the condition is left by a throw *) intros cond body s first y s1 HT IHt.
    apply (enough2_last IHt). intros f k C n ->. exact (while_loop_leave_cond C I).
  - (* while: the condition is left by breakOut *) intros cond body s first t v s1 HK IHk TN.
    apply (enough2_last IHk). intros f k C n ->. rewrite (while_loop_leave_cond C I). exact (break_pass_f t v s1 TN).
  - (* while: the body is left by a throw *) intros cond body s first s1 y s2 HC IHc HT IHt.
    apply (enough2_last (enough_and IHc IHt)). intros f k [C B] n ->. exact (while_loop_body C B).
  - (* while: the body is left by breakOut *) intros cond body s first s1 t v s2 HC IHc HK IHk TN.
    apply (enough2_last (enough_and IHc IHk)). intros f k [C B] n ->. rewrite (while_loop_body C B).
    exact (break_pass_f t v s2 TN).
  - (* a scope left by a throw *) intros s vars b y s2 HT IHt. exact (scopes_finish IHt eq_refl).
  - (* a scope left by breakOut *) intros s vars b t v s2 HK IHk TN. exact (scopes_break_pass IHk TN).
  - (* the first element is left *) intros s e l ab s1 HL IHl. apply (enough_mono IHl). intros f E acc.
    exact (go_arr_out E (abrupt_oa ab)).
  - (* a later element is left *) intros s e v l t v0 s1 s2 HE IHe NN HL IHl. apply (enough_mono (enough_and IHe IHl)). intros f [E H] acc.
    rewrite (go_arr_ok E (proj2 NN)). apply H.
  - (* if true exitWith {..} *) intros s n l x b s1 s2 out s3 HN HL IHl HX IHx HB IHb. exact (evals_exitwith HN IHl IHx IHb).
  - (* unary operand *) intros s n a v s1 NL HX IHx. exact (evals_unary_out NL IHx I).
  - (* left operand *) intros s n a b v s1 HX IHx. exact (evals_binary_left IHx I).
  - (* right operand *) intros s n a b va v s1 s2 HA IHa HX IHx. exact (evals_binary_right IHa IHx I).
  - (* array *) intros s l v s1 HX IHx. apply (enough_S IHx). intros f H. rewrite eval_S_arr. apply H.
  - (* first element *) intros s e l v s1 HX IHx. apply (enough_mono IHx). intros f E acc. exact (go_arr_out E I).
  - (* later element *) intros s e v0 l v s1 s2 HE IHe NN HX IHx. apply (enough_mono (enough_and IHe IHx)). intros f [E H] acc.
    rewrite (go_arr_ok E (proj2 NN)). apply H.
Qed.

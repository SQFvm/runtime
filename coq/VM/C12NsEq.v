(* C12 - isolation with turns that CREATE globals, part 1: namespaces as finite maps.
   The model keeps the namespaces as association lists (VmDefs.r_nss: namespace name -> variable name -> value);
   a variable that does not exist yet is appended (assoc_set), so the position of an entry records the order of
   creation. nss_eq identifies two such lists when they are the same finite map: the same namespaces are defined
   and every (namespace, variable) has the same value or is undefined in both - the order of entries is free.
   req lifts this to machines: equal in every field except r_nss, which is nss_eq.  wr replays the writes of a turn on
   such a map, creating what does not exist; sem_ok says which changes of the namespaces a script with given footprints
   cannot observe. *)
From Coq Require Import String Ascii ZArith List Bool Lia Arith Permutation.
From SqfVerif Require Import Gen.DiagCodes Gen.Overloads VM.VmDefs VM.VmExec VM.VmFacts VM.SchedDefs VM.SchedOps VM.SchedBase VM.SchedIter VM.C12FrameOps VM.C12Frame VM.C12Commute.
Import ListNotations.
Local Open Scope list_scope.

(* ------------------------------------------------------------------ association lists *)

Definition ns_def (a:list (string * list (string * value))) (ns:string) : bool :=
  match assoc ns a with Some _ => true | None => false end.

Lemma raw_get_set a ns n v ns' n' :
  raw_get (raw_set a ns n v) ns' n' = if key_eqb (ns', n') (ns, n) then Some v else raw_get a ns' n'.
Proof.
  unfold raw_get, raw_set, key_eqb. cbn [fst snd]. rewrite assoc_assoc_set.
  destruct (String.eqb ns' ns) eqn:E; cbn [andb]; [|reflexivity].
  apply String.eqb_eq in E. subst ns'. rewrite assoc_assoc_set.
  destruct (String.eqb n' n); [reflexivity|]. destruct (assoc ns a); reflexivity.
Qed.
Lemma ns_def_set a ns n v ns' : ns_def (raw_set a ns n v) ns' = orb (String.eqb ns' ns) (ns_def a ns').
Proof. unfold ns_def, raw_set. rewrite assoc_assoc_set. destruct (String.eqb ns' ns); reflexivity. Qed.

Lemma key_eqb_eq a b : key_eqb a b = true -> a = b.
Proof.
  unfold key_eqb. intro H. apply andb_prop in H. destruct H as [H1 H2].
  apply String.eqb_eq in H1. apply String.eqb_eq in H2. destruct a, b. cbn in *. subst. reflexivity.
Qed.
Lemma key_eqb_refl a : key_eqb a a = true.
Proof. unfold key_eqb. rewrite !String.eqb_refl. reflexivity. Qed.

(* ------------------------------------------------------------------ the same finite map *)
Definition nss_eq (a b:list (string * list (string * value))) : Prop :=
  (forall ns n, raw_get a ns n = raw_get b ns n) /\ (forall ns, ns_def a ns = ns_def b ns).

Lemma nss_eq_refl a : nss_eq a a.
Proof. split; reflexivity. Qed.
Lemma nss_eq_sym a b : nss_eq a b -> nss_eq b a.
Proof. intros [H1 H2]. split; intros; symmetry; auto. Qed.
Lemma nss_eq_trans a b c : nss_eq a b -> nss_eq b c -> nss_eq a c.
Proof. intros [H1 H2] [H3 H4]. split; intros; [rewrite H1|rewrite H2]; auto. Qed.
Lemma nss_eq_set a b ns n v : nss_eq a b -> nss_eq (raw_set a ns n v) (raw_set b ns n v).
Proof.
  intros [H1 H2]. split; intros.
  - rewrite !raw_get_set, H1. reflexivity.
  - rewrite !ns_def_set, H2. reflexivity.
Qed.

(* the order of entries is the only freedom: for association lists without repeated keys (all that assoc_set
   builds from the empty list), the same lookups mean a permutation of the entries *)
Lemma assoc_in_nodup {A} (l:list (string * A)) k v : NoDup (map fst l) -> (In (k, v) l <-> assoc k l = Some v).
Proof.
  induction l as [|[k0 v0] l IH]; cbn; intro ND.
  - split; [tauto|discriminate].
  - inversion ND as [|? ? N1 N2]; subst. destruct (String.eqb k k0) eqn:E.
    + apply String.eqb_eq in E. subst k0. split.
      * intros [H|H]; [congruence|]. exfalso. apply N1. apply (in_map fst) in H. exact H.
      * intro H. left. congruence.
    + split.
      * intros [H|H]; [inversion H; subst; rewrite String.eqb_refl in E; discriminate|]. apply IH; auto.
      * intro H. right. apply IH; auto.
Qed.
Lemma same_lookups_permutation {A} (l l':list (string * A)) :
  NoDup (map fst l) -> NoDup (map fst l') -> (forall k, assoc k l = assoc k l') -> Permutation l l'.
Proof.
  intros N N' H. apply NoDup_Permutation.
  - eapply NoDup_map_inv; eauto.
  - eapply NoDup_map_inv; eauto.
  - intros [k v]. rewrite (assoc_in_nodup l k v N), (assoc_in_nodup l' k v N'), H. tauto.
Qed.

(* ------------------------------------------------------------------ the writes of a turn, replayed *)
(* wr W src a: every key of W that is defined in src takes its value from src - overwritten where it exists in a,
   created (appended) where it does not *)
Definition wr1 (src a:list (string * list (string * value))) (k:key) :=
  match raw_get src (fst k) (snd k) with Some v => raw_set a (fst k) (snd k) v | None => a end.
Fixpoint wr (W:list key) (src a:list (string * list (string * value))) :=
  match W with [] => a | k :: W' => wr1 src (wr W' src a) k end.

Lemma wr_get W s a ns n :
  raw_get (wr W s a) ns n =
    if kin (ns, n) W then match raw_get s ns n with Some v => Some v | None => raw_get a ns n end else raw_get a ns n.
Proof.
  induction W as [|[kns kn] W IH]; [reflexivity|].
  cbn [wr]. unfold wr1, kin in *. cbn [existsb fst snd].
  destruct (key_eqb (ns, n) (kns, kn)) eqn:E; cbn [orb].
  - apply key_eqb_eq in E. injection E as <- <-.
    destruct (raw_get s ns n) as [v|] eqn:S; [rewrite raw_get_set, key_eqb_refl; reflexivity|].
    rewrite IH. destruct (existsb _ W); reflexivity.
  - destruct (raw_get s kns kn); [rewrite raw_get_set, E|]; exact IH.
Qed.
Definition is_some {A} (o:option A) : bool := match o with Some _ => true | None => false end.
Definition creates (s:list (string * list (string * value))) (ns:string) (k:key) : bool :=
  andb (String.eqb ns (fst k)) (is_some (raw_get s (fst k) (snd k))).
Lemma wr_def W s a ns : ns_def (wr W s a) ns = orb (ns_def a ns) (existsb (creates s ns) W).
Proof.
  induction W as [|k W IH]; [cbn; rewrite orb_false_r; reflexivity|].
  cbn [wr existsb]. unfold wr1, creates at 1.
  destruct (raw_get s (fst k) (snd k)); cbn [is_some].
  - rewrite ns_def_set, IH. destruct (String.eqb ns (fst k)), (ns_def a ns), (existsb (creates s ns) W); reflexivity.
  - rewrite IH, andb_false_r. reflexivity.
Qed.

Lemma wr_cong W s a b : nss_eq a b -> nss_eq (wr W s a) (wr W s b).
Proof.
  intros [H1 H2]. split; intros.
  - rewrite !wr_get, H1. reflexivity.
  - rewrite !wr_def, H2. reflexivity.
Qed.
Lemma wr_get_other W s a ns n : kin (ns, n) W = false -> raw_get (wr W s a) ns n = raw_get a ns n.
Proof. intro K. rewrite wr_get, K. reflexivity. Qed.
Lemma wr_set_comm W s a ns n v : kin (ns, n) W = false -> nss_eq (wr W s (raw_set a ns n v)) (raw_set (wr W s a) ns n v).
Proof.
  intro K. split.
  - intros ns' n'. rewrite raw_get_set, !wr_get, raw_get_set.
    destruct (key_eqb (ns', n') (ns, n)) eqn:E; [|reflexivity].
    apply key_eqb_eq in E. inversion E; subst. rewrite K. reflexivity.
  - intro ns'. rewrite ns_def_set, !wr_def, ns_def_set.
    destruct (String.eqb ns' ns), (ns_def a ns'), (existsb (creates s ns') W); reflexivity.
Qed.
Lemma wr_comm W1 W2 s1 s2 a : disjoint W1 W2 = true -> nss_eq (wr W1 s1 (wr W2 s2 a)) (wr W2 s2 (wr W1 s1 a)).
Proof.
  intro D. split.
  - intros ns n. rewrite !wr_get.
    destruct (kin (ns, n) W1) eqn:K1; destruct (kin (ns, n) W2) eqn:K2; try reflexivity.
    rewrite (disjoint_spec _ _ _ D K1) in K2. discriminate.
  - intro ns. rewrite !wr_def.
    destruct (ns_def a ns), (existsb (creates s1 ns) W1), (existsb (creates s2 ns) W2); reflexivity.
Qed.

(* ------------------------------------------------------------------ changes of the namespaces a script does not see *)
(* G changes the namespaces in a way that a script with read footprint R and write footprint W cannot observe:
   the globals of R read the same, an assignment to a global of W commutes with G up to the order of entries,
   and G does not look at the order of entries *)
Record sem_ok (G:list (string * list (string * value)) -> list (string * list (string * value))) (R W:list key) : Prop := {
  so_get : forall a ns n, kin (ns, n) R = true -> raw_get (G a) ns n = raw_get a ns n;
  so_set : forall a ns n v, kin (ns, n) W = true -> nss_eq (G (raw_set a ns n v)) (raw_set (G a) ns n v);
  so_cong : forall a b, nss_eq a b -> nss_eq (G a) (G b) }.

Lemma sem_ok_id R W : sem_ok (fun a => a) R W.
Proof. split; intros; auto using nss_eq_refl. Qed.
Lemma sem_ok_wr Wj s R W : disjoint R Wj = true -> disjoint W Wj = true -> sem_ok (wr Wj s) R W.
Proof.
  intros D1 D2. split.
  - intros a ns n K. apply wr_get_other. apply (disjoint_spec _ _ _ D1 K).
  - intros a ns n v K. apply wr_set_comm. apply (disjoint_spec _ _ _ D2 K).
  - intros a b. apply wr_cong.
Qed.
Lemma sem_ok_comp G1 G2 R W : sem_ok G1 R W -> sem_ok G2 R W -> sem_ok (fun a => G1 (G2 a)) R W.
Proof.
  intros A B. split.
  - intros a ns n K. rewrite (so_get _ _ _ A), (so_get _ _ _ B); auto.
  - intros a ns n v K. eapply nss_eq_trans; [apply (so_cong _ _ _ A); apply (so_set _ _ _ B); auto|]. apply (so_set _ _ _ A); auto.
  - intros a b H. apply (so_cong _ _ _ A). apply (so_cong _ _ _ B). exact H.
Qed.

(* ------------------------------------------------------------------ machines *)
(* req: the same machine up to the order of the entries of its namespaces *)
Definition req (r r':rt) : Prop := set_nss r [] = set_nss r' [] /\ nss_eq (r_nss r) (r_nss r').
Lemma req_refl r : req r r.
Proof. split; [reflexivity|apply nss_eq_refl]. Qed.
Lemma req_sym r r' : req r r' -> req r' r.
Proof. intros [A B]. split; [auto|apply nss_eq_sym; auto]. Qed.
Lemma req_trans a b c : req a b -> req b c -> req a c.
Proof. intros [A B] [C D]. split; [congruence|eapply nss_eq_trans; eauto]. Qed.

(* With both switches off, the functions of SchedDefs.v are the shared ones of VmDefs.v / VmExec.v (the ghost
   counters and visit logs erased; an empty restart, which SchedDefs counts separately, is an `Executed`
   iteration of the shared do_iter): the extension describes the same code. *)
From Coq Require Import String Ascii ZArith List Bool Lia Arith.
From SqfVerif Require Import Gen.DiagCodes VM.VmDefs VM.VmExec VM.SchedDefs.
Import ListNotations.
Local Open Scope list_scope.

Opaque frame_fuel exec_fuel.

Definition map_res {A B} (f:A->B) (x:res A) : res B :=
  match x with Ok a => Ok (f a) | Unsupported w => Unsupported w | Hang w => Hang w | UB w => UB w end.
Definition lift_f (x:fres) : fres2 := match x with FDone => F2Done | FOk => F2Ok | FRestarted => F2Restarted end.
Definition erase_iter (x:iter2) : iter :=
  match x with Continue2 r => Continue r | Executed2 r => Executed r | Restarted2 r => Executed r | Return2 x r => Return x r end.
Definition erase_pass (p:passres2) : passres :=
  match p with PassDone2 x r _ => PassDone x r | PassExit2 x r _ => PassExit x r end.

Lemma frame_next2_shared fuel : forall r c,
  frame_next2 false fuel r c = map_res (fun '(f, r, c) => (lift_f f, r, c)) (frame_next fuel r c).
Proof.
  induction fuel; intros r c; cbn [frame_next2 frame_next map_res]; auto.
  destruct (c_frames c) as [|f rest]; auto.
  destruct (at_end f); [|destruct (at_end (set_pos f (S (f_pos f))))];
  (match goal with |- context [f_exit ?x] => destruct (f_exit x) as [bh|] end; auto);
  (match goal with |- context [if ?x then _ else _] => destruct x end; auto);
  (match goal with |- context [enact ?a ?b0 ?c0] => destruct (enact a b0 c0) as [[[[br b'] r2] c2]| | |] end; cbn [bindr map_res]; auto);
  destruct br; cbn [negb andb map_res lift_f]; auto;
  match goal with |- context [top_code_empty ?x] => destruct (top_code_empty x) end; auto.
Qed.

Lemma do_iter2_shared r : map_res erase_iter (do_iter2 false r) = do_iter r.
Proof.
  unfold do_iter2, do_iter. destruct (r_exit_req r); auto.
  destruct (cur r) as [c|]; auto. destruct (c_suspended c); auto. destruct (c_frames c) eqn:Fr; auto.
  destruct (r_state r); auto.
  rewrite frame_next2_shared. destruct (frame_next frame_fuel r c) as [[[fr r1] c1]| | |]; cbn [bindr map_res]; auto.
  destruct (r_err r1).
  { destruct (on_error (upd_cur r1 c1)) as [[rec r2]| | |]; cbn [bindr map_res]; auto. destruct rec; auto. }
  unfold deadline_test, abort_run.
  destruct fr; cbn [lift_f]; [destruct (Nat.eqb _ _); [reflexivity|]| |].
  (* an instruction is due (after a finished scope of another frame count, or on F2Ok) *)
  1,2: destruct (current_instr c1) as [ins|]; [|reflexivity];
       (destruct (Z.eqb (r_max_runtime r1) 0); [|unfold now; destruct (Z.ltb _ _); [reflexivity|]]);
       (match goal with |- context [exec_instr _ ?a _] => destruct (exec_instr ins a c1) as [[r3 c5]| | |] end; cbn [bindr map_res]; auto);
       (destruct (negb (r_err (upd_cur r3 c5))); [reflexivity|]);
       destruct (on_error (upd_cur r3 c5)) as [[rec r5]| | |]; cbn [bindr map_res]; auto; destruct rec; reflexivity.
  destruct (Z.eqb (r_max_runtime r1) 0); auto.
  unfold now. destruct (Z.ltb _ _); auto.
Qed.

(* a step whose results agree, followed by continuations that agree *)
Lemma map_res_bindr {A A' B B'} (g:A->A') (f:B->B') (a:res A) (a':res A') (k:A->res B) (k':A'->res B') :
  map_res g a = a' -> (forall x, map_res f (k x) = k' (g x)) -> map_res f (bindr a k) = bindr a' k'.
Proof. intros <- K. destruct a; cbn [bindr map_res]; auto. Qed.

Lemma execute_do2_shared fuel : forall r n ki kr,
  map_res (fun '(x, r, _) => (x, r)) (execute_do2 false fuel r n ki kr) = execute_do fuel r n.
Proof.
  induction fuel; intros r n ki kr; cbn [execute_do2 execute_do map_res]; auto.
  destruct (r_exit_req r); auto. destruct n; auto.
  apply (map_res_bindr erase_iter); [apply do_iter2_shared|]. intros [r1|r1|r1|x r1]; cbn [erase_iter]; auto.
Qed.

Lemma start_pass2_shared fuel : forall r i x log,
  map_res erase_pass (start_pass2 false false fuel r i x log) = start_pass fuel r i x.
Proof.
  induction fuel; intros r i x log; cbn [start_pass2 start_pass map_res]; auto.
  destruct (Nat.leb _ _); auto.
  unfold visit_ctx. cbv zeta. destruct (cur (set_active r (Some i))) as [c00|]; [|reflexivity].
  set (c := if c_terminate c00 then _ else c00). set (log1 := fun p : rresult * rt * (nat * nat) => _).
  apply (map_res_bindr (fun '(x, r, _) => (x, r))).
  - (* the visit: the slice, or the idle test of the time limit *)
    assert (Run : forall r1, map_res (fun '(x, r, _) => (x, r)) (bindr (execute_do2 false exec_fuel r1 (r_slice r1) 0 0) log1)
                             = execute_do exec_fuel r1 (r_slice r1)).
    { intro r1. rewrite <- (execute_do2_shared exec_fuel r1 (r_slice r1) 0 0).
      destruct (execute_do2 false exec_fuel r1 (r_slice r1) 0 0) as [[[x0 r2] [ki kr]]| | |]; auto. }
    destruct (c_suspended c); [|apply Run].
    unfold now. destruct (Z.leb _ _); [apply Run|].
    unfold deadline_test, abort_run, now. cbn [r_max_runtime set_clock rt_with].
    destruct (Z.eqb _ 0); [reflexivity|]. destruct (Z.ltb _ _); reflexivity.
  - intros [[x1 r2] v]. destruct (r_exit_req r2); auto. destruct x1; auto.
    match goal with |- context [r_ctxs ?a] => destruct (r_ctxs a) end; auto.
Qed.

Lemma start_loop2_shared fuel : forall r x ps,
  map_res (fun '(x, r, _) => (x, r)) (start_loop2 false false fuel r x ps) = start_loop fuel r x.
Proof.
  induction fuel; intros r x ps; cbn [start_loop2 start_loop map_res]; auto.
  destruct (r_ctxs r); auto.
  apply (map_res_bindr erase_pass); [apply start_pass2_shared|]. intros [x1 r1 vs|x1 r1 vs]; cbn [erase_pass map_res]; auto.
Qed.

Theorem execute_sw_shared a r :
  map_res (fun '(x, r, _) => (x, r)) (execute_sw false false a r) = execute a r.
Proof.
  destruct a; cbn [execute_sw execute].
  - destruct (r_run r); auto.
    apply (map_res_bindr (fun '(x, r, _) => (x, r))); [apply start_loop2_shared|]. intros [[x r1] ps]. reflexivity.
  - destruct (r_state r); destruct (r_run r); reflexivity.
  - destruct (r_state r); destruct (r_run r); reflexivity.
  - destruct (r_run r); auto.
    apply (map_res_bindr (fun '(x, r, _) => (x, r))); [apply execute_do2_shared|]. intros [[x r1] k]. reflexivity.
  - reflexivity.
  - reflexivity.
Qed.

(* a machine that carries neither switch: the extension is the shared model *)
Theorem extension_is_shared_model a r :
  defect r sw_restart = false -> defect r sw_idle = false ->
  map_res (fun '(x, r, _) => (x, r)) (execute2 a r) = execute a r.
Proof. intros H1 H2. unfold execute2. rewrite H1, H2. apply execute_sw_shared. Qed.

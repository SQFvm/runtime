(* What executing can do to the machine, part 3: one iteration of the execute_do loop (iter_spec), a slice (slice_run),
   a scheduler visit (visit_shape), a pass and the scheduler loop (pass_run, loop_run), each as a relation without fuel
   that the function of SchedDefs.v satisfies; and what follows for the clock: every unit of work lies behind a passed
   test of the time limit (units_ok). *)
From Coq Require Import String Ascii ZArith List Bool Lia Arith.
From SqfVerif Require Import Gen.DiagCodes Gen.Overloads VM.VmDefs VM.VmFacts VM.VmExec VM.SchedDefs VM.SchedOps VM.SchedBase.
Import ListNotations.
Local Open Scope list_scope.

Opaque frame_fuel exec_fuel.

Definition rt_of (it:iter2) : rt := match it with Continue2 r | Executed2 r | Restarted2 r | Return2 _ r => r end.

Lemma deadline_test_reach r b r' : deadline_test r = (b, r') -> reach r r'.
Proof.
  unfold deadline_test, now. destruct (Z.eqb _ _); intro H; inversion H; subst; [apply reach_refl|].
  apply reach_clock; [apply reach_refl|reflexivity].
Qed.
Lemma deadline_test_spec r :
  deadline_test r =
    if Z.eqb (r_max_runtime r) 0 then (false, r)
    else (Z.ltb (r_max_runtime r + r_run_ts r) (r_clock r + r_tick r), set_clock r (r_clock r + r_tick r)%Z).
Proof. reflexivity. Qed.
Lemma deadline_passed_time r r' : deadline_test r = (false, r') -> r_max_runtime r <> 0%Z ->
  r_clock r' = (r_clock r + r_tick r)%Z /\ (r_clock r' <= r_max_runtime r + r_run_ts r)%Z.
Proof.
  rewrite deadline_test_spec. intros H Hm. destruct (Z.eqb_spec (r_max_runtime r) 0); [contradiction|].
  inversion H; subst. cbn. split; auto. apply Z.ltb_ge; auto.
Qed.

(* a time-limit test that passed lies between r and r' *)
Definition passed_test (r r':rt) : Prop :=
  exists r1 r2, reach r r1 /\ deadline_test r1 = (false, r2) /\
    exists k:nat, r_clock r' = (r_clock r2 + Z.of_nat k * r_tick r)%Z.

Definition running (r:rt) (c:context) : Prop :=
  r_exit_req r = false /\ c_suspended c = false /\ c_frames c <> [] /\ r_state r = StRunning.

(* frame::next reports a restart only in the repaired setting *)
Lemma frame_next2_restarted b fuel : forall r c r' c', frame_next2 b fuel r c = Ok (F2Restarted, r', c') -> b = false.
Proof.
  induction fuel; intros r c r' c' H; cbn [frame_next2] in H; [discriminate|].
  destruct (c_frames c) as [|f rest]; [discriminate|].
  destruct (if at_end f then (F2Done, f) else (if at_end (set_pos f (S (f_pos f))) then F2Done else F2Ok, set_pos f (S (f_pos f))))
    as [res0 f1] eqn:E0.
  assert (N : res0 <> F2Restarted) by (destruct (at_end f); [|destruct (at_end _)]; injection E0 as <- _; discriminate).
  destruct (f_exit f1) as [bh|]; [|congruence].
  destruct (at_end f1 && negb (f_die f1))%bool; [|congruence].
  unfold bindr in H. destruct (enact _ _ _) as [[[[br b'] r2] c2]| | |]; try discriminate.
  (* only a scope that starts over can report a restart, and with the switch on it goes round instead *)
  destruct br; try congruence; eauto. destruct b; [cbn [negb andb] in H; eauto|reflexivity].
Qed.

(* every way one pass through the execute_do loop body can go, for the executing context c at index i *)
Inductive iter_spec (old_restart:bool) (i:nat) (c:context) (r:rt) : iter2 -> Prop :=
| is_exit : r_exit_req r = true -> iter_spec old_restart i c r (Return2 ROk r)
| is_suspended : r_exit_req r = false -> c_suspended c = true -> iter_spec old_restart i c r (Return2 ROk r)
| is_empty : r_exit_req r = false -> c_suspended c = false -> c_frames c = [] -> iter_spec old_restart i c r (Return2 REmpty r)
| is_not_running : r_exit_req r = false -> c_suspended c = false -> c_frames c <> [] -> r_state r <> StRunning ->
    iter_spec old_restart i c r (Return2 ROk r)
| is_continue r' : running r c -> dstep i r r' -> r_exit_req r' = false -> iter_spec old_restart i c r (Continue2 r')
| is_error r' : running r c -> dstep i r r' -> r_exit_req r' = false -> r_err r' = false ->
    iter_spec old_restart i c r (Return2 RRuntimeError r')
| is_abort r1 r2 c1 : running r c -> reach r r1 -> ctx_ok c c1 -> deadline_test r1 = (true, r2) ->
    iter_spec old_restart i c r (Return2 RRuntimeError (abort_run (upd_cur r2 c1)))
| is_executed r' : running r c -> dstep i r r' -> r_exit_req r' = false -> passed_test r r' ->
    iter_spec old_restart i c r (Executed2 r')
| is_restarted r' : running r c -> old_restart = false -> dstep i r r' -> r_exit_req r' = false -> passed_test r r' ->
    iter_spec old_restart i c r (Restarted2 r').

(* Throughout one iteration the machine r1 is reached from r and the executing context c1 is a successor of c;
   written back, that is a dstep which leaves the exit request alone. *)
Lemma stage i r c r1 c1 : r_active r = Some i -> nth_error (r_ctxs r) i = Some c -> reach r r1 -> ctx_ok c c1 ->
  dstep i r (upd_cur r1 c1) /\ r_exit_req (upd_cur r1 c1) = r_exit_req r /\ r_clock (upd_cur r1 c1) = r_clock r1 /\
  r_active (upd_cur r1 c1) = Some i /\ nth_error (r_ctxs (upd_cur r1 c1)) i = Some c1.
Proof.
  intros Ha Hc R C. split; [eapply dstep_upd_cur; eauto using reach_dstep|].
  rewrite exit_req_upd_cur, clock_upd_cur, active_upd_cur, (reach_exit _ _ R), (reach_active _ _ R). repeat split; auto.
  apply upd_cur_nth; [rewrite (reach_active _ _ R); auto|].
  pose proof (reach_len _ _ R). assert (i < length (r_ctxs r)) by (apply nth_error_Some; congruence). lia.
Qed.
(* ... and so is what error handling makes of it *)
Lemma stage_error i r c r1 c1 rec r2 :
  r_active r = Some i -> nth_error (r_ctxs r) i = Some c -> reach r r1 -> ctx_ok c c1 -> on_error (upd_cur r1 c1) = Ok (rec, r2) ->
  dstep i r r2 /\ r_exit_req r2 = r_exit_req r /\ r_clock r2 = r_clock r1 /\ r_err r2 = false.
Proof.
  intros Ha Hc R C OE. destruct (stage _ _ _ _ _ Ha Hc R C) as (D & E & K & Ha1 & Hc1).
  destruct (on_error_shape _ _ _ _ _ OE Ha1 Hc1) as (D2 & E2 & K2 & Er). rewrite E2, K2. eauto using dstep_trans.
Qed.
Lemma passed_test_intro r r1 r2 r3 r' :
  reach r r1 -> deadline_test r1 = (false, r2) -> reach r2 r3 -> r_clock r' = r_clock r3 -> passed_test r r'.
Proof.
  intros R1 T R3 K. exists r1, r2. split; [exact R1|]. split; [exact T|].
  destruct (reach_clock_reads _ _ R3) as [k K3]. exists k. rewrite K, K3.
  destruct (rcfg_limits _ _ (reach_cfg _ _ (reach_trans _ _ _ R1 (deadline_test_reach _ _ _ T)))) as (-> & _). reflexivity.
Qed.

Lemma do_iter2_spec b i c r it :
  do_iter2 b r = Ok it -> r_active r = Some i -> nth_error (r_ctxs r) i = Some c -> iter_spec b i c r it.
Proof.
  intros H Ha Hc. unfold do_iter2 in H.
  destruct (r_exit_req r) eqn:Ex; [inversion H; subst; apply is_exit; auto|].
  assert (Hcur : cur r = Some c) by (unfold cur; rewrite Ha; auto). rewrite Hcur in H.
  destruct (c_suspended c) eqn:Su; [inversion H; subst; apply is_suspended; auto|].
  destruct (c_frames c) as [|f0 fs] eqn:Fr; [inversion H; subst; apply is_empty; auto|].
  destruct (r_state r) eqn:St; try (inversion H; subst; apply is_not_running; auto; congruence).
  assert (Run : running r c) by (repeat split; auto; congruence).
  unfold bindr in H.
  destruct (frame_next2 b frame_fuel r c) as [[[fr r1] c1]| | |] eqn:FN; try discriminate.
  destruct (frame_next2_shape _ _ _ _ _ _ _ FN) as [R1 C1].
  destruct (r_err r1) eqn:Er.
  { (* an exit behaviour raised an error *)
    destruct (on_error (upd_cur r1 c1)) as [[rec r2]| | |] eqn:OE; try discriminate.
    destruct (stage_error _ _ _ _ _ _ _ Ha Hc R1 C1 OE) as (D & E & _ & Er2).
    destruct rec; inversion H; subst; [apply is_continue|apply is_error]; auto; congruence. }
  set (due := match current_instr c1 with None => _ | Some ins => _ end) in H.
  assert (Instr : due = Ok it -> iter_spec b i c r it).
  { (* an instruction is due: the time limit is tested, the instruction runs, an error it raised is handled *)
    clear H. intro H. subst due. destruct (current_instr c1) as [ins|]; [|discriminate].
    destruct (deadline_test r1) as [exp r2] eqn:T.
    destruct exp; [inversion H; subst; apply (is_abort _ _ _ _ r1 r2 c1); auto|].
    destruct (exec_instr ins r2 c1) as [[r3 c5]| | |] eqn:EI; cbn [bindr] in H; try discriminate.
    apply exec_instr_shape in EI. destruct EI as [R3 C5].
    pose proof (fun r' => passed_test_intro _ _ _ _ r' R1 T R3) as Passed.
    assert (R03 : reach r r3) by eauto using reach_trans, deadline_test_reach.
    assert (C05 : ctx_ok c c5) by eauto using ctx_ok_trans.
    destruct (negb (r_err (upd_cur r3 c5))).
    - destruct (stage _ _ _ _ _ Ha Hc R03 C05) as (D & E & K & _).
      inversion H; subst. apply is_executed; auto; [eapply dstep_reach; [exact D|apply reach_msgs, reach_refl]|cbn; congruence].
    - destruct (on_error (upd_cur r3 c5)) as [[rec r5]| | |] eqn:OE; cbn [bindr] in H; try discriminate.
      destruct (stage_error _ _ _ _ _ _ _ Ha Hc R03 C05 OE) as (D & E & K & Er5).
      destruct rec; inversion H; subst; [apply is_executed|apply is_error]; auto; congruence. }
  destruct fr; [destruct (Nat.eqb _ _); [|exact (Instr H)]|exact (Instr H)|].
  - (* the scope is done: its value goes to the caller's part of the stack *)
    inversion H; subst.
    match goal with |- iter_spec _ _ _ _ (Continue2 (upd_cur r1 ?c4)) => assert (C4 : ctx_ok c c4) end.
    { eapply ctx_ok_trans; [exact C1|].
      destruct (pop_value c1) as [[v cx]|] eqn:P; [ctx_solve|].
      destruct (defect r "block_value_dropped"); [ctx_solve|].
      match goal with |- ctx_ok _ (match ?x with _ => _ end) => destruct x end; ctx_solve. }
    destruct (stage _ _ _ _ _ Ha Hc R1 C4) as (D & E & _). apply is_continue; auto; congruence.
  - (* restarted *)
    destruct (deadline_test r1) as [exp r2] eqn:T.
    destruct exp; inversion H; subst; [apply (is_abort _ _ _ _ r1 r2 c1); auto|].
    assert (R2 : reach r r2) by eauto using reach_trans, deadline_test_reach.
    destruct (stage _ _ _ _ _ Ha Hc R2 C1) as (D & E & K & _).
    apply is_restarted; eauto using frame_next2_restarted, passed_test_intro, reach_refl; congruence.
Qed.

(* ------------------------------------------------------------------ consequences for one iteration *)
Lemma dstep_len i r r' : dstep i r r' -> length (r_ctxs r) <= length (r_ctxs r').
Proof. intros [_ _ _ _ _ _ E]. eapply evolves_len; eauto. Qed.

Lemma abort_run_dstep i r r' : dstep i r r' -> dstep i r (abort_run r').
Proof.
  intro D. unfold abort_run. eapply dstep_reach; [|apply reach_msgs, reach_errflag, reach_refl].
  apply dstep_exit_req. eapply dstep_reach; [exact D|apply reach_log, reach_refl].
Qed.
Lemma abort_run_facts r : r_exit_req (abort_run r) = true /\ r_err (abort_run r) = false /\
  r_out (abort_run r) = EDiag (fst d_MaximumRuntimeReached) (snd d_MaximumRuntimeReached) :: r_out r /\
  r_clock (abort_run r) = r_clock r.
Proof. repeat split. Qed.

Lemma iter_spec_dstep b i c r it : iter_spec b i c r it -> r_active r = Some i -> nth_error (r_ctxs r) i = Some c ->
  dstep i r (rt_of it).
Proof.
  intros H Ha Hc. inversion H; subst; cbn [rt_of]; auto using dstep_refl.
  apply abort_run_dstep. eapply dstep_upd_cur; eauto. apply reach_dstep.
  eapply reach_trans; [eassumption|]. eapply deadline_test_reach; eauto.
Qed.

(* ------------------------------------------------------------------ a slice, without the fuel *)
Inductive slice_run (b:bool) (i:nat) : rt -> nat -> nat -> nat -> rresult -> rt -> nat -> nat -> Prop :=
| sr_exit r n ki kr : r_exit_req r = true -> slice_run b i r n ki kr ROk r ki kr
| sr_zero r ki kr : r_exit_req r = false -> slice_run b i r 0 ki kr ROk r ki kr
| sr_return r n ki kr c x r' : r_exit_req r = false -> nth_error (r_ctxs r) i = Some c -> r_active r = Some i ->
    iter_spec b i c r (Return2 x r') -> slice_run b i r (S n) ki kr x r' ki kr
| sr_continue r n ki kr c r1 x r' ki' kr' : r_exit_req r = false -> nth_error (r_ctxs r) i = Some c -> r_active r = Some i ->
    iter_spec b i c r (Continue2 r1) -> slice_run b i r1 (S n) ki kr x r' ki' kr' ->
    slice_run b i r (S n) ki kr x r' ki' kr'
| sr_executed r n ki kr c r1 x r' ki' kr' : r_exit_req r = false -> nth_error (r_ctxs r) i = Some c -> r_active r = Some i ->
    iter_spec b i c r (Executed2 r1) -> slice_run b i r1 n (S ki) kr x r' ki' kr' ->
    slice_run b i r (S n) ki kr x r' ki' kr'
| sr_restarted r n ki kr c r1 x r' ki' kr' : r_exit_req r = false -> nth_error (r_ctxs r) i = Some c -> r_active r = Some i ->
    iter_spec b i c r (Restarted2 r1) -> slice_run b i r1 n ki (S kr) x r' ki' kr' ->
    slice_run b i r (S n) ki kr x r' ki' kr'.

Lemma execute_do2_slice_run b i fuel : forall r n ki kr x r' ki' kr',
  execute_do2 b fuel r n ki kr = Ok (x, r', (ki', kr')) -> r_active r = Some i -> i < length (r_ctxs r) ->
  slice_run b i r n ki kr x r' ki' kr'.
Proof.
  induction fuel; intros r n ki kr x r' ki' kr' H Ha Hi; cbn [execute_do2] in H; [discriminate|].
  destruct (r_exit_req r) eqn:Ex; [inversion H; subst; apply sr_exit; auto|].
  destruct n as [|n]; [inversion H; subst; apply sr_zero; auto|].
  destruct (nth_error (r_ctxs r) i) as [c|] eqn:Hc; [|apply nth_error_None in Hc; lia].
  destruct (do_iter2 b r) as [it| | |] eqn:DI; cbn [bindr] in H; try discriminate.
  pose proof (do_iter2_spec _ _ _ _ _ DI Ha Hc) as IS.
  pose proof (iter_spec_dstep _ _ _ _ _ IS Ha Hc) as D.
  assert (Ha1 : r_active (rt_of it) = Some i) by (rewrite (ds_active _ _ _ D); auto).
  assert (Hi1 : i < length (r_ctxs (rt_of it))) by (pose proof (dstep_len _ _ _ D); lia).
  destruct it; cbn [rt_of] in *.
  - eapply sr_continue; eauto.
  - eapply sr_executed; eauto.
  - eapply sr_restarted; eauto.
  - inversion H; subst. eapply sr_return; eauto.
Qed.

(* a slice consumes at most n units: executed instructions plus empty restarts *)
Lemma slice_run_counts b i r n ki kr x r' ki' kr' : slice_run b i r n ki kr x r' ki' kr' ->
  ki <= ki' /\ kr <= kr' /\ (ki' - ki) + (kr' - kr) <= n.
Proof. induction 1; try lia. Qed.

Lemma slice_run_dstep b i r n ki kr x r' ki' kr' : slice_run b i r n ki kr x r' ki' kr' -> dstep i r r'.
Proof.
  induction 1; auto using dstep_refl;
  match goal with IS : iter_spec _ _ _ _ _ |- _ => eapply iter_spec_dstep in IS; eauto end;
  eauto using dstep_trans.
Qed.

(* a slice removes no context; the index of the executing one need not be given, a slice that starts has one *)
Lemma execute_do2_len b fuel r n ki kr x r' k :
  execute_do2 b fuel r n ki kr = Ok (x, r', k) -> length (r_ctxs r) <= length (r_ctxs r').
Proof.
  intro H. destruct k as [ki' kr']. destruct fuel; [discriminate|]. pose proof H as H0. cbn [execute_do2] in H0.
  destruct (r_exit_req r) eqn:Ex; [injection H0 as _ <- _; auto|].
  destruct n; [injection H0 as _ <- _; auto|].
  unfold do_iter2, cur in H0. rewrite Ex in H0.
  destruct (r_active r) as [i|] eqn:Ha; [|discriminate].
  destruct (nth_error (r_ctxs r) i) eqn:Hc; [|discriminate].
  eapply dstep_len, slice_run_dstep, execute_do2_slice_run; [exact H|exact Ha|].
  apply nth_error_Some. congruence.
Qed.

(* the only way a slice ends with the exit flag raised is the time limit *)
Definition aborted (r:rt) : Prop := exists r0, r = abort_run r0.
Lemma slice_run_exit b i r n ki kr x r' ki' kr' : slice_run b i r n ki kr x r' ki' kr' -> r_exit_req r = false ->
  (r_exit_req r' = true -> x = RRuntimeError /\ aborted r') /\
  (x = REmpty -> r_exit_req r' = false /\ exists c', nth_error (r_ctxs r') i = Some c' /\ c_frames c' = [] /\ c_suspended c' = false).
Proof.
  induction 1; intro Ex0; try congruence.
  - split; [congruence|discriminate].
  - match goal with IS : iter_spec _ _ _ _ _ |- _ => inversion IS; subst end;
    (split; intro E); try congruence; try discriminate.
    + split; auto. exists c. auto.
    + split; auto. eexists; eauto.
  - match goal with IS : iter_spec _ _ _ _ _ |- _ => inversion IS; subst end. auto.
  - match goal with IS : iter_spec _ _ _ _ _ |- _ => inversion IS; subst end. auto.
  - match goal with IS : iter_spec _ _ _ _ _ |- _ => inversion IS; subst end. auto.
Qed.

(* a context without frames: the slice ends at once with "empty" *)
Lemma slice_run_no_frames b i r n ki kr x r' ki' kr' c : slice_run b i r n ki kr x r' ki' kr' ->
  0 < n -> r_exit_req r = false -> nth_error (r_ctxs r) i = Some c -> c_frames c = [] -> c_suspended c = false ->
  x = REmpty /\ r' = r /\ ki' = ki /\ kr' = kr.
Proof.
  intros H Hn Ex Hc Fr Su.
  destruct H; try congruence; try lia;
  match goal with N : nth_error (r_ctxs _) _ = Some ?c0 |- _ => rewrite Hc in N; inversion N; subst c0 end;
  match goal with IS : iter_spec _ _ _ _ _ |- _ => inversion IS; subst end; try congruence;
  try (match goal with R : running _ _ |- _ => destruct R as (_ & _ & F & _); congruence end).
  all: auto.
Qed.

(* a suspended context: the slice ends at once without executing anything *)
Lemma slice_run_suspended b i r n ki kr x r' ki' kr' c : slice_run b i r n ki kr x r' ki' kr' ->
  nth_error (r_ctxs r) i = Some c -> c_suspended c = true ->
  x = ROk /\ r' = r /\ ki' = ki /\ kr' = kr.
Proof.
  intros H Hc Su.
  destruct H; auto;
  match goal with N : nth_error (r_ctxs _) _ = Some ?c0 |- _ => rewrite Hc in N; inversion N; subst c0 end;
  match goal with IS : iter_spec _ _ _ _ _ |- _ => inversion IS; subst end; try congruence; auto;
  try (match goal with R : running _ _ |- _ => destruct R as (_ & F & _ & _); congruence end).
Qed.

(* ------------------------------------------------------------------ time *)
Local Open Scope Z_scope.
Lemma dstep_clock_le i r r' : dstep i r r' -> 0 <= r_tick r -> r_clock r <= r_clock r'.
Proof. intros [_ _ _ _ _ [k K] _] T. rewrite K. nia. Qed.
Lemma reach_clock_le r r' : reach r r' -> 0 <= r_tick r -> r_clock r <= r_clock r'.
Proof. intro H. exact (dstep_clock_le 0 _ _ (reach_dstep 0 _ _ H)). Qed.

(* a passed test: one tick was consumed and the clock value read was within the limit *)
Lemma passed_test_time r r' : passed_test r r' -> r_max_runtime r <> 0 -> 0 <= r_tick r ->
  exists t, r_clock r + r_tick r <= t /\ t <= r_clock r' /\ t <= r_max_runtime r + r_run_ts r.
Proof.
  intros (r1 & r2 & R1 & T & k & K) Hm Ht.
  destruct (rcfg_limits _ _ (reach_cfg _ _ R1)) as (E1 & E2 & E3 & _).
  destruct (deadline_passed_time _ _ T) as [T1 T2]; [congruence|].
  pose proof (reach_clock_le _ _ R1 Ht).
  exists (r_clock r2). rewrite T1, E1 in *. rewrite E2, E3 in T2. repeat split; try lia; try (rewrite K; nia).
Qed.

(* k units (instructions, empty restarts) were performed between clock values c0 and c1 under the limit d:
   each consumed at least one tick, and the last one started before the limit *)
Definition units_ok (tick d c0 c1:Z) (k:nat) : Prop :=
  c0 + Z.of_nat k * tick <= c1 /\ (k = O \/ c0 + Z.of_nat k * tick <= d).
Lemma units_ok_zero tick d c0 c1 : c0 <= c1 -> units_ok tick d c0 c1 0.
Proof. intro H. split; [cbn; lia|auto]. Qed.
Lemma units_ok_seq tick d c0 c1 c2 k1 k2 : 0 <= tick -> units_ok tick d c0 c1 k1 -> units_ok tick d c1 c2 k2 ->
  units_ok tick d c0 c2 (k1 + k2).
Proof.
  intros T [A1 A2] [B1 B2]. split; [rewrite Nat2Z.inj_add; nia|].
  destruct B2 as [->|B2].
  - rewrite Nat.add_0_r. destruct A2; auto.
  - right. rewrite Nat2Z.inj_add. nia.
Qed.
Lemma units_ok_one tick d c0 c1 t : 0 <= tick -> c0 + tick <= t -> t <= c1 -> t <= d -> units_ok tick d c0 c1 1.
Proof. intros. change (Z.of_nat 1) with 1. split; [lia|right; lia]. Qed.

(* an executed instruction and an empty restart are one unit each; nothing else an iteration does is counted *)
Definition iter_units (it:iter2) : nat := match it with Executed2 _ | Restarted2 _ => 1 | _ => 0 end%nat.
Lemma iter_spec_time b i c r it : iter_spec b i c r it -> r_active r = Some i -> nth_error (r_ctxs r) i = Some c ->
  r_max_runtime r <> 0 -> 0 <= r_tick r ->
  units_ok (r_tick r) (r_max_runtime r + r_run_ts r) (r_clock r) (r_clock (rt_of it)) (iter_units it).
Proof.
  intros IS Ha Hc Hm Ht.
  assert (Z : units_ok (r_tick r) (r_max_runtime r + r_run_ts r) (r_clock r) (r_clock (rt_of it)) 0)
    by (apply units_ok_zero; eapply dstep_clock_le; eauto using iter_spec_dstep).
  destruct IS; try exact Z; cbn [rt_of iter_units];
    match goal with PT : passed_test _ _ |- _ => destruct (passed_test_time _ _ PT Hm Ht) as (t & T1 & T2 & T3) end;
    eapply units_ok_one; eauto.
Qed.

Lemma slice_run_time b i r n ki kr x r' ki' kr' : slice_run b i r n ki kr x r' ki' kr' ->
  r_max_runtime r <> 0 -> 0 <= r_tick r ->
  units_ok (r_tick r) (r_max_runtime r + r_run_ts r) (r_clock r) (r_clock r') ((ki' - ki) + (kr' - kr)).
Proof.
  induction 1 as [| |r n ki kr c x r' _ Hc Ha IS|r n ki kr c r1 x r' ki' kr' _ Hc Ha IS SR IH
                 |r n ki kr c r1 x r' ki' kr' _ Hc Ha IS SR IH|r n ki kr c r1 x r' ki' kr' _ Hc Ha IS SR IH]; intros Hm Ht.
  1,2: rewrite !Nat.sub_diag; apply units_ok_zero; lia.
  1: rewrite !Nat.sub_diag; exact (iter_spec_time _ _ _ _ _ IS Ha Hc Hm Ht).
  (* one iteration, then the rest of the slice; the limits are those of r all along *)
  all: pose proof (iter_spec_time _ _ _ _ _ IS Ha Hc Hm Ht) as U; cbn [rt_of iter_units] in U;
       pose proof (iter_spec_dstep _ _ _ _ _ IS Ha Hc) as D; cbn [rt_of] in D;
       destruct (rcfg_limits _ _ (ds_cfg _ _ _ D)) as (E1 & E2 & E3 & _); rewrite E1, E2, E3 in IH;
       specialize (IH Hm Ht); apply slice_run_counts in SR.
  - exact (units_ok_seq _ _ _ _ _ 0 _ Ht U IH).
  - replace ((ki' - ki) + (kr' - kr))%nat with (1 + ((ki' - S ki) + (kr' - kr)))%nat by lia. exact (units_ok_seq _ _ _ _ _ _ _ Ht U IH).
  - replace ((ki' - ki) + (kr' - kr))%nat with (1 + ((ki' - ki) + (kr' - S kr)))%nat by lia. exact (units_ok_seq _ _ _ _ _ _ _ Ht U IH).
Qed.
Local Close Scope Z_scope.

(* ------------------------------------------------------------------ one scheduler visit *)
Definition v_units (v:visit) : nat :=
  v_instr v + v_restarts v +
  (if v_entered v then 0 else match v_result v with ROk => 1 | _ => 0 end).

(* the context the scheduler actually runs: a terminated one has its remaining work dropped *)
Definition prepared (c00:context) : context :=
  if c_terminate c00 then set_suspended (set_values (set_frames c00 []) []) false (c_wakeup c00) else c00.
Lemma prepared_ok c : ctx_ok c (prepared c).
Proof. unfold prepared. destruct (c_terminate c); ctx_solve. Qed.

(* the machine as the scheduler hands it to execute_do for index i *)
Definition handed (r:rt) (i:nat) (c00:context) : rt := upd_cur (set_active r (Some i)) (prepared c00).

Inductive visit_shape (old_restart old_idle:bool) (i:nat) (c00:context) (r:rt) (x:rresult) (r':rt) (v:visit) : Prop :=
| vsh_ran rs :
    v_entered v = true ->
    (c_suspended (prepared c00) = false /\ rs = handed r i c00) \/
    (c_suspended (prepared c00) = true /\ (c_wakeup (prepared c00) <= r_clock (handed r i c00) + r_tick (handed r i c00))%Z /\
       rs = upd_cur (set_clock (handed r i c00) (r_clock (handed r i c00) + r_tick (handed r i c00))%Z)
                    (set_suspended (prepared c00) false (c_wakeup (prepared c00)))) ->
    slice_run old_restart i rs (r_slice rs) 0 0 x r' (v_instr v) (v_restarts v) ->
    visit_shape old_restart old_idle i c00 r x r' v
| vsh_asleep r1 :
    v_entered v = false -> v_instr v = 0 -> v_restarts v = 0 ->
    c_suspended (prepared c00) = true ->
    (r_clock (handed r i c00) + r_tick (handed r i c00) < c_wakeup (prepared c00))%Z ->
    r1 = set_clock (handed r i c00) (r_clock (handed r i c00) + r_tick (handed r i c00))%Z ->
    (old_idle = true /\ x = ROk /\ r' = r1) \/
    (old_idle = false /\ exists r2, (deadline_test r1 = (false, r2) /\ x = ROk /\ r' = r2) \/
                                   (deadline_test r1 = (true, r2) /\ x = RRuntimeError /\ r' = abort_run r2)) ->
    visit_shape old_restart old_idle i c00 r x r' v.

Lemma handed_active r i c : r_active (handed r i c) = Some i.
Proof. unfold handed. rewrite active_upd_cur. reflexivity. Qed.
Lemma handed_len r i c : length (r_ctxs (handed r i c)) = length (r_ctxs r).
Proof. unfold handed, upd_cur. cbn. apply list_upd_length. Qed.
Lemma handed_clock r i c : r_clock (handed r i c) = r_clock r.
Proof. unfold handed. rewrite clock_upd_cur. reflexivity. Qed.
Lemma handed_cfg r i c : rcfg (handed r i c) = rcfg r.
Proof. unfold handed. rewrite upd_cur_cfg. reflexivity. Qed.
Lemma handed_exit r i c : r_exit_req (handed r i c) = r_exit_req r.
Proof. unfold handed. rewrite exit_req_upd_cur. reflexivity. Qed.
Lemma handed_nth r i c : i < length (r_ctxs r) -> nth_error (r_ctxs (handed r i c)) i = Some (prepared c).
Proof. intro H. unfold handed. apply upd_cur_nth; auto. Qed.

Lemma visit_ctx_shape b1 b2 r i c00 x r' v :
  visit_ctx b1 b2 r i = Ok (x, r', v) -> nth_error (r_ctxs r) i = Some c00 ->
  v_id v = c_id c00 /\ v_result v = x /\ visit_shape b1 b2 i c00 r x r' v.
Proof.
  intros H Hc. unfold visit_ctx in H.
  assert (Hi : i < length (r_ctxs r)) by (apply nth_error_Some; congruence).
  assert (Hcur : cur (set_active r (Some i)) = Some c00) by (unfold cur; cbn; auto). rewrite Hcur in H.
  fold (prepared c00) in H. fold (handed r i c00) in H.
  assert (Key : c_id (prepared c00) = c_id c00) by (apply ctx_ok_id, prepared_ok).
  set (log := fun p : rresult * rt * (nat * nat) => _) in H.
  assert (Run : forall rs, r_active rs = Some i -> i < length (r_ctxs rs) ->
            bindr (execute_do2 b1 exec_fuel rs (r_slice rs) 0 0) log = Ok (x, r', v) ->
            v_id v = c_id c00 /\ v_result v = x /\ v_entered v = true /\ slice_run b1 i rs (r_slice rs) 0 0 x r' (v_instr v) (v_restarts v)).
  { intros rs Ha Hl E. destruct (execute_do2 b1 exec_fuel rs (r_slice rs) 0 0) as [[[x0 r2] [ki kr]]| | |] eqn:X; cbn [bindr] in E; try discriminate.
    inversion E; subst. cbn. repeat split; auto. eapply execute_do2_slice_run; eauto. }
  destruct (c_suspended (prepared c00)) eqn:Su.
  - unfold now in H.
    destruct (Z.leb_spec (c_wakeup (prepared c00)) (r_clock (handed r i c00) + r_tick (handed r i c00))).
    + apply Run in H.
      * destruct H as (A & B & C & D). repeat split; auto. eapply vsh_ran; eauto.
      * rewrite active_upd_cur. cbn [r_active set_clock rt_with]. apply handed_active.
      * unfold upd_cur. cbn [r_active set_clock rt_with]. rewrite handed_active. cbn [r_ctxs set_ctxs set_clock rt_with]. rewrite list_upd_length, handed_len. auto.
    + destruct b2.
      * inversion H; subst. cbn. repeat split; auto. eapply vsh_asleep; eauto.
      * destruct (deadline_test _) as [exp r2] eqn:T. destruct exp; inversion H; subst; cbn; repeat split; auto;
        (eapply vsh_asleep; eauto; right; split; auto; eexists; eauto).
  - apply Run in H.
    + destruct H as (A & B & C & D). repeat split; auto. eapply vsh_ran; eauto.
    + apply handed_active.
    + rewrite handed_len; auto.
Qed.

(* relation between the machine before and after a visit of index i (the active index is set to i) *)
Record vstep (i:nat) (r r':rt) : Prop := {
  vs_cfg : rcfg r' = rcfg r;
  vs_halt : r_halt_req r' = r_halt_req r;
  vs_run : r_run r' = r_run r;
  vs_state : r_state r' = r_state r;
  vs_active : r_active r' = Some i;
  vs_clock : exists k:nat, r_clock r' = (r_clock r + Z.of_nat k * r_tick r)%Z;
  vs_ctxs : evolves i (r_ctxs r) (r_next_id r) (r_ctxs r') (r_next_id r') }.

Lemma dstep_vstep i r r' : dstep i (set_active r (Some i)) r' -> vstep i r r'.
Proof. intros [A1 A2 A3 A4 A5 A6 A7]. constructor; auto. Qed.

Lemma handed_dstep r i c00 : nth_error (r_ctxs r) i = Some c00 -> dstep i (set_active r (Some i)) (handed r i c00).
Proof.
  intro Hc. unfold handed. eapply dstep_upd_cur; [apply dstep_refl|reflexivity|exact Hc|apply prepared_ok].
Qed.

Lemma woken_dstep r i c00 : nth_error (r_ctxs r) i = Some c00 ->
  dstep i (set_active r (Some i))
    (upd_cur (set_clock (handed r i c00) (r_clock (handed r i c00) + r_tick (handed r i c00))%Z)
             (set_suspended (prepared c00) false (c_wakeup (prepared c00)))).
Proof.
  intro Hc. assert (Hi : i < length (r_ctxs r)) by (apply nth_error_Some; congruence).
  eapply dstep_trans; [apply handed_dstep; eauto|].
  eapply dstep_upd_cur; [apply reach_dstep; apply reach_clock; [apply reach_refl|reflexivity]|apply handed_active|apply handed_nth; auto|ctx_solve].
Qed.

Lemma visit_shape_vstep b1 b2 i c00 r x r' v :
  visit_shape b1 b2 i c00 r x r' v -> nth_error (r_ctxs r) i = Some c00 -> vstep i r r'.
Proof.
  intros H Hc. apply dstep_vstep. destruct H.
  - eapply dstep_trans; [|eapply slice_run_dstep; eauto].
    destruct H0 as [[_ ->]|(_ & _ & ->)]; [apply handed_dstep|apply woken_dstep]; auto.
  - assert (D1 : dstep i (set_active r (Some i)) r1).
    { subst r1. eapply dstep_reach; [apply handed_dstep; eauto|]. apply reach_clock; [apply reach_refl|reflexivity]. }
    destruct H5 as [(_ & _ & ->)|(_ & r2 & [(T & _ & ->)|(T & _ & ->)])]; auto.
    + eapply dstep_reach; [exact D1|eapply deadline_test_reach; eauto].
    + apply abort_run_dstep. eapply dstep_reach; [exact D1|eapply deadline_test_reach; eauto].
Qed.

Lemma visit_shape_exit b1 b2 i c00 r x r' v :
  visit_shape b1 b2 i c00 r x r' v -> nth_error (r_ctxs r) i = Some c00 -> r_exit_req r = false ->
  (r_exit_req r' = true -> x = RRuntimeError /\ aborted r') /\
  (x = REmpty -> r_exit_req r' = false /\ exists c', nth_error (r_ctxs r') i = Some c' /\ c_frames c' = [] /\ c_suspended c' = false).
Proof.
  intros H Hc Ex. destruct H.
  - eapply slice_run_exit; eauto.
    destruct H0 as [[_ ->]|(_ & _ & ->)].
    + rewrite handed_exit; auto.
    + rewrite exit_req_upd_cur. cbn [r_exit_req set_clock rt_with]. rewrite handed_exit; auto.
  - assert (E1 : r_exit_req r1 = false) by (subst r1; cbn [r_exit_req set_clock rt_with]; rewrite handed_exit; auto).
    destruct H5 as [(_ & -> & ->)|(_ & r2 & [(T & -> & ->)|(T & -> & ->)])].
    + split; [congruence|discriminate].
    + split; [|discriminate]. rewrite (reach_exit _ _ (deadline_test_reach _ _ _ T)). congruence.
    + split; [|discriminate]. intros _. split; auto. eexists; eauto.
Qed.

Lemma visit_shape_slice b1 b2 i c00 r x r' v :
  visit_shape b1 b2 i c00 r x r' v -> v_instr v + v_restarts v <= r_slice r.
Proof.
  intros H. destruct H; [|lia].
  apply slice_run_counts in H1.
  assert (E : rcfg rs = rcfg r).
  { destruct H0 as [[_ ->]|(_ & _ & ->)]; [apply handed_cfg|].
    transitivity (rcfg (handed r i c00)); [rewrite upd_cur_cfg; reflexivity|apply handed_cfg]. }
  destruct (rcfg_limits _ _ E) as (_ & _ & _ & Sl). lia.
Qed.

(* repaired scheduler: every visit that does not abort consumed v_units tested units *)
Lemma visit_shape_time b1 i c00 r x r' v :
  visit_shape b1 false i c00 r x r' v -> v_result v = x -> nth_error (r_ctxs r) i = Some c00 ->
  r_max_runtime r <> 0%Z -> (0 <= r_tick r)%Z ->
  units_ok (r_tick r) (r_max_runtime r + r_run_ts r) (r_clock r) (r_clock r') (v_units v).
Proof.
  intros H Hx Hc Hm Ht.
  destruct (rcfg_limits _ _ (handed_cfg r i c00)) as (Q1 & Q2 & Q3 & _). pose proof (handed_clock r i c00) as Q4.
  destruct H as [rs En Rs SR|r1 En I0 R0 Su Lt -> Idle]; unfold v_units; rewrite En.
  - rewrite Nat.add_0_r. pose proof (slice_run_time _ _ _ _ _ _ _ _ _ _ SR) as T. rewrite !Nat.sub_0_r in T.
    destruct Rs as [[_ ->]|(_ & _ & ->)].
    + rewrite Q1, Q2, Q3, Q4 in T. apply T; auto.
    + (* woken: the scheduler has read the clock once before the slice starts *)
      match type of T with context [upd_cur ?a ?c] => destruct (rcfg_limits _ _ (upd_cur_cfg a c)) as (W1 & W2 & W3 & _) end.
      rewrite W1, W2, W3, clock_upd_cur in T. cbn [r_tick r_max_runtime r_run_ts r_clock set_clock rt_with] in T.
      rewrite Q1, Q2, Q3, Q4 in T.
      refine (units_ok_seq _ _ _ _ _ 0 _ Ht (units_ok_zero _ _ _ _ _) (T Hm Ht)). lia.
  - rewrite I0, R0, Hx. cbn [Nat.add].
    destruct Idle as [(? & _)|(_ & r2 & [(T & -> & ->)|(T & -> & ->)])]; [discriminate| |].
    + destruct (deadline_passed_time _ _ T) as [P1 P2]; [cbn; congruence|].
      cbn [r_tick r_max_runtime r_run_ts r_clock set_clock rt_with] in P1, P2. rewrite Q1, Q2, Q3, Q4 in *.
      eapply units_ok_one with (t := r_clock r2); auto; lia.
    + apply units_ok_zero. destruct (abort_run_facts r2) as (_ & _ & _ & ->).
      pose proof (reach_clock_le _ _ (deadline_test_reach _ _ _ T)) as Le.
      cbn [r_tick r_clock set_clock rt_with] in Le. rewrite Q1, Q4 in Le. lia.
Qed.

(* a script that sleeps is not resumed before its wake-up time: a visit either leaves it alone, or the clock
   value the scheduler read was not before the wake-up time *)
Lemma visit_shape_sleep b1 b2 i c00 r x r' v :
  visit_shape b1 b2 i c00 r x r' v -> nth_error (r_ctxs r) i = Some c00 ->
  c_suspended c00 = true -> c_terminate c00 = false ->
  (v_entered v = true -> (c_wakeup c00 <= r_clock r + r_tick r)%Z) /\
  ((r_clock r + r_tick r < c_wakeup c00)%Z ->
     v_entered v = false /\ v_instr v = 0 /\ v_restarts v = 0 /\ (x = ROk -> nth_error (r_ctxs r') i = Some c00)).
Proof.
  intros H Hc Su Te.
  assert (P : prepared c00 = c00) by (unfold prepared; rewrite Te; auto).
  destruct (rcfg_limits _ _ (handed_cfg r i c00)) as (Q1 & _). pose proof (handed_clock r i c00) as Q4.
  assert (Hi : i < length (r_ctxs r)) by (apply nth_error_Some; congruence).
  destruct H.
  - rewrite P, Q1, Q4 in H0. destruct H0 as [[? _]|(_ & W & _)]; [congruence|]. split; auto. intro. lia.
  - rewrite P, Q1, Q4 in H3. split; [congruence|]. intros _. repeat split; auto. intros ->.
    assert (N1 : nth_error (r_ctxs r1) i = Some c00) by (subst r1; cbn; rewrite <- P at 2; apply handed_nth; auto).
    destruct H5 as [(_ & _ & ->)|(_ & r2 & [(T & _ & ->)|(T & ? & _)])]; auto; [|discriminate].
    unfold deadline_test, now in T. destruct (Z.eqb _ _); inversion T; subst r2; auto.
Qed.

(* a terminated script executes nothing when its turn comes and is reported as finished *)
Lemma visit_shape_terminated b1 b2 i c00 r x r' v :
  visit_shape b1 b2 i c00 r x r' v -> nth_error (r_ctxs r) i = Some c00 ->
  c_terminate c00 = true -> r_exit_req r = false -> 0 < r_slice r ->
  x = REmpty /\ v_instr v = 0 /\ v_restarts v = 0 /\ r' = handed r i c00.
Proof.
  intros H Hc Te Ex Sl.
  assert (P : prepared c00 = set_suspended (set_values (set_frames c00 []) []) false (c_wakeup c00)) by (unfold prepared; rewrite Te; auto).
  assert (Hi : i < length (r_ctxs r)) by (apply nth_error_Some; congruence).
  destruct H.
  - destruct H0 as [[_ ->]|(S1 & _)]; [|rewrite P in S1; discriminate].
    destruct (rcfg_limits _ _ (handed_cfg r i c00)) as (_ & _ & _ & E). rewrite E in H1.
    assert (X1 : r_exit_req (handed r i c00) = false) by (rewrite handed_exit; auto).
    assert (X2 : nth_error (r_ctxs (handed r i c00)) i = Some (prepared c00)) by (apply handed_nth; auto).
    assert (X3 : c_frames (prepared c00) = []) by (rewrite P; reflexivity).
    assert (X4 : c_suspended (prepared c00) = false) by (rewrite P; reflexivity).
    destruct (slice_run_no_frames _ _ _ _ _ _ _ _ _ _ _ H1 Sl X1 X2 X3 X4) as (-> & -> & -> & ->). auto.
  - rewrite P in H2. discriminate.
Qed.

(* ------------------------------------------------------------------ a scheduler pass and the scheduler loop, without the fuel *)
(* runtime.cpp, action::start, case result::empty of the pass loop: the finished context's remaining value is printed,
   the context is erased *)
Definition retire (r2:rt) (i:nat) : rt :=
  let r3 := match cur r2 with
            | Some c2 => match c_values c2 with
                         | v :: _ => match show true v with
                                     | Some s => mark (logmsg r2 d_ContextValuePrint) (append "VALUE " s)
                                     | None => mark (logmsg r2 d_ContextValuePrint) "VALUE ?" end
                         | [] => r2 end
            | None => r2 end in
  set_ctxs r3 (remove_nth (r_ctxs r3) i).

Lemma retire_reach r2 i : exists r3, reach r2 r3 /\ retire r2 i = set_ctxs r3 (remove_nth (r_ctxs r3) i).
Proof.
  unfold retire. destruct (cur r2) as [c2|]; [|eexists; split; [apply reach_refl|reflexivity]].
  destruct (c_values c2); [eexists; split; [apply reach_refl|reflexivity]|].
  destruct (show true v); eexists; (split; [apply reach_mark, reach_log, reach_refl|reflexivity]).
Qed.
Lemma retire_ctxs r2 i : r_ctxs (retire r2 i) = remove_nth (r_ctxs r2) i.
Proof.
  unfold retire. destruct (cur r2) as [c2|]; auto. destruct (c_values c2); auto.
  destruct (show true v); reflexivity.
Qed.
Lemma retire_exit r2 i : r_exit_req (retire r2 i) = r_exit_req r2.
Proof. destruct (retire_reach r2 i) as (r3 & R & ->). cbn. apply reach_exit; auto. Qed.
Lemma retire_cfg r2 i : rcfg (retire r2 i) = rcfg r2.
Proof. destruct (retire_reach r2 i) as (r3 & R & ->). transitivity (rcfg r3); [reflexivity|apply reach_cfg; auto]. Qed.
Lemma retire_clock r2 i : r_clock (retire r2 i) = r_clock r2.
Proof.
  unfold retire. destruct (cur r2) as [c2|]; auto. destruct (c_values c2); auto.
  destruct (show true v); reflexivity.
Qed.
Lemma retire_next_id r2 i : r_next_id (retire r2 i) = r_next_id r2.
Proof.
  unfold retire. destruct (cur r2) as [c2|]; auto. destruct (c_values c2); auto.
  destruct (show true v); reflexivity.
Qed.
Lemma retire_state r2 i : r_state (retire r2 i) = r_state r2.
Proof. destruct (retire_reach r2 i) as (r3 & R & ->). cbn. apply reach_state; auto. Qed.

Definition pass_rt (p:passres2) : rt := match p with PassDone2 _ r _ | PassExit2 _ r _ => r end.
Definition pass_log (p:passres2) : list visit := match p with PassDone2 _ _ l | PassExit2 _ _ l => l end.
Definition pass_result (p:passres2) : rresult := match p with PassDone2 x _ _ | PassExit2 x _ _ => x end.

Inductive pass_run (b1 b2:bool) : rt -> nat -> rresult -> list visit -> passres2 -> Prop :=
| pr_done r i x log : length (r_ctxs r) <= i -> pass_run b1 b2 r i x log (PassDone2 x r log)
| pr_exit r i x log x1 r2 v : i < length (r_ctxs r) -> visit_ctx b1 b2 r i = Ok (x1, r2, v) -> r_exit_req r2 = true ->
    pass_run b1 b2 r i x log (PassExit2 x1 (set_state (set_ctxs r2 []) StEmpty) (log ++ [v]))
| pr_error r i x log x1 r2 v : i < length (r_ctxs r) -> visit_ctx b1 b2 r i = Ok (x1, r2, v) -> r_exit_req r2 = false ->
    x1 <> REmpty -> x1 <> ROk ->
    pass_run b1 b2 r i x log (PassExit2 x1 r2 (log ++ [v]))
| pr_last r i x log r2 v : i < length (r_ctxs r) -> visit_ctx b1 b2 r i = Ok (REmpty, r2, v) -> r_exit_req r2 = false ->
    r_ctxs (retire r2 i) = [] ->
    pass_run b1 b2 r i x log (PassExit2 REmpty (set_active (retire r2 i) None) (log ++ [v]))
| pr_retire r i x log r2 v p : i < length (r_ctxs r) -> visit_ctx b1 b2 r i = Ok (REmpty, r2, v) -> r_exit_req r2 = false ->
    r_ctxs (retire r2 i) <> [] -> pass_run b1 b2 (retire r2 i) i REmpty (log ++ [v]) p ->
    pass_run b1 b2 r i x log p
| pr_next r i x log r2 v p : i < length (r_ctxs r) -> visit_ctx b1 b2 r i = Ok (ROk, r2, v) -> r_exit_req r2 = false ->
    pass_run b1 b2 r2 (S i) ROk (log ++ [v]) p ->
    pass_run b1 b2 r i x log p.

Lemma start_pass2_pass_run b1 b2 fuel : forall r i x log p,
  start_pass2 b1 b2 fuel r i x log = Ok p -> pass_run b1 b2 r i x log p.
Proof.
  induction fuel; intros r i x log p H; cbn [start_pass2] in H; [discriminate|].
  destruct (Nat.leb_spec (length (r_ctxs r)) i); [inversion H; subst; apply pr_done; auto|].
  destruct (visit_ctx b1 b2 r i) as [[[x1 r2] v]| | |] eqn:V; cbn [bindr] in H; try discriminate.
  destruct (r_exit_req r2) eqn:Ex; [inversion H; subst; eapply pr_exit; eauto|].
  destruct x1.
  - inversion H; subst. eapply pr_error; eauto; discriminate.
  - fold (retire r2 i) in H. destruct (r_ctxs (retire r2 i)) eqn:RC.
    + inversion H; subst. eapply pr_last; eauto.
    + eapply pr_retire; eauto. congruence.
  - eapply pr_next; eauto.
  - inversion H; subst. eapply pr_error; eauto; discriminate.
  - inversion H; subst. eapply pr_error; eauto; discriminate.
Qed.

Inductive loop_run (b1 b2:bool) : rt -> rresult -> list (list visit) -> rresult -> rt -> list (list visit) -> Prop :=
| lr_done r x ps : r_ctxs r = [] -> loop_run b1 b2 r x ps x r ps
| lr_exit r x ps x1 r1 log : r_ctxs r <> [] -> pass_run b1 b2 r 0 x [] (PassExit2 x1 r1 log) ->
    loop_run b1 b2 r x ps x1 r1 (ps ++ [log])
| lr_pass r x ps x1 r1 log x' r' ps' : r_ctxs r <> [] -> pass_run b1 b2 r 0 x [] (PassDone2 x1 r1 log) ->
    loop_run b1 b2 r1 x1 (ps ++ [log]) x' r' ps' ->
    loop_run b1 b2 r x ps x' r' ps'.

Lemma start_loop2_loop_run b1 b2 fuel : forall r x ps x' r' ps',
  start_loop2 b1 b2 fuel r x ps = Ok (x', r', ps') -> loop_run b1 b2 r x ps x' r' ps'.
Proof.
  induction fuel; intros r x ps x' r' ps' H; cbn [start_loop2] in H; [discriminate|].
  destruct (r_ctxs r) eqn:RC; [inversion H; subst; apply lr_done; auto|].
  destruct (start_pass2 b1 b2 exec_fuel r 0 x []) as [p| | |] eqn:P; cbn [bindr] in H; try discriminate.
  apply start_pass2_pass_run in P. destruct p.
  - eapply lr_pass; eauto. congruence.
  - inversion H; subst. eapply lr_exit; eauto. congruence.
Qed.

(* C05 - a scope can only consume operands it produced itself: nothing below the protected height
   (the base of the current scope before or after a step) changes; a finished scope hands exactly
   one value to its caller; a statement separator empties the scope's region. *)
From Coq Require Import String Ascii.
From Coq Require Import ZArith List Bool Lia.
From SqfVerif Require Import Gen.DiagCodes Gen.Overloads VM.VmDefs VM.VmExec VM.VmFacts VM.OpEffect VM.SchedOps VM.SchedBase VM.C04Defs VM.C04Proofs
  VM.C05Proofs.
Import ListNotations.
Local Open Scope list_scope.

Opaque frame_fuel exec_fuel waituntil_cap.

Definition top_base (c:context) : nat := match c_frames c with f :: _ => f_base f | [] => 0 end.
(* the bottom n operands (values are kept top first) *)
Definition below (c:context) (n:nat) : list value := skipn (length (c_values c) - n) (c_values c).
Definition height (c:context) : nat := length (c_values c).

(* the bottom n operands survive from c to c' *)
Definition keep (n:nat) (c c':context) : Prop := n <= height c -> n <= height c' /\ below c' n = below c n.

Lemma keep_refl n c : keep n c c. Proof. unfold keep; auto. Qed.
Lemma keep_trans n a b c : keep n a b -> keep n b c -> keep n a c.
Proof. unfold keep. intros H1 H2 L. destruct (H1 L) as [L1 E1]. destruct (H2 L1) as [L2 E2]. split; [exact L2|congruence]. Qed.
Lemma keep_same_values n c c' : c_values c' = c_values c -> keep n c c'.
Proof. unfold keep, below, height. intros ->. auto. Qed.

Lemma skipn_cons_below {A} (v:A) vs n : n <= length vs -> skipn (length (v :: vs) - n) (v :: vs) = skipn (length vs - n) vs.
Proof. intros L. cbn [length]. replace (S (length vs) - n) with (S (length vs - n)) by lia. reflexivity. Qed.

Lemma keep_push_value n c v : keep n c (push_value c v).
Proof.
  unfold keep, below, height, push_value. cbn [c_values set_values]. intros L. split; [cbn; lia|]. apply skipn_cons_below; exact L.
Qed.

Lemma keep_pop_value n c v c' : pop_value c = Some (v, c') -> n <= top_base c -> keep n c c'.
Proof.
  intros P B. destruct (pop_value_inv _ _ _ P) as (vs & f & rest & V & F & G & ->).
  unfold keep, below, height, top_base in *. cbn [c_values set_values]. rewrite F in B. rewrite V.
  intros L. split; [lia|]. symmetry. apply skipn_cons_below. lia.
Qed.

Lemma keep_clear_values n c : Inv c -> n <= top_base c -> keep n c (clear_values c).
Proof.
  intros I B. unfold keep, below, height, top_base, clear_values in *. unfold Inv in I.
  destruct (c_frames c) as [|f fs]; [auto|]. cbn in I. destruct I as [L0 _]. intros L.
  cbn [c_values set_values]. rewrite skipn_length. split; [lia|]. rewrite skipn_skipn_add. f_equal. lia.
Qed.

Lemma keep_zero c c' : keep 0 c c'.
Proof. unfold keep, below, height. intros _. split; [lia|]. rewrite !Nat.sub_0_r, !skipn_all. reflexivity. Qed.

Lemma vals_push_frame c f : c_values (push_frame c f) = c_values c. Proof. reflexivity. Qed.
Lemma vals_pop_frame c : c_values (pop_frame c) = c_values c. Proof. reflexivity. Qed.
Lemma vals_upd_top c g : c_values (upd_top c g) = c_values c. Proof. unfold upd_top. destruct (c_frames c); reflexivity. Qed.
Lemma vals_set_frames c fs : c_values (set_frames c fs) = c_values c. Proof. reflexivity. Qed.
Lemma vals_assign_local_var c n v : c_values (assign_local_var c n v) = c_values c.
Proof. unfold assign_local_var. destruct (assign_frames _ _ _); [reflexivity|apply vals_upd_top]. Qed.
Lemma vals_set_top_var c n v : c_values (set_top_var c n v) = c_values c. Proof. apply vals_upd_top. Qed.
Lemma vals_declare_top_var c n : c_values (declare_top_var c n) = c_values c. Proof. apply vals_upd_top. Qed.
Lemma vals_fold_declare l : forall c,
  c_values (fold_left (fun c' x => match x with VStr s => declare_top_var c' s | _ => c' end) l c) = c_values c.
Proof. induction l as [|x l IH]; cbn; intros c; [reflexivity|]. rewrite IH. destruct x; auto using vals_declare_top_var. Qed.

Lemma frames_push_value c v : c_frames (push_value c v) = c_frames c. Proof. reflexivity. Qed.
Lemma top_base_push_value c v : top_base (push_value c v) = top_base c. Proof. unfold top_base, push_value. cbn. reflexivity. Qed.
Lemma top_base_pop_value c v c' : pop_value c = Some (v, c') -> top_base c' = top_base c.
Proof. intros P. unfold top_base. now rewrite (pop_value_frames _ _ _ P). Qed.
Lemma top_base_clear_values c : top_base (clear_values c) = top_base c.
Proof. unfold top_base, clear_values. destruct (c_frames c) eqn:E; cbn; rewrite ?E; reflexivity. Qed.
Lemma top_base_same_bases c c' : same_bases (c_frames c) (c_frames c') -> top_base c' = top_base c.
Proof. unfold same_bases, top_base. destruct (c_frames c), (c_frames c'); cbn; intros H; try discriminate; auto. now inversion H. Qed.

(* popping frames can only lower the protected height *)
Lemma top_base_skipn c k : Inv c -> top_base (set_frames c (skipn k (c_frames c))) <= top_base c.
Proof.
  unfold Inv, top_base. cbn [c_frames set_frames]. generalize (length (c_values c)) as h. generalize (c_frames c) as fs.
  induction k as [|k IH]; intros fs h B; [cbn; lia|]. destruct fs as [|f fs]; [cbn; lia|]. cbn [skipn].
  destruct B as [L B]. specialize (IH fs _ B). destruct fs as [|g fs]; [destruct k; cbn in *; lia|]. cbn in B. cbn [top_base] in *. cbn in IH |- *. lia.
Qed.

Lemma tb_pop c : Inv c -> top_base (pop_frame (clear_values c)) <= top_base c.
Proof.
  unfold Inv, top_base, pop_frame, clear_values. destruct (c_frames c) as [|f fs] eqn:E; cbn; rewrite ?E; cbn; [lia|].
  intros [_ B]. destruct fs as [|g fs]; cbn in *; lia.
Qed.
Lemma tb_pop_clearing : forall k c, Inv c -> top_base (pop_clearing k c) <= top_base c.
Proof.
  induction k as [|k IH]; intros c I; cbn [pop_clearing]; [lia|].
  eapply Nat.le_trans; [apply IH; auto with inv|apply tb_pop; exact I].
Qed.
Lemma keep_pop_clearing n : forall k c, Inv c -> n <= top_base (pop_clearing k c) -> keep n c (pop_clearing k c).
Proof.
  induction k as [|k IH]; intros c I B; cbn [pop_clearing] in *; [apply keep_refl|].
  assert (I1 : Inv (pop_frame (clear_values c))) by auto with inv.
  pose proof (tb_pop_clearing k _ I1) as T1. pose proof (tb_pop c I) as T0.
  eapply keep_trans; [apply keep_clear_values; [assumption|lia]|].
  eapply keep_trans; [apply keep_same_values; apply vals_pop_frame|].
  apply IH; assumption.
Qed.

Global Hint Rewrite vals_push_frame vals_pop_frame vals_upd_top vals_set_frames vals_assign_local_var vals_set_top_var
  vals_declare_top_var vals_fold_declare : vals.

Ltac same_vals := apply keep_same_values; cbn [set_suspended set_terminate c_values]; autorewrite with vals; reflexivity.

Lemma pops_keep m c c0 : pops c c0 -> m <= top_base c -> keep m c c0 /\ top_base c0 = top_base c.
Proof.
  induction 1 as [|c v c1 c2 P _ IH]; intros B; [split; [apply keep_refl|reflexivity]|].
  pose proof (top_base_pop_value _ _ _ P) as T. destruct IH as [K T2]; [lia|].
  split; [exact (keep_trans _ _ _ _ (keep_pop_value _ _ _ _ P B) K)|congruence].
Qed.

Lemma err_enact_keep r c k failed r' c' m : err_enact r c k = Ok (failed, r', c') -> Inv c -> m <= top_base c ->
  keep m c c' /\ same_bases (c_frames c) (c_frames c').
Proof.
  intros H I B. apply err_enact_inv in H. destruct H as [_ [|f h exc c1 N P]]; [split; [apply keep_refl|reflexivity]|].
  destruct (pops_keep m _ _ P B) as [K1 T1]. pose proof (inv_pops _ _ P I) as I1.
  destruct (clear_values_spec c1 I1) as (F2 & _). split.
  - eapply keep_trans; [exact K1|]. eapply keep_trans; [apply keep_clear_values; [exact I1|lia]|same_vals].
  - cbn. rewrite F2, (pops_frames _ _ P). eapply same_bases_list_upd; eauto.
Qed.

Lemma op_throw_keep r c v r' c' x m : op_throw r c v = Ok (r', c', x) -> Inv c -> m <= top_base c -> keep m c c'.
Proof.
  unfold op_throw. intros H I B.
  destruct (find_handler (c_frames c) 0) as [k|]; [|inversion H; subst; apply keep_refl].
  unfold bindr in H. destruct (err_enact r (push_value c (VTrace v)) k) as [[[failed r2] c2]| | |] eqn:E; try discriminate.
  destruct (err_enact_keep _ _ _ _ _ _ m E) as [K SB]; [auto with inv|rewrite top_base_push_value; exact B|].
  assert (K0 : keep m c c2) by (eapply keep_trans; [apply keep_push_value|exact K]).
  assert (T2 : top_base c2 = top_base c) by (rewrite (top_base_same_bases _ _ SB); apply top_base_push_value).
  destruct failed.
  - destruct (Nat.ltb 0 (length (c_values c))); [|inversion H; subst; exact K0].
    destruct (pop_value c2) as [[y c3]|] eqn:P; inversion H; subst; [|exact K0].
    eapply keep_trans; [exact K0|eapply keep_pop_value; eauto; lia].
  - inversion H; subst. eapply keep_trans; [exact K0|same_vals].
Qed.

Lemma op_breakout_keep r c v t r' c' x m : op_breakout r c v t = Ok (r', c', x) -> Inv c -> m <= top_base c' -> keep m c c'.
Proof.
  unfold op_breakout. intros H I B. destruct (c_frames c) as [|f fs] eqn:EF; [discriminate|].
  destruct (String.eqb t "").
  - destruct (defect r "breakout_leaks_regions"); inversion H; subst; [same_vals|exact (keep_pop_clearing m 1 c I B)].
  - destruct (find_scope t (f :: fs) 0) as [k|]; [|inversion H; subst; apply keep_refl].
    destruct (defect r "breakout_leaks_regions"); inversion H; subst; [same_vals|exact (keep_pop_clearing m k c I B)].
Qed.

Lemma op_unary_keep n v r c r' c' x m : op_unary n v r c = Ok (r', c', x) -> Inv c ->
  m <= top_base c -> m <= top_base c' -> keep m c c'.
Proof.
  (* but for throw and breakOut an operator leaves the operand stack as it is *)
  intros H I B B'. apply op_unary_inv in H.
  destruct H; first [ apply keep_refl | same_vals | eapply op_throw_keep; eassumption | eapply op_breakout_keep; eassumption ].
Qed.

Lemma op_binary_keep n l v r c r' c' x m : op_binary n l v r c = Ok (r', c', x) -> Inv c ->
  m <= top_base c -> m <= top_base c' -> keep m c c'.
Proof.
  intros H I B B'. apply op_binary_inv in H.
  destruct H; first [ apply keep_refl | same_vals | eapply op_throw_keep; eassumption | eapply op_breakout_keep; eassumption ].
Qed.

Lemma exec_instr_keep i r c r' c' m : exec_instr i r c = Ok (r', c') -> Inv c ->
  m <= top_base c -> m <= top_base c' -> keep m c c'.
Proof.
  intros H I B B'. apply exec_instr_inv in H.
  assert (K1 : forall v c1, pop_value c = Some (v, c1) -> keep m c c1 /\ Inv c1 /\ top_base c1 = top_base c)
    by (intros v c1 P; split; [exact (keep_pop_value _ _ _ _ P B)|split; [exact (inv_pop_value _ _ _ I P)|exact (top_base_pop_value _ _ _ P)]]).
  destruct H as [c0 v r1 P _| |c0 r1 P _|n v c1 r1 _ _ P _|n v c1 r1 f rest _ _ P _ _|n v c1 r1 _ P _
                |n v c1 r1 c2 y _ P O|n l v c1 c2 r1 c3 y _ P P2 O].
  - eapply keep_trans; [apply (pops_keep _ _ _ P B)|apply keep_push_value].
  - apply keep_clear_values; assumption.
  - apply (pops_keep _ _ _ P B).
  - eapply keep_trans; [apply (K1 _ _ P)|same_vals].
  - apply (K1 _ _ P).
  - eapply keep_trans; [apply (K1 _ _ P)|same_vals].
  - destruct (K1 _ _ P) as (K & I1 & T). rewrite top_base_push_value in B'.
    eapply keep_trans; [exact K|]. eapply keep_trans; [|apply keep_push_value].
    eapply op_unary_keep; eauto; lia.
  - destruct (K1 _ _ P) as (K & I1 & T). rewrite top_base_push_value in B'. pose proof (top_base_pop_value _ _ _ P2) as T2.
    eapply keep_trans; [exact K|]. eapply keep_trans; [eapply keep_pop_value; eauto; lia|].
    eapply keep_trans; [|apply keep_push_value].
    eapply op_binary_keep; eauto using inv_pop_value; lia.
Qed.

Lemma top_base_upd_top c g : (forall f, f_base (g f) = f_base f) -> top_base (upd_top c g) = top_base c.
Proof. intros G. unfold top_base, upd_top. destruct (c_frames c) eqn:E; cbn; rewrite ?E; auto. Qed.
Lemma top_base_restart_with c vars : top_base (restart_with c vars) = top_base c.
Proof. unfold restart_with. rewrite top_base_upd_top by reflexivity. apply top_base_clear_values. Qed.
Lemma keep_restart_with m c vars : Inv c -> m <= top_base c -> keep m c (restart_with c vars).
Proof. intros I B. unfold restart_with. eapply keep_trans; [apply keep_clear_values; assumption|same_vals]. Qed.

Lemma enact_ctx_keep m c0 again c' : enact_ctx c0 again c' -> Inv c0 -> m <= top_base c0 ->
  keep m c0 c' /\ top_base c' = top_base c0.
Proof.
  intros [ |v|again' vars|again' w] I B.
  - split; [apply keep_refl|reflexivity].
  - split; [apply keep_push_value|apply top_base_push_value].
  - split; [apply keep_restart_with; assumption|apply top_base_restart_with].
  - split; [|exact (top_base_restart_with (set_suspended c0 true w) [])].
    apply (keep_trans _ _ (set_suspended c0 true w)); [same_vals|apply keep_restart_with; [auto with inv|exact B]].
Qed.

Lemma enact_keep b r c br b' r' c' m : enact b r c = Ok (br, b', r', c') -> Inv c -> m <= top_base c ->
  keep m c c' /\ top_base c' = top_base c.
Proof.
  intros H I B. apply enact_inv in H. destruct H as (c0 & P & _ & C).
  destruct (pops_keep m _ _ P B) as [K0 T0].
  destruct (enact_ctx_keep m _ _ _ C (inv_pops _ _ P I)) as [K T]; [lia|].
  split; [exact (keep_trans _ _ _ _ K0 K)|congruence].
Qed.

Lemma advanced_keep m c f rest res0 f1 : c_frames c = f :: rest -> advance f = (res0, f1) ->
  keep m c (set_frames c (f1 :: rest)) /\ top_base (set_frames c (f1 :: rest)) = top_base c.
Proof.
  intros F A. split; [same_vals|]. unfold top_base. cbn. rewrite F. destruct (advance_inv _ _ _ A) as [->| ->]; reflexivity.
Qed.

Lemma enacted_keep m r c res0 br b' r2 c3 : enacted r c res0 br b' r2 c3 -> Inv c -> m <= top_base c ->
  keep m c c3 /\ top_base c3 = top_base c.
Proof.
  intros [f rest res1 f1 b br1 b1 r3 c2 F A _ E] I B. destruct (advanced_keep m _ _ _ _ _ F A) as [K1 T1].
  destruct (enact_keep _ _ _ _ _ _ _ m E (inv_advanced _ _ _ _ _ F A I)) as [K2 T2]; [lia|].
  split; [|rewrite top_base_upd_top by reflexivity; congruence].
  eapply keep_trans; [exact K1|]. eapply keep_trans; [exact K2|same_vals].
Qed.

Lemma restart_scope_keep m c3 : Inv c3 -> m <= top_base c3 ->
  keep m c3 (restart_scope c3) /\ top_base (restart_scope c3) = top_base c3.
Proof.
  intros I B. unfold restart_scope. rewrite top_base_clear_values, top_base_upd_top by reflexivity. split; [|reflexivity].
  eapply keep_trans; [|apply keep_clear_values; [auto with inv|rewrite top_base_upd_top by reflexivity; exact B]]. same_vals.
Qed.

Lemma frame_next_keep m : forall fuel r c fr r' c', frame_next fuel r c = Ok (fr, r', c') -> RInv r -> Inv c -> m <= top_base c ->
  keep m c c' /\ top_base c' = top_base c.
Proof.
  intros fuel r c fr r' c' H. apply frame_next_inv in H.
  induction H as [r c f rest res0 f1 F A|r c res0 br b' r2 c3 En _|r c res0 b' r2 c3 En|r c res0 b' r2 c3 En _
                 |r c res0 b' r2 c3 fr r' c' En _ IH|r c res0 code' b' r2 c3 fr r' c' En _ IH];
    intros R I B; [exact (advanced_keep m _ _ _ _ _ F A)|..];
    destruct (inv_enacted _ _ _ _ _ _ _ En R I) as [R2 I3]; destruct (enacted_keep m _ _ _ _ _ _ _ En I B) as [K3 T3].
  - auto.
  - split; [eapply keep_trans; [exact K3|same_vals]|rewrite top_base_upd_top by reflexivity; exact T3].
  - destruct (restart_scope_keep m c3 I3) as [K T]; [lia|]. split; [exact (keep_trans _ _ _ _ K3 K)|congruence].
  - destruct (restart_scope_keep m c3 I3) as [K T]; [lia|].
    destruct IH as [K' T']; [exact R2|unfold restart_scope; auto with inv|lia|].
    split; [exact (keep_trans _ _ _ _ K3 (keep_trans _ _ _ _ K K'))|congruence].
  - assert (RB : forall f0, f_base (set_pos (set_code (match b' with BWhile _ WCond _ _ => set_scope f0 "" | _ => f0 end) code') 0) = f_base f0)
      by (intros f0; destruct b' as [|? [|] ? ?| | | | | | | |]; reflexivity).
    assert (TX : top_base (exchange_code b' code' c3) = top_base c3) by (apply top_base_upd_top, RB).
    destruct IH as [K' T']; [exact R2|apply inv_upd_top; [exact RB|exact I3]|lia|].
    split; [|congruence]. eapply keep_trans; [exact K3|]. eapply keep_trans; [|exact K']. unfold exchange_code. same_vals.
Qed.

(* error unwinding only pops frames: it can only lower the protected height *)
Lemma handle_error_keep m : forall fuel r c msgs skip b r' c',
  handle_error fuel r c msgs skip = Ok (b, r', c') -> Inv c -> top_base c' <= top_base c /\ (m <= top_base c' -> keep m c c').
Proof.
  induction fuel as [|fuel IH]; intros r c msgs skip b r' c' H I; cbn [handle_error] in H; [discriminate|].
  destruct (find_handler (skipn skip (c_frames c)) skip) as [k|]; [|inversion H; subst; split; [lia|intros; apply keep_refl]].
  unfold bindr in H.
  set (c1 := push_value c (VTrace (VArr (map (fun d => VNum (snd d)) msgs)))) in *.
  set (c2 := set_frames c1 (skipn k (c_frames c1))) in *.
  assert (I1 : Inv c1) by (unfold c1; auto with inv).
  assert (I2 : Inv c2) by (unfold c2; auto with inv).
  assert (T2 : top_base c2 <= top_base c) by (unfold c2; eapply Nat.le_trans; [apply top_base_skipn; exact I1|unfold c1; rewrite top_base_push_value; lia]).
  destruct (err_enact r c2 0) as [[[failed r3] c3]| | |] eqn:E; try discriminate.
  assert (I3 : Inv c3) by (eapply inv_err_enact; eauto).
  assert (SB : same_bases (c_frames c2) (c_frames c3)) by (destruct (err_enact_keep _ _ _ _ _ _ 0 E I2 (Nat.le_0_l _)) as [_ S]; exact S).
  pose proof (top_base_same_bases _ _ SB) as T3.
  assert (K3 : m <= top_base c3 -> keep m c c3).
  { intros B. destruct (err_enact_keep _ _ _ _ _ _ m E I2) as [K _]; [lia|].
    eapply keep_trans; [apply keep_push_value|]. fold c1. eapply keep_trans; [|exact K]. unfold c2; same_vals. }
  destruct failed; [|inversion H; subst; split; [lia|exact K3]].
  destruct (pop_value c3) as [[y c4]|] eqn:P.
  - assert (I4 : Inv c4) by (eapply inv_pop_value; eauto). pose proof (top_base_pop_value _ _ _ P) as T4.
    destruct (IH _ _ _ _ _ _ _ H I4) as [L K]. split; [lia|]. intros B.
    eapply keep_trans; [apply K3; lia|]. eapply keep_trans; [eapply keep_pop_value; eauto; lia|apply K; exact B].
  - destruct (IH _ _ _ _ _ _ _ H I3) as [L K]. split; [lia|]. intros B.
    eapply keep_trans; [apply K3; lia|apply K; exact B].
Qed.

Definition Ext (r r':rt) : Prop := r_active r' = r_active r /\ length (r_ctxs r) <= length (r_ctxs r').
Lemma ext_refl r : Ext r r. Proof. split; auto. Qed.
Lemma ext_trans a b c : Ext a b -> Ext b c -> Ext a c. Proof. unfold Ext. intros [A1 L1] [A2 L2]. split; [congruence|lia]. Qed.
Lemma ext_same r r' : r_active r' = r_active r -> r_ctxs r' = r_ctxs r -> Ext r r'.
Proof. unfold Ext. intros -> ->. auto. Qed.
Lemma ext_logmsg r d : Ext r (logmsg r d). Proof. apply ext_same; [apply active_logmsg|apply ctxs_logmsg]. Qed.
Lemma ext_mark r s : Ext r (mark r s). Proof. apply ext_same; reflexivity. Qed.
Lemma ext_ns_set r a b v : Ext r (ns_set r a b v). Proof. apply ext_same; reflexivity. Qed.
Lemma ext_set_msgs r x : Ext r (set_msgs r x). Proof. apply ext_same; reflexivity. Qed.
Lemma ext_set_errflag r x : Ext r (set_errflag r x). Proof. apply ext_same; reflexivity. Qed.
Lemma ext_set_exit_req r x : Ext r (set_exit_req r x). Proof. apply ext_same; reflexivity. Qed.
Lemma ext_set_clock r x : Ext r (set_clock r x). Proof. apply ext_same; reflexivity. Qed.
Lemma ext_set_next_id r x : Ext r (set_next_id r x). Proof. apply ext_same; reflexivity. Qed.
Lemma ext_spawn r nc : Ext r (set_ctxs r (r_ctxs r ++ [nc])).
Proof. split; [reflexivity|]. cbn. rewrite app_length. lia. Qed.
Lemma ext_map r (g:context -> context) : Ext r (set_ctxs r (map g (r_ctxs r))).
Proof. split; [reflexivity|]. cbn. rewrite map_length. lia. Qed.
Lemma ext_upd_cur r c : Ext r (upd_cur r c).
Proof. split; [apply active_upd_cur|rewrite length_upd_cur; lia]. Qed.
Global Hint Resolve ext_refl ext_logmsg ext_mark ext_ns_set ext_set_msgs ext_set_errflag ext_set_exit_req ext_set_clock
  ext_set_next_id ext_spawn ext_map ext_upd_cur : ext.

Lemma ext_now r t r1 : now r = (t, r1) -> Ext r r1.
Proof. intros [= _ <-]. apply ext_set_clock. Qed.

(* a machine reached by the primitive updates of SchedOps.v has the same current slot *)
Lemma ext_steps r r' : steps r r' -> Ext r r'.
Proof. intros S. apply steps_reach in S. split; [exact (reach_active _ _ S)|exact (reach_len _ _ S)]. Qed.

Lemma ext_exec_instr i r c r' c' : exec_instr i r c = Ok (r', c') -> Ext r r'.
Proof. intros H. exact (ext_steps _ _ (proj1 (exec_instr_steps _ _ _ _ _ H))). Qed.
Lemma ext_frame_next fuel r c fr r' c' : frame_next fuel r c = Ok (fr, r', c') -> Ext r r'.
Proof. intros H. exact (ext_steps _ _ (proj1 (frame_next_steps _ _ _ _ _ _ H))). Qed.

Lemma cur_upd_ext r0 c0 r1 x : cur r0 = Some c0 -> Ext r0 r1 -> cur (upd_cur r1 x) = Some x.
Proof.
  intros C [A L]. destruct (cur_valid _ _ C) as (i & Ai & Li). apply (cur_upd_cur_slot r1 x i); [congruence|lia].
Qed.

(* what error handling does to the current context *)
Lemma on_error_ctx r b r' c : on_error r = Ok (b, r') -> RInv r -> cur r = Some c ->
  exists c', cur r' = Some c' /\ top_base c' <= top_base c /\ (forall m, m <= top_base c' -> keep m c c') /\ Ext r r'.
Proof.
  unfold on_error. intros H R C.
  assert (C1 : cur (set_msgs r []) = Some c) by exact C. rewrite C1 in H.
  assert (I : Inv c) by (eapply inv_cur; eauto).
  unfold bindr in H.
  match type of H with context [handle_error ?f ?rr c ?ms 0] => destruct (handle_error f rr c ms 0) as [[[rec r2] c2]| | |] eqn:E; try discriminate end.
  destruct (handle_error_keep 0 _ _ _ _ _ _ _ _ E I) as [L _].
  assert (X : Ext (set_msgs r []) r2) by (destruct (handle_error_shape _ _ _ _ _ _ _ _ E) as [-> _]; apply ext_refl).
  assert (X0 : Ext r r2) by (eapply ext_trans; [apply ext_set_msgs|exact X]).
  exists c2. destruct rec; inversion H; subst; (split; [|split; [exact L|split]]).
  - cbn. eapply (cur_upd_ext (set_msgs r [])); eauto.
  - intros m B. destruct (handle_error_keep m _ _ _ _ _ _ _ _ E I) as [_ K]. auto.
  - eapply ext_trans; [exact X0|]. eapply ext_trans; [apply ext_upd_cur|auto with ext].
  - assert (CC : cur (upd_cur r2 c2) = Some c2) by (eapply (cur_upd_ext (set_msgs r [])); eauto).
    unfold logmsg. destruct (Z.leb (fst d_Stacktrace) 1); exact CC.
  - intros m B. destruct (handle_error_keep m _ _ _ _ _ _ _ _ E I) as [_ K]. auto.
  - eapply ext_trans; [exact X0|]. eapply ext_trans; [apply ext_upd_cur|]. eapply ext_trans; [apply ext_logmsg|auto with ext].
Qed.

Lemma cur_set_wrappers r c : cur r = Some c ->
  cur (set_msgs r []) = Some c /\ cur (set_errflag r false) = Some c.
Proof. intros C. split; exact C. Qed.

Lemma complete_frame_keep m r c1 : Inv c1 -> m <= top_base c1 -> keep m c1 (complete_frame r c1).
Proof.
  intros I B. unfold complete_frame.
  assert (Pop : forall c2, Inv c2 -> m <= top_base c2 -> keep m c2 (pop_frame (clear_values c2))).
  { intros c2 I2 B2. eapply keep_trans; [apply keep_clear_values; assumption|apply keep_same_values, vals_pop_frame]. }
  destruct (pop_value c1) as [[v c2]|] eqn:P.
  - pose proof (top_base_pop_value _ _ _ P) as T2.
    eapply keep_trans; [exact (keep_pop_value _ _ _ _ P B)|].
    eapply keep_trans; [apply Pop; [exact (inv_pop_value _ _ _ I P)|lia]|apply keep_push_value].
  - eapply keep_trans; [exact (Pop _ I B)|]. destruct (defect r _); [apply keep_refl|].
    destruct (c_frames (pop_frame (clear_values c1))); [apply keep_refl|apply keep_push_value].
Qed.

(* One pass of execute_do's loop (frame completion, an exit behaviour, one instruction, error
   unwinding - whatever happens): every operand below the protected height survives, where the
   protected height is the base of the current scope before the pass and after it. *)
Theorem do_iter_regions r c it c' m : RInv r -> cur r = Some c -> do_iter r = Ok it -> cur (rt_of it) = Some c' ->
  m <= top_base c -> m <= top_base c' -> keep m c c'.
Proof.
  intros R C H C' B B'. apply do_iter_pass in H.
  assert (CU : forall r2 x, Ext r r2 -> cur (upd_cur r2 x) = Some x) by (intros ? x; exact (cur_upd_ext r c _ x C)).
  (* what frame::next leaves: r1 and c1, with the operands below m kept *)
  assert (Next : forall c0 fr r1 c1, ready r c0 -> frame_next frame_fuel r c0 = Ok (fr, r1, c1) ->
            RInv r1 /\ Inv c1 /\ keep m c c1 /\ m <= top_base c1 /\ Ext r r1).
  { intros c0 fr r1 c1 (_ & C0 & _) N. rewrite C in C0. injection C0 as <-. pose proof (inv_cur _ _ R C) as I.
    destruct (inv_frame_next _ _ _ _ _ _ N R I) as [R1 I1]. destruct (frame_next_keep m _ _ _ _ _ _ N R I B) as [K1 T1].
    split; [exact R1|]. split; [exact I1|]. split; [exact K1|]. split; [lia|exact (ext_frame_next _ _ _ _ _ _ N)]. }
  assert (Tested : forall r1 e r2, deadline_test r1 = (e, r2) -> RInv r1 -> Ext r r1 -> RInv r2 /\ Ext r r2).
  { intros r1 e r2 D R1 X1. destruct (deadline_test_inv _ _ _ D) as [->|[t Nw]]; [auto|].
    split; [exact (rinv_now _ _ _ Nw R1)|exact (ext_trans _ _ _ X1 (ext_now _ _ _ Nw))]. }
  (* error unwinding from a context c5 only lowers the protected height: the current context afterwards is c' *)
  assert (Unwind : forall r3 c5 rec r5, RInv r3 -> Inv c5 -> Ext r r3 -> (m <= top_base c5 -> keep m c c5) ->
            on_error (upd_cur r3 c5) = Ok (rec, r5) -> cur r5 = Some c' -> keep m c c').
  { intros r3 c5 rec r5 R3 I5 X3 K5 O C5.
    destruct (on_error_ctx _ _ _ _ O (rinv_upd_cur _ _ R3 I5) (CU _ _ X3)) as (c6 & C6 & L6 & K6 & _).
    assert (c6 = c') by congruence. subst c6. exact (keep_trans _ _ _ _ (K5 ltac:(lia)) (K6 m B')). }
  (* the time limit: the current context is the c1 that frame::next left *)
  assert (Expired : forall r2 c1, Ext r r2 -> keep m c c1 -> cur (expired_machine r2 c1) = Some c' -> keep m c c').
  { intros r2 c1 X2 K1 Cx. change (cur (logmsg (upd_cur r2 c1) d_MaximumRuntimeReached) = Some c') in Cx.
    rewrite cur_logmsg, (CU _ _ X2) in Cx. injection Cx as <-. exact K1. }
  destruct H as [ | | | |c0 fr r1 c1 b r2 Hr N _ O|c0 r1 c1 Hr N _ _|c0 fr r1 c1 i r2 Hr N _ _ _ D
                |c0 fr r1 c1 i r2 r3 c5 Hr N _ _ _ D X _|c0 fr r1 c1 i r2 r3 c5 b r5 Hr N _ _ _ D X _ O
                |c0 r1 c1 r2 Hr N _ D|c0 r1 c1 r2 Hr N _ D];
    try (cbn [rt_of] in C'; rewrite C in C'; injection C' as <-; apply keep_refl);
    destruct (Next _ _ _ _ Hr N) as (R1 & I1 & K1 & B1 & X1); try destruct (Tested _ _ _ D R1 X1) as [R2 X2].
  - apply (Unwind r1 c1 b r2 R1 I1 X1 (fun _ => K1) O). destruct b; exact C'.
  - cbn [rt_of] in C'. rewrite (CU _ _ X1) in C'. injection C' as <-.
    exact (keep_trans _ _ _ _ K1 (complete_frame_keep _ _ _ I1 B1)).
  - exact (Expired _ _ X2 K1 C').
  - pose proof (ext_trans _ _ _ X2 (ext_exec_instr _ _ _ _ _ X)) as X3.
    cbn [rt_of] in C'. change (cur (upd_cur r3 c5) = Some c') in C'. rewrite (CU _ _ X3) in C'. injection C' as <-.
    exact (keep_trans _ _ _ _ K1 (exec_instr_keep _ _ _ _ _ _ X I1 B1 B')).
  - pose proof (ext_trans _ _ _ X2 (ext_exec_instr _ _ _ _ _ X)) as X3.
    destruct (inv_exec_instr _ _ _ _ _ X R2 I1) as [R3 I5].
    apply (Unwind r3 c5 b r5 R3 I5 X3); [|exact O|destruct b; exact C'].
    intros B5. exact (keep_trans _ _ _ _ K1 (exec_instr_keep _ _ _ _ _ _ X I1 B1 B5)).
  - exact (Expired _ _ X2 K1 C').
  - cbn [rt_of] in C'. rewrite (CU _ _ X2) in C'. injection C' as <-. exact K1.
Qed.

(* the completion branch of do_iter, as a function of the context *)
Definition complete (dropped:bool) (c1:context) : context :=
  let popped := pop_value c1 in
  let c2 := match popped with Some (_, c') => c' | None => c1 end in
  let c3 := pop_frame (clear_values c2) in
  match popped with
  | Some (v, _) => push_value c3 v
  | None => if dropped then c3 else match c_frames c3 with [] => c3 | _ => push_value c3 VNil end end.

Lemma complete_spec c1 f g rest : Inv c1 -> c_frames c1 = f :: g :: rest ->
  let c4 := complete false c1 in
  c_frames c4 = g :: rest /\
  height c4 = f_base f + 1 /\
  below c4 (f_base f) = below c1 (f_base f) /\
  (exists v, c_values c4 = v :: below c1 (f_base f) /\
             v = match pop_value c1 with Some (x, _) => x | None => VNil end).
Proof.
  intros I EF. unfold complete.
  assert (L0 : f_base f <= length (c_values c1)) by (unfold Inv in I; rewrite EF in I; apply I).
  (* c2 is c1 with or without its top value: clearing it leaves what lies below the base of f *)
  assert (Cleared : forall c2 v, Inv c2 -> c_frames c2 = c_frames c1 -> c_values (clear_values c2) = below c1 (f_base f) ->
            let c4 := push_value (pop_frame (clear_values c2)) v in
            c_frames c4 = g :: rest /\ height c4 = f_base f + 1 /\ below c4 (f_base f) = below c1 (f_base f) /\
            c_values c4 = v :: below c1 (f_base f)).
  { intros c2 v I2 F CV. destruct (clear_values_spec c2 I2) as (F2 & L2 & _). rewrite F, EF in L2.
    repeat split.
    - cbn. rewrite F2, F, EF. reflexivity.
    - unfold height. cbn. rewrite L2. lia.
    - unfold below at 1. cbn [push_value pop_frame set_values c_values set_frames]. rewrite CV.
      cbn [length]. unfold below. rewrite skipn_length.
      replace (S (length (c_values c1) - (length (c_values c1) - f_base f)) - f_base f) with 1 by lia. reflexivity.
    - cbn. now rewrite CV. }
  destruct (pop_value c1) as [[v c2]|] eqn:P.
  - pose proof (inv_pop_value _ _ _ I P) as I2.
    destruct (pop_value_inv _ _ _ P) as (vs & f0 & rest0 & V & F & G & ->). rewrite EF in F. injection F as <- <-.
    destruct (Cleared (set_values c1 vs) v I2 eq_refl) as (A1 & A2 & A3 & A4); [|eauto 6].
    unfold clear_values, below. cbn. rewrite EF, V. cbn [length].
    replace (S (length vs) - f_base f) with (S (length vs - f_base f)) by lia. reflexivity.
  - assert (FR : c_frames (pop_frame (clear_values c1)) = g :: rest) by (cbn; rewrite (proj1 (clear_values_spec c1 I)), EF; reflexivity).
    rewrite FR. destruct (Cleared c1 VNil I eq_refl) as (A1 & A2 & A3 & A4); [|eauto 6].
    unfold clear_values, below. rewrite EF. reflexivity.
Qed.

Lemma height_restart_with c vars : Inv c -> c_frames c <> [] -> height (restart_with c vars) = top_base (restart_with c vars).
Proof.
  intros I NE. rewrite top_base_restart_with. unfold restart_with, height. rewrite vals_upd_top.
  destruct (clear_values_spec c I) as (_ & L & _). rewrite L. unfold top_base. destruct (c_frames c); [contradiction|reflexivity].
Qed.

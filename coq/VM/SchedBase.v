(* What executing can do to the machine, part 2: instructions, exit behaviours, frame::next and error handling are
   changes in the sense of SchedOps.v; `evolves` says what that means for the context list as seen from the executing
   script (everybody keeps place and identity, the others at most get their terminate flag raised, new contexts are
   appended with fresh ids), `dstep` for the machine between two points of one execute_do iteration. *)
From Coq Require Import String Ascii ZArith List Bool Lia Arith.
From SqfVerif Require Import Gen.DiagCodes Gen.Overloads VM.VmDefs VM.VmExec VM.VmFacts VM.SchedDefs VM.OpEffect VM.SchedOps VM.SchedEquiv.
Import ListNotations.
Local Open Scope list_scope.

Opaque frame_fuel exec_fuel.

Lemma opt_log_steps r r1 : opt_log r r1 -> steps r r1.
Proof. destruct 1; steps_solve. Qed.

(* by cases on the effect of the instruction (OpEffect.v) *)
Lemma exec_instr_steps i r c r' c' : exec_instr i r c = Ok (r', c') -> steps r r' /\ ctx_ok c c'.
Proof.
  intro H. destruct (exec_instr_inv _ _ _ _ _ H);
    repeat match goal with
           | P : pops _ _ |- _ => apply pops_ok in P
           | L : opt_log _ _ |- _ => apply opt_log_steps in L
           | O : op_unary _ _ _ _ = Ok _ |- _ => apply op_unary_shape in O; destruct O
           | O : op_binary _ _ _ _ _ = Ok _ |- _ => apply op_binary_shape in O; destruct O
           end;
    (split; [steps_solve|ctx_solve]).
Qed.
Lemma exec_instr_shape i r c r' c' : exec_instr i r c = Ok (r', c') -> reach r r' /\ ctx_ok c c'.
Proof. intro H. apply exec_instr_steps in H. destruct H. auto using steps_reach. Qed.

Lemma enact_shape b r c br b' r' c' : enact b r c = Ok (br, b', r', c') -> steps r r' /\ ctx_ok c c'.
Proof.
  intro H. destruct (enact_inv _ _ _ _ _ _ _ H) as (c0 & P & L & C). apply pops_ok in P. split.
  - destruct L as [|d _|d t r2 _ N]; [steps_solve..|]. eapply steps_now; [|exact N]. steps_solve.
  - destruct C; ctx_solve.
Qed.

Lemma frame_next2_steps b fuel : forall r c fr r' c',
  frame_next2 b fuel r c = Ok (fr, r', c') -> steps r r' /\ ctx_ok c c'.
Proof.
  induction fuel; intros r c fr r' c' H; cbn [frame_next2] in H; [discriminate|].
  destruct (c_frames c) as [|f rest] eqn:Fr; [discriminate|].
  destruct (if at_end f then (F2Done, f) else (if at_end (set_pos f (S (f_pos f))) then F2Done else F2Ok, set_pos f (S (f_pos f)))) as [res0 f1].
  destruct (f_exit f1) as [bh|]; [|leaf H].
  destruct (at_end f1 && negb (f_die f1))%bool; [|leaf H].
  unfold bindr in H.
  destruct (enact bh r (set_frames c (f1 :: rest))) as [[[[br b'] r2] c2]| | |] eqn:E; try discriminate.
  apply enact_shape in E. destruct E as [E1 E2].
  (* a scope that starts over with code to run, or exchanges its code, goes through frame::next again *)
  destruct br; [leaf H|destruct (negb b && top_code_empty _)%bool; [leaf H|]|leaf H| |leaf H];
    apply IHfuel in H; destruct H as [H1 H2]; (split; [eapply steps_trans; eassumption|ctx_solve]).
Qed.
Lemma frame_next2_shape b fuel r c fr r' c' : frame_next2 b fuel r c = Ok (fr, r', c') -> reach r r' /\ ctx_ok c c'.
Proof. intro H. apply frame_next2_steps in H. destruct H. auto using steps_reach. Qed.

(* the shared frame::next is the one above with the switch off (SchedEquiv.v) *)
Lemma frame_next_steps fuel r c fr r' c' : frame_next fuel r c = Ok (fr, r', c') -> steps r r' /\ ctx_ok c c'.
Proof. intro H. apply (frame_next2_steps false fuel r c (lift_f fr)). rewrite frame_next2_shared, H. reflexivity. Qed.

Lemma handle_error_shape fuel : forall r c msgs skip recovered r' c',
  handle_error fuel r c msgs skip = Ok (recovered, r', c') -> r' = r /\ ctx_ok c c'.
Proof.
  induction fuel; intros r c msgs skip recovered r' c' H; cbn [handle_error] in H; [discriminate|].
  destruct (find_handler _ _); [|injection H as _ <- <-; auto using ctx_ok_refl].
  unfold bindr in H.
  match type of H with context [err_enact ?a ?b ?k] => destruct (err_enact a b k) as [[[failed r3] c3]| | |] eqn:E end; try discriminate.
  apply err_enact_shape in E. destruct E as [-> E].
  destruct failed; [|injection H as _ <- <-; auto].
  apply IHfuel in H. destruct H as [-> H]. split; [reflexivity|].
  destruct (pop_value c3) as [[? ?]|] eqn:P; ctx_solve.
Qed.

(* ------------------------------------------------------------------ one execute_do iteration *)
(* the context list as seen from the executing context i: everybody keeps identity and kind and flags are
   only raised; everybody but i is otherwise untouched; new contexts are appended with fresh ids *)
Definition evolves (i:nat) (l:list context) (n:nat) (l':list context) (n':nat) : Prop :=
  exists l1 sp, l' = l1 ++ sp /\ Forall2 ctx_ok l l1 /\ fresh_from n n' sp /\
    (forall j c c1, j <> i -> nth_error l j = Some c -> nth_error l1 j = Some c1 -> term_le c c1).

Lemma Forall2_diag {A} (R:A->A->Prop) : (forall x, R x x) -> forall l, Forall2 R l l.
Proof. intros H l. induction l; constructor; auto. Qed.
Lemma Forall2_weaken {A B} (R S:A->B->Prop) : (forall a b, R a b -> S a b) -> forall l l', Forall2 R l l' -> Forall2 S l l'.
Proof. intros H l l'. induction 1; constructor; auto. Qed.
Lemma Forall2_ctx_ok_trans a b c : Forall2 ctx_ok a b -> Forall2 ctx_ok b c -> Forall2 ctx_ok a c.
Proof. intros H; revert c; induction H; intros c0 H2; inversion H2; subst; constructor; eauto using ctx_ok_trans. Qed.
Lemma Forall2_ctx_ok_ids a b : Forall2 ctx_ok a b -> map c_id b = map c_id a.
Proof. induction 1; cbn; auto. rewrite IHForall2. f_equal. apply ctx_ok_id; auto. Qed.
Lemma Forall2_nth {A B} (R:A->B->Prop) l l' j a b : Forall2 R l l' -> nth_error l j = Some a -> nth_error l' j = Some b -> R a b.
Proof.
  intro H; revert j; induction H; intros [|j] Ha Hb; cbn in *; try discriminate.
  - inversion Ha; inversion Hb; subst; auto.
  - eauto.
Qed.
Lemma Forall2_nth_ex {A B} (R:A->B->Prop) l l' j a : Forall2 R l l' -> nth_error l j = Some a -> exists b, nth_error l' j = Some b /\ R a b.
Proof.
  intro H; revert j; induction H; intros [|j] Ha; cbn in *; try discriminate.
  - inversion Ha; subst; eauto.
  - eauto.
Qed.
Lemma Forall2_len {A B} (R:A->B->Prop) l l' : Forall2 R l l' -> length l = length l'.
Proof. induction 1; cbn; auto. Qed.

(* nobody is touched beyond a raised flag *)
Lemma evolves_intro i l l1 sp n n' : Forall2 term_le l l1 -> fresh_from n n' sp -> evolves i l n (l1 ++ sp) n'.
Proof.
  intros F Fr. exists l1, sp. split; [reflexivity|]. split; [exact (Forall2_weaken _ _ term_le_ok _ _ F)|]. split; [exact Fr|].
  intros j c c1 _ H1 H2. exact (Forall2_nth _ _ _ _ _ _ F H1 H2).
Qed.
Lemma fresh_from_nil n : fresh_from n n [].
Proof. split; [lia|]. split; constructor. Qed.
Lemma evolves_refl i l n : evolves i l n l n.
Proof. rewrite <- (app_nil_r l) at 2. apply evolves_intro; [apply Forall2_diag, term_le_refl|apply fresh_from_nil]. Qed.
Lemma evolves_len i l n l' n' : evolves i l n l' n' -> length l <= length l'.
Proof. intros (l1 & sp & -> & F & _). rewrite app_length, <- (Forall2_len _ _ _ F). lia. Qed.
Lemma evolves_trans i l n l' n' l'' n'' : evolves i l n l' n' -> evolves i l' n' l'' n'' -> evolves i l n l'' n''.
Proof.
  intros (l1 & sp & -> & F1 & Fr1 & O1) (l2 & sp2 & -> & F2 & Fr2 & O2).
  apply Forall2_app_inv_l in F2. destruct F2 as (a & b & Fa & Fb & ->).
  exists a, (b ++ sp2). rewrite app_assoc. split; auto. split; [eauto using Forall2_ctx_ok_trans|]. split.
  - eapply fresh_from_app; [|eassumption]. eapply fresh_from_relabel; [eassumption|]. apply Forall2_ctx_ok_ids; auto.
  - intros j c c2 Hj Hc Hc2.
    destruct (Forall2_nth_ex _ _ _ _ _ F1 Hc) as (c1 & Hc1 & _).
    eapply term_le_trans; [eapply O1; eauto|].
    eapply (O2 j); eauto.
    + rewrite nth_error_app1; auto. apply nth_error_Some. congruence.
    + rewrite nth_error_app1; auto. apply nth_error_Some. congruence.
Qed.
(* the machine updates: spawn appends a context with the next id, terminate raises flags *)
Lemma reach_evolves i r r' : reach r r' -> evolves i (r_ctxs r) (r_next_id r) (r_ctxs r') (r_next_id r').
Proof.
  induction 1 as [|r1 d _ IH| | | |r1 nc _ IH Id|r1 id _ IH| |]; try assumption.
  - apply evolves_refl.
  - rewrite ctxs_logmsg, nextid_logmsg. exact IH.
  - eapply evolves_trans; [exact IH|]. apply evolves_intro; [apply Forall2_diag, term_le_refl|].
    cbn. split; [lia|]. split; [constructor; [lia|constructor]|]. cbn. constructor; [intros []|constructor].
  - eapply evolves_trans; [exact IH|]. cbn. rewrite <- (app_nil_r (map _ _)).
    apply evolves_intro; [apply Forall2_raise|apply fresh_from_nil].
Qed.

Lemma list_upd_app {A} (l1 l2:list A) i x : i < length l1 -> list_upd (l1 ++ l2) i x = list_upd l1 i x ++ l2.
Proof. revert i; induction l1; intros [|i] H; cbn in *; try lia; auto. f_equal. apply IHl1. lia. Qed.
Lemma Forall2_list_upd {A B} (R:A->B->Prop) l l' i a b :
  Forall2 R l l' -> nth_error l i = Some a -> R a b -> Forall2 R l (list_upd l' i b).
Proof.
  intro H; revert i; induction H; intros [|i] Ha Hr; cbn in *; try discriminate.
  - inversion Ha; subst. constructor; auto.
  - constructor; eauto.
Qed.

(* replacing the executing context by a ctx_ok successor *)
Lemma evolves_upd i l n l' n' c c' :
  evolves i l n l' n' -> nth_error l i = Some c -> ctx_ok c c' -> evolves i l n (list_upd l' i c') n'.
Proof.
  intros (l1 & sp & -> & F & Fr & O) Hc Hok.
  assert (Hi : i < length l1). { rewrite <- (Forall2_len _ _ _ F). apply nth_error_Some. congruence. }
  exists (list_upd l1 i c'), sp. rewrite list_upd_app by auto. split; [reflexivity|]. split; [|split; auto].
  - eapply Forall2_list_upd; eauto.
  - intros j c0 c1 Hj H0 H1. rewrite nth_error_list_upd_other in H1 by auto. eauto.
Qed.

Record dstep (i:nat) (r r':rt) : Prop := {
  ds_cfg : rcfg r' = rcfg r;
  ds_halt : r_halt_req r' = r_halt_req r;
  ds_run : r_run r' = r_run r;
  ds_state : r_state r' = r_state r;
  ds_active : r_active r' = r_active r;
  ds_clock : exists k:nat, r_clock r' = (r_clock r + Z.of_nat k * r_tick r)%Z;
  ds_ctxs : evolves i (r_ctxs r) (r_next_id r) (r_ctxs r') (r_next_id r') }.

Lemma dstep_refl i r : dstep i r r.
Proof. constructor; auto using evolves_refl. exists O. cbn. lia. Qed.
Lemma dstep_trans i r r1 r2 : dstep i r r1 -> dstep i r1 r2 -> dstep i r r2.
Proof.
  intros [A1 A2 A3 A4 A5 [k1 A6] A7] [B1 B2 B3 B4 B5 [k2 B6] B7]. constructor; try congruence.
  - exists (k1 + k2). destruct (rcfg_limits _ _ A1) as (E & _). rewrite B6, A6, E. lia.
  - eauto using evolves_trans.
Qed.
Lemma reach_dstep i r r' : reach r r' -> dstep i r r'.
Proof.
  intro H. pose proof (reach_ctl _ _ H) as C. unfold rctl in C. inversion C.
  constructor; auto using reach_cfg, reach_clock_reads, reach_evolves.
Qed.
Lemma dstep_upd_cur i r r' c c' :
  dstep i r r' -> r_active r = Some i -> nth_error (r_ctxs r) i = Some c -> ctx_ok c c' -> dstep i r (upd_cur r' c').
Proof.
  intros [A1 A2 A3 A4 A5 A6 A7] Ha Hc Hok. unfold upd_cur. rewrite A5, Ha.
  constructor; auto. cbn. eapply evolves_upd; eauto.
Qed.
(* field updates that are invisible to dstep *)
Lemma dstep_exit_req i r r' b : dstep i r r' -> dstep i r (set_exit_req r' b).
Proof. intros [A1 A2 A3 A4 A5 A6 A7]. constructor; auto. Qed.
Lemma dstep_reach i r r1 r2 : dstep i r r1 -> reach r1 r2 -> dstep i r r2.
Proof. intros H1 H2. eapply dstep_trans; [exact H1|apply reach_dstep; auto]. Qed.

Lemma upd_cur_err r c : r_err (upd_cur r c) = r_err r.
Proof. exact (err_upd_cur r c). Qed.
Lemma upd_cur_cfg r c : rcfg (upd_cur r c) = rcfg r.
Proof. unfold upd_cur. destruct (r_active r) eqn:E; cbn; auto. Qed.
Lemma upd_cur_nth r c i : r_active r = Some i -> i < length (r_ctxs r) -> nth_error (r_ctxs (upd_cur r c)) i = Some c.
Proof. intros Ha Hi. unfold upd_cur. rewrite Ha. cbn. apply nth_error_list_upd_same; auto. Qed.
Lemma upd_cur_cur r c i : r_active r = Some i -> i < length (r_ctxs r) -> cur (upd_cur r c) = Some c.
Proof. exact (cur_upd_cur_slot r c i). Qed.

Lemma reach_exit r r' : reach r r' -> r_exit_req r' = r_exit_req r.
Proof. intro H. apply reach_ctl in H. unfold rctl in H. congruence. Qed.
Lemma reach_active r r' : reach r r' -> r_active r' = r_active r.
Proof. intro H. apply reach_ctl in H. unfold rctl in H. congruence. Qed.
Lemma reach_state r r' : reach r r' -> r_state r' = r_state r.
Proof. intro H. apply reach_ctl in H. unfold rctl in H. congruence. Qed.
Lemma reach_len r r' : reach r r' -> length (r_ctxs r) <= length (r_ctxs r').
Proof. intro H. exact (evolves_len 0 _ _ _ _ (reach_evolves 0 _ _ H)). Qed.

(* error handling of the executing context *)
Lemma on_error_shape i r b r' c :
  on_error r = Ok (b, r') -> r_active r = Some i -> nth_error (r_ctxs r) i = Some c ->
  dstep i r r' /\ r_exit_req r' = r_exit_req r /\ r_clock r' = r_clock r /\ r_err r' = false.
Proof.
  unfold on_error. intros H Ha Hc.
  assert (Hcur : cur (set_msgs r []) = Some c) by (unfold cur; cbn; rewrite Ha; auto).
  rewrite Hcur in H. unfold bindr in H.
  match type of H with context [handle_error ?f ?a ?b ?m ?s] =>
    destruct (handle_error f a b m s) as [[[rec r2] c2]| | |] eqn:E end; try discriminate.
  apply handle_error_shape in E. destruct E as [-> E].
  assert (D : dstep i r (upd_cur (set_msgs r []) c2)).
  { eapply dstep_upd_cur; eauto. apply reach_dstep. apply reach_msgs, reach_refl. }
  destruct rec; inversion H; subst; clear H.
  - split; [eapply dstep_reach; [exact D|apply reach_errflag, reach_refl]|].
    cbn. rewrite exit_req_upd_cur, clock_upd_cur. auto.
  - split; [eapply dstep_reach; [exact D|apply reach_errflag, reach_log, reach_refl]|].
    cbn. rewrite exit_req_upd_cur, clock_upd_cur. auto.
Qed.

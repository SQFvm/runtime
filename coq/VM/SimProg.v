(* C02 simulation: whole programs.  A program whose top-level statements are statements of the relation of SimExit.v, loaded as the
   root frame of a context: execute_do runs it slice by slice; the slice that finishes it returns `empty`, the context has no frame
   left and holds exactly the program's value, and the namespaces are those of the reference result (program_run_z).  An exitWith
   in the root scope itself abandons a frame that has no caller to hand its value to: the root frame completes with the handler's
   value as the program's (program_run_exit). *)
From Coq Require Import String Ascii.
From Coq Require Import ZArith List Bool Lia.
From SqfVerif Require Import Gen.DiagCodes Gen.Overloads VM.VmDefs VM.VmFacts VM.VmExec VM.RefSem VM.C02Proofs VM.SimDefs VM.SimProofs VM.SimBlock VM.SimCtl VM.SimMach VM.SimRun VM.SimExit.
Import ListNotations.
Local Open Scope string_scope.
Local Open Scope list_scope.

Inductive zprog : sstate -> rvalue -> list stmt -> rvalue -> sstate -> Prop :=
| ZPNil s reg : zprog s reg [] reg s
| ZPLast s reg st reg1 s1 : zstmt s reg st reg1 s1 -> zprog s reg [st] reg1 s1
| ZPCons s reg st reg1 s1 st2 rest reg' s' :
    zstmt s reg st reg1 s1 -> zprog s1 RNone (st2 :: rest) reg' s' -> zprog s reg (st :: st2 :: rest) reg' s'.

(* such a program is a block of the relation that runs to its end *)
Lemma zprog_zblock s reg b reg' s' : zprog s reg b reg' s' -> zblock s reg b (BNorm reg') s'.
Proof. induction 1; [apply ZBNil|apply ZBLast; assumption|eapply ZBCons; eassumption]. Qed.

Theorem zprog_ref s reg b reg' s' : zprog s reg b reg' s' ->
  exists f0, forall f, f0 <= f -> eval_block f s b reg = (ONormal reg', s').
Proof. intros H. exact (proj1 (proj2 (proj2 (proj2 ref_runs_z))) s reg b (BNorm reg') s' (zprog_zblock _ _ _ _ _ H)). Qed.

Lemma zev_vm s e v s' : zev s e v s' -> ExprRuns s e (cv v) s'.
Proof. exact (proj1 vm_runs_z s e v s'). Qed.
Lemma zstmt_vm s reg st reg1 s1 : zstmt s reg st reg1 s1 -> BlockRuns s reg (compile_stmt st) reg1 s1.
Proof. exact (proj1 (proj2 (proj2 vm_runs_z)) s reg st reg1 s1). Qed.
Lemma zblock_vm s reg b out s' : zblock s reg b out s' -> BodyEnds s reg (compile_block b) out s'.
Proof. exact (proj1 (proj2 (proj2 (proj2 vm_runs_z))) s reg b out s'). Qed.

(* ---------------------------------------------------------------- exitWith in the root scope itself *)
(* the root frame, marked as finished by exitWith, with the handler's value on top of what it still held: it completes and hands
   exactly that value over; nothing is left to run *)
Lemma complete_dead_root r c f x top :
  Good r c -> c_frames c = [f] -> f_pos f = S (length (f_code f)) -> f_die f = true ->
  c_values c = x :: top -> f_base f = 0 ->
  let c4 := set_values (set_frames c []) [x] in
  Steps r (upd_cur r c4) /\ do_iter (upd_cur r c4) = Ok (Return REmpty (upd_cur r c4)).
Proof.
  intros G EF EP ED EV LB c4. pose proof G as (C & X & St & E & M & MR & SU).
  assert (G4 : Good (upd_cur r c4) c4) by (apply (good_upd r c c4 G); exact SU).
  split.
  - apply steps_cont_upd.
    unfold do_iter. rewrite X, C, SU, EF, St.
    destruct frame_fuel_S as [k Hk]. rewrite Hk. cbn [frame_next]. rewrite EF.
    assert (A1 : at_end f = true) by (unfold at_end; apply Nat.eqb_eq; lia).
    rewrite A1.
    set (c1 := set_frames c [f]).
    assert (P : pop_value c1 = Some (x, set_values c1 top)).
    { apply (pop_value_top c1 f []); [reflexivity|exact EV|lia]. }
    destruct (f_exit f) as [b|]; [rewrite A1, ED; cbn [andb negb]|]; cbn [bindr]; rewrite E;
      cbn [c_frames set_frames length]; rewrite Nat.eqb_refl; fold c1; rewrite P;
      unfold clear_values, pop_frame; cbn [c_frames c1 set_frames c_values tl set_values];
      rewrite LB, Nat.sub_0_r, skipn_all; unfold push_value; subst c4; cbn; reflexivity.
  - destruct G4 as (C4 & X4 & _ & _ & _ & _ & SU4). unfold do_iter. rewrite X4, C4, SU4. reflexivity.
Qed.

(* what a program hands over when its root scope ends *)
Definition root_value (out:bout) : list value :=
  match out with BNorm RNone => [] | BNorm v => [cv v] | BExit v => [cv v] end.

(* an expression of the ROOT frame's code that is left by an exitWith inside an operand: the root scope ends with the handler's value,
   whatever waits on the operand stack is dropped *)
Definition RootExits (s:sstate) (e:expr) (v:rvalue) (s':sstate) : Prop :=
  forall r c f pre post, Mach s r c f [] -> f_base f = 0 -> f_code f = pre ++ compile_expr e ++ post -> f_pos f = length pre ->
  exists rf cf, Steps r rf /\ cur rf = Some cf /\ c_frames cf = [] /\ c_values cf = [cv v] /\
    world rf = (mnss (st_nss s'), st_trace s') /\ do_iter rf = Ok (Return REmpty rf).
Definition RootElemsExit (s:sstate) (l:list expr) (v:rvalue) (s':sstate) : Prop :=
  forall r c f pre post, Mach s r c f [] -> f_base f = 0 -> f_code f = pre ++ flat_map compile_expr l ++ post -> f_pos f = length pre ->
  exists rf cf, Steps r rf /\ cur rf = Some cf /\ c_frames cf = [] /\ c_values cf = [cv v] /\
    world rf = (mnss (st_nss s'), st_trace s') /\ do_iter rf = Ok (Return REmpty rf).
Lemma root_exits :
  (forall s e v s', zev s e v s' -> True) /\ (forall s l vs s', zevs s l vs s' -> True) /\
  (forall s reg st reg1 s1, zstmt s reg st reg1 s1 -> True) /\ (forall s reg b out s', zblock s reg b out s' -> True) /\
  (forall k s arr i body acc acc' s', ziter k s arr i body acc acc' s' -> True) /\
  (forall var to st s x first body acc s', zfor var to st s x first body acc s' -> True) /\
  (forall cond body s first v s', zwhile cond body s first v s' -> True) /\
  (forall s reg b x s', zthrow s reg b x s' -> True) /\
  (forall s reg b t v s', zbreak s reg b t v s' -> True) /\
  (forall s e a s', zloopleave s e a s' -> True) /\
  (forall k s arr i body acc a s', zileave k s arr i body acc a s' -> True) /\
  (forall var to st s x first body a s', zfleave var to st s x first body a s' -> True) /\
  (forall cond body s first a s', zwleave cond body s first a s' -> True) /\
  (forall s vars b a s', zscopeleave s vars b a s' -> True) /\
  (forall s l a s', zelemsleave s l a s' -> True) /\
  (forall s e v s', zexexit s e v s' -> RootExits s e v s') /\ (forall s l v s', zelemsexit s l v s' -> RootElemsExit s l v s').
Proof.
  apply z_ind; try (intros; exact I).
  - (* if true exitWith {..} *)
    intros s n l x b s1 s2 out s3 HN HL _ HX _ HB _ r c f pre post MA FB EC EP.
    destruct (exitwith_dead s n l x b s1 s2 out s3 HN (zev_vm _ _ _ _ HL) (zev_vm _ _ _ _ HX)
                (scope_ends_of_body _ _ _ _ _ (zblock_vm _ _ _ _ _ HB)) r c f [] pre post MA EC EP)
      as (r4 & c4 & fd & rest4 & S4 & M4 & EV4 & P4 & D4 & B4 & KR4).
    inversion KR4; subst. destruct M4 as (G4 & EF4 & (F4 & N4) & _ & _).
    destruct (complete_dead_root r4 c4 fd (cv (val_of out)) (c_values c) G4 EF4 P4 D4 EV4) as [S5 T]; [rewrite B4; exact FB|].
    eexists _, _. split; [eapply steps_trans; eassumption|]. destruct G4 as (C4 & _). split; [eapply cur_upd_cur; exact C4|].
    split; [reflexivity|]. split; [reflexivity|]. split; [rewrite world_upd_cur; exact N4|exact T].
  - (* unary operand *) intros s n a v s1 NL HX IHx r c f pre post MA FB EC EP.
    rewrite (compile_unary_nonlit n a NL), <- app_assoc in EC. exact (IHx r c f pre _ MA FB EC EP).
  - (* left operand *) intros s n a b v s1 HX IHx r c f pre post MA FB EC EP.
    rewrite compile_binary, <- !app_assoc in EC. exact (IHx r c f pre _ MA FB EC EP).
  - (* right operand *) intros s n a b va v s1 s2 HA _ HX IHx r c f pre post MA FB EC EP.
    rewrite compile_binary, <- !app_assoc in EC.
    post_intro (zev_vm s a va s1 HA r c f [] pre _ MA EC EP) r1 c1 f1 rest1 S1 M1 EV1 MV1 P1 K1.
    destruct (after_operands_code f f1 pre _ _ MV1 EC EP P1) as [EC1 EP1].
    inversion K1; subst.
    destruct (IHx r1 c1 f1 (pre ++ compile_expr a) ([IBinary (lower n)] ++ post) M1) as (rf & cf & S2 & R2); [rewrite (moved_base _ _ MV1); exact FB|exact EC1|exact EP1|].
    exists rf, cf. split; [eapply steps_trans; eassumption|exact R2].
  - (* array *) intros s l v s1 HX IHx r c f pre post MA FB EC EP.
    rewrite compile_array, <- app_assoc in EC. exact (IHx r c f pre _ MA FB EC EP).
  - (* first element *) intros s e l v s1 HX IHx r c f pre post MA FB EC EP.
    cbn [flat_map] in EC. rewrite <- app_assoc in EC. exact (IHx r c f pre _ MA FB EC EP).
  - (* later element *) intros s e v0 l v s1 s2 HE _ NN HX IHx r c f pre post MA FB EC EP.
    cbn [flat_map] in EC. rewrite <- app_assoc in EC.
    post_intro (zev_vm s e v0 s1 HE r c f [] pre _ MA EC EP) r1 c1 f1 rest1 S1 M1 EV1 MV1 P1 K1.
    destruct (after_operands_code f f1 pre _ _ MV1 EC EP P1) as [EC1 EP1].
    inversion K1; subst.
    destruct (IHx r1 c1 f1 (pre ++ compile_expr e) post M1) as (rf & cf & S2 & R2); [rewrite (moved_base _ _ MV1); exact FB|exact EC1|exact EP1|].
    exists rf, cf. split; [eapply steps_trans; eassumption|exact R2].
Qed.

Lemma root_expr_exits s e v s' : zexexit s e v s' -> RootExits s e v s'.
Proof. apply root_exits. Qed.

(* a block of the relation as (the rest of) the root frame's code: it runs, or is left by exitWith, and the root frame completes *)
Theorem root_block : forall s reg b out s', zblock s reg b out s' ->
  forall r c f pre, AtM s reg r c f [] [] -> Fresh c [] -> f_code f = pre ++ compile_block b -> f_pos f = length pre -> f_exit f = None ->
  exists rf cf, Steps r rf /\ cur rf = Some cf /\ c_frames cf = [] /\ c_values cf = root_value out /\
    world rf = (mnss (st_nss s'), st_trace s') /\ do_iter rf = Ok (Return REmpty rf).
Proof.
  induction 1 as [s reg|s reg st reg1 s1 HS|s reg st reg1 s1 st2 rest0 out s' HS HB IHb|s reg n l x b s1 s2 out s3 rest0 HN HL HX HB _
                   |s reg e v s1 rest0 HXX|s reg n e v s1 rest0 HXX|s reg n e v s1 rest0 HXX];
    intros r c f pre A FR EC EP EX.
  - (* nothing left *) apply (root_finishes s reg r c f A); [|exact EX].
    rewrite EP, EC. unfold compile_block. cbn [compile_block_from]. rewrite app_nil_r. reflexivity.
  - (* the last statement *)
    unfold compile_block in EC. cbn [compile_block_from app] in EC.
    destruct (zstmt_vm s reg st reg1 s1 HS r c f [] [] pre [] A FR EC EP) as (r1 & c1 & f1 & rest1 & S1 & A1 & MV1 & P1 & K1).
    inversion K1; subst.
    destruct (root_finishes s1 reg1 r1 c1 f1 A1) as (rf & cf & S2 & R2);
      [rewrite P1, EP, (moved_code _ _ MV1), EC, !app_length; cbn; lia|rewrite (moved_exit _ _ MV1); exact EX|].
    exists rf, cf. split; [eapply steps_trans; eassumption|exact R2].
  - (* a statement, then the rest *)
    rewrite compile_block_cons2 in EC.
    destruct (stmt_step s reg st reg1 s1 _ r c f [] [] pre (zstmt_vm s reg st reg1 s1 HS) A FR EC EP)
      as (r2 & c2 & f2 & rest2 & S2 & MV2 & K2 & A2 & FR2 & EC2 & EP2).
    inversion K2; subst.
    destruct (IHb r2 c2 f2 _ A2 FR2 EC2 EP2) as (rf & cf & S3 & R3); [rewrite (moved_exit _ _ MV2); exact EX|].
    exists rf, cf. split; [eapply steps_trans; eassumption|exact R3].
  - (* if true exitWith {..} in the root scope *)
    destruct A as (MA & LB & _).
    exact (root_expr_exits _ _ _ _ (ZXHere s n l x b s1 s2 out s3 HN HL HX HB) r c f pre (compile_block_from false rest0) MA (eq_sym LB) EC EP).
  - (* a statement of the root scope whose expression is left by an exitWith inside an operand *)
    destruct A as (MA & LB & _).
    exact (root_expr_exits s e v s1 HXX r c f pre (compile_block_from false rest0) MA (eq_sym LB) EC EP).
  - (* x = e *)
    destruct A as (MA & LB & _).
    unfold compile_block in EC. cbn [compile_block_from compile_stmt app] in EC. rewrite <- app_assoc in EC.
    exact (root_expr_exits s e v s1 HXX r c f pre _ MA (eq_sym LB) EC EP).
  - (* private _x = e *)
    destruct A as (MA & LB & _).
    unfold compile_block in EC. cbn [compile_block_from compile_stmt app] in EC. rewrite <- app_assoc in EC.
    exact (root_expr_exits s e v s1 HXX r c f pre _ MA (eq_sym LB) EC EP).
Qed.

(* a whole program whose root scope may be left by exitWith *)
Theorem program_run_exit s p out s' r c f :
  zblock s RNone p out s' ->
  AtM s RNone r c f [] [] -> f_code f = compile_block p -> f_pos f = 0 -> f_exit f = None ->
  exists rf cf,
    Steps r rf /\ cur rf = Some cf /\ c_frames cf = [] /\ c_values cf = root_value out /\
    world rf = (mnss (st_nss s'), st_trace s') /\
    do_iter rf = Ok (Return REmpty rf) /\
    forall fuel n x r', execute_do fuel r n = Ok (x, r') ->
      (x = REmpty /\ r' = rf) \/ (x = ROk /\ Steps r r' /\ Steps r' rf).
Proof.
  intros HB A EC EP EX.
  destruct (root_block s RNone p out s' HB r c f [] A (root_fresh s r c f A) EC EP EX) as (rf & cf & S1 & C1 & F1 & V1 & N1 & T).
  exists rf, cf. split; [exact S1|]. split; [exact C1|]. split; [exact F1|]. split; [exact V1|]. split; [exact N1|]. split; [exact T|].
  exact (execute_do_to_empty r rf S1 T).
Qed.

(* a whole program in the root frame *)
Theorem program_run_z s p reg s' r c f :
  zprog s RNone p reg s' ->
  AtM s RNone r c f [] [] -> f_code f = compile_block p -> f_pos f = 0 -> f_exit f = None ->
  exists rf cf,
    Steps r rf /\ cur rf = Some cf /\ c_frames cf = [] /\
    c_values cf = match reg with RNone => [] | v => [cv v] end /\
    world rf = (mnss (st_nss s'), st_trace s') /\
    do_iter rf = Ok (Return REmpty rf) /\
    forall fuel n x r', execute_do fuel r n = Ok (x, r') ->
      (x = REmpty /\ r' = rf) \/ (x = ROk /\ Steps r r' /\ Steps r' rf).
Proof. intros HP. exact (program_run_exit s p (BNorm reg) s' r c f (zprog_zblock _ _ _ _ _ HP)). Qed.

(* what the property observes - "the sequence of statements executed", seen through the markers a program logs: the
   markers the machine has logged when the program is finished are those of the reference run, in the same order *)
Theorem program_trace s p reg s' r c f :
  zprog s RNone p reg s' ->
  AtM s RNone r c f [] [] -> f_code f = compile_block p -> f_pos f = 0 -> f_exit f = None ->
  (exists f0, forall fl, f0 <= fl -> st_trace (snd (eval_block fl s p RNone)) = st_trace s') /\
  exists rf, Steps r rf /\ do_iter rf = Ok (Return REmpty rf) /\ marks (r_out rf) = st_trace s' /\
             forall fuel n x r', execute_do fuel r n = Ok (x, r') -> x = REmpty -> marks (r_out r') = st_trace s'.
Proof.
  intros HP A EC EP EX. split.
  - destruct (zprog_ref s RNone p reg s' HP) as [f0 H]. exists f0. intros fl L. rewrite (H fl L). reflexivity.
  - destruct (program_run_z s p reg s' r c f HP A EC EP EX) as (rf & cf & S & _ & _ & _ & W & T & FO).
    exists rf. split; [exact S|]. split; [exact T|]. split; [exact (world_marks _ _ _ W)|].
    intros fuel n x r' H XE. destruct (FO fuel n x r' H) as [[_ ->]|[XO _]]; [exact (world_marks _ _ _ W)|].
    rewrite XE in XO. discriminate XO.
Qed.

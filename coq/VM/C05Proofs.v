(* C05 - the operand stack is partitioned per scope.  Invariants of the VM model (VmDefs.v). *)
From Coq Require Import String Ascii.
From Coq Require Import ZArith List Bool Lia.
From SqfVerif Require Import Gen.DiagCodes Gen.Overloads VM.VmDefs VM.VmExec VM.VmFacts VM.OpEffect VM.C04Defs VM.C04Proofs.
Import ListNotations.
Local Open Scope list_scope.

Opaque frame_fuel exec_fuel waituntil_cap.

(* frames top first: every frame's base is at most the height above it; bases never increase downwards *)
Fixpoint bases_ok (fs:list frame) (h:nat) : Prop :=
  match fs with [] => True | f :: r => f_base f <= h /\ bases_ok r (f_base f) end.
Definition Inv (c:context) : Prop := bases_ok (c_frames c) (length (c_values c)).
Definition RInv (r:rt) : Prop := Forall Inv (r_ctxs r).

Lemma bases_ok_mono fs h h' : bases_ok fs h -> h <= h' -> bases_ok fs h'.
Proof. destruct fs as [|f r]; cbn; intros H L; [exact I|]. destruct H; split; [lia|assumption]. Qed.

Lemma bases_ok_skipn k : forall fs h, bases_ok fs h -> bases_ok (skipn k fs) h.
Proof.
  induction k as [|k IH]; intros fs h H; [exact H|]. destruct fs as [|f r]; [exact I|].
  cbn [skipn]. destruct H as [L B]. apply IH. eapply bases_ok_mono; eauto.
Qed.

Definition same_bases (a b:list frame) : Prop := map f_base a = map f_base b.
Lemma bases_ok_same a b h : same_bases a b -> bases_ok a h -> bases_ok b h.
Proof.
  unfold same_bases. revert b h. induction a as [|f a IH]; intros [|g b] h E H; cbn in *; try discriminate; auto.
  injection E as E1 E2. destruct H as [L B]. rewrite <- E1. split; [assumption|]. apply IH; assumption.
Qed.

Lemma inv_push_value c v : Inv c -> Inv (push_value c v).
Proof. unfold Inv, push_value. cbn. intros H. eapply bases_ok_mono; eauto. Qed.

Lemma inv_push_frame c f : Inv c -> Inv (push_frame c f).
Proof. unfold Inv, push_frame. cbn. intros H. split; [lia|exact H]. Qed.

Lemma inv_pop_value c v c' : Inv c -> pop_value c = Some (v, c') -> Inv c'.
Proof.
  intros I H. destruct (pop_value_inv _ _ _ H) as (vs & f & rest & V & F & B & ->).
  unfold Inv in *. cbn. rewrite F, V in *. cbn in I. destruct I. split; [exact B|assumption].
Qed.

Lemma clear_values_spec c : Inv c ->
  c_frames (clear_values c) = c_frames c /\
  length (c_values (clear_values c)) = (match c_frames c with f :: _ => f_base f | [] => length (c_values c) end) /\
  (exists top, c_values c = top ++ c_values (clear_values c)).
Proof.
  unfold Inv, clear_values. destruct (c_frames c) as [|f fs] eqn:EF; cbn; intros I.
  - rewrite EF. repeat split; auto. exists []. reflexivity.
  - rewrite EF. destruct I as [L _]. repeat split; auto.
    + rewrite skipn_length. lia.
    + exists (firstn (length (c_values c) - f_base f) (c_values c)). symmetry. apply firstn_skipn.
Qed.

Lemma inv_clear_values c : Inv c -> Inv (clear_values c).
Proof.
  intros I. destruct (clear_values_spec c I) as (F & L & _). unfold Inv in *. rewrite F, L.
  destruct (c_frames c) as [|f fs]; cbn in *; [exact I|]. destruct I; split; [lia|assumption].
Qed.

Lemma inv_pop_frame c : Inv c -> Inv (pop_frame c).
Proof.
  unfold Inv, pop_frame. cbn. destruct (c_frames c) as [|f fs]; cbn; [auto|]. intros [L B]. eapply bases_ok_mono; eauto.
Qed.

Lemma inv_set_frames_same c fs : Inv c -> same_bases (c_frames c) fs -> Inv (set_frames c fs).
Proof. unfold Inv. cbn. intros I S. eapply bases_ok_same; eauto. Qed.

Lemma inv_upd_top c g : (forall f, f_base (g f) = f_base f) -> Inv c -> Inv (upd_top c g).
Proof.
  intros G I. unfold upd_top. destruct (c_frames c) as [|f fs] eqn:EF; [exact I|].
  apply inv_set_frames_same; [exact I|]. rewrite EF. unfold same_bases. cbn. now rewrite G.
Qed.

Lemma inv_set_values_same_len c vs : Inv c -> length (c_values c) <= length vs -> Inv (set_values c vs).
Proof. unfold Inv. cbn. intros. eapply bases_ok_mono; eauto. Qed.

Lemma inv_drop_frames c k : Inv c -> Inv (set_frames c (skipn k (c_frames c))).
Proof. unfold Inv. cbn. apply bases_ok_skipn. Qed.

Lemma inv_set_suspended c b w : Inv c -> Inv (set_suspended c b w). Proof. exact (fun H => H). Qed.
Lemma inv_set_terminate c b : Inv c -> Inv (set_terminate c b). Proof. exact (fun H => H). Qed.

Lemma assign_frames_same n v : forall fs fs', assign_frames n v fs = Some fs' -> same_bases fs fs'.
Proof.
  induction fs as [|f fs IH]; cbn; intros fs' H; [discriminate|].
  destruct (assoc n (f_vars f)).
  - inversion H; subst. reflexivity.
  - destruct (assign_frames n v fs) as [r|] eqn:E; [|discriminate]. inversion H; subst.
    unfold same_bases in *. cbn. f_equal. apply IH. reflexivity.
Qed.

Lemma inv_assign_local_var c n v : Inv c -> Inv (assign_local_var c n v).
Proof.
  intros I. unfold assign_local_var. destruct (assign_frames (lower n) v (c_frames c)) eqn:E.
  - apply inv_set_frames_same; [exact I|]. eapply assign_frames_same; eauto.
  - apply inv_upd_top; auto.
Qed.
Lemma inv_set_top_var c n v : Inv c -> Inv (set_top_var c n v).
Proof. intros. apply inv_upd_top; auto. Qed.
Lemma inv_declare_top_var c n : Inv c -> Inv (declare_top_var c n).
Proof. intros. apply inv_upd_top; auto. intros f. destruct (assoc (lower n) (f_vars f)); reflexivity. Qed.

Lemma inv_fold_declare l : forall c, Inv c ->
  Inv (fold_left (fun c' x => match x with VStr s => declare_top_var c' s | _ => c' end) l c).
Proof.
  induction l as [|x l IH]; cbn; intros c I; [exact I|]. apply IH. destruct x; auto using inv_declare_top_var.
Qed.

Lemma inv_pop_clearing k : forall c, Inv c -> Inv (pop_clearing k c).
Proof. induction k as [|k IH]; cbn; intros c I; [exact I|]. apply IH. apply inv_pop_frame, inv_clear_values, I. Qed.

Lemma inv_restart_with c vars : Inv c -> Inv (restart_with c vars).
Proof. intros. unfold restart_with. apply inv_upd_top; auto. apply inv_clear_values; assumption. Qed.

Lemma inv_list_upd_top c f' : Inv c ->
  (match c_frames c with f :: _ => f_base f' = f_base f | [] => True end) ->
  Inv (set_frames c (list_upd (c_frames c) 0 f')).
Proof.
  intros I H. apply inv_set_frames_same; [exact I|]. destruct (c_frames c) as [|f fs]; cbn; [reflexivity|].
  unfold same_bases. cbn. now rewrite H.
Qed.

Global Hint Resolve inv_push_value inv_push_frame inv_clear_values inv_pop_frame inv_upd_top inv_drop_frames
  inv_set_suspended inv_set_terminate inv_assign_local_var inv_set_top_var inv_declare_top_var inv_fold_declare
  inv_pop_clearing inv_restart_with : inv.

Lemma same_bases_list_upd : forall fs k f f', nth_error fs k = Some f -> f_base f' = f_base f ->
  same_bases fs (list_upd fs k f').
Proof.
  unfold same_bases. induction fs as [|g fs IH]; intros k f f' N B; destruct k; cbn in *; try discriminate.
  - inversion N; subst. now rewrite B.
  - f_equal. eapply IH; eauto.
Qed.

Lemma inv_pops c c0 : pops c c0 -> Inv c -> Inv c0.
Proof. induction 1; eauto using inv_pop_value. Qed.

Lemma inv_err_enact r c k failed r' c' : err_enact r c k = Ok (failed, r', c') -> Inv c -> Inv c'.
Proof.
  intros H I. apply err_enact_inv in H. destruct H as [_ [|f h exc c1 N P]]; [exact I|].
  pose proof (inv_pops _ _ P I) as I1. apply inv_set_frames_same; [auto with inv|].
  destruct (clear_values_spec c1 I1) as (F2 & _). rewrite F2, (pops_frames _ _ P). eapply same_bases_list_upd; eauto.
Qed.

Lemma inv_op_throw r c v r' c' x : op_throw r c v = Ok (r', c', x) -> Inv c -> Inv c'.
Proof.
  unfold op_throw. intros H I.
  destruct (find_handler (c_frames c) 0) as [k|]; [|inversion H; subst; exact I].
  unfold bindr in H. destruct (err_enact r (push_value c (VTrace v)) k) as [[[failed r2] c2]| | |] eqn:E; try discriminate.
  assert (I2 : Inv c2) by (eapply inv_err_enact; eauto with inv).
  destruct failed.
  - destruct (Nat.ltb 0 (length (c_values c))).
    + destruct (pop_value c2) as [[y c3]|] eqn:P; inversion H; subst; [eapply inv_pop_value; eauto|assumption].
    + inversion H; subst; assumption.
  - inversion H; subst. auto with inv.
Qed.

Lemma inv_op_breakout r c v t r' c' x : op_breakout r c v t = Ok (r', c', x) -> Inv c -> Inv c'.
Proof.
  unfold op_breakout. intros H I.
  assert (D : forall k, Inv (set_frames c (skipn k (c_frames c)))) by (intro; apply inv_drop_frames; exact I).
  destruct (c_frames c) as [|f fs] eqn:EF; [discriminate|].
  destruct (String.eqb t "").
  - destruct (defect r "breakout_leaks_regions"); inversion H; subst; [exact (D 1)|auto with inv].
  - destruct (find_scope t (f :: fs) 0) as [k|]; [|inversion H; subst; exact I].
    destruct (defect r "breakout_leaks_regions"); inversion H; subst; [exact (D k)|auto with inv].
Qed.

Lemma num_ok n v : num n = Ok v -> True. Proof. auto. Qed.

Lemma inv_op_unary n v r c r' c' x : op_unary n v r c = Ok (r', c', x) -> Inv c -> Inv c'.
Proof. intros H I. apply op_unary_inv in H. destruct H; eauto using inv_op_throw, inv_op_breakout with inv. Qed.

Lemma inv_op_binary n l v r c r' c' x : op_binary n l v r c = Ok (r', c', x) -> Inv c -> Inv c'.
Proof. intros H I. apply op_binary_inv in H. destruct H; eauto using inv_op_throw, inv_op_breakout with inv. Qed.

Lemma rinv_same_ctxs r r' : r_ctxs r' = r_ctxs r -> RInv r -> RInv r'.
Proof. unfold RInv. intros ->. auto. Qed.

Lemma rinv_logmsg r d : RInv r -> RInv (logmsg r d).
Proof. apply rinv_same_ctxs, ctxs_logmsg. Qed.
Lemma rinv_mark r s : RInv r -> RInv (mark r s). Proof. apply rinv_same_ctxs. reflexivity. Qed.
Lemma rinv_ns_set r ns n v : RInv r -> RInv (ns_set r ns n v). Proof. apply rinv_same_ctxs. reflexivity. Qed.
Lemma rinv_now r t r1 : now r = (t, r1) -> RInv r -> RInv r1.
Proof. unfold now. intros H; inversion H; subst. apply rinv_same_ctxs. reflexivity. Qed.
Lemma rinv_set_msgs r m : RInv r -> RInv (set_msgs r m). Proof. apply rinv_same_ctxs. reflexivity. Qed.
Lemma rinv_set_errflag r b : RInv r -> RInv (set_errflag r b). Proof. apply rinv_same_ctxs. reflexivity. Qed.
Lemma rinv_set_exit_req r b : RInv r -> RInv (set_exit_req r b). Proof. apply rinv_same_ctxs. reflexivity. Qed.
Lemma rinv_set_next_id r b : RInv r -> RInv (set_next_id r b). Proof. apply rinv_same_ctxs. reflexivity. Qed.
Lemma rinv_set_state r b : RInv r -> RInv (set_state r b). Proof. apply rinv_same_ctxs. reflexivity. Qed.
Lemma rinv_set_active r b : RInv r -> RInv (set_active r b). Proof. apply rinv_same_ctxs. reflexivity. Qed.
Lemma rinv_set_run r b : RInv r -> RInv (set_run r b). Proof. apply rinv_same_ctxs. reflexivity. Qed.
Lemma rinv_set_halt_req r b : RInv r -> RInv (set_halt_req r b). Proof. apply rinv_same_ctxs. reflexivity. Qed.
Lemma rinv_set_run_ts r b : RInv r -> RInv (set_run_ts r b). Proof. apply rinv_same_ctxs. reflexivity. Qed.
Lemma rinv_set_clock r b : RInv r -> RInv (set_clock r b). Proof. apply rinv_same_ctxs. reflexivity. Qed.
Lemma rinv_set_ctxs r l : Forall Inv l -> RInv (set_ctxs r l). Proof. unfold RInv. cbn. auto. Qed.

Lemma inv_new_context id b : Inv (new_context id b). Proof. unfold Inv. cbn. exact I. Qed.

Lemma rinv_spawn r nc : RInv r -> Inv nc -> RInv (set_ctxs r (r_ctxs r ++ [nc])).
Proof. intros R I. apply rinv_set_ctxs. apply Forall_app. split; [exact R|]. constructor; [exact I|constructor]. Qed.

Lemma rinv_map_terminate r id : RInv r ->
  RInv (set_ctxs r (map (fun y => if Nat.eqb (c_id y) id then set_terminate y true else y) (r_ctxs r))).
Proof.
  intros R. apply rinv_set_ctxs. unfold RInv in R. induction R as [|c l I _ IH]; cbn; constructor; auto.
  destruct (Nat.eqb (c_id c) id); auto.
Qed.

Lemma rinv_upd_cur r c : RInv r -> Inv c -> RInv (upd_cur r c).
Proof.
  intros R I. unfold upd_cur. destruct (r_active r); [|exact R]. apply rinv_set_ctxs. apply forall_list_upd; assumption.
Qed.
Lemma inv_cur r c : RInv r -> cur r = Some c -> Inv c.
Proof.
  unfold cur, RInv. intros R H. destruct (r_active r) as [i|]; [|discriminate].
  apply nth_error_In in H. rewrite Forall_forall in R. auto.
Qed.

Global Hint Resolve rinv_logmsg rinv_mark rinv_ns_set rinv_set_msgs rinv_set_errflag rinv_set_exit_req rinv_set_next_id
  rinv_set_state rinv_set_active rinv_set_run rinv_set_halt_req rinv_set_run_ts rinv_set_clock rinv_spawn rinv_map_terminate rinv_upd_cur
  inv_new_context : inv.

Lemma rinv_opt_log r r1 : opt_log r r1 -> RInv r -> RInv r1.
Proof. intros [|d]; auto with inv. Qed.

Lemma rinv_err_enact r c k failed r' c' : err_enact r c k = Ok (failed, r', c') -> RInv r -> RInv r'.
Proof. intros H R. apply err_enact_inv in H. now destruct H as [-> _]. Qed.
Lemma rinv_op_throw r c v r' c' x : op_throw r c v = Ok (r', c', x) -> RInv r -> RInv r'.
Proof. intros H. exact (rinv_opt_log _ _ (op_throw_log _ _ _ _ _ _ H)). Qed.
Lemma rinv_op_breakout r c v t r' c' x : op_breakout r c v t = Ok (r', c', x) -> RInv r -> RInv r'.
Proof. intros H. exact (rinv_opt_log _ _ (op_breakout_log _ _ _ _ _ _ _ H)). Qed.
Lemma rinv_op_unary n v r c r' c' x : op_unary n v r c = Ok (r', c', x) -> RInv r -> RInv r'.
Proof. intros H R. apply op_unary_inv in H. destruct H; eauto using rinv_op_throw, rinv_op_breakout, rinv_now with inv. Qed.
Lemma rinv_op_binary n l v r c r' c' x : op_binary n l v r c = Ok (r', c', x) -> RInv r -> RInv r'.
Proof. intros H R. apply op_binary_inv in H. destruct H; eauto using rinv_op_throw, rinv_op_breakout with inv. Qed.

Lemma inv_exec_instr i r c r' c' : exec_instr i r c = Ok (r', c') -> RInv r -> Inv c -> RInv r' /\ Inv c'.
Proof.
  intros H R I. apply exec_instr_inv in H.
  assert (IP : forall v c1, pop_value c = Some (v, c1) -> Inv c1) by (intros v c1; apply inv_pop_value, I).
  destruct H as [c0 v r1 P L| |c0 r1 P L|n v c1 r1 _ _ P L|n v c1 r1 f rest _ _ P _ L|n v c1 r1 _ P L
                |n v c1 r1 c2 y _ P O|n l v c1 c2 r1 c3 y _ P P2 O];
    (split; [try exact (rinv_opt_log _ _ L R)|]).   (* setting a global leaves r_ctxs alone *)
  - apply inv_push_value, (inv_pops _ _ P I).
  - exact R.
  - apply inv_clear_values, I.
  - exact (inv_pops _ _ P I).
  - apply inv_assign_local_var, (IP _ _ P).
  - exact (IP _ _ P).
  - apply inv_set_top_var, (IP _ _ P).
  - exact (rinv_op_unary _ _ _ _ _ _ _ O R).
  - apply inv_push_value, (inv_op_unary _ _ _ _ _ _ _ O (IP _ _ P)).
  - exact (rinv_op_binary _ _ _ _ _ _ _ _ O R).
  - apply inv_push_value, (inv_op_binary _ _ _ _ _ _ _ _ O). exact (inv_pop_value _ _ _ (IP _ _ P) P2).
Qed.

Lemma rinv_enact_log r r1 : enact_log r r1 -> RInv r -> RInv r1.
Proof. intros [|d _|d t r2 _ N] R; eauto using rinv_now with inv. Qed.

Lemma inv_enact_ctx c0 again c' : enact_ctx c0 again c' -> Inv c0 -> Inv c'.
Proof. intros [ | | | ] I; auto with inv. Qed.

Lemma inv_enact b r c br b' r' c' : enact b r c = Ok (br, b', r', c') -> RInv r -> Inv c -> RInv r' /\ Inv c'.
Proof.
  intros H R I. apply enact_inv in H. destruct H as (c0 & P & L & C).
  split; [exact (rinv_enact_log _ _ L R)|exact (inv_enact_ctx _ _ _ C (inv_pops _ _ P I))].
Qed.

Lemma inv_advanced c f rest res0 f1 : c_frames c = f :: rest -> advance f = (res0, f1) -> Inv c -> Inv (set_frames c (f1 :: rest)).
Proof.
  intros F A I. apply inv_set_frames_same; [exact I|]. rewrite F. unfold same_bases. cbn.
  destruct (advance_inv _ _ _ A) as [->| ->]; reflexivity.
Qed.

Lemma inv_enacted r c res0 br b' r2 c3 : enacted r c res0 br b' r2 c3 -> RInv r -> Inv c -> RInv r2 /\ Inv c3.
Proof.
  intros [f rest res1 f1 b br1 b1 r3 c2 F A _ E] R I.
  destruct (inv_enact _ _ _ _ _ _ _ E R (inv_advanced _ _ _ _ _ F A I)) as [R2 I2]. auto with inv.
Qed.

Lemma inv_frame_next : forall fuel r c fr r' c', frame_next fuel r c = Ok (fr, r', c') -> RInv r -> Inv c -> RInv r' /\ Inv c'.
Proof.
  intros fuel r c fr r' c' H. apply frame_next_inv in H.
  induction H as [r c f rest res0 f1 F A|r c res0 br b' r2 c3 En _|r c res0 b' r2 c3 En|r c res0 b' r2 c3 En _
                 |r c res0 b' r2 c3 fr r' c' En _ IH|r c res0 code' b' r2 c3 fr r' c' En _ IH];
    intros R I; try (destruct (inv_enacted _ _ _ _ _ _ _ En R I) as [R2 I3]).
  - split; [exact R|exact (inv_advanced _ _ _ _ _ F A I)].
  - auto.
  - auto with inv.
  - unfold restart_scope. auto with inv.
  - apply IH; [exact R2|unfold restart_scope; auto with inv].
  - apply IH; [exact R2|]. apply inv_upd_top; [|exact I3].
    intros f0. destruct b' as [|? [|] ? ?| | | | | | | |]; reflexivity.
Qed.

Lemma handle_error_inv : forall fuel r c msgs skip b r' c',
  handle_error fuel r c msgs skip = Ok (b, r', c') -> RInv r -> Inv c -> RInv r' /\ Inv c'.
Proof.
  induction fuel as [|fuel IH]; intros r c msgs skip b r' c' H R I; cbn [handle_error] in H; [discriminate|].
  destruct (find_handler (skipn skip (c_frames c)) skip) as [k|]; [|inversion H; subst; auto].
  unfold bindr in H.
  match type of H with context [err_enact r ?cc 0] => destruct (err_enact r cc 0) as [[[failed r3] c3]| | |] eqn:E; try discriminate;
    assert (I3 : Inv c3) by (eapply inv_err_enact; [exact E|]; apply inv_drop_frames with (c := push_value c (VTrace (VArr (map (fun d => VNum (snd d)) msgs)))); auto with inv);
    assert (R3 : RInv r3) by (eapply rinv_err_enact; eauto) end.
  destruct failed; [|inversion H; subst; auto].
  eapply IH; eauto. destruct (pop_value c3) as [[y c4]|] eqn:P; [eapply inv_pop_value; eauto|exact I3].
Qed.

Lemma on_error_inv r b r' : on_error r = Ok (b, r') -> RInv r -> RInv r'.
Proof.
  unfold on_error. intros H R. destruct (cur (set_msgs r [])) as [c|] eqn:EC; [|discriminate].
  assert (I : Inv c) by (eapply inv_cur; [|exact EC]; auto with inv).
  unfold bindr in H.
  match type of H with context [handle_error ?f ?rr c ?m 0] => destruct (handle_error f rr c m 0) as [[[rec r2] c2]| | |] eqn:E; try discriminate end.
  destruct (handle_error_inv _ _ _ _ _ _ _ _ E) as [R2 I2]; auto with inv.
  destruct rec; inversion H; subst; auto 6 with inv.
Qed.

Definition rt_of (it:iter) : rt := match it with Continue r | Executed r | Return _ r => r end.

Lemma inv_complete_frame r c1 : Inv c1 -> Inv (complete_frame r c1).
Proof.
  intros I. unfold complete_frame. destruct (pop_value c1) as [[v c2]|] eqn:P.
  - apply inv_push_value, inv_pop_frame, inv_clear_values, (inv_pop_value _ _ _ I P).
  - destruct (defect r _); [auto with inv|]. destruct (c_frames (pop_frame (clear_values c1))); auto with inv.
Qed.

Lemma rinv_deadline_test r e r2 : deadline_test r = (e, r2) -> RInv r -> RInv r2.
Proof. intros D R. destruct (deadline_test_inv _ _ _ D) as [->|[t N]]; [exact R|exact (rinv_now _ _ _ N R)]. Qed.

Lemma do_iter_inv r it : do_iter r = Ok it -> RInv r -> RInv (rt_of it).
Proof.
  intros H R. apply do_iter_pass in H.
  destruct H as [ | | | |c fr r1 c1 b r2 Hr N _ O|c r1 c1 Hr N _ _|c fr r1 c1 i r2 Hr N _ _ _ D
                |c fr r1 c1 i r2 r3 c5 Hr N _ _ _ D X _|c fr r1 c1 i r2 r3 c5 b r5 Hr N _ _ _ D X _ O
                |c r1 c1 r2 Hr N _ D|c r1 c1 r2 Hr N _ D]; try exact R;
    destruct Hr as (_ & C & _); destruct (inv_frame_next _ _ _ _ _ _ N R (inv_cur _ _ R C)) as [R1 I1];
    try pose proof (rinv_deadline_test _ _ _ D R1) as R2.
  - apply on_error_inv in O; [destruct b; exact O|auto with inv].
  - apply rinv_upd_cur, inv_complete_frame; assumption.
  - unfold expired_machine. cbn [rt_of]. auto 6 with inv.
  - destruct (inv_exec_instr _ _ _ _ _ X R2 I1). cbn [rt_of]. auto with inv.
  - destruct (inv_exec_instr _ _ _ _ _ X R2 I1). apply on_error_inv in O; [destruct b; exact O|auto with inv].
  - unfold expired_machine. cbn [rt_of]. auto 6 with inv.
  - cbn [rt_of]. auto with inv.
Qed.

Lemma execute_do_inv : forall fuel r n x r', execute_do fuel r n = Ok (x, r') -> RInv r -> RInv r'.
Proof.
  induction fuel as [|fuel IH]; intros r n x r' H R; cbn [execute_do] in H; [discriminate|].
  destruct (r_exit_req r); [inversion H; subst; exact R|].
  destruct n as [|n]; [inversion H; subst; exact R|].
  unfold bindr in H. destruct (do_iter r) as [it| | |] eqn:E; try discriminate.
  pose proof (do_iter_inv _ _ E R) as R1.
  destruct it; cbn [rt_of] in R1; [eapply IH; eauto|eapply IH; eauto|inversion H; subst; exact R1].
Qed.

Lemma visit_inv r i x1 r2 : visit r i x1 r2 -> RInv r -> RInv r2.
Proof.
  intros (c00 & C & S) R. assert (I00 : Inv c00) by (eapply inv_cur; [|exact C]; auto with inv).
  assert (I : Inv (sp_ctx c00)) by (unfold sp_ctx; destruct (c_terminate c00); [exact Logic.I|exact I00]).
  assert (R0 : RInv (upd_cur (set_active r (Some i)) (sp_ctx c00))) by auto with inv.
  revert S. unfold sp_step. destruct (c_suspended _); [|intros S; exact (execute_do_inv _ _ _ _ _ S R0)].
  destruct (now _) as [t r1] eqn:N. apply (rinv_now _ _ _ N) in R0.
  destruct (Z.leb _ t); [intros S; apply (execute_do_inv _ _ _ _ _ S); auto with inv|].
  destruct (deadline_test r1) as [e r3] eqn:D. apply (rinv_deadline_test r1 e r3 D) in R0.
  destruct e; cbv beta iota; intros [= _ <-]; [unfold idle_expired_machine; auto 6 with inv|exact R0].
Qed.

Lemma rinv_sp_erase r2 i : RInv r2 -> RInv (sp_erase r2 i).
Proof.
  intros R. apply rinv_set_ctxs, forall_remove_nth. unfold sp_dropped.
  destruct (cur r2) as [c2|]; [|exact R]. destruct (c_values c2); [exact R|]. destruct (show true v); auto with inv.
Qed.

Lemma start_pass_inv : forall fuel r i x p, start_pass fuel r i x = Ok p -> RInv r ->
  RInv (match p with PassDone _ r' | PassExit _ r' => r' end).
Proof.
  intros fuel r i x p H. apply start_pass_visits in H.
  induction H as [r i x _|r i x x1 r2 V _|r i x x1 r2 V _ _ _|r i x r2 V _ _|r i x r2 p V _ _ _ IH|r i x r2 p V _ _ IH];
    intros R; try pose proof (visit_inv _ _ _ _ V R) as R2.
  - exact R.
  - apply rinv_set_state, rinv_set_ctxs. constructor.
  - exact R2.
  - apply rinv_set_active, rinv_sp_erase, R2.
  - apply IH, rinv_sp_erase, R2.
  - exact (IH R2).
Qed.

Lemma start_loop_inv : forall fuel r x y r', start_loop fuel r x = Ok (y, r') -> RInv r -> RInv r'.
Proof.
  induction fuel as [|fuel IH]; intros r x y r' H R; cbn [start_loop] in H; [discriminate|].
  destruct (r_ctxs r) eqn:EL; [inversion H; subst; exact R|].
  unfold bindr in H. destruct (start_pass exec_fuel r 0 x) as [p| | |] eqn:E; try discriminate.
  pose proof (start_pass_inv _ _ _ _ _ E R) as RP.
  destruct p; [eapply IH; eauto|inversion H; subst; exact RP].
Qed.

Lemma finish_action_inv x r : RInv r -> RInv (finish_action x r).
Proof.
  intros R. unfold finish_action. apply rinv_set_run.
  assert (RS : RInv (state_of_result x r)) by (destruct x; cbn; auto with inv).
  destruct (r_exit_req (state_of_result x r)); [|exact RS].
  apply rinv_set_state, rinv_set_active, rinv_set_ctxs. constructor.
Qed.

Lemma begin_run_inv r : RInv r -> RInv (begin_run_if_empty r).
Proof. intros R. unfold begin_run_if_empty, now. destruct (r_state r); cbv beta iota zeta; auto 6 with inv. Qed.

Lemma resolve_active_inv r : RInv r -> RInv (resolve_active r).
Proof.
  intros R. unfold resolve_active. destruct (r_active r); [exact R|]. destruct (r_ctxs r) eqn:E; [|auto with inv].
  apply rinv_set_active, rinv_set_next_id, rinv_set_ctxs. constructor; [apply inv_new_context|constructor].
Qed.

(* every action preserves the invariant *)
Theorem execute_inv a r x r' : execute a r = Ok (x, r') -> RInv r -> RInv r'.
Proof.
  intros H R. destruct a; cbn [execute] in H.
  - destruct (r_run r); [inversion H; subst; exact R|]. unfold bindr in H.
    match type of H with context [start_loop ?f ?r0 ?y] => destruct (start_loop f r0 y) as [[z r1]| | |] eqn:E; try discriminate;
      assert (R1 : RInv r1) by (eapply start_loop_inv; [exact E|]; auto 8 using begin_run_inv with inv) end.
    inversion H; subst. apply finish_action_inv; exact R1.
  - destruct (r_state r); try (inversion H; subst; exact R). destruct (r_run r); inversion H; subst; auto with inv.
  - destruct (r_state r); try (inversion H; subst; exact R); destruct (r_run r); inversion H; subst; auto with inv.
    all: try exact R. all: apply rinv_set_run, rinv_set_state, rinv_set_active, rinv_set_ctxs; constructor.
  - destruct (r_run r); [inversion H; subst; exact R|]. unfold bindr in H.
    match type of H with context [execute_do ?f ?r0 1] => destruct (execute_do f r0 1) as [[z r1]| | |] eqn:E; try discriminate;
      assert (R1 : RInv r1) by (eapply execute_do_inv; [exact E|]; apply resolve_active_inv; auto 8 using begin_run_inv with inv) end.
    inversion H; subst. apply finish_action_inv; exact R1.
  - discriminate.
  - discriminate.
Qed.

Lemma load_inv r c : RInv r -> RInv (load r c).
Proof.
  intros R. unfold load. apply rinv_set_next_id, rinv_spawn; [exact R|]. apply inv_push_frame, inv_new_context.
Qed.
Lemma create_inv d m t l s : RInv (create_rt d m t l s).
Proof. unfold RInv. cbn. constructor. Qed.

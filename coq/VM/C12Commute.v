(* C12 - isolation, part 3: commutation.  To the other scripts, the turn of a script that stays inside its footprints is a
   frame transformer (eff): its own context replaced, its log lines, new values for EXISTING globals of its write footprint.
   So the turns of two scripts with independent footprints commute, from a machine with any log, and a round of pairwise
   independent turns can be taken in any order.  Turns that create globals: C12NsEq.v onwards. *)
From Coq Require Import String Ascii ZArith List Bool Lia Arith Permutation.
From SqfVerif Require Import Gen.DiagCodes Gen.Overloads VM.VmDefs VM.VmExec VM.VmFacts VM.SchedDefs VM.SchedOps VM.SchedBase VM.SchedIter VM.C12FrameOps VM.C12Frame.
Import ListNotations.
Local Open Scope list_scope.
Opaque frame_fuel exec_fuel.

(* ------------------------------------------------------------------ overwriting variables that exist *)
Definition mapv {A} (g:string -> A -> A) (l:list (string * A)) : list (string * A) :=
  map (fun e => (fst e, g (fst e) (snd e))) l.
Lemma assoc_mapv {A} (g:string -> A -> A) k l : assoc k (mapv g l) = option_map (g k) (assoc k l).
Proof.
  induction l as [|[k' v] l IH]; cbn; auto.
  destruct (String.eqb k k') eqn:E; auto. apply String.eqb_eq in E. subst. reflexivity.
Qed.
Lemma assoc_set_mapv {A} (g:string -> A -> A) k v l : mapv g (assoc_set k v l) = assoc_set k (g k v) (mapv g l).
Proof.
  induction l as [|[k' v'] l IH]; cbn; auto.
  destruct (String.eqb k k') eqn:E; cbn; [reflexivity|].
  unfold mapv in IH. rewrite IH. reflexivity.
Qed.
Lemma mapv_mapv {A} (g1 g2:string -> A -> A) l : mapv g1 (mapv g2 l) = mapv (fun k v => g1 k (g2 k v)) l.
Proof. unfold mapv. rewrite map_map. reflexivity. Qed.
Lemma mapv_ext {A} (g1 g2:string -> A -> A) l : (forall k v, g1 k v = g2 k v) -> mapv g1 l = mapv g2 l.
Proof. intro H. unfold mapv. apply map_ext. intros [k v]. cbn. rewrite H. reflexivity. Qed.

(* every existing variable whose key is in W takes the value it has in src; nothing is added or removed *)
Definition ov1 (W:list key) (src:list (string * list (string * value))) (ns n:string) (v:value) : value :=
  if kin (ns, n) W then match raw_get src ns n with Some v' => v' | None => v end else v.
Definition ov (W:list key) (src nss:list (string * list (string * value))) : list (string * list (string * value)) :=
  mapv (fun ns m => mapv (ov1 W src ns) m) nss.

Lemma ov_get W src nss ns n : kin (ns, n) W = false -> raw_get (ov W src nss) ns n = raw_get nss ns n.
Proof.
  intro K. unfold raw_get, ov. rewrite assoc_mapv. destruct (assoc ns nss) as [m|]; cbn; auto.
  rewrite assoc_mapv. unfold ov1. rewrite K. destruct (assoc n m); reflexivity.
Qed.
Lemma ov_set W src nss ns n v : kin (ns, n) W = false -> ov W src (raw_set nss ns n v) = raw_set (ov W src nss) ns n v.
Proof.
  intro K. unfold raw_set, ov. rewrite assoc_set_mapv, assoc_set_mapv, assoc_mapv.
  unfold ov1 at 1. rewrite K. destruct (assoc ns nss); reflexivity.
Qed.
Definition disjoint (a b:list key) : bool := forallb (fun k => negb (kin k b)) a.
Lemma kin_true_iff k l : kin k l = true <-> In k l.
Proof.
  unfold kin. rewrite existsb_exists. split.
  - intros (x & I & E). unfold key_eqb in E. apply andb_prop in E. destruct E as [E1 E2].
    apply String.eqb_eq in E1. apply String.eqb_eq in E2. destruct k, x. cbn in *. subst. auto.
  - intro I. exists k. split; auto. unfold key_eqb. rewrite !String.eqb_refl. reflexivity.
Qed.
Lemma disjoint_spec a b k : disjoint a b = true -> kin k a = true -> kin k b = false.
Proof.
  unfold disjoint. rewrite forallb_forall. intros H K. apply kin_true_iff in K. specialize (H _ K).
  destruct (kin k b); auto; discriminate.
Qed.
Lemma disjoint_sym a b : disjoint a b = true -> disjoint b a = true.
Proof.
  intro H. unfold disjoint. apply forallb_forall. intros k I. apply kin_true_iff in I.
  destruct (kin k a) eqn:K; auto. rewrite (disjoint_spec _ _ _ H K) in I. discriminate.
Qed.
Lemma ov_comm W1 W2 s1 s2 nss : disjoint W1 W2 = true -> ov W1 s1 (ov W2 s2 nss) = ov W2 s2 (ov W1 s1 nss).
Proof.
  intro D. unfold ov. rewrite !mapv_mapv. apply mapv_ext. intros ns m. rewrite !mapv_mapv. apply mapv_ext. intros n v.
  unfold ov1. destruct (kin (ns, n) W1) eqn:K1; destruct (kin (ns, n) W2) eqn:K2; auto.
  rewrite (disjoint_spec _ _ _ D K1) in K2. discriminate.
Qed.

(* ------------------------------------------------------------------ the effect of a turn as a frame transformer *)
Lemma rt_eta r : r = {| r_ctxs := r_ctxs r; r_active := r_active r; r_state := r_state r; r_exit_req := r_exit_req r;
  r_halt_req := r_halt_req r; r_run := r_run r; r_err := r_err r; r_msgs := r_msgs r; r_out := r_out r; r_nss := r_nss r;
  r_clock := r_clock r; r_tick := r_tick r; r_timestamp := r_timestamp r; r_run_ts := r_run_ts r;
  r_max_runtime := r_max_runtime r; r_max_loop := r_max_loop r; r_slice := r_slice r; r_next_id := r_next_id r;
  r_defects := r_defects r |}.
Proof. destruct r; reflexivity. Qed.

Lemma visit_ctx_active b1 b2 r a i : visit_ctx b1 b2 (set_active r a) i = visit_ctx b1 b2 r i.
Proof. reflexivity. Qed.

Lemma list_upd_comm {A} (l:list A) : forall i j x y, i <> j -> list_upd (list_upd l i x) j y = list_upd (list_upd l j y) i x.
Proof. induction l; intros [|i] [|j] x y H; cbn; auto; try congruence. f_equal. apply IHl. congruence. Qed.

(* puts ck at index k: the identity on a machine that has ck there *)
Definition tr_id (k:nat) (ck:context) : tr := {| t_ctx := fun l => list_upd l k ck; t_out := []; t_nss := fun nss => nss |}.
Lemma app_tr_id k ck r : nth_error (r_ctxs r) k = Some ck -> app (tr_id k ck) r = r.
Proof.
  intro H. rewrite (rt_eta r) at 2. unfold app, tr_id. cbn. rewrite app_nil_r, (list_upd_self _ _ _ H). reflexivity.
Qed.
Lemma tr_id_ok k ck i R W : k <> i -> tr_ok (tr_id k ck) i R W.
Proof.
  intro H. split; cbn; auto.
  - intro l. apply nth_error_list_upd_other. auto.
  - intros l c. apply list_upd_comm. auto.
  - intro l. apply list_upd_length.
Qed.

(* a turn whose instructions stay inside (R, W) leaves every other script exactly as it is *)
Lemma turn_leaves_others b1 b2 R W r i x ri v k ck :
  visit_ctx b1 b2 r i = Ok (x, ri, v) -> i < length (r_ctxs r) -> visit_ok b1 R W r i = true ->
  k <> i -> nth_error (r_ctxs r) k = Some ck -> nth_error (r_ctxs ri) k = Some ck.
Proof.
  intros V Hi OK Hk Hn.
  pose proof (app_visit_ctx (tr_id k ck) i R W b1 b2 r (tr_id_ok k ck i R W Hk) Hi OK) as A.
  rewrite (app_tr_id _ _ _ Hn), V in A. cbn [map_v] in A.
  assert (E : ri = app (tr_id k ck) ri) by congruence. clear A.
  assert (L : k < length (r_ctxs ri)).
  { destruct (nth_error (r_ctxs r) i) as [c00|] eqn:Hc; [|apply nth_error_None in Hc; lia].
    destruct (visit_ctx_shape _ _ _ _ _ _ _ _ V Hc) as (_ & _ & Sh).
    pose proof (vs_ctxs _ _ _ (visit_shape_vstep _ _ _ _ _ _ _ _ Sh Hc)) as Ev. apply evolves_len in Ev.
    assert (k < length (r_ctxs r)) by (apply nth_error_Some; congruence). lia. }
  assert (E2 : r_ctxs ri = list_upd (r_ctxs ri) k ck) by (rewrite E at 1; reflexivity).
  rewrite E2. apply nth_error_list_upd_same. auto.
Qed.

Lemma nth_error_ext {A} (l l':list A) : length l = length l' -> (forall k, nth_error l k = nth_error l' k) -> l = l'.
Proof.
  revert l'; induction l; intros [|b l'] L H; cbn in *; try discriminate; auto.
  f_equal; [specialize (H 0); cbn in H; congruence|]. apply IHl; [lia|]. intro k. apply (H (S k)).
Qed.

(* what a turn may do besides running its own script: nothing that is recorded in these fields *)
Record quiet (r ri:rt) : Prop := {
  q_exit : r_exit_req ri = r_exit_req r;
  q_err : r_err ri = r_err r;
  q_msgs : r_msgs ri = r_msgs r;
  q_next : r_next_id ri = r_next_id r }.
(* the machine after such a turn is the machine before it with the script's context, the log and the namespaces replaced *)
Lemma quiet_turn b1 b2 R W r i x ri v :
  visit_ctx b1 b2 r i = Ok (x, ri, v) -> i < length (r_ctxs r) -> visit_ok b1 R W r i = true ->
  r_tick r = 0%Z -> quiet r ri ->
  exists ci, nth_error (r_ctxs ri) i = Some ci /\
    forall a, set_active ri a = set_active (set_nss (set_out (set_ctxs r (list_upd (r_ctxs r) i ci)) (r_out ri)) (r_nss ri)) a.
Proof.
  intros V Hi OK T0 [Q1 Q2 Q3 Q4].
  destruct (nth_error (r_ctxs r) i) as [c00|] eqn:Hc; [|apply nth_error_None in Hc; lia].
  destruct (visit_ctx_shape _ _ _ _ _ _ _ _ V Hc) as (_ & _ & Sh).
  pose proof (visit_shape_vstep _ _ _ _ _ _ _ _ Sh Hc) as [C A2 A3 A4 A5 [k A6] Ev].
  assert (Len : length (r_ctxs ri) = length (r_ctxs r)).
  { destruct Ev as (l1 & sp & E & F & (Le & Fr & _) & _). rewrite E, app_length, <- (Forall2_len _ _ _ F).
    destruct sp as [|s sp]; [cbn; lia|]. inversion Fr; subst. rewrite Q4 in *. lia. }
  destruct (nth_error (r_ctxs ri) i) as [ci|] eqn:Hci; [|apply nth_error_None in Hci; lia].
  assert (Cx : r_ctxs ri = list_upd (r_ctxs r) i ci).
  { apply nth_error_ext; [rewrite list_upd_length; auto|]. intro k0.
    destruct (Nat.eq_dec k0 i) as [->|Ne].
    - rewrite Hci, nth_error_list_upd_same; auto.
    - rewrite nth_error_list_upd_other by auto.
      destruct (nth_error (r_ctxs r) k0) as [ck|] eqn:Hk.
      + eapply turn_leaves_others; eauto.
      + apply nth_error_None in Hk. apply nth_error_None. lia. }
  exists ci. split; [reflexivity|]. intro a. clear Hc Hci Ev Sh V OK Len.
  rewrite T0, Z.mul_0_r, Z.add_0_r in A6. unfold rcfg in C.
  (* every field of ri is now given by an equation *)
  destruct r, ri; cbn in *. inversion C. subst. reflexivity.
Qed.

(* the turn changed the namespaces only by giving new values to existing variables of W *)
Definition nss_effect (W:list key) (r ri:rt) : Prop := r_nss ri = ov W (r_nss ri) (r_nss r).

Definition eff (i:nat) (W:list key) (ri:rt) : tr :=
  {| t_ctx := match nth_error (r_ctxs ri) i with Some c => fun l => list_upd l i c | None => fun l => l end;
     t_out := r_out ri; t_nss := ov W (r_nss ri) |}.

Lemma turn_as_tr b1 b2 R W r i x ri v a :
  visit_ctx b1 b2 r i = Ok (x, ri, v) -> i < length (r_ctxs r) -> visit_ok b1 R W r i = true ->
  r_out r = [] -> r_tick r = 0%Z -> quiet r ri -> nss_effect W r ri ->
  set_active ri a = set_active (app (eff i W ri) r) a.
Proof.
  intros V Hi OK O0 T0 Q NE. destruct (quiet_turn _ _ _ _ _ _ _ _ _ V Hi OK T0 Q) as (ci & Hci & E).
  rewrite E. unfold app, eff. cbn [t_ctx t_out t_nss]. rewrite Hci, O0, <- NE. reflexivity.
Qed.

Lemma eff_ok i j Wj R W rj : i <> j -> disjoint R Wj = true -> disjoint W Wj = true -> tr_ok (eff j Wj rj) i R W.
Proof.
  intros Ne D1 D2. unfold eff. split; cbn.
  - intro l. destruct (nth_error (r_ctxs rj) j); auto. apply nth_error_list_upd_other. auto.
  - intros l c. destruct (nth_error (r_ctxs rj) j); auto. apply list_upd_comm. auto.
  - intro l. destruct (nth_error (r_ctxs rj) j); auto. apply list_upd_length.
  - intros nss ns n K. apply ov_get. apply (disjoint_spec _ _ _ D1 K).
  - intros nss ns n v K. apply ov_set. apply (disjoint_spec _ _ _ D2 K).
Qed.

(* ------------------------------------------------------------------ independence and commutation *)
(* The turn of script i from machine r, taken alone, and what it touches:
   - it comes back with result xi, machine ri and visit record vi;
   - every instruction it executes reads globals only in R and assigns globals only in W, and none is spawn,
     terminate or scriptDone (visit_ok: an executable check that runs the turn);
   - it does not request exit, leaves no error state and hands out no script id (quiet);
   - its effect on the namespaces is to give new values to EXISTING variables of W (nss_effect): a turn that creates a
     global is outside the theorem, because the model keeps namespaces as association lists and the position of a new
     entry depends on the order of creation. *)
Record solo_turn (b1 b2:bool) (r:rt) (i:nat) (R W:list key) (xi:rresult) (ri:rt) (vi:visit) : Prop := {
  st_run : visit_ctx b1 b2 r i = Ok (xi, ri, vi);
  st_idx : i < length (r_ctxs r);
  st_ok : visit_ok b1 R W r i = true;
  st_quiet : quiet r ri;
  st_nss : nss_effect W r ri }.

(* two turns are independent if neither assigns what the other reads or assigns *)
Definition independent (Ri Wi Rj Wj:list key) : bool :=
  andb (disjoint Ri Wj) (andb (disjoint Wi Wj) (disjoint Rj Wi)).
Lemma independent_parts Ri Wi Rj Wj : independent Ri Wi Rj Wj = true ->
  disjoint Ri Wj = true /\ disjoint Wi Wj = true /\ disjoint Rj Wi = true.
Proof. unfold independent. intro H. apply andb_prop in H. destruct H as [A H]. apply andb_prop in H. tauto. Qed.

(* the machine without the fields in which the order of two independent turns is visible by construction: the log
   (lines of different scripts interleave differently) and the index of the script that ran last *)
Definition shared_state (r:rt) : rt := set_out (set_active r None) [].

(* two machines that agree on everything but the log and r_active still do after the same frame transformer *)
Lemma shared_state_app T a b : shared_state a = shared_state b -> shared_state (app T a) = shared_state (app T b).
Proof.
  intro H. change (set_out (app T (shared_state a)) [] = set_out (app T (shared_state b)) []). rewrite H. reflexivity.
Qed.
Lemma shared_state_active a b : set_active a None = set_active b None -> shared_state a = shared_state b.
Proof. intro H. unfold shared_state. rewrite H. reflexivity. Qed.

(* two transformers whose changes of the contexts and of the namespaces commute: their order shows in the log only *)
Lemma app_swap T1 T2 r :
  (forall l, t_ctx T1 (t_ctx T2 l) = t_ctx T2 (t_ctx T1 l)) -> (forall a, t_nss T1 (t_nss T2 a) = t_nss T2 (t_nss T1 a)) ->
  shared_state (app T1 (app T2 r)) = shared_state (app T2 (app T1 r)).
Proof.
  intros C N.
  transitivity (set_nss (set_ctxs (shared_state r) (t_ctx T1 (t_ctx T2 (r_ctxs r)))) (t_nss T1 (t_nss T2 (r_nss r)))); [reflexivity|].
  rewrite C, N. reflexivity.
Qed.

Lemma eff_ctx_comm i j Wi Wj ri rj l : i <> j ->
  t_ctx (eff i Wi ri) (t_ctx (eff j Wj rj) l) = t_ctx (eff j Wj rj) (t_ctx (eff i Wi ri) l).
Proof.
  intro Ne. cbn. destruct (nth_error (r_ctxs ri) i), (nth_error (r_ctxs rj) j); try reflexivity.
  apply list_upd_comm. congruence.
Qed.
Lemma eff_comm i j Wi Wj ri rj r : i <> j -> disjoint Wi Wj = true ->
  shared_state (app (eff i Wi ri) (app (eff j Wj rj) r)) = shared_state (app (eff j Wj rj) (app (eff i Wi ri) r)).
Proof. intros Ne D. apply app_swap; intro; [apply eff_ctx_comm; exact Ne|apply ov_comm; exact D]. Qed.

(* the turn of i after the turn of j, which is a frame transformer that i does not look at: i does what it does alone,
   and the footprint check comes out as before *)
Lemma turn_then b1 b2 r i j Ri Wi Rj Wj xi ri vi xj rj vj :
  i <> j -> r_out r = [] -> r_tick r = 0%Z ->
  solo_turn b1 b2 r i Ri Wi xi ri vi -> solo_turn b1 b2 r j Rj Wj xj rj vj ->
  disjoint Ri Wj = true -> disjoint Wi Wj = true ->
  set_active rj None = set_active (app (eff j Wj rj) r) None /\
  visit_ctx b1 b2 rj i = Ok (xi, app (eff j Wj rj) ri, vi) /\ visit_ok b1 Ri Wi rj i = true /\ i < length (r_ctxs rj).
Proof.
  intros Ne O0 T0 [Vi Hi OKi Qi Ni] [Vj Hj OKj Qj Nj] D1 D2.
  assert (Tj : tr_ok (eff j Wj rj) i Ri Wi) by (apply eff_ok; auto).
  pose proof (turn_as_tr b1 b2 Rj Wj r j xj rj vj None Vj Hj OKj O0 T0 Qj Nj) as Ej.
  split; [exact Ej|]. split; [|split].
  - rewrite <- (visit_ctx_active b1 b2 rj None i), Ej, visit_ctx_active.
    rewrite (app_visit_ctx _ i Ri Wi) by auto. rewrite Vi. reflexivity.
  - rewrite <- (visit_ok_active b1 Ri Wi rj None i), Ej, visit_ok_active, (visit_ok_app _ i Ri Wi) by auto. exact OKi.
  - change (i < length (r_ctxs (set_active rj None))). rewrite Ej. cbn [r_ctxs app set_active rt_with].
    rewrite (tk_len _ _ _ _ Tj). exact Hi.
Qed.

Theorem independent_turns_commute b1 b2 r i j Ri Wi Rj Wj xi ri vi xj rj vj :
  i <> j -> r_out r = [] -> r_tick r = 0%Z ->
  solo_turn b1 b2 r i Ri Wi xi ri vi -> solo_turn b1 b2 r j Rj Wj xj rj vj ->
  independent Ri Wi Rj Wj = true ->
  exists m1 m2,
    visit_ctx b1 b2 rj i = Ok (xi, m1, vi) /\      (* j then i: i does exactly what it does alone *)
    visit_ctx b1 b2 ri j = Ok (xj, m2, vj) /\      (* i then j: j does exactly what it does alone *)
    shared_state m1 = shared_state m2 /\
    r_out m1 = r_out ri ++ r_out rj /\ r_out m2 = r_out rj ++ r_out ri.
Proof.
  intros Ne O0 T0 Si Sj Ind. destruct (independent_parts _ _ _ _ Ind) as (D1 & D2 & D3).
  destruct (turn_then b1 b2 r i j Ri Wi Rj Wj xi ri vi xj rj vj Ne O0 T0 Si Sj D1 D2) as (Ej & V1 & _).
  destruct (turn_then b1 b2 r j i Rj Wj Ri Wi xj rj vj xi ri vi (not_eq_sym Ne) O0 T0 Sj Si D3 (disjoint_sym _ _ D2)) as (Ei & V2 & _).
  exists (app (eff j Wj rj) ri), (app (eff i Wi ri) rj).
  split; [exact V1|]. split; [exact V2|]. split; [|split; reflexivity].
  rewrite (shared_state_app _ _ _ (shared_state_active _ _ Ei)), (shared_state_app _ _ _ (shared_state_active _ _ Ej)).
  apply eff_comm; auto using disjoint_sym.
Qed.

(* ------------------------------------------------------------------ the log is write-only *)
Definition tr_log (old:list event) : tr := {| t_ctx := fun l => l; t_out := old; t_nss := fun nss => nss |}.
Lemma tr_log_ok old i R W : tr_ok (tr_log old) i R W.
Proof. split; reflexivity. Qed.
Lemma app_tr_log r : app (tr_log (r_out r)) (set_out r []) = r.
Proof. rewrite (rt_eta r) at 3. reflexivity. Qed.
(* a turn from a machine whose log already holds `old` does what it does from the empty log, with `old` underneath *)
Theorem log_is_write_only b1 b2 R W r i old :
  i < length (r_ctxs r) -> visit_ok b1 R W r i = true ->
  visit_ctx b1 b2 (app (tr_log old) r) i = map_v (app (tr_log old)) (visit_ctx b1 b2 r i).
Proof. intros. apply (app_visit_ctx _ i R W); auto using tr_log_ok. Qed.

(* ------------------------------------------------------------------ the same from a machine with any log *)
Lemma shared_state_tr_log old m : shared_state (app (tr_log old) m) = shared_state m.
Proof. reflexivity. Qed.

Theorem independent_turns_commute_any_log b1 b2 r i j Ri Wi Rj Wj xi ri vi xj rj vj :
  i <> j -> r_tick r = 0%Z ->
  solo_turn b1 b2 (set_out r []) i Ri Wi xi ri vi -> solo_turn b1 b2 (set_out r []) j Rj Wj xj rj vj ->
  independent Ri Wi Rj Wj = true ->
  exists ri' rj' m1 m2,
    visit_ctx b1 b2 r i = Ok (xi, ri', vi) /\ visit_ctx b1 b2 r j = Ok (xj, rj', vj) /\
    visit_ctx b1 b2 rj' i = Ok (xi, m1, vi) /\ visit_ctx b1 b2 ri' j = Ok (xj, m2, vj) /\
    shared_state m1 = shared_state m2 /\
    r_out m1 = r_out ri ++ r_out rj ++ r_out r /\ r_out m2 = r_out rj ++ r_out ri ++ r_out r.
Proof.
  intros Ne T0 Si Sj Ind.
  set (r0 := set_out r []) in *. set (L := tr_log (r_out r)).
  assert (Er : r = app L r0) by (unfold L, r0; rewrite app_tr_log; reflexivity).
  assert (O0 : r_out r0 = []) by reflexivity. assert (T00 : r_tick r0 = 0%Z) by exact T0.
  destruct (independent_turns_commute b1 b2 r0 i j Ri Wi Rj Wj xi ri vi xj rj vj Ne O0 T00 Si Sj Ind)
    as (m10 & m20 & V1 & V2 & Sh & Lo1 & Lo2).
  destruct (independent_parts _ _ _ _ Ind) as (D1 & D2 & D3).
  (* the other script's turn changes neither what the footprint check sees nor the number of scripts *)
  destruct (turn_then b1 b2 r0 i j Ri Wi Rj Wj xi ri vi xj rj vj Ne O0 T00 Si Sj D1 D2) as (_ & _ & OKi' & Li).
  destruct (turn_then b1 b2 r0 j i Rj Wj Ri Wi xj rj vj xi ri vi (not_eq_sym Ne) O0 T00 Sj Si D3 (disjoint_sym _ _ D2)) as (_ & _ & OKj' & Lj).
  destruct Si as [Vi Hi OKi _ _]. destruct Sj as [Vj Hj OKj _ _].
  exists (app L ri), (app L rj), (app L m10), (app L m20).
  split; [|split; [|split; [|split; [|split; [|split]]]]].
  - rewrite Er at 1. unfold L. rewrite (log_is_write_only b1 b2 Ri Wi) by auto. rewrite Vi. reflexivity.
  - rewrite Er at 1. unfold L. rewrite (log_is_write_only b1 b2 Rj Wj) by auto. rewrite Vj. reflexivity.
  - unfold L. rewrite (log_is_write_only b1 b2 Ri Wi) by auto. rewrite V1. reflexivity.
  - unfold L. rewrite (log_is_write_only b1 b2 Rj Wj) by auto. rewrite V2. reflexivity.
  - unfold L. rewrite !shared_state_tr_log. exact Sh.
  - cbn [r_out app tr_log t_out L]. rewrite Lo1, <- app_assoc. reflexivity.
  - cbn [r_out app tr_log t_out L]. rewrite Lo2, <- app_assoc. reflexivity.
Qed.

(* ------------------------------------------------------------------ whole rounds *)
Definition comp (T1 T2:tr) : tr :=
  {| t_ctx := fun l => t_ctx T1 (t_ctx T2 l); t_out := t_out T2 ++ t_out T1; t_nss := fun n => t_nss T1 (t_nss T2 n) |}.
Lemma app_comp T1 T2 r : app T1 (app T2 r) = app (comp T1 T2) r.
Proof. unfold app, comp. cbn. rewrite app_assoc. reflexivity. Qed.
Lemma comp_ok T1 T2 i R W : tr_ok T1 i R W -> tr_ok T2 i R W -> tr_ok (comp T1 T2) i R W.
Proof.
  intros A B. split; cbn.
  - intro l. rewrite (tk_nth _ _ _ _ A), (tk_nth _ _ _ _ B). reflexivity.
  - intros l c. rewrite (tk_upd _ _ _ _ B), (tk_upd _ _ _ _ A). reflexivity.
  - intro l. rewrite (tk_len _ _ _ _ A), (tk_len _ _ _ _ B). reflexivity.
  - intros nss ns n K. rewrite (tk_get _ _ _ _ A), (tk_get _ _ _ _ B); auto.
  - intros nss ns n v K. rewrite (tk_set _ _ _ _ B), (tk_set _ _ _ _ A); auto.
Qed.
Lemma app_tr_none r : app tr_none r = r.
Proof. rewrite (rt_eta r) at 2. unfold app, tr_none. cbn. rewrite app_nil_r. reflexivity. Qed.

(* a turn together with what it touches and what it does when taken alone *)
Record turn := { u_idx : nat; u_R : list key; u_W : list key; u_x : rresult; u_r : rt; u_v : visit }.
Definition solo (b1 b2:bool) (r:rt) (u:turn) : Prop := solo_turn b1 b2 r (u_idx u) (u_R u) (u_W u) (u_x u) (u_r u) (u_v u).
Definition eff_of (u:turn) : tr := eff (u_idx u) (u_W u) (u_r u).
(* the turns are taken one after the other, each returns exactly the result and visit record it has alone *)
Inductive runs (b1 b2:bool) : rt -> list turn -> rt -> Prop :=
| runs_nil r : runs b1 b2 r [] r
| runs_cons r u r' us m : visit_ctx b1 b2 r (u_idx u) = Ok (u_x u, r', u_v u) -> runs b1 b2 r' us m -> runs b1 b2 r (u :: us) m.
(* turns of different scripts are independent *)
Definition all_independent (us:list turn) : Prop :=
  NoDup (map u_idx us) /\
  forall u w, In u us -> In w us -> u_idx u <> u_idx w -> independent (u_R u) (u_W u) (u_R w) (u_W w) = true.


Definition effs (T:tr) (us:list turn) : tr := fold_left (fun T u => comp T (eff_of u)) us T.

Lemma runs_effs b1 b2 r : r_out r = [] -> r_tick r = 0%Z -> forall us T M,
  set_active M None = set_active (app T r) None ->
  Forall (solo b1 b2 r) us -> all_independent us ->
  (forall u, In u us -> tr_ok T (u_idx u) (u_R u) (u_W u)) ->
  exists m, runs b1 b2 M us m /\ set_active m None = set_active (app (effs T us) r) None.
Proof.
  intros O0 T0. induction us as [|u us IH]; intros T M EM So [Nd In] OKT.
  - exists M. split; [constructor|exact EM].
  - inversion So as [|? ? Su Sus]; subst. destruct Su as [Vu Hu OKu Qu Nu].
    pose proof (turn_as_tr b1 b2 _ _ r _ _ _ _ None Vu Hu OKu O0 T0 Qu Nu) as Eu.
    assert (OKTu : tr_ok T (u_idx u) (u_R u) (u_W u)) by (apply OKT; left; auto).
    assert (V : visit_ctx b1 b2 M (u_idx u) = Ok (u_x u, app T (u_r u), u_v u)).
    { rewrite <- (visit_ctx_active b1 b2 M None), EM, visit_ctx_active.
      rewrite (app_visit_ctx _ _ (u_R u) (u_W u)) by auto. rewrite Vu. reflexivity. }
    inversion Nd as [|? ? Nu1 Nd']; subst.
    destruct (IH (comp T (eff_of u)) (app T (u_r u))) as (m & Rm & Em).
    + rewrite <- app_comp. rewrite (app_set_active T (u_r u)), (app_set_active T (app (eff_of u) r)). unfold eff_of. rewrite Eu. reflexivity.
    + exact Sus.
    + split; auto. intros a b Ia Ib. apply In; right; auto.
    + intros w Iw. apply comp_ok; [apply OKT; right; auto|].
      assert (Ne : u_idx w <> u_idx u).
      { intro E. apply Nu1. rewrite <- E. apply in_map. auto. }
      destruct (independent_parts _ _ _ _ (In u w (or_introl eq_refl) (or_intror Iw) (fun E => Ne (eq_sym E)))) as (D1 & D2 & D3).
      apply eff_ok; auto using disjoint_sym.
    + exists m. split; [exact (runs_cons b1 b2 M u _ us m V Rm)|exact Em].
Qed.

Definition teq (T T':tr) : Prop := forall r, shared_state (app T r) = shared_state (app T' r).
Lemma effs_teq us : forall T T', teq T T' -> teq (effs T us) (effs T' us).
Proof.
  induction us as [|u us IH]; intros T T' H; cbn; auto.
  apply IH. intro r. rewrite <- !app_comp. apply H.
Qed.

Lemma all_independent_perm us us' : Permutation us us' -> all_independent us -> all_independent us'.
Proof.
  intros P [Nd In]. split.
  - eapply Permutation_NoDup; [apply Permutation_map; eassumption|exact Nd].
  - intros a b Ia Ib. apply In; eapply Permutation_in; try eassumption; apply Permutation_sym; assumption.
Qed.

Lemma effs_perm us us' : Permutation us us' -> all_independent us -> forall T, teq (effs T us) (effs T us').
Proof.
  induction 1; intros AI T.
  - intro r. reflexivity.
  - cbn. apply IHPermutation. destruct AI as [Nd In]. inversion Nd; subst. split; auto. intros a b Ia Ib. apply In; right; auto.
  - cbn. apply effs_teq. intro r. rewrite <- !app_comp. apply shared_state_app.
    destruct AI as [Nd In]. inversion Nd as [|? ? N1 N2]; subst.
    assert (Ne : u_idx x <> u_idx y) by (intro E; apply N1; rewrite <- E; left; reflexivity).
    destruct (independent_parts _ _ _ _ (In x y (or_intror (or_introl eq_refl)) (or_introl eq_refl) Ne)) as (_ & D & _).
    unfold eff_of. apply eff_comm; auto using disjoint_sym.
  - intro r. rewrite (IHPermutation1 AI T r). apply IHPermutation2. eapply all_independent_perm; eauto.
Qed.

(* ------------------------------------------------------------------ non-vacuity *)
Local Open Scope string_scope.
Set Warnings "-abstract-large-number".
(* two spawned scripts: `ga = ga + 1; diag_log ga` and `gb = gb + 2; diag_log gb`, both globals exist *)
Definition ex_script (g:string) (k:Z) : code :=
  compile_block [SAssign g (EBinary "+" (EVar g) (ENum k)); SExpr (EUnary "diag_log" (EVar g))].
Definition ex_ctx (id:nat) (c:code) : context := push_frame (new_context id true) (mk_frame default_ns c None None []).
Definition ex_machine : rt :=
  set_nss (set_state (set_next_id (set_ctxs (init_rt [] 0 0 10000 150)
     [ex_ctx 0 (ex_script "ga" 1); ex_ctx 1 (ex_script "gb" 2)]) 2) StRunning)
     [(default_ns, [("ga", VNum 10); ("gb", VNum 20)])].
Definition ex_Ka : list key := [(default_ns, "ga")].
Definition ex_Kb : list key := [(default_ns, "gb")].

Definition ex_turn (i:nat) : rresult * rt * visit :=
  match visit_ctx false false ex_machine i with
  | Ok p => p
  | _ => (RInvalid, ex_machine, {| v_id := 0; v_entered := false; v_instr := 0; v_restarts := 0; v_result := RInvalid |}) end.
Lemma ex_solo_a : solo_turn false false ex_machine 0 ex_Ka ex_Ka (fst (fst (ex_turn 0))) (snd (fst (ex_turn 0))) (snd (ex_turn 0)).
Proof.
  split; [vm_compute; reflexivity | vm_compute; repeat constructor | vm_compute; reflexivity
         | split; vm_compute; reflexivity | vm_compute; reflexivity].
Qed.
Lemma ex_solo_b : solo_turn false false ex_machine 1 ex_Kb ex_Kb (fst (fst (ex_turn 1))) (snd (fst (ex_turn 1))) (snd (ex_turn 1)).
Proof.
  split; [vm_compute; reflexivity | vm_compute; repeat constructor | vm_compute; reflexivity
         | split; vm_compute; reflexivity | vm_compute; reflexivity].
Qed.
Example ex_independent_turns :
  independent ex_Ka ex_Ka ex_Kb ex_Kb = true /\ r_out ex_machine = [] /\ r_tick ex_machine = 0%Z /\
  r_out (snd (fst (ex_turn 0))) <> [] /\ r_out (snd (fst (ex_turn 1))) <> [] /\
  r_nss (snd (fst (ex_turn 0))) <> r_nss ex_machine /\ r_nss (snd (fst (ex_turn 1))) <> r_nss ex_machine.
Proof. repeat split; vm_compute; try reflexivity; discriminate. Qed.

(* the two example turns form a round *)
Definition ex_ta : turn := {| u_idx := 0; u_R := ex_Ka; u_W := ex_Ka; u_x := fst (fst (ex_turn 0)); u_r := snd (fst (ex_turn 0)); u_v := snd (ex_turn 0) |}.
Definition ex_tb : turn := {| u_idx := 1; u_R := ex_Kb; u_W := ex_Kb; u_x := fst (fst (ex_turn 1)); u_r := snd (fst (ex_turn 1)); u_v := snd (ex_turn 1) |}.
Example ex_round : Forall (solo false false ex_machine) [ex_ta; ex_tb] /\ all_independent [ex_ta; ex_tb].
Proof.
  split.
  - constructor; [exact ex_solo_a|]. constructor; [exact ex_solo_b|]. constructor.
  - split.
    + cbn [map u_idx ex_ta ex_tb]. constructor; [intros [H|[]]; discriminate|]. constructor; [intros []|constructor].
    + intros u w [<-|[<-|[]]] [<-|[<-|[]]] Ne; cbn [u_idx u_R u_W ex_ta ex_tb] in *;
        try (exfalso; apply Ne; reflexivity); reflexivity.
Qed.

(* ------------------------------------------------------------------ turns that spawn do not commute *)
(* two scripts that each spawn a child: the children's positions in the scheduler's list follow the order of the parents'
   turns (as in runtime.cpp: spawn appends to m_contexts) *)
Definition sp_script (k:Z) : code :=
  compile_block [SExpr (EBinary "spawn" (ENum 0) (ECode [SExpr (EUnary "diag_log" (ENum k))]))].
Definition sp_machine : rt :=
  set_state (set_next_id (set_ctxs (init_rt [] 0 0 10000 150) [ex_ctx 0 (sp_script 1); ex_ctx 1 (sp_script 2)]) 2) StRunning.
Definition two_turns (r:rt) (i j:nat) : option rt :=
  match visit_ctx false false r i with
  | Ok (_, r1, _) => match visit_ctx false false r1 j with Ok (_, r2, _) => Some r2 | _ => None end
  | _ => None end.
Definition child_codes (r:rt) : list string :=
  map (fun c => match c_frames c with f :: _ => show_code (f_code f) | [] => "" end) (r_ctxs r).

(* What executing can do to the machine, for the C11 and C12 proofs; part 1: the vocabulary, and the operators.
   The executing context keeps identity and kind and its terminate flag is only raised (ctx_ok); the machine changes by a
   sequence of log lines, marks, assignments to globals, clock reads (one tick each), spawns (appended, with the next id)
   and raised terminate flags (steps; reach adds what error handling clears); rcfg and rctl are the fields none of these
   touches.  A successful operator call is such a change.  Instructions, exit behaviours, frame::next and error handling
   follow in SchedBase.v, one execute_do iteration, a slice and a scheduler visit in SchedIter.v. *)
From Coq Require Import String Ascii ZArith List Bool Lia Arith.
From SqfVerif Require Import Gen.DiagCodes Gen.Overloads VM.VmDefs VM.VmExec VM.VmFacts VM.SchedDefs VM.OpEffect.
Import ListNotations.
Local Open Scope list_scope.

Opaque frame_fuel exec_fuel.

(* ------------------------------------------------------------------ fields nobody touches while executing *)
Definition rcfg (r:rt) := (r_tick r, r_max_runtime r, r_run_ts r, r_max_loop r, r_slice r, r_defects r, r_timestamp r).
Lemma rcfg_limits r r' : rcfg r' = rcfg r ->
  r_tick r' = r_tick r /\ r_max_runtime r' = r_max_runtime r /\ r_run_ts r' = r_run_ts r /\ r_slice r' = r_slice r.
Proof. unfold rcfg. intro E. repeat split; congruence. Qed.
Definition rctl (r:rt) := (r_exit_req r, r_halt_req r, r_run r, r_state r, r_active r).

(* ------------------------------------------------------------------ contexts *)
Definition ckey (c:context) := (c_id c, c_can_suspend c, c_weak c).
(* what may happen to the executing context: identity and kind stay, the terminate flag is only raised *)
Definition ctx_ok (c c':context) : Prop :=
  ckey c' = ckey c /\ (c_terminate c' = c_terminate c \/ c_terminate c' = true).
(* what may happen to a context that is not executing: nothing, or its terminate flag is raised *)
Definition term_le (c c':context) : Prop := c' = c \/ c' = set_terminate c true.

Lemma ctx_ok_refl c : ctx_ok c c.
Proof. split; auto. Qed.
Lemma ctx_ok_trans a b c : ctx_ok a b -> ctx_ok b c -> ctx_ok a c.
Proof. intros [K1 T1] [K2 T2]. split; [congruence|]. destruct T2 as [T2|T2]; [destruct T1; [left|right]; congruence | right; auto]. Qed.
Lemma term_le_refl c : term_le c c.
Proof. left; auto. Qed.
Lemma term_le_trans a b c : term_le a b -> term_le b c -> term_le a c.
Proof. intros [ -> | -> ] [ -> | -> ]; unfold term_le; auto. Qed.
Lemma term_le_ok c c' : term_le c c' -> ctx_ok c c'.
Proof. intros [ -> | -> ]; [apply ctx_ok_refl|]. split; auto. Qed.
Lemma term_le_flag c c' : term_le c c' -> c_terminate c = true -> c_terminate c' = true.
Proof. intros [ -> | -> ]; auto. Qed.
Lemma ctx_ok_id c c' : ctx_ok c c' -> c_id c' = c_id c.
Proof. intros [K _]. unfold ckey in K. congruence. Qed.
Lemma ctx_ok_flag c c' : ctx_ok c c' -> c_terminate c = true -> c_terminate c' = true.
Proof. intros [_ [T|T]] H; congruence. Qed.

(* what the helpers that rewrite frames, values or the suspension do to a context as a script: nothing *)
Definition same_script (c c':context) : Prop := ckey c' = ckey c /\ c_terminate c' = c_terminate c.
Lemma same_script_refl c : same_script c c.
Proof. split; reflexivity. Qed.
Lemma same_script_trans a b c : same_script a b -> same_script b c -> same_script a c.
Proof. intros [K1 T1] [K2 T2]. split; congruence. Qed.
Lemma same_script_ok c a b : same_script a b -> ctx_ok c a -> ctx_ok c b.
Proof. unfold ctx_ok. intros [-> ->]. auto. Qed.

Lemma script_set_frames c x : same_script c (set_frames c x). Proof. split; reflexivity. Qed.
Lemma script_set_values c x : same_script c (set_values c x). Proof. split; reflexivity. Qed.
Lemma script_set_suspended c b w : same_script c (set_suspended c b w). Proof. split; reflexivity. Qed.
Lemma script_push_frame c f : same_script c (push_frame c f). Proof. split; reflexivity. Qed.
Lemma script_push_value c v : same_script c (push_value c v). Proof. split; reflexivity. Qed.
Lemma script_pop_frame c : same_script c (pop_frame c). Proof. split; reflexivity. Qed.
Lemma script_clear_values c : same_script c (clear_values c).
Proof. unfold clear_values. destruct (c_frames c); split; reflexivity. Qed.
Lemma script_upd_top c g : same_script c (upd_top c g).
Proof. unfold upd_top. destruct (c_frames c); split; reflexivity. Qed.
Lemma script_assign_local_var c n v : same_script c (assign_local_var c n v).
Proof. unfold assign_local_var. destruct (assign_frames _ _ _); [split; reflexivity|apply script_upd_top]. Qed.
Lemma script_set_top_var c n v : same_script c (set_top_var c n v).
Proof. apply script_upd_top. Qed.
Lemma script_restart_with c v : same_script c (restart_with c v).
Proof. exact (same_script_trans _ _ _ (script_clear_values c) (script_upd_top _ _)). Qed.
Lemma script_pop_clearing k : forall c, same_script c (pop_clearing k c).
Proof.
  induction k; intro c; cbn [pop_clearing]; [apply same_script_refl|].
  exact (same_script_trans _ _ _ (script_clear_values c) (same_script_trans _ _ _ (script_pop_frame _) (IHk _))).
Qed.
Lemma script_declare_all l : forall c,
  same_script c (fold_left (fun c' x => match x with VStr s => declare_top_var c' s | _ => c' end) l c).
Proof.
  induction l as [|x l IH]; intro c; cbn [fold_left]; [apply same_script_refl|].
  eapply same_script_trans; [|apply IH]. destruct x; try apply same_script_refl. apply script_upd_top.
Qed.
#[export] Hint Resolve script_set_frames script_set_values script_set_suspended script_push_frame script_push_value script_pop_frame
  script_clear_values script_upd_top script_assign_local_var script_set_top_var script_restart_with script_pop_clearing
  script_declare_all : script.

(* the two halves, helper by helper *)
Lemma ckey_set_frames c x : ckey (set_frames c x) = ckey c. Proof. apply script_set_frames. Qed.
Lemma ckey_set_values c x : ckey (set_values c x) = ckey c. Proof. apply script_set_values. Qed.
Lemma ckey_set_suspended c b w : ckey (set_suspended c b w) = ckey c. Proof. apply script_set_suspended. Qed.
Lemma ckey_set_terminate c b : ckey (set_terminate c b) = ckey c. Proof. reflexivity. Qed.
Lemma ckey_push_frame c f : ckey (push_frame c f) = ckey c. Proof. apply script_push_frame. Qed.
Lemma ckey_push_value c v : ckey (push_value c v) = ckey c. Proof. apply script_push_value. Qed.
Lemma ckey_assign_local_var c n v : ckey (assign_local_var c n v) = ckey c.
Proof. apply script_assign_local_var. Qed.
Lemma ckey_set_top_var c n v : ckey (set_top_var c n v) = ckey c. Proof. apply script_set_top_var. Qed.
Lemma ckey_restart_with c v : ckey (restart_with c v) = ckey c.
Proof. apply script_restart_with. Qed.
Lemma ckey_pop_clearing k : forall c, ckey (pop_clearing k c) = ckey c.
Proof. apply script_pop_clearing. Qed.

Lemma ct_set_frames c x : c_terminate (set_frames c x) = c_terminate c. Proof. apply script_set_frames. Qed.
Lemma ct_set_values c x : c_terminate (set_values c x) = c_terminate c. Proof. apply script_set_values. Qed.
Lemma ct_set_suspended c b w : c_terminate (set_suspended c b w) = c_terminate c. Proof. apply script_set_suspended. Qed.
Lemma ct_set_terminate c b : c_terminate (set_terminate c b) = b. Proof. reflexivity. Qed.
Lemma ct_push_frame c f : c_terminate (push_frame c f) = c_terminate c. Proof. apply script_push_frame. Qed.
Lemma ct_push_value c v : c_terminate (push_value c v) = c_terminate c. Proof. apply script_push_value. Qed.
Lemma ct_assign_local_var c n v : c_terminate (assign_local_var c n v) = c_terminate c.
Proof. apply script_assign_local_var. Qed.
Lemma ct_set_top_var c n v : c_terminate (set_top_var c n v) = c_terminate c. Proof. apply script_set_top_var. Qed.
Lemma ct_restart_with c v : c_terminate (restart_with c v) = c_terminate c.
Proof. apply script_restart_with. Qed.
Lemma ct_pop_clearing k : forall c, c_terminate (pop_clearing k c) = c_terminate c.
Proof. apply script_pop_clearing. Qed.

Lemma ckey_declare_all l : forall c,
  ckey (fold_left (fun c' x => match x with VStr s => declare_top_var c' s | _ => c' end) l c) = ckey c.
Proof. apply script_declare_all. Qed.
Lemma ct_declare_all l : forall c,
  c_terminate (fold_left (fun c' x => match x with VStr s => declare_top_var c' s | _ => c' end) l c) = c_terminate c.
Proof. apply script_declare_all. Qed.

Lemma ctx_ok_set_terminate c a : ctx_ok c a -> ctx_ok c (set_terminate a true).
Proof. intros [K _]. split; auto. Qed.

Lemma pop_value_ok c v c1 : pop_value c = Some (v, c1) -> ctx_ok c c1.
Proof.
  intros P. destruct (pop_value_inv _ _ _ P) as (vs & _ & _ & _ & _ & _ & ->).
  exact (same_script_ok _ _ _ (script_set_values c vs) (ctx_ok_refl c)).
Qed.

Lemma pops_ok c c0 : pops c c0 -> ctx_ok c c0.
Proof. induction 1; [apply ctx_ok_refl|]. eapply ctx_ok_trans; [eapply pop_value_ok; eassumption|assumption]. Qed.

(* closes a goal [ctx_ok c X] where X is built by these helpers from c, or from a context that the hypotheses relate to c:
   the outermost helper is taken off (the hint set `script` says it changes nothing), a hypothesis about X is used, or X is c *)
Ltac ctx_solve :=
  repeat (try assumption;
          lazymatch goal with
          | |- ctx_ok ?c ?c => apply ctx_ok_refl
          | |- ctx_ok _ (set_terminate _ true) => apply ctx_ok_set_terminate
          | E : pop_value ?a = Some (_, ?b) |- ctx_ok _ ?b => apply (ctx_ok_trans _ a b); [|exact (pop_value_ok _ _ _ E)]
          | E : ctx_ok ?a ?b |- ctx_ok _ ?b => apply (ctx_ok_trans _ a b); [|exact E]
          | |- ctx_ok _ _ => eapply same_script_ok; [solve [eauto with script nocore]|]
          end).

(* ------------------------------------------------------------------ the machine record *)
(* what a successful operator, instruction or exit behaviour does to the machine besides the executing context:
   a sequence of these updates *)
Inductive steps (r:rt) : rt -> Prop :=
| steps_refl : steps r r
| steps_log r1 d : steps r r1 -> steps r (logmsg r1 d)
| steps_mark r1 s : steps r r1 -> steps r (mark r1 s)
| steps_ns r1 a b v : steps r r1 -> steps r (ns_set r1 a b v)
| steps_clock r1 t : steps r r1 -> t = (r_clock r1 + r_tick r1)%Z -> steps r (set_clock r1 t)
| steps_spawn r1 nc : steps r r1 -> c_id nc = r_next_id r1 ->
    steps r (set_next_id (set_ctxs r1 (r_ctxs r1 ++ [nc])) (S (r_next_id r1)))
| steps_term r1 id : steps r r1 ->
    steps r (set_ctxs r1 (map (fun y => if Nat.eqb (c_id y) id then set_terminate y true else y) (r_ctxs r1))).

Lemma steps_trans r r1 r2 : steps r r1 -> steps r1 r2 -> steps r r2.
Proof. intros H1 H2. induction H2; try (econstructor; eauto; fail). assumption. Qed.
Lemma steps_now r r1 t r2 : steps r r1 -> now r1 = (t, r2) -> steps r r2.
Proof. intros H [= _ <-]. apply steps_clock; auto. Qed.

(* error handling and the end of a run also clear the message list and the error flag *)
Inductive reach (r:rt) : rt -> Prop :=
| reach_refl : reach r r
| reach_log r1 d : reach r r1 -> reach r (logmsg r1 d)
| reach_mark r1 s : reach r r1 -> reach r (mark r1 s)
| reach_ns r1 a b v : reach r r1 -> reach r (ns_set r1 a b v)
| reach_clock r1 t : reach r r1 -> t = (r_clock r1 + r_tick r1)%Z -> reach r (set_clock r1 t)
| reach_spawn r1 nc : reach r r1 -> c_id nc = r_next_id r1 ->
    reach r (set_next_id (set_ctxs r1 (r_ctxs r1 ++ [nc])) (S (r_next_id r1)))
| reach_term r1 id : reach r r1 ->
    reach r (set_ctxs r1 (map (fun y => if Nat.eqb (c_id y) id then set_terminate y true else y) (r_ctxs r1)))
| reach_msgs r1 m : reach r r1 -> reach r (set_msgs r1 m)
| reach_errflag r1 b : reach r r1 -> reach r (set_errflag r1 b).

Lemma reach_trans r r1 r2 : reach r r1 -> reach r1 r2 -> reach r r2.
Proof. intros H1 H2. induction H2; try (econstructor; eauto; fail). assumption. Qed.

Lemma steps_reach r r' : steps r r' -> reach r r'.
Proof. induction 1; econstructor; eauto. Qed.

Lemma rcfg_logmsg r d : rcfg (logmsg r d) = rcfg r.
Proof. unfold logmsg. destruct (Z.leb _ _); reflexivity. Qed.
Lemma rctl_logmsg r d : rctl (logmsg r d) = rctl r.
Proof. unfold logmsg. destruct (Z.leb _ _); reflexivity. Qed.

Lemma reach_cfg r r' : reach r r' -> rcfg r' = rcfg r.
Proof. induction 1; auto; try (rewrite <- IHreach; reflexivity). rewrite rcfg_logmsg; auto. Qed.
Lemma reach_ctl r r' : reach r r' -> rctl r' = rctl r.
Proof. induction 1; auto; try (rewrite <- IHreach; reflexivity). rewrite rctl_logmsg; auto. Qed.
(* the clock only moves by whole ticks: k = number of clock reads *)
Lemma reach_clock_reads r r' : reach r r' -> exists k:nat, r_clock r' = (r_clock r + Z.of_nat k * r_tick r)%Z.
Proof.
  induction 1; try (destruct IHreach as [k IH]; exists k; rewrite <- IH; try reflexivity; fail).
  - exists O. cbn. lia.
  - destruct IHreach as [k IH]. exists k. rewrite clock_logmsg. auto.
  - destruct IHreach as [k IH]. exists (S k). cbn [r_clock set_clock rt_with]. subst t.
    destruct (rcfg_limits _ _ (reach_cfg _ _ H)) as (E & _).
    rewrite IH, E. lia.
Qed.

(* ------------------------------------------------------------------ how the context list evolves *)
Definition fresh_from (n n':nat) (sp:list context) : Prop :=
  n <= n' /\ Forall (fun c => n <= c_id c < n') sp /\ NoDup (map c_id sp).
Definition raise (id:nat) (y:context) : context := if Nat.eqb (c_id y) id then set_terminate y true else y.
Lemma raise_term_le id y : term_le y (raise id y).
Proof. unfold raise. destruct (Nat.eqb _ _); [right|left]; auto. Qed.
Lemma raise_id id y : c_id (raise id y) = c_id y.
Proof. unfold raise. destruct (Nat.eqb _ _); auto. Qed.
Lemma Forall2_raise id l : Forall2 term_le l (map (raise id) l).
Proof. induction l; cbn; constructor; auto using raise_term_le. Qed.

Lemma NoDup_app_intro {A} (a b:list A) : NoDup a -> NoDup b -> (forall x, In x a -> ~ In x b) -> NoDup (a ++ b).
Proof.
  induction a as [|x a IH]; cbn; intros Ha Hb Hd; auto.
  inversion Ha; subst. constructor.
  - rewrite in_app_iff. intros [H|H]; [auto|]. apply (Hd x); auto.
  - apply IH; auto.
Qed.
Lemma NoDup_app_elim {A} (a b:list A) : NoDup (a ++ b) -> NoDup a /\ NoDup b /\ (forall x, In x a -> ~ In x b).
Proof.
  induction a as [|x a IH]; cbn; intros H.
  - repeat split; auto. constructor.
  - inversion H; subst. destruct (IH H3) as (Ha & Hb & Hd). rewrite in_app_iff in H2. repeat split; auto.
    + constructor; auto.
    + intros y [->|Hy]; auto.
Qed.

Lemma fresh_from_app n n' n'' a b : fresh_from n n' a -> fresh_from n' n'' b -> fresh_from n n'' (a ++ b).
Proof.
  intros (L1 & F1 & D1) (L2 & F2 & D2). split; [lia|]. split.
  - apply Forall_app; split; (eapply Forall_impl; [|eassumption]); cbn; intros; lia.
  - rewrite map_app. apply NoDup_app_intro; auto.
    intros x Hx Hy. apply in_map_iff in Hx. destruct Hx as (c1 & <- & I1). apply in_map_iff in Hy. destruct Hy as (c2 & E & I2).
    rewrite Forall_forall in F1, F2. specialize (F1 _ I1). specialize (F2 _ I2). lia.
Qed.
Lemma fresh_from_relabel n n' a b : fresh_from n n' a -> map c_id b = map c_id a -> fresh_from n n' b.
Proof.
  intros (L & F & D) E. split; auto. split; [|rewrite E; auto].
  rewrite Forall_forall in *. intros c Hc. assert (In (c_id c) (map c_id b)) by (apply in_map; auto).
  rewrite E in H. apply in_map_iff in H. destruct H as (c' & E' & I'). specialize (F _ I'). lia.
Qed.

(* ------------------------------------------------------------------ operators *)
(* H : [dispatch = Ok _]: every scrutinee of the dispatch is taken apart, innermost first; the branches that are left end in Ok *)
Ltac break_all H :=
  repeat (match type of H with
          | context [match ?x with _ => _ end] =>
              lazymatch x with
              | context [match _ with _ => _ end] => fail
              | _ => destruct x eqn:?
              end
          end; try discriminate).
Ltac steps_solve :=
  repeat first [ assumption | apply steps_refl | apply steps_log | apply steps_mark | apply steps_ns | (apply steps_clock; [|reflexivity])
               | apply steps_term | (apply steps_spawn; [|reflexivity]) ].
Ltac leaf H := injection H; clear H; intros; subst; split; [ steps_solve | ctx_solve ].

Lemma op_breakout_shape r c v t r' c' y : op_breakout r c v t = Ok (r', c', y) -> steps r r' /\ ctx_ok c c'.
Proof. unfold op_breakout. intro H. break_all H; leaf H. Qed.

Lemma err_enact_shape r c k failed r' c' : err_enact r c k = Ok (failed, r', c') -> r' = r /\ ctx_ok c c'.
Proof.
  intro H. destruct (err_enact_inv _ _ _ _ _ _ H) as [-> [|f h exc c1 _ P]]; (split; [reflexivity|]); [apply ctx_ok_refl|].
  apply pops_ok in P. ctx_solve.
Qed.

Lemma op_throw_shape r c v r' c' y : op_throw r c v = Ok (r', c', y) -> steps r r' /\ ctx_ok c c'.
Proof.
  unfold op_throw. intro H. destruct (find_handler _ _); [|leaf H].
  unfold bindr in H. destruct (err_enact _ _ _) as [[[failed r2] c2]| | |] eqn:E; try discriminate.
  apply err_enact_shape in E. destruct E as [-> E]. break_all H; leaf H.
Qed.

(* by cases on the effect of the operator (OpEffect.v) *)
Lemma op_unary_shape n v r c r' c' y : op_unary n v r c = Ok (r', c', y) -> steps r r' /\ ctx_ok c c'.
Proof.
  intro H. destruct (op_unary_inv _ _ _ _ _ _ _ H); try (split; [steps_solve|ctx_solve]; fail).
  - eapply op_throw_shape; eassumption.
  - eapply op_breakout_shape; eassumption.
  - split; [eapply steps_now; [apply steps_refl|eassumption]|ctx_solve].
Qed.

Lemma op_binary_shape n l v r c r' c' y : op_binary n l v r c = Ok (r', c', y) -> steps r r' /\ ctx_ok c c'.
Proof.
  intro H. destruct (op_binary_inv _ _ _ _ _ _ _ _ H); try (split; [steps_solve|ctx_solve]; fail).
  - eapply op_breakout_shape; eassumption.
  - eapply op_throw_shape; eassumption.
Qed.

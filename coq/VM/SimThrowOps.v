(* C02 - the machine side of `throw`: one pass of execute_do that executes a throw instruction finds the innermost frame with
   an error handler, installs the handler's code in it (position 0, the variables replaced by _exception), drops the frames
   above it and leaves a nil on the operand stack; the running frame's part of the stack is cleared, the parts of the other
   abandoned frames stay where they are (frames are popped, not cleared: ops_generic.cpp throw_any). *)
From Coq Require Import String Ascii.
From Coq Require Import ZArith List Bool Lia.
From SqfVerif Require Import Gen.DiagCodes Gen.Overloads VM.VmDefs VM.VmFacts VM.VmExec VM.RefSem VM.SimDefs VM.SimProofs VM.SimBlock VM.SimCtl VM.SimMach.
Import ListNotations.
Local Open Scope string_scope.
Local Open Scope list_scope.

(* the frame of a try block once its handler has taken over *)
Definition handler_frame (f:frame) (h:code) (x:value) : frame :=
  set_err (set_pos (set_code (set_vars f [("_exception", x)]) h) 0) None.

Lemma handler_frame_pos f p h x : handler_frame (set_pos f p) h x = handler_frame f h x.
Proof. reflexivity. Qed.
Lemma handler_frame_kept f f' h x : kept f f' -> handler_frame f' h x = handler_frame f h x.
Proof. intros K. rewrite <- K. reflexivity. Qed.

Lemma find_handler_app : forall inner ft rest k e, Forall (fun m => f_err m = None) inner -> f_err ft = Some e ->
  find_handler (inner ++ ft :: rest) k = Some (k + length inner).
Proof.
  induction inner as [|m inner IH]; intros ft rest k e HF HE; cbn [app find_handler length].
  - rewrite HE. f_equal. lia.
  - inversion HF as [|? ? HM HF']; subst. rewrite HM. rewrite (IH ft rest (S k) e HF' HE). f_equal. lia.
Qed.
Lemma list_upd_app_here {A} : forall (l:list A) x r y, list_upd (l ++ x :: r) (length l) y = l ++ y :: r.
Proof. induction l as [|a l IH]; intros x r y; cbn; [reflexivity|]. rewrite IH. reflexivity. Qed.
Lemma skipn_app_here {A} : forall (l r:list A), skipn (length l) (l ++ r) = r.
Proof. induction l as [|a l IH]; intros r; cbn; [reflexivity|apply IH]. Qed.

(* the frames between the running one and the handler's, as the instruction sees them (the running frame has moved on) *)
Lemma chain_moved f restf inner ft rest p h x :
  f :: restf = inner ++ ft :: rest -> Forall (fun m => f_err m = None) inner -> f_err ft = Some (ECatch h) ->
  exists inner' ft', set_pos f p :: restf = inner' ++ ft' :: rest /\ Forall (fun m => f_err m = None) inner' /\
    f_err ft' = Some (ECatch h) /\ handler_frame ft' h x = handler_frame ft h x.
Proof.
  intros E HF HE. destruct inner as [|m inner]; cbn [app] in E.
  - inversion E; subst. exists [], (set_pos ft p). repeat split; [constructor|exact HE].
  - inversion E; subst. inversion HF as [|? ? HM HF']; subst. exists (set_pos m p :: inner), ft.
    repeat split; [constructor; [exact HM|exact HF']|exact HE].
Qed.

(* what the throw does to the context *)
Lemma op_throw_handled r c0 w vals f0 inner ft rest h :
  r_err r = false -> c_frames c0 = inner ++ ft :: rest -> hd ft inner = f0 -> c_values c0 = vals -> f_base f0 <= length vals ->
  Forall (fun m => f_err m = None) inner -> f_err ft = Some (ECatch h) ->
  op_throw r c0 w = Ok (r, set_values (set_frames c0 (handler_frame ft h w :: rest)) (skipn (length vals - f_base f0) vals), VNil).
Proof.
  intros RE EF HD EV B HF HE. unfold op_throw. rewrite EF, (find_handler_app inner ft rest 0 _ HF HE). cbn [Nat.add].
  unfold err_enact. cbn [push_value c_frames set_values]. rewrite EF, nth_error_mid, HE, RE.
  assert (TOP : exists restf, inner ++ ft :: rest = f0 :: restf).
  { destruct inner as [|m inner]; cbn in HD |- *; subst f0; eauto. }
  destruct TOP as [restf TOP].
  assert (P : pop_value (push_value c0 (VTrace w)) = Some (VTrace w, set_values (push_value c0 (VTrace w)) vals)).
  { unfold pop_value, push_value. cbn [c_values set_values c_frames]. rewrite EF, TOP, EV. cbn [length].
    destruct (Nat.leb_spec (S (length vals)) (f_base f0)) as [L|L]; [lia|reflexivity]. }
  rewrite P. unfold clear_values, push_value. cbn [c_frames set_values c_values]. rewrite EF, TOP. cbn [bindr].
  cbn [c_frames set_frames set_values c_values]. rewrite EF, list_upd_app_here, skipn_app_here.
  unfold handler_frame. destruct c0; reflexivity.
Qed.

Lemma op_unary_throw w r c : op_unary "throw" w r c = op_throw r c w.
Proof. reflexivity. Qed.
Lemma op_binary_throw_if w r c : op_binary "throw" (VIf true) w r c = op_throw r c w.
Proof. reflexivity. Qed.

(* one pass of execute_do at `throw v` (unary) *)
Lemma throw_run r c f restf n' w vals inner ft rest h :
  Good r c -> c_frames c = f :: restf -> nth_error (f_code f) (f_pos f) = Some (IUnary n') -> lower n' = "throw" ->
  c_values c = w :: vals -> w <> VNil -> f_base f <= length vals ->
  f :: restf = inner ++ ft :: rest -> Forall (fun m => f_err m = None) inner -> f_err ft = Some (ECatch h) ->
  let c' := push_value (set_values (set_frames c (handler_frame ft h w :: rest)) (skipn (length vals - f_base f) vals)) VNil in
  Steps r (upd_cur r c') /\ Good (upd_cur r c') c'.
Proof.
  intros G EF N HN EV NW B CH HF HE c'.
  destruct (chain_moved f restf inner ft rest (S (f_pos f)) h w CH HF HE) as (inner' & ft' & CH' & HF' & HE' & HH).
  apply (unary_step r c f restf n' w vals r _ VNil G EF N EV B NW); [|exact (good_running _ _ G)|apply ctl_same_refl].
  rewrite HN, op_unary_throw.
  rewrite (op_throw_handled r _ w vals (set_pos f (S (f_pos f))) inner' ft' rest h); [rewrite HH; reflexivity|destruct G as (_ & _ & _ & E & _); exact E|exact CH'| |reflexivity|exact B|exact HF'|exact HE'].
  destruct inner' as [|m i']; cbn in CH' |- *; inversion CH'; reflexivity.
Qed.

(* ... and at `if c throw v` (binary, the condition true) *)
Lemma throw_if_run r c f restf n' w vals inner ft rest h :
  Good r c -> c_frames c = f :: restf -> nth_error (f_code f) (f_pos f) = Some (IBinary n') -> lower n' = "throw" ->
  c_values c = w :: VIf true :: vals -> w <> VNil -> f_base f <= length vals ->
  f :: restf = inner ++ ft :: rest -> Forall (fun m => f_err m = None) inner -> f_err ft = Some (ECatch h) ->
  let c' := push_value (set_values (set_frames c (handler_frame ft h w :: rest)) (skipn (length vals - f_base f) vals)) VNil in
  Steps r (upd_cur r c') /\ Good (upd_cur r c') c'.
Proof.
  intros G EF N HN EV NW B CH HF HE c'.
  destruct (chain_moved f restf inner ft rest (S (f_pos f)) h w CH HF HE) as (inner' & ft' & CH' & HF' & HE' & HH).
  apply (binary_step r c f restf n' (VIf true) w vals r _ VNil G EF N EV B NW); [discriminate| |exact (good_running _ _ G)|apply ctl_same_refl].
  rewrite HN, op_binary_throw_if.
  rewrite (op_throw_handled r _ w vals (set_pos f (S (f_pos f))) inner' ft' rest h); [rewrite HH; reflexivity|destruct G as (_ & _ & _ & E & _); exact E|exact CH'| |reflexivity|exact B|exact HF'|exact HE'].
  destruct inner' as [|m i']; cbn in CH' |- *; inversion CH'; reflexivity.
Qed.

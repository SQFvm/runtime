(* C12 - isolation with turns that CREATE globals, part 3: the turns of two scripts with disjoint footprints commute up to
   the order of the entries of the namespaces (req), each may create new globals; whole rounds in any order. *)
From Coq Require Import String Ascii ZArith List Bool Lia Arith Permutation.
From SqfVerif Require Import Gen.DiagCodes Gen.Overloads VM.VmDefs VM.VmExec VM.VmFacts VM.SchedDefs VM.SchedOps VM.SchedBase VM.SchedIter VM.C12FrameOps VM.C12Frame VM.C12Commute VM.C12NsEq VM.C12Globals.
Import ListNotations.
Local Open Scope list_scope.
Opaque frame_fuel exec_fuel.

(* ------------------------------------------------------------------ the effect of a turn *)
(* on the other scripts and the log: an exact frame transformer that leaves the namespaces alone *)
Definition effx (i:nat) (ri:rt) : tr :=
  {| t_ctx := match nth_error (r_ctxs ri) i with Some c => fun l => list_upd l i c | None => fun l => l end;
     t_out := r_out ri; t_nss := fun a => a |}.
Lemma effx_ok i j rj R W : i <> j -> tr_ok (effx j rj) i R W.
Proof.
  (* the contexts are changed as by eff, the namespaces not at all *)
  intros Ne. destruct (eff_ok i j [] [] [] rj Ne eq_refl eq_refl) as [A B C _ _]. split; [exact A|exact B|exact C|reflexivity|reflexivity].
Qed.

(* the machine after a quiet turn = the machine before, with the script's context, its log lines and the namespaces replaced *)
Lemma turn_as_trx b1 b2 R W r i x ri v a :
  visit_ctx b1 b2 r i = Ok (x, ri, v) -> i < length (r_ctxs r) -> visit_ok b1 R W r i = true ->
  r_out r = [] -> r_tick r = 0%Z -> quiet r ri ->
  set_active ri a = set_active (app (cst (r_nss ri)) (app (effx i ri) r)) a.
Proof.
  intros V Hi OK O0 T0 Q. destruct (quiet_turn _ _ _ _ _ _ _ _ _ V Hi OK T0 Q) as (ci & Hci & E).
  rewrite E, app_cst. unfold app, effx. cbn [t_ctx t_out t_nss]. rewrite Hci, O0. reflexivity.
Qed.

(* ------------------------------------------------------------------ independence with creation *)
(* the turn changed the namespaces only at keys of W - by new values for existing variables or by NEW variables; up to the
   order of entries its namespaces are those before the turn with its final values at W written over them *)
Definition nss_effect_c (W:list key) (r ri:rt) : Prop := nss_eq (r_nss ri) (wr W (r_nss ri) (r_nss r)).

Record solo_turn_c (b1 b2:bool) (r:rt) (i:nat) (R W:list key) (xi:rresult) (ri:rt) (vi:visit) : Prop := {
  sc_run : visit_ctx b1 b2 r i = Ok (xi, ri, vi);
  sc_idx : i < length (r_ctxs r);
  sc_ok : visit_ok b1 R W r i = true;
  sc_quiet : quiet r ri;
  sc_nss : nss_effect_c W r ri }.

(* the lookups of ov (C12Commute.v), to set beside wr_get (that nss_effect is the case of nss_effect_c for a turn that
   creates nothing is not proved) *)
Lemma ov_wr_get W src a ns n : raw_get (ov W src a) ns n =
  match raw_get a ns n with Some v => Some (ov1 W src ns n v) | None => None end.
Proof.
  unfold raw_get at 1, ov. rewrite assoc_mapv. unfold raw_get. destruct (assoc ns a) as [m|]; cbn; auto.
  rewrite assoc_mapv. destruct (assoc n m); reflexivity.
Qed.

Lemma shared_split m m' a a' : set_nss (shared_state m) [] = set_nss (shared_state m') [] -> nss_eq a a' ->
  req (shared_state (app (cst a) m)) (shared_state (app (cst a') m')).
Proof. intros E N. split; [exact E|exact N]. Qed.

(* the two frame properties together: T changes what the script does not look at, the namespaces are replaced by aM, which
   stands for a change Gd that the script cannot observe *)
Lemma turn_framed b1 b2 T Gd R W r i x ri v aM :
  visit_ctx b1 b2 r i = Ok (x, ri, v) -> i < length (r_ctxs r) -> visit_ok b1 R W r i = true ->
  tr_ok T i R W -> sem_ok Gd R W -> relN Gd (app T r) aM ->
  exists a1, visit_ctx b1 b2 (app (cst aM) (app T r)) i = Ok (x, app (cst a1) (app T ri), v) /\ relN Gd (app T ri) a1.
Proof.
  intros V Hi OK OKT GOK RL.
  assert (HiY : i < length (r_ctxs (app T r))) by (cbn [r_ctxs app]; rewrite (tk_len _ _ _ _ OKT); exact Hi).
  assert (OKY : visit_ok b1 R W (app T r) i = true) by (rewrite (visit_ok_app _ i R W) by auto; exact OK).
  pose proof (turn_up_to_order Gd R W i b1 b2 (app T r) aM GOK RL HiY OKY) as H.
  rewrite (app_visit_ctx T i R W b1 b2 r OKT Hi OK), V in H. exact H.
Qed.

(* the turn of i after the turn of j *)
Lemma turn_after_turn b1 b2 r i j Ri Wi Rj Wj xi ri vi xj rj vj :
  i <> j -> r_out r = [] -> r_tick r = 0%Z ->
  solo_turn_c b1 b2 r i Ri Wi xi ri vi -> solo_turn_c b1 b2 r j Rj Wj xj rj vj ->
  disjoint Ri Wj = true -> disjoint Wi Wj = true ->
  exists a1, visit_ctx b1 b2 rj i = Ok (xi, app (cst a1) (app (effx j rj) ri), vi) /\
             nss_eq a1 (wr Wj (r_nss rj) (r_nss ri)).
Proof.
  intros Ne O0 T0 [Vi Hi OKi Qi Ni] [Vj Hj OKj Qj Nj] D1 D2.
  pose proof (turn_as_trx b1 b2 Rj Wj r j xj rj vj None Vj Hj OKj O0 T0 Qj) as Ej.
  destruct (turn_framed b1 b2 (effx j rj) (wr Wj (r_nss rj)) Ri Wi r i xi ri vi (r_nss rj) Vi Hi OKi
              (effx_ok i j rj Ri Wi Ne) (sem_ok_wr Wj _ Ri Wi D1 D2) Nj) as (a1 & H & RL1).
  exists a1. split; [|exact RL1].
  rewrite <- (visit_ctx_active b1 b2 rj None i), Ej, visit_ctx_active. exact H.
Qed.

(* what a turn leaves behind, its namespaces and the log apart *)
Lemma turn_frame b1 b2 R W r i x ri v :
  visit_ctx b1 b2 r i = Ok (x, ri, v) -> i < length (r_ctxs r) -> visit_ok b1 R W r i = true ->
  r_out r = [] -> r_tick r = 0%Z -> quiet r ri ->
  set_nss (shared_state ri) [] = set_nss (shared_state (app (effx i ri) r)) [].
Proof.
  intros V Hi OK O0 T0 Q. unfold shared_state. rewrite (turn_as_trx _ _ _ _ _ _ _ _ _ None V Hi OK O0 T0 Q). reflexivity.
Qed.
Lemma frame_app T y y' : set_nss (shared_state y) [] = set_nss (shared_state y') [] ->
  set_nss (shared_state (app T y)) [] = set_nss (shared_state (app T y')) [].
Proof.
  intro H.
  change (set_nss (set_out (app T (set_nss (shared_state y) [])) []) [] = set_nss (set_out (app T (set_nss (shared_state y') [])) []) []).
  rewrite H. reflexivity.
Qed.

Theorem independent_turns_commute_c b1 b2 r i j Ri Wi Rj Wj xi ri vi xj rj vj :
  i <> j -> r_out r = [] -> r_tick r = 0%Z ->
  solo_turn_c b1 b2 r i Ri Wi xi ri vi -> solo_turn_c b1 b2 r j Rj Wj xj rj vj ->
  independent Ri Wi Rj Wj = true ->
  exists m1 m2,
    visit_ctx b1 b2 rj i = Ok (xi, m1, vi) /\      (* j then i: i does exactly what it does alone *)
    visit_ctx b1 b2 ri j = Ok (xj, m2, vj) /\      (* i then j: j does exactly what it does alone *)
    req (shared_state m1) (shared_state m2) /\
    r_out m1 = r_out ri ++ r_out rj /\ r_out m2 = r_out rj ++ r_out ri.
Proof.
  intros Ne O0 T0 Si Sj Ind.
  destruct (independent_parts _ _ _ _ Ind) as (D1 & D2 & D3).
  destruct (turn_after_turn b1 b2 r i j Ri Wi Rj Wj xi ri vi xj rj vj Ne O0 T0 Si Sj D1 D2) as (a1 & V1 & N1).
  destruct (turn_after_turn b1 b2 r j i Rj Wj Ri Wi xj rj vj xi ri vi (fun E => Ne (eq_sym E)) O0 T0 Sj Si D3 (disjoint_sym _ _ D2)) as (a2 & V2 & N2).
  destruct Si as [Vi Hi OKi Qi Ni]. destruct Sj as [Vj Hj OKj Qj Nj].
  eexists. eexists. split; [exact V1|]. split; [exact V2|]. split; [|split].
  - apply shared_split.
    + (* contexts and the other fields: each turn replaces its own context *)
      rewrite (frame_app _ _ _ (turn_frame _ _ _ _ _ _ _ _ _ Vi Hi OKi O0 T0 Qi)), (frame_app _ _ _ (turn_frame _ _ _ _ _ _ _ _ _ Vj Hj OKj O0 T0 Qj)).
      f_equal. apply app_swap; [|reflexivity]. intro l. apply (eff_ctx_comm j i [] []). congruence.
    + (* namespaces: the writes of the two turns, replayed in the one and the other order *)
      unfold nss_effect_c in Ni, Nj.
      eapply nss_eq_trans; [exact N1|].
      eapply nss_eq_trans; [apply wr_cong; exact Ni|].
      eapply nss_eq_trans; [apply wr_comm; apply disjoint_sym; exact D2|].
      eapply nss_eq_trans; [apply wr_cong; apply nss_eq_sym; exact Nj|].
      apply nss_eq_sym. exact N2.
  - cbn [r_out app cst effx t_out]. rewrite app_nil_r. reflexivity.
  - cbn [r_out app cst effx t_out]. rewrite app_nil_r. reflexivity.
Qed.

(* ------------------------------------------------------------------ whole rounds *)
Definition solo_c (b1 b2:bool) (r:rt) (u:turn) : Prop := solo_turn_c b1 b2 r (u_idx u) (u_R u) (u_W u) (u_x u) (u_r u) (u_v u).
Definition effx_of (u:turn) : tr := effx (u_idx u) (u_r u).
Definition effxs (T:tr) (us:list turn) : tr := fold_left (fun T u => comp T (effx_of u)) us T.
(* the writes of the turns of a list, replayed (the first turn of the list outermost) *)
Fixpoint wrl (us:list turn) (a:list (string * list (string * value))) :=
  match us with [] => a | u :: us' => wr (u_W u) (r_nss (u_r u)) (wrl us' a) end.

Lemma cst_absorb a b T Z : app (cst a) (app T (app (cst b) Z)) = app (cst a) (app T Z).
Proof.
  destruct Z, T. unfold app, cst. cbn. rewrite !app_nil_r. reflexivity.
Qed.

Lemma runs_c b1 b2 r : r_out r = [] -> r_tick r = 0%Z -> forall us T Gd aM M,
  set_active M None = set_active (app (cst aM) (app T r)) None ->
  (forall a, t_nss T a = a) -> nss_eq aM (Gd (r_nss r)) ->
  Forall (solo_c b1 b2 r) us -> all_independent us ->
  (forall u, In u us -> tr_ok T (u_idx u) (u_R u) (u_W u) /\ sem_ok Gd (u_R u) (u_W u)) ->
  exists m aF, runs b1 b2 M us m /\ set_active m None = set_active (app (cst aF) (app (effxs T us) r)) None /\
               nss_eq aF (Gd (wrl us (r_nss r))).
Proof.
  intros O0 T0. induction us as [|u us IH]; intros T Gd aM M EM Tid NM So [Nd In] OKT.
  - exists M, aM. split; [constructor|]. split; [exact EM|exact NM].
  - inversion So as [|? ? Su Sus]; subst. destruct Su as [Vu Hu OKu Qu Nu].
    pose proof (turn_as_trx b1 b2 _ _ r _ _ _ _ None Vu Hu OKu O0 T0 Qu) as Eu.
    destruct (OKT u (or_introl eq_refl)) as [OKTu GOKu].
    assert (RL : relN Gd (app T r) aM) by (unfold relN; cbn [r_nss app]; rewrite Tid; exact NM).
    destruct (turn_framed b1 b2 T Gd _ _ r _ _ _ _ aM Vu Hu OKu OKTu GOKu RL) as (a1 & H & RL1).
    assert (V : visit_ctx b1 b2 M (u_idx u) = Ok (u_x u, app (cst a1) (app T (u_r u)), u_v u)).
    { rewrite <- (visit_ctx_active b1 b2 M None), EM, visit_ctx_active. exact H. }
    inversion Nd as [|? ? Nu1 Nd']; subst.
    destruct (IH (comp T (effx_of u)) (fun a => Gd (wr (u_W u) (r_nss (u_r u)) a)) a1 (app (cst a1) (app T (u_r u)))) as (m & aF & Rm & Em & NF).
    + rewrite <- app_comp. rewrite !app_set_active. unfold effx_of. rewrite Eu. rewrite <- !app_set_active.
      rewrite cst_absorb. reflexivity.
    + intro a. cbn. apply Tid.
    + unfold relN in RL1. cbn [r_nss app] in RL1. rewrite Tid in RL1.
      eapply nss_eq_trans; [exact RL1|]. apply (so_cong _ _ _ GOKu). exact Nu.
    + exact Sus.
    + split; auto. intros a b Ia Ib. apply In; right; auto.
    + intros w Iw. destruct (OKT w (or_intror Iw)) as [OKTw GOKw].
      assert (Ne : u_idx w <> u_idx u).
      { intro E. apply Nu1. rewrite <- E. apply in_map. auto. }
      destruct (independent_parts _ _ _ _ (In u w (or_introl eq_refl) (or_intror Iw) (fun E => Ne (eq_sym E)))) as (D1 & D2 & D3).
      split.
      * apply comp_ok; [exact OKTw|]. apply effx_ok. exact Ne.
      * apply (sem_ok_comp Gd (wr (u_W u) (r_nss (u_r u)))); [exact GOKw|]. apply sem_ok_wr; auto using disjoint_sym.
    + exists m, aF. split; [exact (runs_cons b1 b2 M u _ us m V Rm)|]. split; [exact Em|exact NF].
Qed.

(* the exact part of the effects: the same as in C12Commute.v up to the namespaces *)
Lemma nss_blind T y : set_nss (app T y) [] = set_nss (app T (set_nss y [])) [].
Proof. reflexivity. Qed.
Lemma effxs_effs us : forall T T', (forall x, set_nss (app T x) [] = set_nss (app T' x) []) ->
  forall x, set_nss (app (effxs T us) x) [] = set_nss (app (effs T' us) x) [].
Proof.
  induction us as [|u us IH]; intros T T' H x; cbn; [apply H|].
  apply IH. intro y. rewrite <- !app_comp. rewrite H. rewrite (nss_blind T'). symmetry. rewrite (nss_blind T'). reflexivity.
Qed.

Lemma wrl_cong us a b : nss_eq a b -> nss_eq (wrl us a) (wrl us b).
Proof. intro H. induction us; cbn [wrl]; auto using wr_cong. Qed.
Lemma wrl_perm us us' : Permutation us us' -> all_independent us -> forall a, nss_eq (wrl us a) (wrl us' a).
Proof.
  induction 1; intros AI a.
  - apply nss_eq_refl.
  - cbn [wrl]. apply wr_cong. apply IHPermutation. destruct AI as [Nd In]. inversion Nd; subst. split; auto. intros p q Ip Iq. apply In; right; auto.
  - cbn [wrl]. destruct AI as [Nd In]. inversion Nd as [|? ? N1 N2]; subst.
    assert (Ne : u_idx x <> u_idx y) by (intro E; apply N1; rewrite <- E; left; reflexivity).
    destruct (independent_parts _ _ _ _ (In x y (or_intror (or_introl eq_refl)) (or_introl eq_refl) Ne)) as (_ & D & _).
    apply wr_comm. apply disjoint_sym. exact D.
  - eapply nss_eq_trans; [apply IHPermutation1; auto|]. apply IHPermutation2. eapply all_independent_perm; eauto.
Qed.

(* A round of pairwise independent turns - each may create globals - can be taken in any order: every order is possible, every
   script does in it exactly what it does alone, and the final machines agree, up to the order of namespace entries, on
   everything but the order of the log lines and r_active. *)
Theorem round_order_irrelevant_c b1 b2 r us us' :
  r_out r = [] -> r_tick r = 0%Z ->
  Forall (solo_c b1 b2 r) us -> all_independent us -> Permutation us us' ->
  exists m m', runs b1 b2 r us m /\ runs b1 b2 r us' m' /\ req (shared_state m) (shared_state m').
Proof.
  intros O0 T0 So AI P.
  assert (AI' : all_independent us') by (eapply all_independent_perm; eauto).
  assert (So' : Forall (solo_c b1 b2 r) us') by (eapply Permutation_Forall; eauto).
  assert (E0 : set_active r None = set_active (app (cst (r_nss r)) (app tr_none r)) None) by (rewrite app_tr_none, app_cst_self; reflexivity).
  destruct (runs_c b1 b2 r O0 T0 us tr_none (fun a => a) (r_nss r) r E0 (fun a => eq_refl) (nss_eq_refl _) So AI
              (fun u _ => conj (tr_none_ok _ _ _) (sem_ok_id _ _))) as (m & aF & Rm & Em & NF).
  destruct (runs_c b1 b2 r O0 T0 us' tr_none (fun a => a) (r_nss r) r E0 (fun a => eq_refl) (nss_eq_refl _) So' AI'
              (fun u _ => conj (tr_none_ok _ _ _) (sem_ok_id _ _))) as (m' & aF' & Rm' & Em' & NF').
  exists m, m'. split; [exact Rm|]. split; [exact Rm'|].
  rewrite (shared_state_active _ _ Em), (shared_state_active _ _ Em'). apply shared_split.
  - change (set_nss (shared_state (app (effxs tr_none us) r)) []) with (shared_state (set_nss (app (effxs tr_none us) r) [])).
    change (set_nss (shared_state (app (effxs tr_none us') r)) []) with (shared_state (set_nss (app (effxs tr_none us') r) [])).
    rewrite (effxs_effs us tr_none tr_none (fun x => eq_refl)), (effxs_effs us' tr_none tr_none (fun x => eq_refl)).
    change (set_nss (shared_state (app (effs tr_none us) r)) [] = set_nss (shared_state (app (effs tr_none us') r)) []).
    rewrite (effs_perm us us' P AI tr_none r). reflexivity.
  - eapply nss_eq_trans; [exact NF|]. eapply nss_eq_trans; [apply (wrl_perm us us' P AI)|]. apply nss_eq_sym. exact NF'.
Qed.

(* ------------------------------------------------------------------ non-vacuity *)
Local Open Scope string_scope.
Set Warnings "-abstract-large-number".
(* two spawned scripts `ga = 1; diag_log ga` and `gb = 2; diag_log gb` on a machine without any global: each CREATES its
   variable (and whoever runs first creates the namespace) *)
Definition cr_script (g:string) (k:Z) : code :=
  compile_block [SAssign g (ENum k); SExpr (EUnary "diag_log" (EVar g))].
Definition cr_machine : rt :=
  set_state (set_next_id (set_ctxs (init_rt [] 0 0 10000 150)
     [ex_ctx 0 (cr_script "ga" 1); ex_ctx 1 (cr_script "gb" 2)]) 2) StRunning.
Definition cr_turn (i:nat) : rresult * rt * visit :=
  match visit_ctx false false cr_machine i with
  | Ok p => p
  | _ => (RInvalid, cr_machine, {| v_id := 0; v_entered := false; v_instr := 0; v_restarts := 0; v_result := RInvalid |}) end.
Lemma cr_solo_a : solo_turn_c false false cr_machine 0 ex_Ka ex_Ka (fst (fst (cr_turn 0))) (snd (fst (cr_turn 0))) (snd (cr_turn 0)).
Proof.
  split; [vm_compute; reflexivity | vm_compute; repeat constructor | vm_compute; reflexivity
         | split; vm_compute; reflexivity | ].
  unfold nss_effect_c.
  assert (E : wr ex_Ka (r_nss (snd (fst (cr_turn 0)))) (r_nss cr_machine) = r_nss (snd (fst (cr_turn 0)))) by (vm_compute; reflexivity).
  rewrite E. apply nss_eq_refl.
Qed.
Lemma cr_solo_b : solo_turn_c false false cr_machine 1 ex_Kb ex_Kb (fst (fst (cr_turn 1))) (snd (fst (cr_turn 1))) (snd (cr_turn 1)).
Proof.
  split; [vm_compute; reflexivity | vm_compute; repeat constructor | vm_compute; reflexivity
         | split; vm_compute; reflexivity | ].
  unfold nss_effect_c.
  assert (E : wr ex_Kb (r_nss (snd (fst (cr_turn 1)))) (r_nss cr_machine) = r_nss (snd (fst (cr_turn 1)))) by (vm_compute; reflexivity).
  rewrite E. apply nss_eq_refl.
Qed.
(* the hypotheses hold; no global exists before; both turns log, both create their global; the two orders end with namespaces
   that differ (in the order of their entries), so the theorem of C12Commute.v does not apply to this pair *)
Definition cr_both (i j:nat) : list (string * list (string * value)) :=
  match visit_ctx false false (snd (fst (cr_turn i))) j with Ok (_, m, _) => r_nss m | _ => [] end.
Example cr_facts :
  independent ex_Ka ex_Ka ex_Kb ex_Kb = true /\ r_out cr_machine = [] /\ r_tick cr_machine = 0%Z /\ r_nss cr_machine = [] /\
  r_out (snd (fst (cr_turn 0))) <> [] /\ r_out (snd (fst (cr_turn 1))) <> [] /\
  r_nss (snd (fst (cr_turn 0))) = [(default_ns, [("ga", VNum 1)])] /\
  r_nss (snd (fst (cr_turn 1))) = [(default_ns, [("gb", VNum 2)])] /\
  cr_both 0 1 = [(default_ns, [("ga", VNum 1); ("gb", VNum 2)])] /\
  cr_both 1 0 = [(default_ns, [("gb", VNum 2); ("ga", VNum 1)])].
Proof. repeat split; vm_compute; try reflexivity; discriminate. Qed.

Definition cr_ta : turn := {| u_idx := 0; u_R := ex_Ka; u_W := ex_Ka; u_x := fst (fst (cr_turn 0)); u_r := snd (fst (cr_turn 0)); u_v := snd (cr_turn 0) |}.
Definition cr_tb : turn := {| u_idx := 1; u_R := ex_Kb; u_W := ex_Kb; u_x := fst (fst (cr_turn 1)); u_r := snd (fst (cr_turn 1)); u_v := snd (cr_turn 1) |}.
Example cr_round : Forall (solo_c false false cr_machine) [cr_ta; cr_tb] /\ all_independent [cr_ta; cr_tb].
Proof.
  split.
  - constructor; [exact cr_solo_a|]. constructor; [exact cr_solo_b|]. constructor.
  - split.
    + cbn [map u_idx cr_ta cr_tb]. constructor; [intros [H|[]]; discriminate|]. constructor; [intros []|constructor].
    + intros u w [<-|[<-|[]]] [<-|[<-|[]]] Ne; cbn [u_idx u_R u_W cr_ta cr_tb] in *;
        try (exfalso; apply Ne; reflexivity); reflexivity.
Qed.

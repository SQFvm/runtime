(* C02 simulation, the machine side in general terms: how the running frame gets from the start of an operator expression to the
   operator instruction with the operands on the stack, and what the shapes of operator step - a value is left, the running frame
   or the observable world is rewritten, a block is opened as a new frame - make of that.  The cases of the simulation theorems
   (SimExit.vm_runs_z) name the operands' runs and the operator's equation and leave the rest to the lemmas here. *)
From Coq Require Import String Ascii.
From Coq Require Import ZArith List Bool Lia.
From SqfVerif Require Import Gen.DiagCodes Gen.Overloads VM.VmDefs VM.VmFacts VM.VmExec VM.RefSem VM.C02Proofs VM.SimDefs VM.SimProofs VM.SimBlock VM.SimCtl.
Import ListNotations.
Local Open Scope string_scope.
Local Open Scope list_scope.

Lemma quirks_ctl r r3 : ctl_same r r3 -> quirks r3 = quirks r.
Proof. intros (_ & _ & _ & _ & _ & _ & _ & ML & _ & _ & _ & D). unfold quirks. rewrite D, ML. reflexivity. Qed.
Lemma ctl_same_refl r : ctl_same r r.
Proof. unfold ctl_same. repeat split. Qed.
Lemma upd_top_frames c f rest g : c_frames c = f :: rest -> upd_top c g = set_frames c (g f :: rest).
Proof. intros EF. unfold upd_top. rewrite EF. reflexivity. Qed.
Lemma set_values_same c fs vals : c_values c = vals -> set_frames c fs = set_values (set_frames c fs) vals.
Proof. intros <-. destruct c; reflexivity. Qed.

(* ---------------------------------------------------------------- an expression runs: the statement proved of every evaluation *)
Definition ExprRuns (s:sstate) (e:expr) (y:value) (s':sstate) : Prop :=
  forall r c f rest pre post, Mach s r c f rest -> f_code f = pre ++ compile_expr e ++ post -> f_pos f = length pre ->
    Post s' y (length (compile_expr e)) r c f rest.

(* where the machine stands when the frame that started an operator expression of k instructions as f, in context c, has evaluated
   the operands ws (the last one first): the operator instruction i is next *)
Definition Operands (s:sstate) (i:instr) (ws:list value) (k:nat) (r:rt) (c:context) (f:frame) (rest:list frame)
                    (r1:rt) (c1:context) (f1:frame) (rest1:list frame) : Prop :=
  Steps r r1 /\ moved f f1 /\ Forall2 kept rest rest1 /\ Mach s r1 c1 f1 rest1 /\ c_values c1 = ws ++ c_values c /\
  nth_error (f_code f1) (f_pos f1) = Some i /\ S (f_pos f1) = f_pos f + k /\ f_base f1 <= length (c_values c).

Lemma unary_operands s n a va s1 r c f rest pre post : (forall k, a <> ENum k) -> ExprRuns s a va s1 ->
  Mach s r c f rest -> f_code f = pre ++ compile_expr (EUnary n a) ++ post -> f_pos f = length pre ->
  exists r1 c1 f1 rest1, Operands s1 (IUnary (lower n)) [va] (length (compile_expr (EUnary n a))) r c f rest r1 c1 f1 rest1.
Proof.
  intros NL IHa MA EC EP. rewrite (compile_unary_nonlit n a NL) in *. rewrite <- app_assoc in EC.
  post_intro (IHa r c f rest pre _ MA EC EP) r1 c1 f1 rest1 S1 M1 EV1 MV1 P1 K1.
  exists r1, c1, f1, rest1. split; [exact S1|]. split; [exact MV1|]. split; [exact K1|]. split; [exact M1|]. split; [exact EV1|].
  split; [rewrite (moved_code _ _ MV1), EC, P1, EP; apply nth_error_app_mid|].
  split; [rewrite P1, app_length; cbn; lia|]. rewrite (moved_base _ _ MV1). destruct MA as (_ & _ & _ & B & _). exact B.
Qed.

Lemma binary_operands s n a b va vb s1 s2 r c f rest pre post : ExprRuns s a va s1 -> ExprRuns s1 b vb s2 ->
  Mach s r c f rest -> f_code f = pre ++ compile_expr (EBinary n a b) ++ post -> f_pos f = length pre ->
  exists r2 c2 f2 rest2, Operands s2 (IBinary (lower n)) [vb; va] (length (compile_expr (EBinary n a b))) r c f rest r2 c2 f2 rest2.
Proof.
  intros IHa IHb MA EC EP. rewrite compile_binary in *. rewrite <- !app_assoc in EC.
  post_intro (IHa r c f rest pre _ MA EC EP) r1 c1 f1 rest1 S1 M1 EV1 MV1 P1 K1.
  destruct (after_operands_code f f1 pre _ _ MV1 EC EP P1) as [EC1 EP1].
  post_intro (IHb r1 c1 f1 rest1 _ _ M1 EC1 EP1) r2 c2 f2 rest2 S2 M2 EV2 MV2 P2 K2.
  exists r2, c2, f2, rest2. split; [eapply steps_trans; eassumption|]. split; [eapply moved_trans; eassumption|].
  split; [eapply kept_all_trans; eassumption|]. split; [exact M2|]. split; [rewrite EV2, EV1; reflexivity|].
  split; [rewrite (moved_code _ _ MV2), EC1, P2, EP1; apply nth_error_app_mid|].
  split; [rewrite P2, P1, !app_length; cbn; lia|]. rewrite (moved_base _ _ MV2), (moved_base _ _ MV1). destruct MA as (_ & _ & _ & B & _). exact B.
Qed.

(* ---------------------------------------------------------------- one operator instruction *)
Lemma unary_step r c f rest n' w vals r3 c3 y :
  Good r c -> c_frames c = f :: rest -> nth_error (f_code f) (f_pos f) = Some (IUnary n') ->
  c_values c = w :: vals -> f_base f <= length vals -> w <> VNil ->
  op_unary (lower n') w r (set_values (set_frames c (set_pos f (S (f_pos f)) :: rest)) vals) = Ok (r3, c3, y) ->
  c_suspended c3 = false -> ctl_same r r3 ->
  Steps r (upd_cur r3 (push_value c3 y)) /\ Good (upd_cur r3 (push_value c3 y)) (push_value c3 y).
Proof.
  intros G EF N EV B NW OP SU CS. apply (run_one_g r c f rest (IUnary n') r3 _ G EF N); [|exact SU|exact CS].
  eapply exec_unary_nonnil; [|exact NW|exact OP].
  apply (pop_value_top _ (set_pos f (S (f_pos f))) rest); [reflexivity|exact EV|exact B].
Qed.
Lemma binary_step r c f rest n' l w vals r3 c3 y :
  Good r c -> c_frames c = f :: rest -> nth_error (f_code f) (f_pos f) = Some (IBinary n') ->
  c_values c = w :: l :: vals -> f_base f <= length vals -> w <> VNil -> l <> VNil ->
  op_binary (lower n') l w r (set_values (set_frames c (set_pos f (S (f_pos f)) :: rest)) vals) = Ok (r3, c3, y) ->
  c_suspended c3 = false -> ctl_same r r3 ->
  Steps r (upd_cur r3 (push_value c3 y)) /\ Good (upd_cur r3 (push_value c3 y)) (push_value c3 y).
Proof.
  intros G EF N EV B NW NL OP SU CS. apply (run_one_g r c f rest (IBinary n') r3 _ G EF N); [|exact SU|exact CS].
  eapply (exec_binary_nonnil n' l w r _ (set_values (set_frames c (set_pos f (S (f_pos f)) :: rest)) (l :: vals))); [|exact NW| |exact NL|exact OP].
  - apply (pop_value_top _ (set_pos f (S (f_pos f))) rest); [reflexivity|exact EV|cbn; lia].
  - rewrite (pop_value_top _ (set_pos f (S (f_pos f))) rest l vals); [reflexivity|reflexivity|reflexivity|exact B].
Qed.

(* ---------------------------------------------------------------- operators that leave a value *)
(* the operator has been executed (the step from r1): it left y, and besides it may have rewritten the variables and the scope name
   of the running frame (f3) and what the program can observe (r3) *)
Lemma operands_post s1 s' i ws k r c f rest r1 c1 f1 rest1 r3 c3 f3 y :
  Operands s1 i ws k r c f rest r1 c1 f1 rest1 ->
  Steps r1 (upd_cur r3 (push_value c3 y)) /\ Good (upd_cur r3 (push_value c3 y)) (push_value c3 y) ->
  quirks r3 = quirks r1 -> c_frames c3 = f3 :: rest1 -> c_values c3 = c_values c -> Match s' r3 (f3 :: rest1) ->
  moved (set_pos f1 (S (f_pos f1))) f3 -> f_pos f3 = S (f_pos f1) ->
  Post s' y k r c f rest.
Proof.
  intros (S1 & MV1 & K1 & (_ & _ & _ & _ & D1) & _ & _ & P1 & B1) [S2 G2] Q EF3 EV3 M3 MV3 P3.
  exists (upd_cur r3 (push_value c3 y)), (push_value c3 y), f3, rest1. split; [eapply steps_trans; eassumption|]. split.
  - split; [exact G2|]. split; [exact EF3|]. split; [apply match_upd; exact M3|].
    split; [cbn; rewrite EV3, (moved_base _ _ MV3); cbn; lia|rewrite quirks_upd_cur, Q; exact D1].
  - split; [cbn; rewrite EV3; reflexivity|]. split; [eapply moved_trans; [exact MV1|eapply moved_trans; [apply moved_set_pos|exact MV3]]|].
    split; [rewrite P3; exact P1|exact K1].
Qed.

Lemma unary_effect s n a va s1 s' y : (forall k, a <> ENum k) -> ExprRuns s a va s1 -> va <> VNil ->
  (forall r c f rest, c_frames c = f :: rest -> Match s1 r (f :: rest) ->
     exists r3 c3 f3, op_unary (lower n) va r c = Ok (r3, c3, y) /\ ctl_same r r3 /\ c_suspended c3 = c_suspended c /\
       c_values c3 = c_values c /\ c_frames c3 = f3 :: rest /\ Match s' r3 (f3 :: rest) /\ moved f f3 /\ f_pos f3 = f_pos f) ->
  ExprRuns s (EUnary n a) y s'.
Proof.
  intros NL IHa NV OP r c f rest pre post MA EC EP.
  destruct (unary_operands s n a va s1 r c f rest pre post NL IHa MA EC EP) as (r1 & c1 & f1 & rest1 & OD).
  pose proof OD as (_ & _ & _ & (G1 & EF1 & MM1 & _ & _) & EV1 & N1 & _ & B1).
  destruct (OP r1 (set_values (set_frames c1 (set_pos f1 (S (f_pos f1)) :: rest1)) (c_values c)) _ rest1 eq_refl (match_set_pos _ _ _ _ _ MM1))
    as (r3 & c3 & f3 & HO & CS & SU3 & EV3 & EF3 & M3 & MV3 & P3).
  apply (operands_post s1 s' _ _ _ r c f rest r1 c1 f1 rest1 r3 c3 f3 y OD); [|apply quirks_ctl; exact CS|exact EF3|exact EV3|exact M3|exact MV3|exact P3].
  apply (unary_step r1 c1 f1 rest1 (lower n) va (c_values c) r3 c3 y G1 EF1 N1 EV1 B1 NV); [rewrite lower_idem; exact HO| |exact CS].
  rewrite SU3. exact (good_running _ _ G1).
Qed.
Lemma binary_effect s n a b va vb s1 s2 s' y : ExprRuns s a va s1 -> ExprRuns s1 b vb s2 -> va <> VNil -> vb <> VNil ->
  (forall r c f rest, c_frames c = f :: rest -> Match s2 r (f :: rest) ->
     exists r3 c3 f3, op_binary (lower n) va vb r c = Ok (r3, c3, y) /\ ctl_same r r3 /\ c_suspended c3 = c_suspended c /\
       c_values c3 = c_values c /\ c_frames c3 = f3 :: rest /\ Match s' r3 (f3 :: rest) /\ moved f f3 /\ f_pos f3 = f_pos f) ->
  ExprRuns s (EBinary n a b) y s'.
Proof.
  intros IHa IHb NA NB OP r c f rest pre post MA EC EP.
  destruct (binary_operands s n a b va vb s1 s2 r c f rest pre post IHa IHb MA EC EP) as (r2 & c2 & f2 & rest2 & OD).
  pose proof OD as (_ & _ & _ & (G2 & EF2 & MM2 & _ & _) & EV2 & N2 & _ & B2).
  destruct (OP r2 (set_values (set_frames c2 (set_pos f2 (S (f_pos f2)) :: rest2)) (c_values c)) _ rest2 eq_refl (match_set_pos _ _ _ _ _ MM2))
    as (r3 & c3 & f3 & HO & CS & SU3 & EV3 & EF3 & M3 & MV3 & P3).
  apply (operands_post s2 s' _ _ _ r c f rest r2 c2 f2 rest2 r3 c3 f3 y OD); [|apply quirks_ctl; exact CS|exact EF3|exact EV3|exact M3|exact MV3|exact P3].
  apply (binary_step r2 c2 f2 rest2 (lower n) va vb (c_values c) r3 c3 y G2 EF2 N2 EV2 B2 NB NA); [rewrite lower_idem; exact HO| |exact CS].
  rewrite SU3. exact (good_running _ _ G2).
Qed.

Lemma unary_value s n a va s1 y : (forall k, a <> ENum k) -> ExprRuns s a va s1 -> va <> VNil ->
  (forall r c f rest, c_frames c = f :: rest -> Match s1 r (f :: rest) -> op_unary (lower n) va r c = Ok (r, c, y)) ->
  ExprRuns s (EUnary n a) y s1.
Proof.
  intros NL IHa NV OP. apply (unary_effect s n a va s1 s1 y NL IHa NV). intros r c f rest EF M. exists r, c, f.
  split; [exact (OP r c f rest EF M)|]. split; [apply ctl_same_refl|]. split; [reflexivity|]. split; [reflexivity|].
  split; [exact EF|]. split; [exact M|]. split; [apply moved_refl|reflexivity].
Qed.
Lemma binary_value s n a b va vb s1 s2 y : ExprRuns s a va s1 -> ExprRuns s1 b vb s2 -> va <> VNil -> vb <> VNil ->
  (forall r c f rest, c_frames c = f :: rest -> Match s2 r (f :: rest) -> op_binary (lower n) va vb r c = Ok (r, c, y)) ->
  ExprRuns s (EBinary n a b) y s2.
Proof.
  intros IHa IHb NA NB OP. apply (binary_effect s n a b va vb s1 s2 s2 y IHa IHb NA NB). intros r c f rest EF M. exists r, c, f.
  split; [exact (OP r c f rest EF M)|]. split; [apply ctl_same_refl|]. split; [reflexivity|]. split; [reflexivity|].
  split; [exact EF|]. split; [exact M|]. split; [apply moved_refl|reflexivity].
Qed.

Lemma pure_runs s e v : pev (loc_of s) (glob_of s) e v -> ExprRuns s e (cv v) s.
Proof.
  intros HE r c f rest pre post MA EC EP. pose proof MA as (G & EF & M & B & D).
  destruct (proj1 (pure_sim _ _) e v HE r c f rest pre post G EF EC EP B (env_ok_of s r f rest M)) as [S1 NV].
  eexists _, _, _, rest. split; [exact S1|]. split.
  - split; [apply good_adv; exact G|]. split; [reflexivity|]. split; [apply match_upd, match_set_pos; exact M|].
    split; [cbn; lia|rewrite quirks_upd_cur; exact D].
  - split; [reflexivity|]. split; [apply moved_set_pos|]. split; [reflexivity|apply kept_all_refl].
Qed.

(* ---------------------------------------------------------------- operators that open a block as a new frame *)
(* the operator expression e has been executed: its operator pushed the frame mkf (with the namespace of the running frame) and a nil;
   the frame fc that executed it stands behind the expression, in state s2, and waits for the new frame's value *)
Definition Opens (s:sstate) (e:expr) (s2:sstate) (mkf:string -> frame) : Prop :=
  forall r c f rest pre post, Mach s r c f rest -> f_code f = pre ++ compile_expr e ++ post -> f_pos f = length pre ->
    exists r3 c0 fc rest2,
      Steps r r3 /\ moved f fc /\ Forall2 kept rest rest2 /\ f_pos fc = f_pos f + length (compile_expr e) /\ c_values c0 = c_values c /\
      Good r3 (push_value (push_frame c0 (mkf (cur_ns c0))) VNil) /\ quirks r3 = ([], 0) /\ c_frames c0 = fc :: rest2 /\
      Match s2 r3 (fc :: rest2) /\ f_base fc <= length (c_values c0).

Lemma operands_open s2 i ws k r c f rest r2 c2 f2 rest2 newf :
  Operands s2 i ws k r c f rest r2 c2 f2 rest2 ->
  let c0 := set_values (set_frames c2 (set_pos f2 (S (f_pos f2)) :: rest2)) (c_values c) in
  Steps r2 (upd_cur r2 (push_value (push_frame c0 newf) VNil)) /\ Good (upd_cur r2 (push_value (push_frame c0 newf) VNil)) (push_value (push_frame c0 newf) VNil) ->
  exists r3 fc,
    Steps r r3 /\ moved f fc /\ Forall2 kept rest rest2 /\ f_pos fc = f_pos f + k /\ c_values c0 = c_values c /\
    Good r3 (push_value (push_frame c0 newf) VNil) /\ quirks r3 = ([], 0) /\ c_frames c0 = fc :: rest2 /\
    Match s2 r3 (fc :: rest2) /\ f_base fc <= length (c_values c0).
Proof.
  intros (S1 & MV1 & K1 & (_ & _ & MM & _ & D) & _ & _ & P1 & B1) c0 [S2 G2].
  exists (upd_cur r2 (push_value (push_frame c0 newf) VNil)), (set_pos f2 (S (f_pos f2))).
  split; [eapply steps_trans; eassumption|]. split; [eapply moved_trans; [exact MV1|apply moved_set_pos]|]. split; [exact K1|].
  split; [exact P1|]. split; [reflexivity|]. split; [exact G2|]. split; [rewrite quirks_upd_cur; exact D|]. split; [reflexivity|].
  split; [apply match_upd, match_set_pos; exact MM|exact B1].
Qed.

Lemma unary_opens s n a va s1 mkf : (forall k, a <> ENum k) -> ExprRuns s a va s1 -> va <> VNil ->
  (forall r c f rest, c_frames c = f :: rest -> Match s1 r (f :: rest) ->
     op_unary (lower n) va r c = Ok (r, push_frame c (mkf (cur_ns c)), VNil)) ->
  Opens s (EUnary n a) s1 mkf.
Proof.
  intros NL IHa NV OP r c f rest pre post MA EC EP.
  destruct (unary_operands s n a va s1 r c f rest pre post NL IHa MA EC EP) as (r1 & c1 & f1 & rest1 & OD).
  pose proof OD as (_ & _ & _ & (G1 & EF1 & MM1 & _ & _) & EV1 & N1 & _ & B1).
  set (c0 := set_values (set_frames c1 (set_pos f1 (S (f_pos f1)) :: rest1)) (c_values c)).
  destruct (operands_open s1 _ _ _ r c f rest r1 c1 f1 rest1 (mkf (cur_ns c0)) OD) as (r3 & fc & H).
  - apply (unary_step r1 c1 f1 rest1 (lower n) va (c_values c) r1 _ VNil G1 EF1 N1 EV1 B1 NV); [|exact (good_running _ _ G1)|apply ctl_same_refl].
    rewrite lower_idem. exact (OP r1 c0 _ rest1 eq_refl (match_set_pos _ _ _ _ _ MM1)).
  - exists r3, c0, fc, rest1. exact H.
Qed.
Lemma binary_opens s n a b va vb s1 s2 mkf : ExprRuns s a va s1 -> ExprRuns s1 b vb s2 -> va <> VNil -> vb <> VNil ->
  (forall r c f rest, c_frames c = f :: rest -> Match s2 r (f :: rest) ->
     op_binary (lower n) va vb r c = Ok (r, push_frame c (mkf (cur_ns c)), VNil)) ->
  Opens s (EBinary n a b) s2 mkf.
Proof.
  intros IHa IHb NA NB OP r c f rest pre post MA EC EP.
  destruct (binary_operands s n a b va vb s1 s2 r c f rest pre post IHa IHb MA EC EP) as (r2 & c2 & f2 & rest2 & OD).
  pose proof OD as (_ & _ & _ & (G2 & EF2 & MM2 & _ & _) & EV2 & N2 & _ & B2).
  set (c0 := set_values (set_frames c2 (set_pos f2 (S (f_pos f2)) :: rest2)) (c_values c)).
  destruct (operands_open s2 _ _ _ r c f rest r2 c2 f2 rest2 (mkf (cur_ns c0)) OD) as (r3 & fc & H).
  - apply (binary_step r2 c2 f2 rest2 (lower n) va vb (c_values c) r2 _ VNil G2 EF2 N2 EV2 B2 NB NA); [|exact (good_running _ _ G2)|apply ctl_same_refl].
    rewrite lower_idem. exact (OP r2 c0 _ rest2 eq_refl (match_set_pos _ _ _ _ _ MM2)).
  - exists r3, c0, fc, rest2. exact H.
Qed.

(* the new frame at the start of its block: its scope sc on top of the reference state, the operator's nil in its part of the stack *)
Lemma enter_frame s sc newf r1 c0 fc rest :
  let c1 := push_value (push_frame c0 newf) VNil in
  Good r1 c1 -> quirks r1 = ([], 0) -> c_frames c0 = fc :: rest -> Match s r1 (fc :: rest) -> frame_match sc newf ->
  AtM (push_scope s sc) RNil r1 c1 (set_base newf (length (c_values c0))) (fc :: rest) (c_values c0) /\ Fresh c1 (c_values c0).
Proof.
  intros c1 G D EF M FM. split; [|apply fresh_one; reflexivity]. split.
  - split; [exact G|]. split; [cbn; rewrite EF; reflexivity|]. split; [apply match_push; [exact FM|exact M]|]. split; [cbn; lia|exact D].
  - split; [reflexivity|]. exists [VNil]. split; [reflexivity|]. split; [reflexivity|]. split; [discriminate|nil_case].
Qed.

(* ---------------------------------------------------------------- the running frame completes *)
Lemma neq_by_frames r r' c c' : cur r = Some c -> cur r' = Some c' -> length (c_frames c') <> length (c_frames c) -> r' <> r.
Proof. intros C C' N E. subst r'. rewrite C in C'. inversion C'; subst. apply N. reflexivity. Qed.
Lemma forall2_length {A B} (R:A->B->Prop) l l' : Forall2 R l l' -> length l' = length l.
Proof. induction 1; cbn; auto. Qed.

(* a state with fewer frames is another state *)
Lemma popped_neq r c f fc frest s' r' c' fc' rest' :
  cur r = Some c -> c_frames c = f :: fc :: frest -> Mach s' r' c' fc' rest' -> Forall2 kept frest rest' -> r' <> r.
Proof.
  intros C EF ((C' & _) & EF' & _) K. eapply neq_by_frames; [exact C|exact C'|].
  rewrite EF', EF. cbn [length]. rewrite (forall2_length _ _ _ K). lia.
Qed.

(* ... in particular one that has kept, of the running frame f and a chain of frames below it, at most one frame above the chain's tail *)
Lemma chain_neq r c f above mid tail r' c' :
  cur r = Some c -> c_frames c = f :: above ++ mid :: tail -> cur r' = Some c' -> length (c_frames c') <= S (length tail) -> r' <> r.
Proof. intros C EF C' L. eapply neq_by_frames; [exact C|exact C'|]. rewrite EF. cbn [length]. rewrite app_length. cbn [length]. lia. Qed.

(* the pass that completes the running frame: the frame below is the running one, one scope less *)
Lemma frame_popped s r c f fc rest vals :
  Mach s r c f (fc :: rest) -> f_base fc <= length vals ->
  let c4 := set_values (set_frames c (fc :: rest)) vals in
  Good (upd_cur r c4) c4 -> Mach (pop_scope s) (upd_cur r c4) c4 fc rest.
Proof.
  intros (_ & _ & M & _ & D) B c4 G4. split; [exact G4|]. split; [reflexivity|].
  split; [apply match_upd, (match_pop _ _ f); exact M|]. split; [exact B|rewrite quirks_upd_cur; exact D].
Qed.

(* what a frame that completes hands over: the top of its part of the stack, the value of the block *)
Lemma region_value reg top : reg_rep reg top -> match top with [] => VNil | x :: _ => x end = cv (res_of reg).
Proof. destruct top as [|x top]; cbn; [intros ->; reflexivity|intros (-> & _)]. destruct reg; reflexivity. Qed.


(* the frame that has executed an expression of k instructions (fc4) gets a value handed over by the frame above it *)
Lemma post_after s' y k r c f rest r4 fc4 rest4 :
  Steps r r4 -> moved f fc4 -> Forall2 kept rest rest4 -> f_pos fc4 = f_pos f + k ->
  (exists r5 c5 fc5 rest5, Steps r4 r5 /\ Mach s' r5 c5 fc5 rest5 /\ c_values c5 = y :: c_values c /\ kept fc4 fc5 /\ Forall2 kept rest4 rest5) ->
  Post s' y k r c f rest.
Proof.
  intros S4 MV K P (r5 & c5 & fc5 & rest5 & S5 & M5 & EV5 & K5 & KR5).
  exists r5, c5, fc5, rest5. split; [eapply steps_trans; eassumption|]. split; [exact M5|]. split; [exact EV5|].
  split; [eapply moved_trans; [exact MV|apply kept_moved; exact K5]|]. split; [rewrite (kept_pos _ _ K5); exact P|eapply kept_all_trans; eassumption].
Qed.

(* ---------------------------------------------------------------- one pass of execute_do, given what frame::next does *)
(* frame::next leaves the top frame in place: the instruction the frame stands at is executed *)
Lemma exec_pass r c f rest c1 i r3 c5 :
  Good r c -> c_frames c = f :: rest -> frame_next frame_fuel r c = Ok (FOk, r, c1) -> current_instr c1 = Some i ->
  exec_instr i r c1 = Ok (r3, c5) -> r_err (upd_cur r3 c5) = false ->
  do_iter r = Ok (Executed (set_msgs (upd_cur r3 c5) [])).
Proof.
  intros (C & X & St & E & M & MR & SU) EF FN CI EI NErr. unfold do_iter. rewrite X, C, SU, EF, St, FN. cbn [bindr]. rewrite E, CI, MR. cbn [Z.eqb].
  rewrite EI. cbn [bindr]. rewrite NErr. reflexivity.
Qed.

(* frame::next reports the top frame done (and no frame has come or gone): the frame completes - it hands the top of its part of the
   operand stack (nil if that is empty) to the frame below and disappears with the rest of it *)
Lemma done_pass r c f1 fc rest top vals :
  Good r c -> quirks r = ([], 0) -> length (c_frames c) = S (S (length rest)) -> length vals = f_base f1 ->
  frame_next frame_fuel r c = Ok (FDone, r, set_values (set_frames c (f1 :: fc :: rest)) (top ++ vals)) ->
  let c4 := set_values (set_frames c (fc :: rest)) (match top with [] => VNil | x :: _ => x end :: vals) in
  Steps r (upd_cur r c4) /\ Good (upd_cur r c4) c4.
Proof.
  intros G D LF LB FN c4. pose proof G as (C & X & St & E & M & MR & SU).
  split; [|apply (good_upd r c c4 G); exact SU]. apply steps_cont_upd.
  unfold do_iter. rewrite X, C, SU, St. destruct (c_frames c) as [|f0 fs] eqn:EF; [discriminate LF|]. rewrite FN. cbn [bindr]. rewrite E, LF.
  cbn [c_frames set_values set_frames length]. rewrite Nat.eqb_refl. unfold defect. rewrite (quirks_defects _ D). cbn [existsb].
  set (c1 := set_values (set_frames c (f1 :: fc :: rest)) (top ++ vals)).
  destruct top as [|x top]; cbn [app] in c1.
  - assert (P : pop_value c1 = None).
    { unfold pop_value. cbn [c_values c1 set_values set_frames c_frames]. destruct vals as [|v0 vals0]; [reflexivity|].
      destruct (Nat.leb_spec (length (v0 :: vals0)) (f_base f1)) as [L|L]; [reflexivity|lia]. }
    rewrite P. unfold clear_values, pop_frame. cbn [c_frames c1 set_frames c_values tl set_values]. rewrite LB, Nat.sub_diag. reflexivity.
  - assert (P : pop_value c1 = Some (x, set_values c1 (top ++ vals))) by (apply (pop_value_top c1 f1 (fc :: rest)); [reflexivity|reflexivity|rewrite app_length; lia]).
    rewrite P. unfold clear_values, pop_frame. cbn [c_frames c1 set_frames c_values tl set_values]. rewrite app_length, <- LB.
    replace (length top + length vals - length vals) with (length top) by lia. rewrite skipn_app, skipn_all, Nat.sub_diag. reflexivity.
Qed.

(* ---------------------------------------------------------------- frame::next on a frame at the start and at the end of its instructions *)
Lemma frame_next_first k r c f rest i0 code' : c_frames c = f :: rest -> f_pos f = 0 -> f_code f = i0 :: code' ->
  frame_next (S k) r c = Ok (FOk, r, set_frames c (set_pos f 1 :: rest)).
Proof.
  intros EF EP EC.
  assert (A1 : at_end f = false) by (unfold at_end; rewrite EP; reflexivity).
  assert (A2 : at_end (set_pos f 1) = false) by (unfold at_end; cbn; rewrite EC; reflexivity).
  cbn [frame_next]. rewrite EF, A1, EP, A2. destruct (f_exit (set_pos f 1)); reflexivity.
Qed.
(* the frame has run out and carries no exit behaviour: it is done *)
Lemma frame_next_plain k r c f rest : c_frames c = f :: rest -> f_pos f = length (f_code f) -> f_exit f = None ->
  frame_next (S k) r c = Ok (FDone, r, set_frames c (set_pos f (S (f_pos f)) :: rest)).
Proof.
  intros EF EP EX. cbn [frame_next]. rewrite EF.
  assert (A1 : at_end f = false) by (unfold at_end; apply Nat.eqb_neq; lia).
  assert (A2 : at_end (set_pos f (S (f_pos f))) = true) by (unfold at_end; cbn; apply Nat.eqb_eq; lia).
  rewrite A1, A2. cbn [f_exit set_pos]. rewrite EX. reflexivity.
Qed.
(* ... or carries one: the behaviour is asked what is to happen *)
Lemma frame_next_end k r c f rest b : c_frames c = f :: rest -> f_pos f = length (f_code f) -> f_exit f = Some b -> f_die f = false ->
  frame_next (S k) r c =
  bindr (enact b r (set_frames c (set_pos f (S (f_pos f)) :: rest))) (fun '(br, b', r2, c2) =>
    let c3 := upd_top c2 (fun f => set_exit f (Some b')) in
    match br with
    | BrSeekEnd => Ok (FDone, r2, upd_top c3 (fun f => set_pos f (S (length (f_code f)))))
    | BrSeekStart =>
        let c4 := clear_values (upd_top c3 (fun f => set_scope (set_pos f 0) "")) in
        if top_code_empty c4 then Ok (FRestarted, r2, c4) else frame_next k r2 c4
    | BrExchange code' =>
        let rename := fun f => match b' with BWhile _ WCond _ _ => set_scope f "" | _ => f end in
        frame_next k r2 (upd_top c3 (fun f => set_pos (set_code (rename f) code') 0))
    | BrOk | BrFail => Ok (FDone, r2, c3) end).
Proof.
  intros EF EP EX ED. cbn [frame_next]. rewrite EF.
  assert (A1 : at_end f = false) by (unfold at_end; apply Nat.eqb_neq; lia).
  assert (A2 : at_end (set_pos f (S (f_pos f))) = true) by (unfold at_end; cbn; apply Nat.eqb_eq; lia).
  rewrite A1, A2. cbn [f_exit set_pos f_die]. rewrite EX, ED. reflexivity.
Qed.

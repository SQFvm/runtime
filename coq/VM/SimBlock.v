(* C02 simulation, part 2: straight-line blocks.  Statements `e`, `x = e`, `private _x = e` over the frame-free
   expression fragment change variables; the state of the reference semantics (scope chain, namespaces) and the
   state of the machine (frame chain, namespaces) are related by Match, and a block run on the machine preserves it
   (block_vm; the reference side is block_ref in SimCtl.v).
   The block's value is the top of the machine's value region (RNone = the region is empty). *)
From Coq Require Import String Ascii.
From Coq Require Import ZArith List Bool Lia.
From SqfVerif Require Import Gen.DiagCodes Gen.Overloads VM.VmDefs VM.VmFacts VM.VmExec VM.RefSem VM.C02Proofs VM.SimDefs VM.SimProofs.
Import ListNotations.
Local Open Scope string_scope.
Local Open Scope list_scope.

Definition mvars (l:list (string*rvalue)) : list (string*value) := map (fun kw => (fst kw, cv (snd kw))) l.
Definition mnss (l:list (string * list (string*rvalue))) : list (string * list (string*value)) :=
  map (fun p => (fst p, mvars (snd p))) l.

Lemma assoc_mvars k l : assoc k (mvars l) = option_map cv (assoc k l).
Proof. induction l as [|[k' w] l IH]; cbn; [reflexivity|]. destruct (String.eqb k k'); [reflexivity|exact IH]. Qed.
Lemma assoc_set_mvars k v l : assoc_set k (cv v) (mvars l) = mvars (assoc_set k v l).
Proof. induction l as [|[k' w] l IH]; cbn; [reflexivity|]. destruct (String.eqb k k'); cbn; [reflexivity|]. f_equal. exact IH. Qed.
Lemma assoc_mnss k l : assoc k (mnss l) = option_map mvars (assoc k l).
Proof. induction l as [|[k' w] l IH]; cbn; [reflexivity|]. destruct (String.eqb k k'); [reflexivity|exact IH]. Qed.
Lemma assoc_set_mnss k m l : assoc_set k (mvars m) (mnss l) = mnss (assoc_set k m l).
Proof. induction l as [|[k' w] l IH]; cbn; [reflexivity|]. destruct (String.eqb k k'); cbn; [reflexivity|]. f_equal. exact IH. Qed.

(* the variables of a frame and of a scope agree as maps (the order of the bindings may differ: forEach binds _x and
   _forEachIndex in one order when it starts and in the other when it goes round) *)
Definition vars_match (l:list (string*rvalue)) (m:list (string*value)) : Prop :=
  forall k, hidden k = false -> assoc k m = option_map cv (assoc k l).
Lemma vars_match_mvars l : vars_match l (mvars l).
Proof. intros k _. apply assoc_mvars. Qed.
Lemma vars_match_set k v l m : vars_match l m -> vars_match (assoc_set k v l) (assoc_set k (cv v) m).
Proof. intros H k' HK. rewrite !assoc_assoc_set, (H k' HK). destruct (String.eqb k' k); reflexivity. Qed.

Definition frame_match (sc:scope) (f:frame) : Prop :=
  vars_match (sc_vars sc) (f_vars f) /\ f_ns f = sc_ns sc /\ (f_bubble f = true /\ f_scope f = sc_name sc).
Definition Match (s:sstate) (r:rt) (fs:list frame) : Prop :=
  Forall2 frame_match (st_scopes s) fs /\ world r = (mnss (st_nss s), st_trace s).

(* every field but the variables is untouched *)
Definition kept (f f':frame) : Prop := set_vars f (f_vars f') = f'.
(* the running frame: position and variables move on, and it may have been given its scope name *)
Definition moved (f f':frame) : Prop := set_scope (set_vars (set_pos f (f_pos f')) (f_vars f')) (f_scope f') = f'.
Lemma kept_refl f : kept f f. Proof. destruct f; reflexivity. Qed.
Lemma kept_all_refl l : Forall2 kept l l. Proof. induction l; constructor; auto using kept_refl. Qed.
Lemma kept_trans a b c : kept a b -> kept b c -> kept a c.
Proof. unfold kept. intros H1 H2. rewrite <- H2, <- H1. reflexivity. Qed.
Lemma kept_all_trans : forall a b c, Forall2 kept a b -> Forall2 kept b c -> Forall2 kept a c.
Proof. intros a b c H. revert c. induction H; intros c0 H2; inversion H2; subst; constructor; eauto using kept_trans. Qed.
Lemma moved_trans a b c : moved a b -> moved b c -> moved a c.
Proof. unfold moved. intros H1 H2. rewrite <- H2, <- H1. reflexivity. Qed.
Lemma moved_set_pos f p : moved f (set_pos f p). Proof. destruct f; reflexivity. Qed.
Lemma moved_set_vars f vs : moved f (set_vars f vs). Proof. destruct f; reflexivity. Qed.
Lemma moved_refl f : moved f f. Proof. destruct f; reflexivity. Qed.
Lemma kept_moved f f' : kept f f' -> moved f f'.
Proof. unfold kept, moved. intros H. rewrite <- H. destruct f; reflexivity. Qed.
Lemma moved_base f f' : moved f f' -> f_base f' = f_base f. Proof. intros H. rewrite <- H. reflexivity. Qed.
Lemma moved_code f f' : moved f f' -> f_code f' = f_code f. Proof. intros H. rewrite <- H. reflexivity. Qed.
Lemma moved_exit f f' : moved f f' -> f_exit f' = f_exit f. Proof. intros H. rewrite <- H. reflexivity. Qed.
Lemma kept_pos f f' : kept f f' -> f_pos f' = f_pos f. Proof. intros H. rewrite <- H. reflexivity. Qed.

Lemma lookup_match k : hidden k = false -> forall scs fs, Forall2 frame_match scs fs -> lookup_frames k fs = option_map cv (lookup_scopes k scs).
Proof.
  intros HK. induction 1 as [|sc f scs fs (V & N & B) H IH]; cbn [lookup_frames lookup_scopes]; [reflexivity|].
  rewrite (V k HK), (proj1 B). destruct (assoc k (sc_vars sc)); cbn; [reflexivity|exact IH].
Qed.

Lemma assign_match k v : hidden k = false -> forall scs fs, Forall2 frame_match scs fs ->
  (exists scs' fs', assign_scopes k v scs = Some scs' /\ assign_frames k (cv v) fs = Some fs' /\
                    Forall2 frame_match scs' fs' /\ Forall2 kept fs fs') \/
  (assign_scopes k v scs = None /\ assign_frames k (cv v) fs = None).
Proof.
  intros HK. induction 1 as [|sc f scs fs (V & N & B) H IH]; [right; split; reflexivity|].
  cbn [assign_scopes assign_frames]. rewrite (V k HK).
  destruct (assoc k (sc_vars sc)) as [w|]; cbn [option_map].
  - left. eexists _, _. split; [reflexivity|]. split; [reflexivity|]. split.
    + constructor; [|exact H]. split; [cbn; apply vars_match_set; exact V|split; [exact N|exact B]].
    + constructor; [|apply kept_all_refl]. unfold kept. destruct f; reflexivity.
  - destruct IH as [(scs' & fs' & A1 & A2 & M & K)|[A1 A2]].
    + left. rewrite A1, A2. eexists _, _. split; [reflexivity|]. split; [reflexivity|]. split.
      * constructor; [|exact M]. split; [exact V|split; [exact N|exact B]].
      * constructor; [apply kept_refl|exact K].
    + right. rewrite A1, A2. split; reflexivity.
Qed.

Definition loc_of (s:sstate) : string -> option rvalue := fun k => lookup_scopes k (st_scopes s).
Definition glob_of (s:sstate) : string -> option rvalue :=
  fun k => match assoc (cur_ns_of s) (st_nss s) with Some m => assoc k m | None => None end.

Lemma renv_ok_of s : renv_ok (loc_of s) (glob_of s) s.
Proof. split; intros; reflexivity. Qed.

Lemma env_ok_of s r f rest : Match s r (f :: rest) -> env_ok (loc_of s) (glob_of s) r (f :: rest) (f_ns f).
Proof.
  intros [F N]. split.
  - intros k w HK H. rewrite (lookup_match k HK _ _ F). unfold loc_of in H. rewrite H. reflexivity.
  - intros k w H. unfold glob_of in H. rewrite (world_nss _ _ _ N), assoc_mnss.
    inversion F as [|sc f0 scs fs (V & NS & B) F' E1 E2]; subst. unfold cur_ns_of in H. rewrite <- E1 in H. rewrite NS.
    destruct (assoc (sc_ns sc) (st_nss s)) as [m|]; [|discriminate]. cbn [option_map]. rewrite assoc_mvars, H. reflexivity.
Qed.

(* what lies in a scope's part of the operand stack at a statement boundary: nothing, the value of the region, and under
   that value only nils: the nil a calling operator left in the new scope, the nils of scopes a throw has abandoned *)
Definition under (t:list value) : Prop := Forall (fun x => x = VNil) t.
Definition reg_rep (reg:rvalue) (top:list value) : Prop :=
  match top with [] => reg = RNone | x :: t => x = cv reg /\ reg <> RNone /\ under t end.
(* where a statement starts: at the bottom of the scope's part, or on nils only (the nil of the calling operator; after a throw
   the nils the abandoned scopes held) *)
Definition Fresh (c:context) (below:list value) : Prop := exists t, c_values c = t ++ below /\ under t.

Lemma fresh_under c top below : c_values c = top ++ below -> Fresh c below -> under top.
Proof. intros EV (t & E & U). rewrite EV in E. apply app_inv_tail in E. subst t. exact U. Qed.
Lemma fresh_nil c below : c_values c = below -> Fresh c below.
Proof. intros E. exists []. split; [exact E|constructor]. Qed.
Lemma fresh_one c below : c_values c = VNil :: below -> Fresh c below.
Proof. intros E. exists [VNil]. split; [exact E|repeat constructor]. Qed.
Lemma under_top t : under t -> match t with [] => VNil | x :: _ => x end = VNil.
Proof. intros U. destruct U as [|x t' E _]; [reflexivity|exact E]. Qed.
Ltac nil_case := first [apply fresh_nil; reflexivity | apply Forall_nil].

Definition At (s:sstate) (reg:rvalue) (r:rt) (c:context) (f:frame) (rest:list frame) (below:list value) : Prop :=
  Good r c /\ c_frames c = f :: rest /\ Match s r (f :: rest) /\ length below = f_base f /\
  exists top, c_values c = top ++ below /\ reg_rep reg top.

Inductive pstmt (s:sstate) (reg:rvalue) : stmt -> rvalue -> sstate -> Prop :=
| PSExpr e v : pev (loc_of s) (glob_of s) e v -> pstmt s reg (SExpr e) v s
| PSAssign n e v : n <> "" -> hidden (lower n) = false -> pev (loc_of s) (glob_of s) e v ->
    pstmt s reg (SAssign n e) reg (if is_local n then assign_local s n v else rns_set s (cur_ns_of s) n v)
| PSLocal n e v : n <> "" -> pev (loc_of s) (glob_of s) e v -> pstmt s reg (SLocal n e) reg (bind_here s n v).

Inductive pblock : sstate -> rvalue -> list stmt -> rvalue -> sstate -> Prop :=
| PBNil s reg : pblock s reg [] reg s
| PBLast s reg st reg1 s1 : pstmt s reg st reg1 s1 -> pblock s reg [st] reg1 s1
| PBCons s reg st reg1 s1 st2 rest reg' s' :
    pstmt s reg st reg1 s1 -> pblock s1 RNone (st2 :: rest) reg' s' -> pblock s reg (st :: st2 :: rest) reg' s'.

(* the fuel block_ref (SimCtl.v) asks for *)
Definition ssize (st:stmt) : nat := match st with SExpr e | SAssign _ e | SLocal _ e => S (esize e) end.
Fixpoint bsize (b:list stmt) : nat := match b with [] => 1 | st :: r => ssize st + bsize r end.

Definition ctl_same (r r3:rt) : Prop :=
  r_ctxs r3 = r_ctxs r /\ r_active r3 = r_active r /\ r_exit_req r3 = r_exit_req r /\ r_state r3 = r_state r /\
  r_err r3 = r_err r /\ r_msgs r3 = r_msgs r /\ r_max_runtime r3 = r_max_runtime r /\ cfg_same r r3.

Lemma run_one_g r c f rest i r3 c2 :
  Good r c -> c_frames c = f :: rest -> nth_error (f_code f) (f_pos f) = Some i ->
  exec_instr i r (set_frames c (set_pos f (S (f_pos f)) :: rest)) = Ok (r3, c2) -> c_suspended c2 = false ->
  ctl_same r r3 -> Steps r (upd_cur r3 c2) /\ Good (upd_cur r3 c2) c2.
Proof.
  intros G EF N EX SU2 (C1 & C2 & C3 & C4 & C5 & C6 & C7 & CF). apply (run_step r c f rest i r3 c2 G EF N EX SU2); [|exact CF].
  destruct G as (C & X & St & E & M & D & SU). unfold Good, cur in *. rewrite C1, C2, C3, C4, C5, C6, C7. auto 10.
Qed.

Lemma nth_error_app_mid {A} (a b:list A) i post : nth_error (a ++ b ++ i :: post) (length a + length b) = Some i.
Proof. rewrite app_assoc, <- app_length. apply nth_error_mid. Qed.

Lemma nss_set_nss r x : r_nss (set_nss r x) = x. Proof. reflexivity. Qed.

Lemma match_set_pos s r f p rest : Match s r (f :: rest) -> Match s r (set_pos f p :: rest).
Proof. intros [F N]. split; [|exact N]. inversion F as [|sc f0 scs fs FM F' E1 E2]; subst. constructor; assumption. Qed.
Lemma match_upd s r c fs : Match s r fs -> Match s (upd_cur r c) fs.
Proof. intros [F N]. split; [exact F|rewrite world_upd_cur; exact N]. Qed.
Lemma match_pop s r f rest : Match s r (f :: rest) -> Match (pop_scope s) r rest.
Proof. intros [F N]. split; [|exact N]. inversion F as [|sc f0 scs fs FM F' E1 E2]; subst. cbn. rewrite <- E1. exact F'. Qed.
Lemma match_push s r sc f rest : frame_match sc f -> Match s r rest -> Match (push_scope s sc) r (f :: rest).
Proof. intros FM [F N]. split; [|exact N]. constructor; assumption. Qed.
Lemma match_ns s r f rest : Match s r (f :: rest) -> f_ns f = cur_ns_of s.
Proof. intros [F _]. inversion F as [|sc f0 scs fs (_ & NS & _) F' E1 E2]; subst. unfold cur_ns_of. rewrite <- E1. exact NS. Qed.
Lemma match_bubble s r f rest : Match s r (f :: rest) -> f_bubble f = true.
Proof. intros [F _]. inversion F as [|sc f0 scs fs (_ & _ & BB & _) F' E1 E2]. exact BB. Qed.
Lemma match_top_same s r f f' rest : Match s r (f :: rest) -> f_vars f' = f_vars f -> f_ns f' = f_ns f -> f_bubble f' = f_bubble f ->
  f_scope f' = f_scope f -> Match s r (f' :: rest).
Proof.
  intros [F N] EV EN EB ES. split; [|exact N]. inversion F as [|sc f0 scs fs FM F' E1 E2]; subst. constructor; [|exact F'].
  unfold frame_match. rewrite EV, EN, EB, ES. exact FM.
Qed.
Lemma frame_match_plain ns code ex er vars : frame_match (mk_scope ns vars) (mk_frame ns code ex er (mvars vars)).
Proof. split; [apply vars_match_mvars|split; [reflexivity|split; reflexivity]]. Qed.

Lemma assign_step s1 r1 c1 f1 rest1 pre post n v vals :
  Good r1 c1 -> c_frames c1 = f1 :: rest1 -> Match s1 r1 (f1 :: rest1) ->
  f_code f1 = pre ++ IAssign n :: post -> f_pos f1 = length pre ->
  c_values c1 = cv v :: vals -> f_base f1 <= length vals -> n <> "" -> hidden (lower n) = false -> cv v <> VNil ->
  exists r' c' f' rest', Steps r1 r' /\ Good r' c' /\ c_frames c' = f' :: rest' /\
     Match (if is_local n then assign_local s1 n v else rns_set s1 (cur_ns_of s1) n v) r' (f' :: rest') /\
     c_values c' = vals /\ moved f1 f' /\ f_pos f' = S (f_pos f1) /\ Forall2 kept rest1 rest'.
Proof.
  intros G1 EF1 M EC EP EV B NN HH NV.
  assert (N1 : nth_error (f_code f1) (f_pos f1) = Some (IAssign n)) by (rewrite EC, EP; apply nth_error_mid).
  set (c1' := set_frames c1 (set_pos f1 (S (f_pos f1)) :: rest1)).
  assert (P : pop_value c1' = Some (cv v, set_values c1' vals)).
  { apply (pop_value_top c1' (set_pos f1 (S (f_pos f1))) rest1); [reflexivity|exact EV|exact B]. }
  assert (NE : String.eqb n "" = false) by (apply String.eqb_neq; exact NN).
  pose proof (good_running r1 c1 G1) as SU.
  destruct M as [F NS]. inversion F as [|sc f0 scs fs FM F' E1 E2]; subst f0 fs.
  set (c2 := set_values c1' vals).
  destruct (is_local n) eqn:IL.
  - assert (F2 : Forall2 frame_match (sc :: scs) (c_frames c2)) by (cbn; constructor; [exact FM|exact F']).
    assert (EX : exec_instr (IAssign n) r1 c1' = Ok (r1, assign_local_var c2 n (cv v))).
    { cbn [exec_instr]. rewrite P. rewrite NE, IL. destruct (cv v); try reflexivity. exfalso. apply NV. reflexivity. }
    destruct (run_one r1 c1 f1 rest1 (IAssign n) _ G1 EF1 N1 EX) as [S2 G2].
    { unfold assign_local_var. destruct (assign_frames _ _ _); unfold upd_top; cbn; try exact SU. }
    unfold assign_local. rewrite <- E1.
    destruct (assign_match (lower n) v HH _ _ F2) as [(scs' & fs' & A1 & A2 & M' & K)|[A1 A2]].
    + unfold assign_local_var in *. rewrite A2 in *. rewrite A1.
      cbn [c_frames c2 set_values c1' set_frames] in K. inversion K as [|fa fb ra rb K1 K2 Ea Eb]; subst.
      inversion M' as [|sc' fb' scs'' rb' FM' F'' Ea' Eb']; subst.
      eexists _, _, fb, rb. split; [exact S2|]. split; [exact G2|]. split; [reflexivity|]. split.
      { split; [cbn; constructor; assumption|]. rewrite world_upd_cur. exact NS. }
      split; [reflexivity|]. split; [unfold moved; rewrite <- K1; destruct f1; reflexivity|].
      split; [rewrite <- K1; reflexivity|exact K2].
    + unfold assign_local_var in *. rewrite A2 in *. rewrite A1. unfold bind_here. rewrite <- E1.
      eexists _, _, _, rest1. split; [exact S2|]. split; [exact G2|]. split; [reflexivity|]. split.
      { split; [|rewrite world_upd_cur; exact NS]. cbn. constructor; [|exact F'].
        destruct FM as (V & N0 & B0). split; [cbn; apply vars_match_set; exact V|split; [exact N0|exact B0]]. }
      split; [reflexivity|]. split; [unfold moved; destruct f1; reflexivity|]. split; [reflexivity|apply kept_all_refl].
  - assert (EX : exec_instr (IAssign n) r1 c1' = Ok (ns_set r1 (f_ns f1) n (cv v), c2)).
    { cbn [exec_instr]. rewrite P. rewrite NE, IL. destruct (cv v); try reflexivity. exfalso. apply NV. reflexivity. }
    destruct (run_one_g r1 c1 f1 rest1 (IAssign n) _ _ G1 EF1 N1 EX) as [S2 G2].
    { exact SU. } { unfold ns_set, set_nss, rt_with, ctl_same, cfg_same. cbn. auto 15. }
    eexists _, _, _, rest1. split; [exact S2|]. split; [exact G2|]. split; [reflexivity|]. split.
    { split; [cbn; rewrite <- E1; constructor; [exact FM|exact F']|].
      rewrite world_upd_cur. unfold world. f_equal; [|exact (world_marks _ _ _ NS)].
      unfold ns_set. rewrite nss_set_nss, (world_nss _ _ _ NS).
      destruct FM as (V & N0 & B0). unfold cur_ns_of. rewrite <- E1. rewrite N0. cbn [rns_set st_nss].
      rewrite assoc_mnss. destruct (assoc (sc_ns sc) (st_nss s1)) as [m|]; cbn [option_map].
      - rewrite assoc_set_mvars, assoc_set_mnss. reflexivity.
      - change (assoc_set (lower n) (cv v) []) with (mvars (assoc_set (lower n) v [])). rewrite assoc_set_mnss. reflexivity. }
    split; [reflexivity|]. split; [unfold moved; destruct f1; reflexivity|]. split; [reflexivity|apply kept_all_refl].
Qed.

Lemma local_step s1 r1 c1 f1 rest1 pre post n v vals :
  Good r1 c1 -> c_frames c1 = f1 :: rest1 -> Match s1 r1 (f1 :: rest1) ->
  f_code f1 = pre ++ IAssignLocal n :: post -> f_pos f1 = length pre ->
  c_values c1 = cv v :: vals -> f_base f1 <= length vals -> n <> "" -> cv v <> VNil ->
  exists r' c' f' rest', Steps r1 r' /\ Good r' c' /\ c_frames c' = f' :: rest' /\ Match (bind_here s1 n v) r' (f' :: rest') /\
     c_values c' = vals /\ moved f1 f' /\ f_pos f' = S (f_pos f1) /\ Forall2 kept rest1 rest'.
Proof.
  intros G1 EF1 M EC EP EV B NN NV.
  assert (N1 : nth_error (f_code f1) (f_pos f1) = Some (IAssignLocal n)) by (rewrite EC, EP; apply nth_error_mid).
  set (c1' := set_frames c1 (set_pos f1 (S (f_pos f1)) :: rest1)).
  assert (P : pop_value c1' = Some (cv v, set_values c1' vals)).
  { apply (pop_value_top c1' (set_pos f1 (S (f_pos f1))) rest1); [reflexivity|exact EV|exact B]. }
  assert (NE : String.eqb n "" = false) by (apply String.eqb_neq; exact NN).
  pose proof (good_running r1 c1 G1) as SU.
  destruct M as [F NS]. inversion F as [|sc f0 scs fs FM F' E1 E2]; subst f0 fs.
  set (c2 := set_values c1' vals).
  assert (EX : exec_instr (IAssignLocal n) r1 c1' = Ok (r1, set_top_var c2 n (cv v))).
  { cbn [exec_instr]. rewrite P. rewrite NE. destruct (cv v); try reflexivity. exfalso. apply NV. reflexivity. }
  destruct (run_one r1 c1 f1 rest1 (IAssignLocal n) _ G1 EF1 N1 EX) as [S2 G2].
  { exact SU. }
  unfold bind_here. rewrite <- E1.
  eexists _, _, _, rest1. split; [exact S2|]. split; [exact G2|]. split; [reflexivity|]. split.
  { split; [|rewrite world_upd_cur; exact NS]. cbn. constructor; [|exact F'].
    destruct FM as (V & N0 & B0). split; [cbn; apply vars_match_set; exact V|split; [exact N0|exact B0]]. }
  split; [reflexivity|]. split; [unfold moved; destruct f1; reflexivity|]. split; [reflexivity|apply kept_all_refl].
Qed.

(* a piece of code is run from one statement boundary to the next, for a notion R of where the machine stands relative to the
   reference state (At here, AtM of SimCtl.v for structured programs) *)
Definition stand := sstate -> rvalue -> rt -> context -> frame -> list frame -> list value -> Prop.
Definition Runs (R:stand) (s:sstate) (reg:rvalue) (code:list instr) (reg':rvalue) (s':sstate) : Prop :=
  forall r c f rest below pre post, R s reg r c f rest below -> Fresh c below ->
    f_code f = pre ++ code ++ post -> f_pos f = length pre ->
    exists r' c' f' rest', Steps r r' /\ R s' reg' r' c' f' rest' below /\
      moved f f' /\ f_pos f' = f_pos f + length code /\ Forall2 kept rest rest'.

(* a statement that evaluates an expression and stores the value: what the storing instruction does is a parameter *)
Lemma store_vm s s' reg e v i : pev (loc_of s) (glob_of s) e v ->
  (forall r1 c1 f1 rest1 pre1 post vals, Good r1 c1 -> c_frames c1 = f1 :: rest1 -> Match s r1 (f1 :: rest1) ->
     f_code f1 = pre1 ++ i :: post -> f_pos f1 = length pre1 -> c_values c1 = cv v :: vals -> f_base f1 <= length vals -> cv v <> VNil ->
     exists r' c' f' rest', Steps r1 r' /\ Good r' c' /\ c_frames c' = f' :: rest' /\ Match s' r' (f' :: rest') /\
       c_values c' = vals /\ moved f1 f' /\ f_pos f' = S (f_pos f1) /\ Forall2 kept rest1 rest') ->
  Runs At s reg (compile_expr e ++ [i]) reg s'.
Proof.
  intros HE ST r c f rest below pre post (G & EF & M & LB & top & EV & RR) FR EC EP. rewrite <- app_assoc in EC.
  assert (B : f_base f <= length (c_values c)) by (rewrite EV, app_length; lia).
  destruct (proj1 (pure_sim _ _) e v HE r c f rest pre ([i] ++ post) G EF EC EP B (env_ok_of s r f rest M)) as [S1 NV].
  set (k := length (compile_expr e)) in *. set (c1 := adv c f rest k [cv v]) in *.
  destruct (ST (upd_cur r c1) c1 (set_pos f (f_pos f + k)) rest (pre ++ compile_expr e) post (c_values c))
    as (r2 & c2 & f2 & rest2 & S2 & G2 & EF2 & M2 & EV2 & MV2 & P2 & K2);
    [apply good_adv; exact G|reflexivity|apply match_upd, match_set_pos; exact M|cbn [f_code set_pos]; rewrite EC, <- app_assoc; reflexivity
    |cbn [f_pos set_pos]; rewrite EP, app_length; reflexivity|reflexivity|exact B|exact NV|].
  exists r2, c2, f2, rest2. split; [exact (steps_trans _ _ _ S1 S2)|]. split.
  { split; [exact G2|]. split; [exact EF2|]. split; [exact M2|]. split; [rewrite (moved_base _ _ MV2); exact LB|].
    exists top. split; [rewrite EV2; exact EV|exact RR]. }
  split; [exact (moved_trans _ _ _ (moved_set_pos f _) MV2)|]. split; [rewrite P2, app_length; cbn; lia|exact K2].
Qed.

Lemma stmt_vm s reg st reg1 s1 : pstmt s reg st reg1 s1 -> Runs At s reg (compile_stmt st) reg1 s1.
Proof.
  intros [e v HE|n e v NN HH HE|n e v NN HE]; cbn [compile_stmt].
  - (* expression statement *)
    intros r c f rest below pre post (G & EF & M & LB & top & EV & RR) FR EC EP. pose proof (fresh_under c top below EV FR) as UT.
    assert (B : f_base f <= length (c_values c)) by (rewrite EV, app_length; lia).
    destruct (proj1 (pure_sim _ _) e v HE r c f rest pre post G EF EC EP B (env_ok_of s r f rest M)) as [S1 NV].
    eexists _, _, _, rest. split; [exact S1|]. split; [|split; [apply moved_set_pos|split; [reflexivity|apply kept_all_refl]]].
    split; [apply good_adv; exact G|]. split; [reflexivity|]. split; [apply match_upd, match_set_pos; exact M|].
    split; [exact LB|]. exists (cv v :: top). split; [cbn; rewrite EV; reflexivity|].
    split; [reflexivity|]. split; [intros ->; apply NV; reflexivity|exact UT].
  - (* assignment *)
    exact (store_vm s _ reg e v (IAssign n) HE (fun r1 c1 f1 rest1 pre1 post vals G1 EF1 M1 EC1 EP1 EV1 B1 NV =>
             assign_step s r1 c1 f1 rest1 pre1 post n v vals G1 EF1 M1 EC1 EP1 EV1 B1 NN HH NV)).
  - (* private _x = e *)
    exact (store_vm s _ reg e v (IAssignLocal n) HE (fun r1 c1 f1 rest1 pre1 post vals G1 EF1 M1 EC1 EP1 EV1 B1 NV =>
             local_step s r1 c1 f1 rest1 pre1 post n v vals G1 EF1 M1 EC1 EP1 EV1 B1 NN NV)).
Qed.

Lemma end_vm s reg r c f rest below pre post : At s reg r c f rest below ->
  f_code f = pre ++ IEnd :: post -> f_pos f = length pre ->
  exists r' c', Steps r r' /\ At s RNone r' c' (set_pos f (S (f_pos f))) rest below /\ Fresh c' below.
Proof.
  intros (G & EF & M & LB & top & EV & RR) EC EP.
  assert (N : nth_error (f_code f) (f_pos f) = Some IEnd) by (rewrite EC, EP; apply nth_error_mid).
  set (c1 := set_frames c (set_pos f (S (f_pos f)) :: rest)).
  assert (EX : exec_instr IEnd r c1 = Ok (r, set_values c1 below)).
  { cbn [exec_instr]. unfold clear_values. cbn [c_frames c1 set_frames set_pos f_base c_values]. rewrite EV, app_length, <- LB.
    replace (length top + length below - length below) with (length top) by lia. rewrite skipn_app, skipn_all, Nat.sub_diag. reflexivity. }
  destruct (run_one r c f rest IEnd _ G EF N EX) as [S1 G1].
  { exact (good_running r c G). }
  exists (upd_cur r (set_values c1 below)), (set_values c1 below). split; [exact S1|]. split; [|nil_case]. split; [exact G1|]. split; [reflexivity|]. split.
  { destruct M as [F NS]. split; [|rewrite world_upd_cur; exact NS]. inversion F as [|sc f0 scs fs FM F' E1 E2]; subst. constructor; assumption. }
  split; [exact LB|]. exists []. split; reflexivity.
Qed.

Lemma compile_block_from_cons first st b : compile_block_from first (st :: b) = (if first then [] else [IEnd]) ++ compile_stmt st ++ compile_block_from false b.
Proof. reflexivity. Qed.

Lemma runs_nil (R:stand) s reg : Runs R s reg (compile_block []) reg s.
Proof.
  intros r c f rest below pre post A FR EC EP.
  exists r, c, f, rest. split; [apply StepsRefl|]. split; [exact A|]. split; [apply moved_refl|]. split; [cbn; lia|apply kept_all_refl].
Qed.
Lemma runs_last (R:stand) s reg st reg1 s1 : Runs R s reg (compile_stmt st) reg1 s1 -> Runs R s reg (compile_block [st]) reg1 s1.
Proof. intros H. unfold compile_block. cbn [compile_block_from app]. rewrite app_nil_r. exact H. Qed.
Lemma runs_cons (R:stand) s reg st reg1 s1 st2 rest0 reg' s' :
  (forall s reg r c f rest below pre post, R s reg r c f rest below -> f_code f = pre ++ IEnd :: post -> f_pos f = length pre ->
     exists r' c', Steps r r' /\ R s RNone r' c' (set_pos f (S (f_pos f))) rest below /\ Fresh c' below) ->
  Runs R s reg (compile_stmt st) reg1 s1 -> Runs R s1 RNone (compile_block (st2 :: rest0)) reg' s' ->
  Runs R s reg (compile_block (st :: st2 :: rest0)) reg' s'.
Proof.
  intros END IHs IHb r c f rest below pre post A FR EC EP.
  unfold compile_block in *. rewrite compile_block_from_cons in *. cbn [app] in *.
  rewrite compile_block_from_cons in EC. cbn [app] in EC. rewrite <- app_assoc in EC. cbn [app] in EC.
  destruct (IHs r c f rest below pre _ A FR EC EP) as (r1 & c1 & f1 & rest1 & S1 & A1 & MV1 & P1 & K1).
  assert (EC1 : f_code f1 = (pre ++ compile_stmt st) ++ IEnd :: compile_stmt st2 ++ compile_block_from false rest0 ++ post).
  { rewrite (moved_code _ _ MV1), EC, <- !app_assoc. reflexivity. }
  assert (EP1 : f_pos f1 = length (pre ++ compile_stmt st)) by (rewrite app_length, P1, EP; reflexivity).
  destruct (END s1 reg1 r1 c1 f1 rest1 below _ _ A1 EC1 EP1) as (r2 & c2 & S2 & A2 & FR2).
  set (f2 := set_pos f1 (S (f_pos f1))) in *.
  destruct (IHb r2 c2 f2 rest1 below (pre ++ compile_stmt st ++ [IEnd]) post A2 FR2) as (r3 & c3 & f3 & rest3 & S3 & A3 & MV3 & P3 & K3).
  { cbn [f2 set_pos f_code]. rewrite EC1. cbn [app]. rewrite <- !app_assoc. cbn [app]. reflexivity. }
  { cbn [f2 set_pos f_pos]. rewrite EP1, !app_length. cbn. lia. }
  exists r3, c3, f3, rest3. split; [eapply steps_trans; [exact S1|eapply steps_trans; [exact S2|exact S3]]|].
  split; [exact A3|]. split.
  { eapply moved_trans; [exact MV1|]. eapply moved_trans; [apply (moved_set_pos f1 (S (f_pos f1)))|exact MV3]. }
  split; [|eapply kept_all_trans; eassumption].
  rewrite P3. cbn [f2 set_pos f_pos]. rewrite P1. rewrite compile_block_from_cons. cbn [app].
  rewrite !app_length. cbn [length]. rewrite ?app_length. lia.
Qed.

Theorem block_vm : forall s reg b reg' s', pblock s reg b reg' s' ->
  forall r c f rest below pre post, At s reg r c f rest below -> Fresh c below ->
    f_code f = pre ++ compile_block_from true b ++ post -> f_pos f = length pre ->
    exists r' c' f' rest', Steps r r' /\ At s' reg' r' c' f' rest' below /\
      moved f f' /\ f_pos f' = f_pos f + length (compile_block_from true b) /\ Forall2 kept rest rest'.
Proof.
  induction 1 as [s reg|s reg st reg1 s1 HS|s reg st reg1 s1 st2 rest0 reg' s' HS HB IH].
  - apply (runs_nil At).
  - exact (runs_last At _ _ _ _ _ (stmt_vm _ _ _ _ _ HS)).
  - exact (runs_cons At _ _ _ _ _ _ _ _ _ end_vm (stmt_vm _ _ _ _ _ HS) IH).
Qed.

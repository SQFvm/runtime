(* C02 - the machine side of switch: the construct keeps its bookkeeping - the value switched on, the chosen block, "the label in
   front matched", "a block has been chosen" - in the variable ___switch of the switch frame; `case x`, `case x : {..}` and
   `default {..}` read and rewrite it (ops_generic.cpp case_any, colon_switch_code, default_code). *)
From Coq Require Import String Ascii.
From Coq Require Import ZArith List Bool Lia.
From SqfVerif Require Import Gen.DiagCodes Gen.Overloads VM.VmDefs VM.VmFacts VM.VmExec VM.RefSem VM.SimDefs VM.SimProofs VM.SimBlock VM.SimCtl.
Import ListNotations.
Local Open Scope string_scope.
Local Open Scope list_scope.

Definition set_sw (f:frame) (w:value) : frame := set_vars f (assoc_set "___switch" w (f_vars f)).

Lemma get_sw c f rest w : c_frames c = f :: rest -> assoc "___switch" (f_vars f) = Some w -> get_variable c "___switch" = Some w.
Proof. intros EF A. unfold get_variable. rewrite EF. change (lower "___switch") with "___switch". cbn [lookup_frames]. rewrite A. reflexivity. Qed.

Lemma assign_sw c f rest w w' : c_frames c = f :: rest -> assoc "___switch" (f_vars f) = Some w ->
  assign_local_var c "___switch" w' = set_frames c (set_sw f w' :: rest).
Proof. intros EF A. unfold assign_local_var. rewrite EF. change (lower "___switch") with "___switch". cbn [assign_frames]. rewrite A. reflexivity. Qed.

Lemma sw_after f w : assoc "___switch" (f_vars (set_sw f w)) = Some w.
Proof. unfold set_sw. cbn [f_vars set_vars]. rewrite assoc_assoc_set, String.eqb_refl. reflexivity. Qed.

Lemma op_case v r c f rest sv tgt nw hs : c_frames c = f :: rest -> assoc "___switch" (f_vars f) = Some (VSwitch sv tgt nw hs) ->
  op_unary "case" v r c =
  Ok (r, set_frames c (set_sw f (VSwitch sv tgt (if veqb true v sv then true else nw) hs) :: rest),
      VSwitch sv tgt (if veqb true v sv then true else nw) hs).
Proof.
  intros EF A. unfold op_unary. cbn [String.eqb Ascii.eqb Bool.eqb]. rewrite (get_sw c f rest _ EF A).
  rewrite (assign_sw c f rest _ _ EF A). reflexivity.
Qed.

Lemma op_default code r c f rest sv tgt nw hs : c_frames c = f :: rest -> assoc "___switch" (f_vars f) = Some (VSwitch sv tgt nw hs) ->
  op_unary "default" (VCode code) r c = Ok (r, set_frames c (set_sw f (VSwitch sv (if hs then tgt else code) nw hs) :: rest), VNil).
Proof.
  intros EF A. unfold op_unary. cbn [String.eqb Ascii.eqb Bool.eqb]. rewrite (get_sw c f rest _ EF A).
  rewrite (assign_sw c f rest _ _ EF A). reflexivity.
Qed.

Lemma op_colon l1 l2 l3 l4 body r c f rest sv tgt nw hs : c_frames c = f :: rest -> assoc "___switch" (f_vars f) = Some (VSwitch sv tgt nw hs) ->
  op_binary ":" (VSwitch l1 l2 l3 l4) (VCode body) r c =
  if andb (negb hs) nw
  then Ok (r, set_frames c (set_pos (set_sw f (VSwitch sv body false true)) (S (length (f_code f))) :: rest), VNil)
  else Ok (r, set_frames c (f :: rest), VNil).
Proof.
  intros EF A. unfold op_binary. cbn [String.eqb Ascii.eqb Bool.eqb]. rewrite (get_sw c f rest _ EF A).
  destruct (andb (negb hs) nw); [|rewrite <- EF; destruct c; reflexivity].
  rewrite (assign_sw c f rest _ _ EF A). unfold upd_top. cbn [c_frames set_frames]. destruct c; reflexivity.
Qed.

(* the hidden variable is no business of the reference scope *)
Lemma vars_match_set_sw l f w : vars_match l (f_vars f) -> vars_match l (f_vars (set_sw f w)).
Proof.
  intros V k HK. unfold set_sw. cbn [f_vars set_vars]. rewrite assoc_assoc_set. unfold hidden in HK. rewrite HK. apply V. exact HK.
Qed.
Lemma frame_match_set_sw sc f w : frame_match sc f -> frame_match sc (set_sw f w).
Proof. intros (V & NS & BB). split; [apply vars_match_set_sw; exact V|split; [exact NS|exact BB]]. Qed.
Lemma match_set_sw s r f w rest : Match s r (f :: rest) -> Match s r (set_sw f w :: rest).
Proof. intros [F N]. split; [|exact N]. inversion F as [|sc f0 scs fs FM F' E1 E2]; subst. constructor; [apply frame_match_set_sw; exact FM|exact F']. Qed.
Lemma moved_set_sw f w : moved f (set_sw f w).
Proof. unfold set_sw. destruct f; reflexivity. Qed.

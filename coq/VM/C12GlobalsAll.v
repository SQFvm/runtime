(* C12 - isolation with turns that CREATE globals, part 4: req is a congruence for EVERY scheduler turn.
   Every instruction respects "the same machine up to the order of namespace entries": an instruction that touches a global has
   a one-key footprint (keyof_u, keyof_b), so C12Globals.exec_rel applies with G = identity; spawn, terminate and scriptDone (which the
   footprint check excludes because they look at other scripts) do not touch the namespaces and are treated directly. *)
From Coq Require Import String Ascii ZArith List Bool Lia Arith.
From SqfVerif Require Import Gen.DiagCodes Gen.Overloads VM.VmDefs VM.VmExec VM.VmFacts VM.SchedDefs VM.SchedOps VM.SchedBase VM.SchedIter VM.C12Proofs VM.C12FrameOps VM.C12Frame VM.C12Commute VM.C12NsEq VM.C12Globals.
Import ListNotations.
Local Open Scope list_scope.
Local Open Scope string_scope.
Opaque frame_fuel exec_fuel.

Notation idn := (fun a : list (string * list (string * value)) => a) (only parsing).

Lemma kin_self k : kin k [k] = true.
Proof. unfold kin. cbn [existsb]. rewrite key_eqb_refl. reflexivity. Qed.

(* ------------------------------------------------------------------ the three operators that look at other scripts *)
Lemma term_eq id r c : op_unary "terminate" (VScript id) r c =
  if negb (existsb (fun x => Nat.eqb (c_id x) id) (r_ctxs r)) then Ok (logmsg r d_ScriptHandleAlreadyFinished, c, VNil)
  else if Nat.eqb id (c_id c) then
    if c_terminate c then Ok (logmsg r d_ScriptHandleAlreadyTerminated, c, VNil) else Ok (r, set_terminate c true, VNil)
  else
    match find (fun x => Nat.eqb (c_id x) id) (r_ctxs r) with
    | Some x => if c_terminate x then Ok (logmsg r d_ScriptHandleAlreadyTerminated, c, VNil)
                else Ok (set_ctxs r (map (fun y => if Nat.eqb (c_id y) id then set_terminate y true else y) (r_ctxs r)), c, VNil)
    | None => Ok (r, c, VNil) end.
Proof. reflexivity. Qed.
Lemma spawn_eq l body r c : op_binary "spawn" l (VCode body) r c =
  Ok (set_next_id (set_ctxs r (r_ctxs r ++ [push_frame (new_context (r_next_id r) true)
        (mk_frame default_ns body None None [("_thisscript", VScript (r_next_id r)); ("_this", l)])])) (S (r_next_id r)), c, VScript (r_next_id r)).
Proof. reflexivity. Qed.

Ltac op_same a' RL := cbn [rres_op]; exists a'; split; [rewrite ?app_logmsg; reflexivity | try (apply (relN_nss _ _ _ _ (nss_logmsg _ _))); exact RL].

Lemma scriptdone_all v r c a' : relN idn r a' -> rres_op idn (op_unary "scriptdone" v (app (cst a') r) c) (op_unary "scriptdone" v r c).
Proof.
  intro RL. destruct v; try reflexivity. rewrite !scriptdone_spec. op_same a' RL.
Qed.
Lemma terminate_all v r c a' : relN idn r a' -> rres_op idn (op_unary "terminate" v (app (cst a') r) c) (op_unary "terminate" v r c).
Proof.
  intro RL. destruct v; try reflexivity. rewrite !term_eq. cbn [r_ctxs app cst t_ctx].
  destruct (negb _); [op_same a' RL|]. destruct (Nat.eqb _ _).
  - destruct (c_terminate c); op_same a' RL.
  - destruct (find _ _) as [x|]; [|op_same a' RL]. destruct (c_terminate x); op_same a' RL.
Qed.
Lemma spawn_all l v r c a' : relN idn r a' -> rres_op idn (op_binary "spawn" l v (app (cst a') r) c) (op_binary "spawn" l v r c).
Proof.
  intro RL. destruct v; try reflexivity. rewrite !spawn_eq. op_same a' RL.
Qed.

(* ------------------------------------------------------------------ every other operator call has a one-key footprint *)
Definition keyof_u (v:value) (c:context) : list key :=
  match v, c_frames c with VStr s, f :: _ => [(f_ns f, lower s)] | _, _ => [] end.
Lemma uop_ok_self n v c : String.eqb n "scriptdone" = false -> String.eqb n "terminate" = false ->
  uop_ok (keyof_u v c) n v c = true.
Proof.
  intros H1 H2. unfold uop_ok, keyof_u. rewrite H1, H2. destruct (String.eqb n "isnil"); [|reflexivity].
  destruct v; try reflexivity. destruct (c_frames c); [reflexivity|apply kin_self].
Qed.
Definition keyof_b (l v:value) : list key :=
  match l, v with
  | VNs s, VStr name => [(s, lower name)]
  | VNs s, VArr [VStr name; _] => [(s, lower name)]
  | _, _ => [] end.
Lemma bop_ok_self n l v : String.eqb n "spawn" = false -> bop_ok (keyof_b l v) (keyof_b l v) n l v = true.
Proof.
  intro H. unfold bop_ok, keyof_b. rewrite H.
  destruct (String.eqb n "getvariable"); [|destruct (String.eqb n "setvariable"); [|reflexivity]];
    (destruct l; try reflexivity; destruct v; try reflexivity; try apply kin_self;
     match goal with |- context [match ?LL with [] => _ | _ => _ end] => destruct LL as [|xx0 ll0] end; try reflexivity;
     destruct xx0; try reflexivity; destruct ll0 as [|dd ll1]; try reflexivity; destruct ll1; try reflexivity; apply kin_self).
Qed.

Lemma unary_all n v r c a' : relN idn r a' -> rres_op idn (op_unary n v (app (cst a') r) c) (op_unary n v r c).
Proof.
  intro RL. destruct (String.eqb n "scriptdone") eqn:E1; [apply String.eqb_eq in E1; subst n; apply scriptdone_all; exact RL|].
  destruct (String.eqb n "terminate") eqn:E2; [apply String.eqb_eq in E2; subst n; apply terminate_all; exact RL|].
  apply (unary_rel idn (keyof_u v c) [] (sem_ok_id _ _)); [exact RL|apply uop_ok_self; assumption].
Qed.
Lemma binary_all n l v r c a' : relN idn r a' -> rres_op idn (op_binary n l v (app (cst a') r) c) (op_binary n l v r c).
Proof.
  intro RL. destruct (String.eqb n "spawn") eqn:E1; [apply String.eqb_eq in E1; subst n; apply spawn_all; exact RL|].
  apply (binary_rel idn (keyof_b l v) (keyof_b l v) (sem_ok_id _ _)); [exact RL|apply bop_ok_self; assumption].
Qed.

(* ------------------------------------------------------------------ every instruction *)
Lemma get_all n r c a' : relN idn r a' -> rres_ex idn (exec_instr (IGet n) (app (cst a') r) c) (exec_instr (IGet n) r c).
Proof.
  intro RL. set (K := match c_frames c with f :: _ => [(f_ns f, lower n)] | [] => [] end).
  apply (exec_rel idn K K (sem_ok_id _ _)); [exact RL|]. unfold K. cbn [instr_ok].
  destruct (is_local n); [reflexivity|]. destruct (c_frames c); [reflexivity|apply kin_self].
Qed.
Lemma assign_all n r c a' : relN idn r a' -> rres_ex idn (exec_instr (IAssign n) (app (cst a') r) c) (exec_instr (IAssign n) r c).
Proof.
  intro RL.
  set (K := match pop_value c with Some (_, c1) => match c_frames c1 with f :: _ => [(f_ns f, lower n)] | [] => [] end | None => [] end).
  apply (exec_rel idn K K (sem_ok_id _ _)); [exact RL|]. unfold K. cbn [instr_ok].
  destruct (pop_value c) as [[v c1]|]; [|reflexivity].
  destruct (String.eqb n ""); [reflexivity|]. destruct (is_local n); [reflexivity|].
  destruct (c_frames c1); [reflexivity|apply kin_self].
Qed.
Lemma unary_i_all n r c a' : relN idn r a' -> rres_ex idn (exec_instr (IUnary n) (app (cst a') r) c) (exec_instr (IUnary n) r c).
Proof. intro RL. apply exec_unary_rel; [exact RL|]. intros. apply unary_all, RL. Qed.
Lemma binary_i_all n r c a' : relN idn r a' -> rres_ex idn (exec_instr (IBinary n) (app (cst a') r) c) (exec_instr (IBinary n) r c).
Proof. intro RL. apply exec_binary_rel; [exact RL|]. intros. apply binary_all, RL. Qed.

(* the second hypothesis is the one rel_visit_ctx passes for the test okI := fun _ _ => true *)
Lemma exec_all ins r c a' : relN idn r a' -> (fun (_:instr) (_:context) => true) ins c = true ->
  rres_ex idn (exec_instr ins (app (cst a') r) c) (exec_instr ins r c).
Proof.
  intros RL _. destruct ins;
    first [ apply get_all; exact RL | apply assign_all; exact RL | apply unary_i_all; exact RL | apply binary_i_all; exact RL
          | apply rres_ex_same; [exact RL|reflexivity] ].
Qed.

(* ------------------------------------------------------------------ every turn *)
Lemma iter_okG_true b r : iter_okG (fun _ _ => true) b r = true.
Proof.
  unfold iter_okG. destruct (cur r) as [c|]; [|reflexivity].
  destruct (frame_next2 b frame_fuel r c) as [[[fr r1] c1]| | |]; try reflexivity.
  destruct (r_err r1); [reflexivity|].
  destruct fr; try reflexivity; try (destruct (Nat.eqb _ _); [reflexivity|]); destruct (current_instr c1); reflexivity.
Qed.
Lemma slice_okG_true b fuel : forall r n, slice_okG (fun _ _ => true) b fuel r n = true.
Proof.
  induction fuel; intros r n; cbn [slice_okG]; [reflexivity|].
  destruct (r_exit_req r); [reflexivity|]. destruct n; [reflexivity|].
  rewrite iter_okG_true. cbn [andb]. destruct (do_iter2 b r) as [[]| | |]; auto.
Qed.
Lemma visit_okG_true b1 r i : visit_okG (fun _ _ => true) b1 r i = true.
Proof.
  unfold visit_okG. destruct (nth_error (r_ctxs r) i); [|reflexivity]. cbv zeta.
  destruct (c_suspended _); [destruct (Z.leb _ _); [|reflexivity]|]; apply slice_okG_true.
Qed.

(* req is a congruence for a scheduler turn - whatever the turn executes (globals read, assigned, created; spawn, terminate,
   scriptDone; errors; sleep): equivalent machines take equivalent turns with the same result and the same visit record, and
   non-Ok outcomes (Unsupported / Hang / UB) are the same outcomes *)
Theorem req_turn_congruence_all b1 b2 r r' i x r1 v :
  req r r' -> i < length (r_ctxs r) ->
  visit_ctx b1 b2 r i = Ok (x, r1, v) ->
  exists r1', visit_ctx b1 b2 r' i = Ok (x, r1', v) /\ req r1 r1'.
Proof.
  intros Q Hi V. pose proof (req_as_cst r r' Q) as Er. destruct Q as [E N].
  pose proof (rel_visit_ctx idn (fun _ _ => true) exec_all i b1 b2 r (r_nss r') (nss_eq_sym _ _ N) Hi (visit_okG_true b1 r i)) as H.
  rewrite V in H. cbn [rres_v] in H. destruct H as (a1 & H & RL).
  exists (app (cst a1) r1). split; [rewrite Er; exact H|]. apply req_cst, nss_eq_sym, RL.
Qed.
(* ... and a turn that does not come back with Ok does not from the equivalent machine either, with the same outcome *)
Theorem req_turn_congruence_fail b1 b2 r r' i :
  req r r' -> i < length (r_ctxs r) ->
  match visit_ctx b1 b2 r i with Ok _ => True | x => visit_ctx b1 b2 r' i = x end.
Proof.
  intros Q Hi. pose proof (req_as_cst r r' Q) as Er. destruct Q as [E N].
  pose proof (rel_visit_ctx idn (fun _ _ => true) exec_all i b1 b2 r (r_nss r') (nss_eq_sym _ _ N) Hi (visit_okG_true b1 r i)) as H.
  rewrite <- Er in H. destruct (visit_ctx b1 b2 r i) as [[[x r1] v]| | |]; cbn [rres_v] in H; auto.
Qed.

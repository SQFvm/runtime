(* C12 - isolation, part 1: frame transformers, and the operators.
   A frame transformer (tr, app) is a change of the machine that the executing script neither reads nor overwrites:
   another script's context, log lines at the old end of the log, global variables outside its footprints (tr_ok).
   It commutes with the primitive updates of the machine and with every operator call that stays inside the footprints
   and does not look at other scripts (uop_ok, bop_ok).  C12Frame.v carries this from an instruction to a whole
   scheduler turn; the effect of an independent turn is such a change (C12Commute.v). *)
From Coq Require Import String Ascii ZArith List Bool Lia Arith.
From SqfVerif Require Import Gen.DiagCodes Gen.Overloads VM.VmDefs VM.VmExec VM.VmFacts VM.SchedDefs VM.SchedOps VM.SchedBase VM.SchedIter.
Import ListNotations.
Local Open Scope list_scope.

Opaque frame_fuel exec_fuel.

(* ------------------------------------------------------------------ global variables as keys *)
Definition key := (string * string)%type.     (* namespace, lower-cased variable name *)
Definition key_eqb (a b:key) : bool := andb (String.eqb (fst a) (fst b)) (String.eqb (snd a) (snd b)).
Definition kin (k:key) (l:list key) : bool := existsb (key_eqb k) l.
Notation nsmap := (list (string * list (string * value))) (only parsing).

Definition raw_get (nss:nsmap) (ns n:string) : option value :=
  match assoc ns nss with Some m => assoc n m | None => None end.
Definition raw_set (nss:nsmap) (ns n:string) (v:value) : nsmap :=
  assoc_set ns (assoc_set n v (match assoc ns nss with Some m => m | None => [] end)) nss.
Lemma ns_get_raw r ns n : ns_get r ns n = raw_get (r_nss r) ns (lower n).
Proof. reflexivity. Qed.
Lemma ns_set_raw r ns n v : ns_set r ns n v = set_nss r (raw_set (r_nss r) ns (lower n) v).
Proof. reflexivity. Qed.

(* ------------------------------------------------------------------ frame transformers *)
Record tr := { t_ctx : list context -> list context; t_out : list event; t_nss : nsmap -> nsmap }.
Definition app (T:tr) (r:rt) : rt :=
  {| r_ctxs := t_ctx T (r_ctxs r);
     r_active := r_active r; r_state := r_state r; r_exit_req := r_exit_req r; r_halt_req := r_halt_req r;
     r_run := r_run r; r_err := r_err r; r_msgs := r_msgs r; r_out := r_out r ++ t_out T; r_nss := t_nss T (r_nss r);
     r_clock := r_clock r; r_tick := r_tick r; r_timestamp := r_timestamp r; r_run_ts := r_run_ts r;
     r_max_runtime := r_max_runtime r; r_max_loop := r_max_loop r; r_slice := r_slice r; r_next_id := r_next_id r;
     r_defects := r_defects r |}.
(* T is invisible to the script at index i with read footprint R and write footprint W: it leaves the script's own
   context alone (and the number of contexts), and the globals the script reads or assigns *)
Record tr_ok (T:tr) (i:nat) (R W:list key) : Prop := {
  tk_nth : forall l, nth_error (t_ctx T l) i = nth_error l i;
  tk_upd : forall l c, t_ctx T (list_upd l i c) = list_upd (t_ctx T l) i c;
  tk_len : forall l, length (t_ctx T l) = length l;
  tk_get : forall nss ns n, kin (ns, n) R = true -> raw_get (t_nss T nss) ns n = raw_get nss ns n;
  tk_set : forall nss ns n v, kin (ns, n) W = true -> t_nss T (raw_set nss ns n v) = raw_set (t_nss T nss) ns n v }.

(* app commutes with the primitive updates *)
Lemma app_logmsg T r d : logmsg (app T r) d = app T (logmsg r d).
Proof. unfold logmsg. cbn. destruct (Z.leb (fst d) 1); reflexivity. Qed.
Lemma app_mark T r s : mark (app T r) s = app T (mark r s).
Proof. reflexivity. Qed.
Lemma app_set_clock T r t : set_clock (app T r) t = app T (set_clock r t).
Proof. reflexivity. Qed.
Lemma app_set_msgs T r m : set_msgs (app T r) m = app T (set_msgs r m).
Proof. reflexivity. Qed.
Lemma app_set_errflag T r b : set_errflag (app T r) b = app T (set_errflag r b).
Proof. reflexivity. Qed.
Lemma app_set_exit_req T r b : set_exit_req (app T r) b = app T (set_exit_req r b).
Proof. reflexivity. Qed.
Lemma app_set_active T r a : set_active (app T r) a = app T (set_active r a).
Proof. reflexivity. Qed.
Lemma app_defect T r d : defect (app T r) d = defect r d.
Proof. reflexivity. Qed.
Lemma app_ns_get T i R W r ns n : tr_ok T i R W -> kin (ns, lower n) R = true -> ns_get (app T r) ns n = ns_get r ns n.
Proof. intros OK K. rewrite !ns_get_raw. cbn [r_nss app]. apply (tk_get _ _ _ _ OK); auto. Qed.
Lemma app_ns_set T i R W r ns n v : tr_ok T i R W -> kin (ns, lower n) W = true -> ns_set (app T r) ns n v = app T (ns_set r ns n v).
Proof.
  intros OK K. pose proof (tk_set _ _ _ _ OK) as S. rewrite !ns_set_raw. unfold app at 2. cbn [r_nss set_nss rt_with r_ctxs r_out r_active r_state r_exit_req r_halt_req r_run r_err r_msgs r_clock r_tick r_timestamp r_run_ts r_max_runtime r_max_loop r_slice r_next_id r_defects].
  rewrite <- S by auto. reflexivity.
Qed.

Definition map_op (f:rt -> rt) (x:opres) : opres :=
  match x with Ok (r, c, v) => Ok (f r, c, v) | Unsupported w => Unsupported w | Hang w => Hang w | UB w => UB w end.

Lemma app_op_nular T n r c : op_nular n (app T r) c = map_op (app T) (op_nular n r c).
Proof.
  unfold op_nular.
  repeat match goal with |- context [if ?x then _ else _] => destruct x end; try reflexivity.
  destruct (c_frames c); reflexivity.
Qed.

Ltac app_norm := unfold defect, now, bindr, num; cbn [r_defects r_clock r_tick r_max_loop r_next_id r_max_runtime r_run_ts app].
Ltac app_split :=
  repeat match goal with
         | |- context [match ?x with _ => _ end] =>
             lazymatch x with
             | context [app] => fail
             | context [ns_get] => fail
             | context [match _ with _ => _ end] => fail
             | _ => destruct x
             end
         end.
Ltac app_leaf := cbn [map_op bindr]; rewrite ?app_logmsg, ?app_mark, ?app_set_clock; try reflexivity.

Lemma app_op_breakout T r c v t : op_breakout (app T r) c v t = map_op (app T) (op_breakout r c v t).
Proof. unfold op_breakout. app_norm. app_split; app_leaf. Qed.

Definition map_err (f:rt -> rt) (x:res (bool * rt * context)) : res (bool * rt * context) :=
  match x with Ok (b, r, c) => Ok (b, f r, c) | Unsupported w => Unsupported w | Hang w => Hang w | UB w => UB w end.
Lemma app_err_enact T r c k : err_enact (app T r) c k = map_err (app T) (err_enact r c k).
Proof. unfold err_enact. cbn [r_err app]. app_split; reflexivity. Qed.

Lemma app_op_throw T r c v : op_throw (app T r) c v = map_op (app T) (op_throw r c v).
Proof.
  unfold op_throw. destruct (find_handler _ _); [|app_leaf].
  rewrite app_err_enact. destruct (err_enact r _ _) as [[[failed r2] c2]| | |]; cbn [map_err bindr map_op]; try reflexivity.
  app_split; app_leaf.
Qed.

(* ------------------------------------------------------------------ what an operator call may touch *)
(* a unary operator call is admissible if it is not scriptDone / terminate (they look at other scripts) and, for
   isNil "name", the global it may read is in the read footprint *)
Definition uop_ok (R:list key) (n:string) (v:value) (c:context) : bool :=
  if String.eqb n "scriptdone" then false else if String.eqb n "terminate" then false
  else if String.eqb n "isnil" then
    match v, c_frames c with VStr s, f :: _ => kin (f_ns f, lower s) R | _, _ => true end
  else true.

(* one name of the dispatch chain on both sides of a frame equation: only the head of the chain is looked at *)
Lemma if_both {A B} (f:A -> B) (b:bool) (X' Y':B) (X Y:A) :
  (b = true -> X' = f X) -> (b = false -> Y' = f Y) -> (if b then X' else Y') = f (if b then X else Y).
Proof. destruct b; auto. Qed.

Ltac app_branch := app_norm; app_split; rewrite ?app_op_throw, ?app_op_breakout; app_leaf.

Lemma app_op_unary T i R W n v r c : tr_ok T i R W -> uop_ok R n v c = true ->
  op_unary n v (app T r) c = map_op (app T) (op_unary n v r c).
Proof.
  intros OK H. unfold op_unary. cbv zeta.
  repeat (apply if_both; [intro E|intros _];
          [ first [ (app_branch; fail)
                  | (apply String.eqb_eq in E; subst n; cbn in H; try discriminate;
                     destruct v; try reflexivity;
                     destruct (get_variable c s); try reflexivity;
                     destruct (c_frames c); try reflexivity;
                     erewrite app_ns_get by eauto; reflexivity) ] | ]).
  reflexivity.
Qed.

(* a binary operator call is admissible if it is not spawn and the global that getVariable / setVariable
   touches is in the read / write footprint *)
Definition bop_ok (R W:list key) (n:string) (l v:value) : bool :=
  if String.eqb n "spawn" then false
  else if String.eqb n "getvariable" then
    match l, v with
    | VNs s, VStr name => kin (s, lower name) R
    | VNs s, VArr [VStr name; _] => kin (s, lower name) R
    | _, _ => true end
  else if String.eqb n "setvariable" then
    match l, v with VNs s, VArr [VStr name; _] => kin (s, lower name) W | _, _ => true end
  else true.

Lemma app_op_binary T i R W n l v r c : tr_ok T i R W -> bop_ok R W n l v = true ->
  op_binary n l v (app T r) c = map_op (app T) (op_binary n l v r c).
Proof.
  intros OK H. unfold op_binary. cbv zeta.
  repeat (apply if_both; [intro E|intros _];
          [ first [ (app_branch; fail)
                  | (apply String.eqb_eq in E; subst; cbn in H; try discriminate;
                     app_split; cbn in H; try discriminate;
                     first [ reflexivity
                           | (erewrite app_ns_get by eauto; reflexivity)
                           | (erewrite app_ns_set by eauto; reflexivity) ]) ] | ]).
  app_branch.
Qed.

(* ------------------------------------------------------------------ the two call instructions *)
(* call_unary.h / call_binary.h once the operands are there and none is nil; exec_instr tests for nil by a match on the
   value, so a case analysis on exec_instr itself goes through every kind of value, twice for a binary operator *)
Definition is_nil (v:value) : bool := match v with VNil => true | _ => false end.
Definition call_unary (n:string) (v:value) (r:rt) (c1:context) : res (rt * context) :=
  match op_unary (lower n) v r c1 with
  | Unsupported w => if has_unary (lower n) (type_of v) then Unsupported w
                     else Ok (logmsg r d_UnknownInputTypeCombinationUnary, c1)
  | x => bindr x (fun '(r1, c2, y) => Ok (r1, push_value c2 y)) end.
Definition call_binary (n:string) (l v:value) (r:rt) (c2:context) : res (rt * context) :=
  match op_binary (lower n) l v r c2 with
  | Unsupported w => if has_binary (lower n) (type_of l) (type_of v) then Unsupported w
                     else Ok (logmsg r d_UnknownInputTypeCombinationBinary, c2)
  | x => bindr x (fun '(r1, c3, y) => Ok (r1, push_value c3 y)) end.
Lemma exec_unary_eq n r c : exec_instr (IUnary n) r c =
  match pop_value c with
  | None => Ok (logmsg r (no_value_diag c d_NoValueFoundForRightArgument d_NoValueFoundForRightArgumentWeak), c)
  | Some (v, c1) => if is_nil v then Ok (logmsg r d_NilValueFoundForRightArgumentWeak, c1) else call_unary n v r c1 end.
Proof. cbn [exec_instr]. destruct (pop_value c) as [[[] c1]|]; reflexivity. Qed.
Lemma exec_binary_eq n r c : exec_instr (IBinary n) r c =
  match pop_value c with
  | None => Ok (logmsg r (no_value_diag c d_NoValueFoundForRightArgument d_NoValueFoundForRightArgumentWeak), c)
  | Some (v, c1) =>
      if is_nil v then Ok (logmsg r d_NilValueFoundForRightArgumentWeak, c1) else
      match pop_value c1 with
      | None => Ok (logmsg r (no_value_diag c d_NoValueFoundForRightArgument d_NoValueFoundForRightArgumentWeak), c1)
      | Some (l, c2) => if is_nil l then Ok (logmsg r d_NilValueFoundForRightArgumentWeak, c2) else call_binary n l v r c2 end end.
Proof.
  cbn [exec_instr]. destruct (pop_value c) as [[[] c1]|]; try reflexivity; cbv beta iota;
  destruct (pop_value c1) as [[[] c2]|]; reflexivity.
Qed.

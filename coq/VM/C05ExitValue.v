(* C05 - a finished scope yields exactly one value to the exit behaviour that ends it (repair C05 exit-behaviour-no-value:
   context.h pop_value_or_nil, used by the behaviours of count / select / apply / findIf / isNil / while / waitUntil /
   configClasses / configProperties).  Lemmas about VmDefs.enact; the theorems are restated in Properties_C05.v. *)
From Coq Require Import String Ascii.
From Coq Require Import ZArith List Bool Lia.
From SqfVerif Require Import Gen.DiagCodes VM.VmDefs VM.VmFacts VM.OpEffect VM.C05Proofs VM.C05Regions.
Import ListNotations.
Local Open Scope string_scope.
Local Open Scope list_scope.

(* the behaviours that take the value of the scope they end (the others - forEach, for, switch, the body round of while - look
   at the frame's variables only) *)
Definition takes_value (b:behavior) : bool :=
  match b with
  | BCount _ _ _ | BSelect _ _ _ | BApply _ _ _ | BFindIf _ _ | BIsNil | BWaitUntil _ => true
  | BWhile _ WCond _ _ => true
  | _ => false end.

(* the scope's own part of the operand stack is empty *)
Definition region_empty (c:context) : Prop := c_frames c <> [] /\ height c = top_base c.

Lemma pop_none_of_empty c : region_empty c -> pop_value c = None.
Proof.
  intros [NE H]. unfold pop_value, height, top_base in *. destruct (c_frames c) as [|f rest]; [contradiction|].
  destruct (c_values c) as [|v vs] eqn:EV; [reflexivity|].
  destruct (Nat.leb_spec (length (v :: vs)) (f_base f)) as [L|L]; [reflexivity|]. rewrite H in L. lia.
Qed.

Lemma pop_push_of_empty c v : region_empty c -> pop_value (push_value c v) = Some (v, c).
Proof.
  intros [NE H]. unfold pop_value, push_value, height, top_base in *. cbn [c_values c_frames set_values].
  destruct (c_frames c) as [|f rest] eqn:EF; [contradiction|].
  destruct (Nat.leb_spec (length (v :: c_values c)) (f_base f)) as [L|L]; [cbn [length] in L; lia|].
  f_equal. f_equal. destruct c; cbn in *. subst. reflexivity.
Qed.

Lemma frames_push c v : c_frames (push_value c v) = c_frames c. Proof. reflexivity. Qed.
Lemma can_suspend_push c v : c_can_suspend (push_value c v) = c_can_suspend c. Proof. reflexivity. Qed.

(* The value a finished scope yields is nil when its part of the stack is empty: every behaviour that takes the value does on an
   empty part exactly what it does when the part holds a nil.  (With the switch on - the code before the repair - it logged
   CallstackFoundNoValue instead; see exit_value_missing_logs below.) *)
Lemma enact_empty_is_nil b r c : exit_value_missing r = false -> takes_value b = true -> region_empty c ->
  enact b r c = enact b r (push_value c VNil).
Proof.
  intros SW TV RE. pose proof (pop_none_of_empty c RE) as PN. pose proof (pop_push_of_empty c VNil RE) as PP.
  destruct b as [arr idx cnt|loops m cnd body|var tt step|arr idx|arr out idx|arr out idx|arr idx| |sw|cnt]; try discriminate TV.
  2: destruct m; [|discriminate TV].
  all: cbn [enact]; rewrite PN, PP, SW; reflexivity.
Qed.

Lemma out_now r : r_out (snd (now r)) = r_out r. Proof. reflexivity. Qed.
Lemma sw_logmsg r d : exit_value_missing (logmsg r d) = exit_value_missing r.
Proof. unfold logmsg, exit_value_missing, defect. destruct (Z.leb (fst d) 1); reflexivity. Qed.

Definition no_value_event : event := EDiag (fst d_CallstackFoundNoValue) (snd d_CallstackFoundNoValue).

(* ... and before the repair it did: on an empty part every value-taking behaviour logged the error *)
Lemma exit_value_missing_logs b r c br b' r' c' : exit_value_missing r = true -> takes_value b = true -> region_empty c ->
  (forall n, b <> BWaitUntil n) ->
  enact b r c = Ok (br, b', r', c') -> r_out r' = no_value_event :: r_out r /\ r_err r' = true.
Proof.
  intros SW TV RE NW H. pose proof (pop_none_of_empty c RE) as PN.
  assert (L : forall x, r_out (logmsg x d_CallstackFoundNoValue) = no_value_event :: r_out x /\ r_err (logmsg x d_CallstackFoundNoValue) = true)
    by (intros x; split; reflexivity).
  destruct b as [arr idx cnt|loops m cnd body|var tt step|arr idx|arr out idx|arr out idx|arr idx| |sw|cnt]; try discriminate TV.
  2: destruct m; [|discriminate TV].
  all: cbn [enact] in H; rewrite ?PN, ?SW in H; cbv beta iota in H.
  all: try (exfalso; exact (NW cnt eq_refl)).
  all: repeat match type of H with context [if ?x then _ else _] => destruct x end.
  all: inversion H; subst; apply L.
Qed.

(* C02 - towards the simulation between the reference semantics and the VM model.
   Part 1 (this file + SimProofs.v): straight-line expression code.  A big-step evaluation relation for the
   frame-free expression fragment (literals, variables, arrays, pure operators), shown (a) to be what the
   reference semantics computes (pure_ref, in SimCtl.v) and (b) to be what the VM model computes when it runs the
   compiled code (pure_sim). *)
From Coq Require Import String Ascii.
From Coq Require Import ZArith List Bool.
From SqfVerif Require Import Gen.DiagCodes Gen.Overloads VM.VmDefs VM.VmExec VM.RefSem.
Import ListNotations.
Local Open Scope string_scope.
Local Open Scope list_scope.

(* reference values that have a VM counterpart *)
Fixpoint cv (v:rvalue) : value :=
  match v with
  | RNil | RNone => VNil
  | RNum n => VNum n
  | RBool b => VBool b
  | RStr s => VStr s
  | RArr l => VArr (map cv l)
  | RCode b => VCode (compile_block b)
  | RIf b => VIf b
  | RWhile c => VWhile (compile_block c)
  | RFor x a b st => VFor x a b st
  | RSwitch v => VSwitch (cv v) [] false false
  | RTry b => VExc (compile_block b)
  | RNs s => VNs s
  | RWith s => VWith s end.

(* first-order data: numbers, booleans, strings, arrays of those *)
Fixpoint is_data (v:rvalue) : bool :=
  match v with
  | RNum _ | RBool _ | RStr _ => true
  | RArr l => forallb is_data l
  | _ => false end.

(* the pure operators of the fragment and their meaning (the same arithmetic on both sides) *)
Definition pure_unary (n:string) (v:rvalue) : option rvalue :=
  if String.eqb n "!" then match v with RBool b => Some (RBool (negb b)) | _ => None end
  else if String.eqb n "count" then match v with RArr l => Some (RNum (Z.of_nat (length l))) | _ => None end
  else if String.eqb n "str" then match v with RNil | RNone => None | _ => option_map RStr (rshow true v) end
  else if String.eqb n "-" then
    match v with RNum x => if Z.eqb x 0 then None else if is_int_in_range (- x) then Some (RNum (- x)) else None | _ => None end
  else if String.eqb n "+" then match v with RNum _ | RArr _ => Some v | _ => None end
  else None.
Definition pure_binary (n:string) (l r:rvalue) : option rvalue :=
  if String.eqb n "+" then
    match l, r with
    | RNum x, RNum y => if is_int_in_range (x + y) then Some (RNum (x + y)) else None
    | RArr x, RArr y => Some (RArr (x ++ y))
    | RStr x, RStr y => Some (RStr (append x y))
    | _, _ => None end
  else if String.eqb n "-" then
    match l, r with RNum x, RNum y => if is_int_in_range (x - y) then Some (RNum (x - y)) else None | _, _ => None end
  else if String.eqb n "&&" then match l, r with RBool a, RBool b => Some (RBool (andb a b)) | _, _ => None end
  else if String.eqb n "||" then match l, r with RBool a, RBool b => Some (RBool (orb a b)) | _, _ => None end
  else if String.eqb n "<" then match l, r with RNum x, RNum y => Some (RBool (Z.ltb x y)) | _, _ => None end
  else if String.eqb n ">" then match l, r with RNum x, RNum y => Some (RBool (Z.gtb x y)) | _, _ => None end
  else if String.eqb n "<=" then match l, r with RNum x, RNum y => Some (RBool (Z.leb x y)) | _, _ => None end
  else if String.eqb n ">=" then match l, r with RNum x, RNum y => Some (RBool (Z.geb x y)) | _, _ => None end
  else if String.eqb n "*" then
    match l, r with
    | RNum x, RNum y => if andb (Z.eqb (x * y) 0) (orb (Z.ltb x 0) (Z.ltb y 0)) then None
                        else if is_int_in_range (x * y) then Some (RNum (x * y)) else None
    | _, _ => None end
  else if String.eqb n "==" then
    match l, r with RNum _, RNum _ | RBool _, RBool _ | RStr _, RStr _ => Some (RBool (req false l r)) | _, _ => None end
  else if String.eqb n "!=" then
    match l, r with RNum _, RNum _ | RBool _, RBool _ | RStr _, RStr _ => Some (RBool (negb (req false l r))) | _, _ => None end
  else if String.eqb n "isequalto" then
    match l, r with
    | RNil, _ | RNone, _ | _, RNil | _, RNone => None
    | _, _ => match rshow true l, rshow true r with Some _, Some _ => Some (RBool (req true l r)) | _, _ => None end end
  else None.

(* case analysis on a definition by cases that is known to yield a value; a test of the operator's name settles the name, any other
   test is kept as an equation *)
Ltac crack H := repeat (first [ progress cbv beta iota in H
                              | match type of H with (if String.eqb ?n ?k then _ else _) = _ => destruct (String.eqb_spec n k) as [->|_] end
                              | match type of H with match ?x with _ => _ end = _ => let E := fresh "E" in destruct x eqn:E end ];
                        try discriminate H).

(* the one name a program must not use for a variable of its own: the switch construct keeps its bookkeeping in the frame's variable
   of that name (ops_generic.cpp: "___switch"); the frames match the reference scopes on every other name *)
Definition hidden (k:string) : bool := String.eqb k "___switch".

(* big-step evaluation of a frame-free expression in a fixed environment: [loc] resolves local names, [glob] global ones *)
Inductive pev (loc glob : string -> option rvalue) : expr -> rvalue -> Prop :=
| PNum n : pev loc glob (ENum n) (RNum n)
| PBool b : pev loc glob (EBool b) (RBool b)
| PStr s : pev loc glob (EStr s) (RStr s)
| PVarL n v : is_local n = true -> hidden (lower n) = false -> loc (lower n) = Some v -> is_data v = true -> pev loc glob (EVar n) v
| PVarG n v : is_local n = false -> glob (lower n) = Some v -> is_data v = true -> pev loc glob (EVar n) v
| PArr l vs : pevs loc glob l vs -> pev loc glob (EArr l) (RArr vs)
| PUn n a va v : (forall k, a <> ENum k) -> pev loc glob a va -> pure_unary (lower n) va = Some v -> pev loc glob (EUnary n a) v
| PBin n a b va vb v : pev loc glob a va -> pev loc glob b vb -> pure_binary (lower n) va vb = Some v -> pev loc glob (EBinary n a b) v
with pevs (loc glob : string -> option rvalue) : list expr -> list rvalue -> Prop :=
| PNil : pevs loc glob [] []
| PCons e v l vs : pev loc glob e v -> pevs loc glob l vs -> pevs loc glob (e :: l) (v :: vs).

Scheme pev_ind2 := Induction for pev Sort Prop
  with pevs_ind2 := Induction for pevs Sort Prop.
Combined Scheme pev_pevs_ind from pev_ind2, pevs_ind2.

(* the machine is in a state in which execute_do keeps going: running, no exit request, no error pending, no deadline,
   the current context not suspended *)
Definition Good (r:rt) (c:context) : Prop :=
  cur r = Some c /\ r_exit_req r = false /\ r_state r = StRunning /\ r_err r = false /\ r_msgs r = [] /\
  r_max_runtime r = 0%Z /\ c_suspended c = false.

(* the configuration of the machine - loop cap, time limit, slice length, tick, defect switches - is not touched *)
Definition cfg_same (r r1:rt) : Prop :=
  r_max_loop r1 = r_max_loop r /\ r_max_runtime r1 = r_max_runtime r /\ r_slice r1 = r_slice r /\
  r_tick r1 = r_tick r /\ r_defects r1 = r_defects r.

(* one or more passes of execute_do's loop that neither return nor fail (and leave the configuration alone) *)
Inductive Steps : rt -> rt -> Prop :=
| StepsRefl r : Steps r r
| StepsExec r r1 r2 : do_iter r = Ok (Executed r1) -> cfg_same r r1 -> Steps r1 r2 -> Steps r r2
| StepsCont r r1 r2 : do_iter r = Ok (Continue r1) -> cfg_same r r1 -> Steps r1 r2 -> Steps r r2.

Lemma cfg_refl r : cfg_same r r. Proof. unfold cfg_same. auto. Qed.
Lemma cfg_trans a b c : cfg_same a b -> cfg_same b c -> cfg_same a c.
Proof. unfold cfg_same. intros (A1 & A2 & A3 & A4 & A5) (B1 & B2 & B3 & B4 & B5). repeat split; congruence. Qed.
Lemma cfg_upd_cur r c : cfg_same r (upd_cur r c).
Proof. unfold cfg_same, upd_cur. destruct (r_active r); cbn; auto. Qed.
Lemma steps_cfg r r' : Steps r r' -> cfg_same r r'.
Proof. induction 1; [apply cfg_refl|eapply cfg_trans; eassumption|eapply cfg_trans; eassumption]. Qed.
Lemma steps_exec_upd r c : do_iter r = Ok (Executed (upd_cur r c)) -> Steps r (upd_cur r c).
Proof. intros H. eapply StepsExec; [exact H|apply cfg_upd_cur|apply StepsRefl]. Qed.
Lemma steps_cont_upd r c : do_iter r = Ok (Continue (upd_cur r c)) -> Steps r (upd_cur r c).
Proof. intros H. eapply StepsCont; [exact H|apply cfg_upd_cur|apply StepsRefl]. Qed.

(* C04 - runtime errors are never silent, skipped or leaked: proofs about the shared VM model
   (VM/VmDefs.v, VM/VmExec.v).  What an instruction or an exit behaviour can do to the event list and the flag is in
   VM/C04Shape.v.  do_iter_pass / pass_do_iter say that one pass of execute_do's loop is one of the cases of `pass`
   (C04Defs.v): do_iter_pass is to do_iter what the inversion lemmas of VM/OpEffect.v are to the dispatch functions, and a
   property of every pass is shown by cases on `pass`; each case carries the equations of frame_next, exec_instr and
   on_error to which frame_next_inv, exec_instr_inv (OpEffect.v) and on_error_spec (below) apply. *)
From Coq Require Import String Ascii.
From Coq Require Import ZArith List Bool Lia.
From SqfVerif Require Import Gen.DiagCodes VM.VmDefs VM.VmExec VM.VmFacts VM.C04Defs VM.C04Shape.
Import ListNotations.
Local Open Scope list_scope.

Opaque frame_fuel exec_fuel.

(* do_iter in two named pieces, so that the case analysis below works on small terms: what it does with the instruction that
   frame.next() left current (deadline test, execution, error handling) ... *)
Definition run_instr (r1:rt) (c1:context) : res iter :=
  match current_instr c1 with
  | None => UB "frame.current() dereferenced at the end of the instruction set"
  | Some i =>
      let '(expired, r2) := deadline_test r1 in
      if expired then Ok (Return RRuntimeError (expired_machine r2 c1))
      else bindr (exec_instr i r2 c1) (fun '(r3, c5) =>
             let r4 := upd_cur r3 c5 in
             if negb (r_err r4) then Ok (Executed (set_msgs r4 []))
             else bindr (on_error r4) (fun '(recovered, r5) =>
                    if recovered then Ok (Executed r5) else Ok (Return RRuntimeError r5))) end.
(* ... and with the answer (fr, r1, c1) of frame.next() *)
Definition after_next (r:rt) (c:context) (fr:fres) (r1:rt) (c1:context) : res iter :=
  if r_err r1 then
    bindr (on_error (upd_cur r1 c1)) (fun '(recovered, r2) => if recovered then Ok (Continue r2) else Ok (Return RRuntimeError r2))
  else match fr with
       | FRestarted =>
           let '(expired, r2) := deadline_test r1 in
           if expired then Ok (Return RRuntimeError (expired_machine r2 c1)) else Ok (Executed (upd_cur r2 c1))
       | FDone => if Nat.eqb (length (c_frames c1)) (length (c_frames c)) then Ok (Continue (upd_cur r1 (complete_frame r c1)))
                  else run_instr r1 c1
       | FOk => run_instr r1 c1 end.

Lemma do_iter_ready : forall r c, ready r c ->
  do_iter r = bindr (frame_next frame_fuel r c) (fun '(fr, r1, c1) => after_next r c fr r1 c1).
Proof.
  intros r c [Ex [Ec [Es [Ef St]]]]. unfold do_iter. rewrite Ex, Ec, Es, St.
  destruct (c_frames c) as [|f0 fs] eqn:E; [congruence|]. rewrite <- E.
  destruct (frame_next frame_fuel r c) as [[[fr r1] c1]| | |]; try reflexivity. cbn [bindr]. unfold after_next.
  destruct (r_err r1); [reflexivity|]. destruct fr; reflexivity.
Qed.

Lemma after_next_fetches : forall r c fr r1 c1, r_err r1 = false -> fetches fr c c1 -> after_next r c fr r1 c1 = run_instr r1 c1.
Proof.
  intros r c fr r1 c1 Ee Hf. unfold after_next. rewrite Ee. destruct Hf as [-> | [-> Hl]]; [reflexivity|].
  apply Nat.eqb_neq in Hl. rewrite Hl. reflexivity.
Qed.

(* the deadline test reads the clock, when a limit is set, and does nothing else *)
Lemma deadline_test_inv : forall r e r2, deadline_test r = (e, r2) -> r2 = r \/ exists t, now r = (t, r2).
Proof.
  intros r e r2. unfold deadline_test. destruct (Z.eqb (r_max_runtime r) 0); [intros [= _ <-]; left; reflexivity|].
  destruct (now r) as [t r'']. intros [= _ <-]. right. exists t. reflexivity.
Qed.

Lemma do_iter_pass : forall r it, do_iter r = Ok it -> pass r it.
Proof.
  intros r it H.
  destruct (r_exit_req r) eqn:Ex. { unfold do_iter in H. rewrite Ex in H. injection H as <-. apply PExitRequested; assumption. }
  destruct (cur r) as [c|] eqn:Ec; [|unfold do_iter in H; rewrite Ex, Ec in H; discriminate H].
  destruct (c_suspended c) eqn:Es. { unfold do_iter in H. rewrite Ex, Ec, Es in H. injection H as <-. eapply PSuspended; eassumption. }
  destruct (c_frames c) as [|f0 rest] eqn:Ef. { unfold do_iter in H. rewrite Ex, Ec, Es, Ef in H. injection H as <-. eapply PEmpty; eassumption. }
  assert (Hne: c_frames c <> []) by (rewrite Ef; discriminate). clear Ef f0 rest.
  destruct (r_state r) eqn:St;
    try (unfold do_iter in H; rewrite Ex, Ec, Es, St in H; destruct (c_frames c) eqn:Ef; [congruence|];
         injection H as <-; eapply PNotRunning; try eassumption; [rewrite Ef|rewrite St]; discriminate).
  assert (Hr: ready r c) by (unfold ready; auto).
  rewrite (do_iter_ready r c Hr) in H.
  destruct (frame_next frame_fuel r c) as [[[fr r1] c1]| | |] eqn:En; cbn [bindr] in H; try discriminate H.
  unfold after_next in H. destruct (r_err r1) eqn:Ee1.
  { destruct (on_error (upd_cur r1 c1)) as [[b r2]| | |] eqn:Eo; cbn [bindr] in H; try discriminate H.
    replace it with (if b then Continue r2 else Return RRuntimeError r2) by (destruct b; injection H as <-; reflexivity).
    apply (PBehaviourError r c fr r1 c1 b r2); assumption. }
  assert (Hinstr: fetches fr c c1 -> run_instr r1 c1 = Ok it -> pass r it).
  { intros Hf G. unfold run_instr in G. destruct (current_instr c1) as [i|] eqn:Ei; [|discriminate G].
    destruct (deadline_test r1) as [expired r2] eqn:Ed.
    destruct expired. { injection G as <-. eapply PExpired; eassumption. }
    destruct (exec_instr i r2 c1) as [[r3 c5]| | |] eqn:Ex2; cbn [bindr] in G; try discriminate G.
    cbv zeta in G. destruct (r_err (upd_cur r3 c5)) eqn:Ee4; cbn [negb] in G.
    - destruct (on_error (upd_cur r3 c5)) as [[b r5]| | |] eqn:Eo; cbn [bindr] in G; try discriminate G.
      replace it with (if b then Executed r5 else Return RRuntimeError r5) by (destruct b; injection G as <-; reflexivity).
      apply (PInstrError r c fr r1 c1 i r2 r3 c5 b r5); assumption.
    - injection G as <-. eapply PExecuted; eassumption. }
  destruct fr.
  - destruct (Nat.eqb (length (c_frames c1)) (length (c_frames c))) eqn:El.
    + apply Nat.eqb_eq in El. injection H as <-. eapply PCompletion; eassumption.
    + apply Nat.eqb_neq in El. apply Hinstr; [right; split; [reflexivity|assumption]|exact H].
  - apply Hinstr; [left; reflexivity|exact H].
  - destruct (deadline_test r1) as [expired r2] eqn:Ed.
    destruct expired; injection H as <-; [eapply PRestartExpired|eapply PRestarted]; eassumption.
Qed.

Lemma pass_do_iter : forall r it, pass r it -> do_iter r = Ok it.
Proof.
  intros r it P.
  destruct P as [Ex|c Ex Ec Es|c Ex Ec Es Ef|c Ex Ec Es Ef St
                |c fr r1 c1 b r2 Hr En Ee Eo
                |c r1 c1 Hr En Ee El
                |c fr r1 c1 i r2 Hr En Ee Hf Ei Ed
                |c fr r1 c1 i r2 r3 c5 Hr En Ee Hf Ei Ed Ex2 Ee4
                |c fr r1 c1 i r2 r3 c5 b r5 Hr En Ee Hf Ei Ed Ex2 Ee4 Eo
                |c r1 c1 r2 Hr En Ee Ed
                |c r1 c1 r2 Hr En Ee Ed];
    try (rewrite (do_iter_ready r c Hr), En; cbn [bindr]).
  - unfold do_iter. rewrite Ex. reflexivity.
  - unfold do_iter. rewrite Ex, Ec, Es. reflexivity.
  - unfold do_iter. rewrite Ex, Ec, Es, Ef. reflexivity.
  - unfold do_iter. rewrite Ex, Ec, Es. destruct (c_frames c); [congruence|]. destruct (r_state r); try reflexivity. congruence.
  - unfold after_next. rewrite Ee, Eo. cbn [bindr]. destruct b; reflexivity.
  - unfold after_next. rewrite Ee, El, Nat.eqb_refl. reflexivity.
  - rewrite (after_next_fetches r c fr r1 c1 Ee Hf). unfold run_instr. rewrite Ei, Ed. reflexivity.
  - rewrite (after_next_fetches r c fr r1 c1 Ee Hf). unfold run_instr. rewrite Ei, Ed, Ex2. cbn [bindr]. cbv zeta. rewrite Ee4. reflexivity.
  - rewrite (after_next_fetches r c fr r1 c1 Ee Hf). unfold run_instr. rewrite Ei, Ed, Ex2. cbn [bindr]. cbv zeta. rewrite Ee4. cbn [negb].
    rewrite Eo. cbn [bindr]. destruct b; reflexivity.
  - unfold after_next. rewrite Ee, Ed. reflexivity.
  - unfold after_next. rewrite Ee, Ed. reflexivity.
Qed.

Lemma find_handler_some : forall fs s k, find_handler fs s = Some k ->
  s <= k /\ exists f, nth_error fs (k - s) = Some f /\ f_err f <> None /\
  forall j g, j < k - s -> nth_error fs j = Some g -> f_err g = None.
Proof.
  induction fs as [|f fs IH]; intros s k H; cbn in H; [discriminate|].
  destruct (f_err f) eqn:E.
  - injection H as <-. split; [lia|]. exists f. rewrite Nat.sub_diag. cbn. split; [reflexivity|].
    split; [congruence|]. intros j g Hj. lia.
  - apply IH in H. destruct H as [Hle [f' [Hn [He Hb]]]]. split; [lia|]. exists f'.
    replace (k - s) with (S (k - S s)) by lia. cbn. split; [assumption|]. split; [assumption|].
    intros j g Hj Hg. destruct j; cbn in Hg. { injection Hg as <-. assumption. } apply (Hb j); [lia|assumption].
Qed.

Lemma find_handler_none : forall fs s, find_handler fs s = None ->
  forall j g, nth_error fs j = Some g -> f_err g = None.
Proof.
  induction fs as [|f fs IH]; intros s H j g Hg; [destruct j; discriminate|].
  cbn in H. destruct (f_err f) eqn:E; [discriminate|].
  destruct j; cbn in Hg. { injection Hg as <-. assumption. } eapply IH; eassumption.
Qed.

Lemma accepts_not_declines : forall r f, accepts r f -> declines r f -> False.
Proof.
  intros r f A D. unfold accepts, declines in *. destruct (f_err f) as [[h|h ex]|]; congruence.
Qed.

Lemma accepts_or_declines : forall r f, accepts r f \/ declines r f.
Proof.
  intros r f. unfold accepts, declines. destruct (f_err f) as [[h|h ex]|]; auto.
  - destruct (r_err r); auto.
  - destruct ex; auto.
Qed.

(* frame::recover_runtime_error of the frame at depth k: a declining frame changes nothing, an
   accepting one is switched to its handler with _exception bound and its behaviour uninstalled *)
Lemma err_enact_spec : forall r c k f, nth_error (c_frames c) k = Some f ->
  (declines r f -> err_enact r c k = Ok (true, r, c)) /\
  (accepts r f -> exists c' exc, err_enact r c k = Ok (false, r, c') /\
      c_frames c' = list_upd (c_frames c) k (handler_frame f exc) /\
      match pop_value c with Some (v, _) => exc = exception_value f v | None => exc = VNil end).
Proof.
  intros r c k f Hn. unfold err_enact, accepts, declines, handler_frame, handler_code, exception_value. rewrite Hn.
  destruct (f_err f) as [[h|h ex]|] eqn:E.
  - split; intros H; rewrite H; [reflexivity|].
    destruct (pop_value c) as [[v c1]|] eqn:Ep.
    + pose proof (pop_value_frames _ _ _ Ep) as Ef.
      eexists. exists (match v with VTrace x => x | _ => VNil end). split; [reflexivity|]. cbn [c_frames set_frames].
      rewrite frames_clear_values, Ef. split; reflexivity.
    + eexists. exists VNil. split; [reflexivity|]. cbn [c_frames set_frames]. rewrite frames_clear_values. split; reflexivity.
  - split; intros H; rewrite H; [reflexivity|].
    destruct (pop_value c) as [[v c1]|] eqn:Ep.
    + pose proof (pop_value_frames _ _ _ Ep) as Ef.
      eexists. exists v. split; [reflexivity|]. cbn [c_frames set_frames]. rewrite frames_clear_values, Ef. split; reflexivity.
    + eexists. exists VNil. split; [reflexivity|]. cbn [c_frames set_frames]. rewrite frames_clear_values. split; reflexivity.
  - split; intros H; [reflexivity|contradiction].
Qed.

(* the state handle_runtime_error builds before asking frame k: stack trace value pushed, frames above k popped *)
Definition offer (c:context) (msgs:list (Z*Z)) (k:nat) : context :=
  set_frames (push_value c (messages_value msgs)) (skipn k (c_frames (push_value c (messages_value msgs)))).

Lemma offer_frames : forall c msgs k, c_frames (offer c msgs k) = skipn k (c_frames c).
Proof. reflexivity. Qed.
Lemma offer_values : forall c msgs k, c_values (offer c msgs k) = messages_value msgs :: c_values c.
Proof. reflexivity. Qed.

Lemma offer_pop : forall c msgs k f, nth_error (c_frames c) k = Some f ->
  (f_base f <= length (c_values c) -> exists c', pop_value (offer c msgs k) = Some (messages_value msgs, c')) /\
  (forall v c', pop_value (offer c msgs k) = Some (v, c') -> v = messages_value msgs /\ c_frames c' = skipn k (c_frames c) /\ c_values c' = c_values c).
Proof.
  intros c msgs k f Hn. unfold pop_value. rewrite offer_frames, offer_values, (skipn_nth _ _ _ Hn). split.
  - intros Hb. cbn [length]. destruct (Nat.leb (S (length (c_values c))) (f_base f)) eqn:E.
    + apply Nat.leb_le in E. lia.
    + eexists. reflexivity.
  - intros v c' H. destruct (Nat.leb (length (messages_value msgs :: c_values c)) (f_base f)); [discriminate|].
    injection H as <- <-. cbn. rewrite (skipn_nth _ _ _ Hn). auto.
Qed.

(* one round of handle_runtime_error's search, from frame `skip` on: the nearest frame k with a behaviour is offered the
   error; what lies between has none.  If it accepts the search ends: everything above it is gone, it runs its handler from
   the start with _exception bound, and its behaviour is uninstalled.  If it declines the search goes on below it. *)
Lemma handle_error_step : forall fuel r c msgs skip k, find_handler (skipn skip (c_frames c)) skip = Some k ->
  exists f, skip <= k /\ nth_error (c_frames c) k = Some f /\
    (forall j g, skip <= j < k -> nth_error (c_frames c) j = Some g -> declines r g) /\
    ((accepts r f /\ exists c' exc, handle_error (S fuel) r c msgs skip = Ok (true, r, c') /\
        c_frames c' = handler_frame f exc :: skipn (S k) (c_frames c) /\
        (exc = exception_value f (messages_value msgs) \/ exc = VNil) /\
        (f_base f <= length (c_values c) -> exc = exception_value f (messages_value msgs)))
     \/
     (declines r f /\ exists c4, handle_error (S fuel) r c msgs skip = handle_error fuel r c4 msgs 1 /\
        c_frames c4 = skipn k (c_frames c) /\ length (c_values c) <= length (c_values c4))).
Proof.
  intros fuel r c msgs skip k Ef. cbn [handle_error]. rewrite Ef.
  apply find_handler_some in Ef. destruct Ef as [Hle [f [Hn [He Hb]]]].
  rewrite nth_error_skipn' in Hn. replace (skip + (k - skip)) with k in Hn by lia.
  fold (messages_value msgs). fold (offer c msgs k).
  exists f. split; [exact Hle|]. split; [exact Hn|]. split.
  { intros j g Hj Hg. unfold declines. rewrite (Hb (j - skip) g); [trivial|lia|].
    rewrite nth_error_skipn'. replace (skip + (j - skip)) with j by lia. assumption. }
  assert (Hn0: nth_error (c_frames (offer c msgs k)) 0 = Some f).
  { rewrite offer_frames, (skipn_nth _ _ _ Hn). reflexivity. }
  destruct (err_enact_spec r (offer c msgs k) 0 f Hn0) as [Hd Ha].
  destruct (accepts_or_declines r f) as [A|D]; [left|right]; (split; [assumption|]).
  - destruct (Ha A) as [c2 [exc [E [Efr Eexc]]]]. rewrite E. cbn [bindr]. exists c2, exc. split; [reflexivity|]. split; [|split].
    + rewrite Efr, offer_frames, (skipn_nth _ _ _ Hn). reflexivity.
    + destruct (pop_value (offer c msgs k)) as [[v c3]|] eqn:Ep; [|right; assumption].
      apply (offer_pop c msgs k f Hn) in Ep. destruct Ep as [-> _]. left. assumption.
    + intros Hbase. destruct (proj1 (offer_pop c msgs k f Hn) Hbase) as [c3 Ep]. rewrite Ep in Eexc. assumption.
  - rewrite (Hd D). cbn [bindr]. eexists. split; [reflexivity|].
    destruct (pop_value (offer c msgs k)) as [[v c3]|] eqn:Ep.
    + apply (offer_pop c msgs k f Hn) in Ep. destruct Ep as [_ [-> ->]]. auto.
    + rewrite offer_frames, offer_values. cbn. auto.
Qed.

(* the outcome of the whole search: a taker is the nearest frame that accepts; without one every frame from `skip` on has no
   handler or declined *)
Lemma handle_error_spec : forall fuel r c msgs skip b r' c', handle_error fuel r c msgs skip = Ok (b, r', c') ->
  r' = r /\
  if b then
    exists K f exc, skip <= K /\ nth_error (c_frames c) K = Some f /\ accepts r f /\
      (forall j g, skip <= j < K -> nth_error (c_frames c) j = Some g -> declines r g) /\
      c_frames c' = handler_frame f exc :: skipn (S K) (c_frames c) /\
      (exc = exception_value f (messages_value msgs) \/ exc = VNil) /\
      (f_base f <= length (c_values c) -> exc = exception_value f (messages_value msgs))
  else forall j g, skip <= j -> nth_error (c_frames c) j = Some g -> declines r g.
Proof.
  induction fuel as [|fuel IH]; intros r c msgs skip b r' c' H; [discriminate|].
  destruct (find_handler (skipn skip (c_frames c)) skip) as [k|] eqn:Ef.
  2:{ cbn [handle_error] in H. rewrite Ef in H. injection H as <- <- _. split; [reflexivity|]. intros j g Hj Hg. unfold declines.
      rewrite (find_handler_none _ _ Ef (j - skip) g); [trivial|].
      rewrite nth_error_skipn'. replace (skip + (j - skip)) with j by lia. assumption. }
  destruct (handle_error_step fuel r c msgs skip k Ef) as [f [Hle [Hn [Habove [[A [c2 [exc [E [Hfr [Hor Hbase]]]]]]|[D [c4 [E [Hfr4 Hlen]]]]]]]]];
    rewrite E in H.
  - injection H as <- <- <-. split; [reflexivity|]. exists k, f, exc. auto 8.
  - apply IH in H. destruct H as [-> H]. split; [reflexivity|]. rewrite Hfr4 in H.
    (* frame j of c4 is frame k + j of c *)
    assert (Hdecl : forall K', (forall j g, 1 <= j < K' -> nth_error (skipn k (c_frames c)) j = Some g -> declines r g) ->
              forall j g, skip <= j < k + K' -> nth_error (c_frames c) j = Some g -> declines r g).
    { intros K' Hd j g Hj Hg. destruct (Nat.lt_ge_cases j k) as [Hlt|Hge]; [apply (Habove j g); [lia|assumption]|].
      destruct (Nat.eq_dec j k) as [->|Hneq]. { rewrite Hn in Hg. injection Hg as <-. assumption. }
      apply (Hd (j - k)); [lia|]. rewrite nth_error_skipn'. replace (k + (j - k)) with j by lia. assumption. }
    destruct b.
    + destruct H as [K' [f' [exc [HK [Hn' [A' [Hdec [Hfr [Hor Hbase]]]]]]]]]. rewrite nth_error_skipn' in Hn'.
      exists (k + K'), f', exc. split; [lia|]. split; [exact Hn'|]. split; [exact A'|]. split; [exact (Hdecl K' Hdec)|].
      split; [|split; [exact Hor|intros Hb'; apply Hbase; lia]].
      rewrite Hfr, skipn_skipn_add. replace (S K' + k) with (S (k + K')) by lia. reflexivity.
    + intros j g Hj Hg. refine (Hdecl (S j - k) _ j g _ Hg); [|lia]. intros j' g' Hj' Hg'. apply (H j' g'); [lia|exact Hg'].
Qed.

(* the search always ends with an answer when it is given the fuel on_error gives it *)
Lemma handle_error_total : forall fuel r c msgs skip, skip <= 1 ->
  length (c_frames c) + 2 <= fuel + skip ->
  exists b c', handle_error fuel r c msgs skip = Ok (b, r, c').
Proof.
  induction fuel as [|fuel IH]; intros r c msgs skip Hs Hf; [lia|].
  destruct (find_handler (skipn skip (c_frames c)) skip) as [k|] eqn:Ef; [|cbn [handle_error]; rewrite Ef; eauto].
  destruct (handle_error_step fuel r c msgs skip k Ef) as [f [Hle [Hn [_ [[_ [c2 [exc [E _]]]]|[_ [c4 [E [Hfr4 _]]]]]]]]]; rewrite E; [eauto|].
  assert (Hk: k < length (c_frames c)) by (apply nth_error_Some; congruence).
  apply IH; [lia|]. rewrite Hfr4, skipn_length. lia.
Qed.

Lemma declines_msgs : forall r m g, declines (set_msgs r m) g = declines r g.
Proof. reflexivity. Qed.
Lemma accepts_msgs : forall r m g, accepts (set_msgs r m) g = accepts r g.
Proof. reflexivity. Qed.

Definition after_handled (r:rt) (c2:context) : rt := set_errflag (upd_cur (set_msgs r []) c2) false.
Definition after_unhandled (r:rt) (c2:context) : rt := set_errflag (logmsg (upd_cur (set_msgs r []) c2) d_Stacktrace) false.

Lemma on_error_spec : forall r c, cur r = Some c ->
  exists b c2, handle_error (S (S (length (c_frames c)))) (set_msgs r []) c (r_msgs r) 0 = Ok (b, set_msgs r [], c2) /\
    on_error r = Ok (b, if b then after_handled r c2 else after_unhandled r c2).
Proof.
  intros r c H. unfold on_error. change (cur (set_msgs r [])) with (cur r). rewrite H.
  destruct (handle_error_total (S (S (length (c_frames c)))) (set_msgs r []) c (r_msgs r) 0) as [b [c2 E]]; [lia|lia|].
  exists b, c2. split; [exact E|]. rewrite E. cbn [bindr]. destruct b; reflexivity.
Qed.

Lemma on_error_cur : forall r b r', on_error r = Ok (b, r') -> exists c, cur r = Some c.
Proof.
  intros r b r' H. unfold on_error in H. change (cur (set_msgs r [])) with (cur r) in H.
  destruct (cur r) as [c|]; [eauto|discriminate].
Qed.

Lemma on_error_clears_flag : forall r b r', on_error r = Ok (b, r') -> r_err r' = false.
Proof.
  intros r b r' H. destruct (on_error_cur _ _ _ H) as [c Hc].
  destruct (on_error_spec r c Hc) as [b0 [c2 [_ E]]]. rewrite E in H. injection H as <- <-.
  destruct b0; reflexivity.
Qed.

(* no taker: the fatal stack trace diagnostic is logged and nothing else; every frame of the active
   context had no handler or declined *)
Lemma on_error_unhandled : forall r r', on_error r = Ok (false, r') ->
  r_err r' = false /\ r_out r' = ev_of d_Stacktrace :: r_out r /\
  forall c, cur r = Some c -> forall j g, nth_error (c_frames c) j = Some g -> declines r g.
Proof.
  intros r r' H. destruct (on_error_cur _ _ _ H) as [c Hc].
  destruct (on_error_spec r c Hc) as [b0 [c2 [Eh E]]]. rewrite E in H. injection H as Hb0 <-. subst b0.
  split; [reflexivity|]. split.
  - unfold after_unhandled. cbn. rewrite out_upd_cur. reflexivity.
  - intros c0 Hc0 j g Hg. rewrite Hc in Hc0. injection Hc0 as <-.
    apply handle_error_spec in Eh. destruct Eh as [_ Hd]. rewrite <- (declines_msgs r [] g). apply (Hd j g); [lia|assumption].
Qed.

(* a taker: nothing is logged, the flag and the messages are consumed, and the active context is
   now running the handler of the nearest accepting frame *)
Lemma on_error_handled : forall r r', on_error r = Ok (true, r') ->
  r_err r' = false /\ r_msgs r' = [] /\ r_out r' = r_out r /\
  exists c c', cur r = Some c /\ cur r' = Some c' /\
  exists K f exc, nth_error (c_frames c) K = Some f /\ accepts r f /\
    (forall j g, j < K -> nth_error (c_frames c) j = Some g -> declines r g) /\
    c_frames c' = handler_frame f exc :: skipn (S K) (c_frames c) /\
    (exc = exception_value f (messages_value (r_msgs r)) \/ exc = VNil) /\
    (f_base f <= length (c_values c) -> exc = exception_value f (messages_value (r_msgs r))).
Proof.
  intros r r' H. destruct (on_error_cur _ _ _ H) as [c Hc].
  destruct (on_error_spec r c Hc) as [b0 [c2 [Eh E]]]. rewrite E in H. injection H as Hb0 <-. subst b0.
  split; [reflexivity|]. split. { unfold after_handled. cbn. rewrite msgs_upd_cur. reflexivity. }
  split. { unfold after_handled. cbn. rewrite out_upd_cur. reflexivity. }
  exists c, c2. split; [assumption|]. split.
  { unfold after_handled. change (cur (set_errflag (upd_cur (set_msgs r []) c2) false)) with (cur (upd_cur (set_msgs r []) c2)).
    eapply cur_upd_cur. change (cur (set_msgs r [])) with (cur r). eassumption. }
  apply handle_error_spec in Eh. destruct Eh as [_ [K [f [exc [_ [Hn [A [Hd [Hfr [Hor Hb]]]]]]]]]].
  exists K, f, exc. rewrite accepts_msgs in A. repeat split; try assumption.
  intros j g Hj Hg. rewrite <- (declines_msgs r [] g). apply (Hd j g); [lia|assumption].
Qed.

Lemma all_decline_unhandled : forall r c, cur r = Some c ->
  (forall j g, nth_error (c_frames c) j = Some g -> declines r g) ->
  exists r', on_error r = Ok (false, r').
Proof.
  intros r c Hc Hd. destruct (on_error_spec r c Hc) as [b [c2 [Eh E]]]. destruct b; [|eauto].
  exfalso. apply handle_error_spec in Eh. destruct Eh as [_ [K [f [exc [_ [Hn [A _]]]]]]].
  rewrite accepts_msgs in A. eapply accepts_not_declines; [exact A|]. eapply Hd. eassumption.
Qed.

(* a try-catch frame never takes a runtime error (the flag is set while it is asked), it takes a throw *)
Lemma catch_frame_declines_runtime_error : forall r f h, f_err f = Some (ECatch h) -> r_err r = true -> declines r f.
Proof. intros r f h E H. unfold declines. rewrite E. assumption. Qed.
Lemma catch_frame_accepts_throw : forall r f h, f_err f = Some (ECatch h) -> r_err r = false -> accepts r f.
Proof. intros r f h E H. unfold accepts. rewrite E. assumption. Qed.

Lemma execute_do_return : forall fuel r ea x rF, r_exit_req r = false -> do_iter r = Ok (Return x rF) ->
  execute_do (S fuel) r (S ea) = Ok (x, rF).
Proof. intros fuel r ea x rF Hx H. cbn [execute_do]. rewrite Hx, H. reflexivity. Qed.

Lemma raised_pass : forall r c rE b rF, ready r c -> raised_in_pass r c rE -> on_error rE = Ok (b, rF) ->
  (b = false -> pass r (Return RRuntimeError rF)) /\
  (b = true -> pass r (Continue rF) \/ pass r (Executed rF)).
Proof.
  intros r c rE b rF Hr Hraise Ho. destruct Hraise as [fr r1 c1 En Ee|fr r1 c1 i r2 r3 c5 En Ee Hf Ei Ed Ex Ee4].
  - pose proof (PBehaviourError r c fr r1 c1 b rF Hr En Ee Ho) as P. split; intros ->; [exact P|left; exact P].
  - pose proof (PInstrError r c fr r1 c1 i r2 r3 c5 b rF Hr En Ee Hf Ei Ed Ex Ee4 Ho) as P. split; intros ->; [exact P|right; exact P].
Qed.

(* instr_error_stops: the flag was raised in this pass (by the instruction or by the exit behaviour
   inside frame.next()) and no frame of the active context accepts it: this same pass returns
   runtime_error with the fatal stack-trace diagnostic logged, and execute_do returns with it -
   no further instruction of that context is executed by that call *)
Theorem instr_error_stops : forall r c rE cE, ready r c -> raised_in_pass r c rE ->
  cur rE = Some cE -> (forall j g, nth_error (c_frames cE) j = Some g -> declines rE g) ->
  exists rF, do_iter r = Ok (Return RRuntimeError rF) /\
    r_err rF = false /\ r_out rF = ev_of d_Stacktrace :: r_out rE /\
    forall fuel ea, execute_do (S fuel) r (S ea) = Ok (RRuntimeError, rF).
Proof.
  intros r c rE cE Hr Hraise Hc Hd. destruct (all_decline_unhandled rE cE Hc Hd) as [rF Ho].
  exists rF. destruct (raised_pass r c rE false rF Hr Hraise Ho) as [P _]. specialize (P eq_refl).
  apply pass_do_iter in P. destruct (on_error_unhandled rE rF Ho) as [He [Hout _]].
  repeat split; try assumption. intros fuel ea. apply execute_do_return; [apply Hr|exact P].
Qed.

(* handler_takes_over_once: frame K of the active context accepts and every frame above it has no
   handler or declines: the pass goes on (no failure is reported, nothing is logged), the frames above K
   are gone, frame K runs its handler code from position 0 with _exception bound, its error behaviour is
   uninstalled, the flag and the messages are consumed *)
Theorem handler_takes_over_once : forall r c rE cE K f, ready r c -> raised_in_pass r c rE ->
  cur rE = Some cE -> nth_error (c_frames cE) K = Some f -> accepts rE f ->
  (forall j g, j < K -> nth_error (c_frames cE) j = Some g -> declines rE g) ->
  exists rF cF exc, (do_iter r = Ok (Continue rF) \/ do_iter r = Ok (Executed rF)) /\
    r_err rF = false /\ r_msgs rF = [] /\ r_out rF = r_out rE /\
    cur rF = Some cF /\
    c_frames cF = handler_frame f exc :: skipn (S K) (c_frames cE) /\
    f_code (handler_frame f exc) = handler_code f /\ f_pos (handler_frame f exc) = 0 /\
    f_vars (handler_frame f exc) = [("_exception"%string, exc)] /\ f_err (handler_frame f exc) = None /\
    (exc = exception_value f (messages_value (r_msgs rE)) \/ exc = VNil) /\
    (f_base f <= length (c_values cE) -> exc = exception_value f (messages_value (r_msgs rE))).
Proof.
  intros r c rE cE K f Hr Hraise Hc Hn A Hd.
  destruct (on_error_spec rE cE Hc) as [b [c2 [Eh Eo]]].
  destruct b.
  2:{ exfalso. apply handle_error_spec in Eh. destruct Eh as [_ Hall].
      eapply accepts_not_declines; [exact A|]. rewrite <- (declines_msgs rE [] f). apply (Hall K f); [lia|assumption]. }
  destruct (on_error_handled rE _ Eo) as [He [Hm [Hout [c0 [c' [Hc0 [Hc' [K' [f' [exc [Hn' [A' [Hd' [Hfr [Hor Hb]]]]]]]]]]]]]]].
  rewrite Hc in Hc0. injection Hc0 as <-.
  assert (K' = K).
  { destruct (Nat.lt_trichotomy K' K) as [Hlt|[Heq|Hgt]]; [|assumption|].
    - exfalso. eapply accepts_not_declines; [exact A'|]. eapply Hd; eassumption.
    - exfalso. eapply accepts_not_declines; [exact A|]. eapply Hd'; eassumption. }
  subst K'. rewrite Hn in Hn'. injection Hn' as <-.
  exists (after_handled rE c2), c', exc.
  destruct (raised_pass r c rE true _ Hr Hraise Eo) as [_ P]. specialize (P eq_refl).
  split. { destruct P as [P|P]; apply pass_do_iter in P; auto. }
  repeat split; assumption.
Qed.

Lemma deadline_keeps : forall r1 e r2, deadline_test r1 = (e, r2) -> r_out r2 = r_out r1 /\ r_err r2 = r_err r1.
Proof.
  intros r1 e r2 H. destruct (deadline_test_inv _ _ _ H) as [->|[t [= _ <-]]]; auto.
Qed.

Theorem do_iter_clears_flag : forall r it, r_err r = false -> do_iter r = Ok it -> r_err (rt_of it) = false.
Proof.
  intros r it He H. apply do_iter_pass in H.
  destruct H as [Ex|c Ex Ec Es|c Ex Ec Es Ef|c Ex Ec Es Ef St
                |c fr r1 c1 b r2 Hr En Ee Eo
                |c r1 c1 Hr En Ee El
                |c fr r1 c1 i r2 Hr En Ee Hf Ei Ed
                |c fr r1 c1 i r2 r3 c5 Hr En Ee Hf Ei Ed Ex2 Ee4
                |c fr r1 c1 i r2 r3 c5 b r5 Hr En Ee Hf Ei Ed Ex2 Ee4 Eo
                |c r1 c1 r2 Hr En Ee Ed
                |c r1 c1 r2 Hr En Ee Ed]; try assumption.
  - apply on_error_clears_flag in Eo. destruct b; exact Eo.
  - cbn [rt_of]. rewrite err_upd_cur. assumption.
  - reflexivity.
  - apply on_error_clears_flag in Eo. destruct b; exact Eo.
  - reflexivity.
  - cbn [rt_of]. rewrite err_upd_cur. destruct (deadline_keeps _ _ _ Ed) as [_ ->]. assumption.
Qed.

Lemma explained_app_r : forall s b, failure_explained s -> failure_explained (s ++ b).
Proof.
  intros s b [x [y [H|[H E]]]]; exists x, (y ++ b); [left|right; split].
  - rewrite H, <- app_assoc. reflexivity.
  - rewrite H, <- app_assoc. reflexivity.
  - rewrite has_err_app, E. reflexivity.
Qed.
Lemma explained_has_err : forall s, failure_explained s -> has_err s = true.
Proof.
  intros s [x [y [H|[H E]]]]; rewrite H, has_err_app; apply orb_true_iff; right; reflexivity.
Qed.

Lemma deadline_ext : forall r1 e r2, deadline_test r1 = (e, r2) -> ext r1 r2.
Proof.
  intros r1 e r2 H. destruct (deadline_test_inv _ _ _ H) as [->|[t N]]; [apply ext_refl|exact (now_ext _ _ _ N)].
Qed.

Lemma ext_flag : forall r r', ext r r' -> r_err r = false ->
  exists s, r_out r' = s ++ r_out r /\ r_err r' = has_err s.
Proof. intros r r' [s [H1 H2]] He. exists s. rewrite He, orb_false_r in H2. auto. Qed.

(* what one pass adds to the event list s (newest first):
   - a pass that returns runtime_error logged the time-limit diagnostic, or the stack trace right
     after the error-level diagnostics of this very pass;
   - a pass that logged an error-level diagnostic either returns runtime_error or a handler took over:
     an error is never silent *)
Definition told (r:rt) (it:iter) (s:list event) : Prop :=
  r_out (rt_of it) = s ++ r_out r /\
  (forall rF, it = Return RRuntimeError rF ->
     exists s', s = ev_of d_MaximumRuntimeReached :: s' \/ (s = ev_of d_Stacktrace :: s' /\ has_err s' = true)) /\
  (has_err s = true ->
     (exists rF, it = Return RRuntimeError rF) \/
     (exists rE, on_error rE = Ok (true, rt_of it) /\ (it = Continue (rt_of it) \/ it = Executed (rt_of it)))).

(* the three ways a pass ends, each from a machine rm that was reached from r by logging only *)
Lemma told_quiet : forall r it rm, r_err r = false -> ext r rm -> r_err rm = false -> r_out (rt_of it) = r_out rm ->
  (forall rF, it <> Return RRuntimeError rF) -> exists s, told r it s.
Proof.
  intros r it rm He E Hm Ho Hit. destruct (ext_flag _ _ E He) as [s [Hs Hf]]. exists s. split; [congruence|].
  split; [intros rF H; destruct (Hit rF H)|intros H; congruence].
Qed.

Lemma told_expired : forall r rm c1, r_err r = false -> ext r rm -> exists s, told r (Return RRuntimeError (expired_machine rm c1)) s.
Proof.
  intros r rm c1 He E. destruct (ext_flag _ _ E He) as [s [Hs _]]. exists (ev_of d_MaximumRuntimeReached :: s). split.
  { unfold expired_machine. cbn. rewrite out_upd_cur, Hs. reflexivity. }
  split; [|intros _; left; eauto]. intros rF _. exists s. left. reflexivity.
Qed.

Lemma told_raised : forall r rm cm b r2 (k:rt -> iter), k = Continue \/ k = Executed -> r_err r = false -> ext r rm -> r_err rm = true ->
  on_error (upd_cur rm cm) = Ok (b, r2) -> exists s, told r (if b then k r2 else Return RRuntimeError r2) s.
Proof.
  intros r rm cm b r2 k Hk He E Hm Eo. destruct (ext_flag _ _ E He) as [s [Hs Hf]]. rewrite Hm in Hf. destruct b.
  - destruct (on_error_handled _ _ Eo) as [_ [_ [Hout _]]]. rewrite out_upd_cur in Hout.
    exists s. unfold told. replace (rt_of (k r2)) with r2 by (destruct Hk as [-> | ->]; reflexivity).
    split; [congruence|]. split; [intros rF H; destruct Hk as [-> | ->]; discriminate H|].
    intros _. right. exists (upd_cur rm cm). destruct Hk as [-> | ->]; auto.
  - destruct (on_error_unhandled _ _ Eo) as [_ [Hout _]]. rewrite out_upd_cur in Hout.
    exists (ev_of d_Stacktrace :: s). split; [cbn [rt_of]; rewrite Hout, Hs; reflexivity|].
    split; [|intros _; left; eauto]. intros rF _. exists s. right. auto.
Qed.

Theorem pass_events : forall r it, r_err r = false -> pass r it -> exists s, told r it s.
Proof.
  intros r it He P.
  destruct P as [Ex|c Ex Ec Es|c Ex Ec Es Ef|c Ex Ec Es Ef St
                |c fr r1 c1 b r2 Hr En Ee Eo
                |c r1 c1 Hr En Ee El
                |c fr r1 c1 i r2 Hr En Ee Hf Ei Ed
                |c fr r1 c1 i r2 r3 c5 Hr En Ee Hf Ei Ed Ex2 Ee4
                |c fr r1 c1 i r2 r3 c5 b r5 Hr En Ee Hf Ei Ed Ex2 Ee4 Eo
                |c r1 c1 r2 Hr En Ee Ed
                |c r1 c1 r2 Hr En Ee Ed];
    try (apply told_quiet with (rm := r); [exact He|apply ext_refl|exact He|reflexivity|intros rF; discriminate]);
    apply frame_next_ext in En; try (pose proof (ext_trans _ _ _ En (deadline_ext _ _ _ Ed)) as E2).
  - apply (told_raised r r1 c1 b r2 Continue); auto.
  - apply (told_quiet r _ r1 He En Ee); [apply out_upd_cur|intros rF; discriminate].
  - apply told_expired; assumption.
  - apply exec_instr_ext in Ex2. rewrite err_upd_cur in Ee4.
    apply (told_quiet r _ r3 He (ext_trans _ _ _ E2 Ex2) Ee4); [cbn; apply out_upd_cur|intros rF; discriminate].
  - apply exec_instr_ext in Ex2. rewrite err_upd_cur in Ee4.
    apply (told_raised r r3 c5 b r5 Executed); auto. exact (ext_trans _ _ _ E2 Ex2).
  - apply told_expired; assumption.
  - destruct (deadline_keeps _ _ _ Ed) as [Ho2 He2].
    apply (told_quiet r _ r2 He E2); [congruence|apply out_upd_cur|intros rF; discriminate].
Qed.

Lemma tight_explained : forall s s', s = ev_of d_MaximumRuntimeReached :: s' \/ (s = ev_of d_Stacktrace :: s' /\ has_err s' = true) ->
  failure_explained s.
Proof. intros s s' [H|[H E]]; exists [], s'; [left|right]; auto. Qed.

(* a stretch of execution from r to r' with result x is judged alone: what it logged (s, newest first) is appended to the
   events, the flag is down afterwards, and a runtime_error is explained by s *)
Definition judged (r:rt) (x:rresult) (r':rt) : Prop :=
  exists s, r_out r' = s ++ r_out r /\ r_err r' = false /\ (x = RRuntimeError -> failure_explained s).

Lemma judged_refl : forall r x, r_err r = false -> x <> RRuntimeError -> judged r x r.
Proof. intros r x He Hx. exists []. repeat split; [exact He|intros E; contradiction]. Qed.

(* only the last stretch has to explain a failure *)
Lemma judged_trans : forall r0 x0 r x r', judged r0 x0 r -> judged r x r' -> judged r0 x r'.
Proof.
  intros r0 x0 r x r' [s [Ho _]] [s2 [Ho2 [He Hx]]]. exists (s2 ++ s). rewrite Ho2, Ho, app_assoc.
  repeat split; [exact He|]. intros E. apply explained_app_r, Hx, E.
Qed.

Theorem execute_do_events : forall fuel r ea x r', r_err r = false -> execute_do fuel r ea = Ok (x, r') -> judged r x r'.
Proof.
  induction fuel as [|fuel IH]; intros r ea x r' He H; cbn [execute_do] in H; [discriminate|].
  destruct (r_exit_req r). { injection H as <- <-. apply judged_refl; [exact He|discriminate]. }
  destruct ea as [|ea]. { injection H as <- <-. apply judged_refl; [exact He|discriminate]. }
  destruct (do_iter r) as [it| | |] eqn:Ed; cbn [bindr] in H; try discriminate.
  pose proof (do_iter_clears_flag r it He Ed) as Hit.
  apply do_iter_pass in Ed. destruct (pass_events r it He Ed) as [s [Ho [Hret _]]].
  destruct it; cbn [rt_of] in *.
  - apply (judged_trans r ROk r0); [exists s; repeat split; [exact Ho|exact Hit|discriminate]|]. eapply IH; eassumption.
  - apply (judged_trans r ROk r0); [exists s; repeat split; [exact Ho|exact Hit|discriminate]|]. eapply IH; eassumption.
  - injection H as <- <-. exists s. repeat split; try assumption. intros ->.
    destruct (Hret r0 eq_refl) as [s' Hs]. eapply tight_explained. eassumption.
Qed.

(* no_error_no_failure, on the event list: a call of execute_do during which no error-level
   diagnostic was logged does not return runtime_error *)
Theorem no_error_no_failure : forall fuel r ea x r', r_err r = false -> execute_do fuel r ea = Ok (x, r') ->
  exists s, r_out r' = s ++ r_out r /\ (has_err s = false -> x <> RRuntimeError).
Proof.
  intros fuel r ea x r' He H. destruct (execute_do_events _ _ _ _ _ He H) as [s [Ho [_ Hx]]].
  exists s. split; [assumption|]. intros Hs ->. apply explained_has_err in Hx; [congruence|reflexivity].
Qed.

Definition sp_ctx (c00:context) : context :=
  if c_terminate c00 then set_suspended (set_values (set_frames c00 []) []) false (c_wakeup c00) else c00.
(* the machine the time-limit abort of the scheduler loop leaves behind while the script sleeps *)
Definition idle_expired_machine (r2:rt) : rt :=
  set_msgs (set_errflag (set_exit_req (logmsg r2 d_MaximumRuntimeReached) true) false) [].
Definition sp_step (r0:rt) (c:context) : res (rresult * rt) :=
  if c_suspended c then
    let (t, r1) := now r0 in
    if Z.leb (c_wakeup c) t
    then execute_do exec_fuel (upd_cur r1 (set_suspended c false (c_wakeup c))) (r_slice (upd_cur r1 (set_suspended c false (c_wakeup c))))
    else
      (* the script sleeps: nothing executes, the time limit applies nevertheless *)
      let '(expired, r2) := deadline_test r1 in
      if expired then Ok (RRuntimeError, idle_expired_machine r2)
      else Ok (ROk, r2)
  else execute_do exec_fuel r0 (r_slice r0).
Definition sp_dropped (r2:rt) : rt :=
  match cur r2 with
  | Some c2 => match c_values c2 with
               | v :: _ => match show true v with
                           | Some s => mark (logmsg r2 d_ContextValuePrint) (append "VALUE " s)
                           | None => mark (logmsg r2 d_ContextValuePrint) "VALUE ?" end
               | [] => r2 end
  | None => r2 end.
(* runtime.cpp:356-369: the value of a finished script is printed, its context erased *)
Definition sp_erase (r2:rt) (i:nat) : rt := set_ctxs (sp_dropped r2) (remove_nth (r_ctxs (sp_dropped r2)) i).

Lemma start_pass_unfold : forall fuel r i x,
  start_pass (S fuel) r i x =
  if Nat.leb (length (r_ctxs r)) i then Ok (PassDone x r)
  else match cur (set_active r (Some i)) with
       | None => UB "context index"
       | Some c00 =>
           bindr (sp_step (upd_cur (set_active r (Some i)) (sp_ctx c00)) (sp_ctx c00)) (fun '(x1, r2) =>
             if r_exit_req r2 then Ok (PassExit x1 (set_state (set_ctxs r2 []) StEmpty))
             else match x1 with
                  | REmpty =>
                      let r4 := set_ctxs (sp_dropped r2) (remove_nth (r_ctxs (sp_dropped r2)) i) in
                      match r_ctxs r4 with
                      | [] => Ok (PassExit x1 (set_active r4 None))
                      | _ => start_pass fuel r4 i x1 end
                  | RInvalid | RActionError | RRuntimeError => Ok (PassExit x1 r2)
                  | ROk => start_pass fuel r2 (S i) x1 end) end.
Proof. reflexivity. Qed.

Definition pass_rt (p:passres) : rt := match p with PassDone _ r => r | PassExit _ r => r end.
Definition pass_res (p:passres) : rresult := match p with PassDone x _ => x | PassExit x _ => x end.

(* one visit of the scheduler loop: context i is made the active one (a terminated one is emptied first) and gets its slice *)
Definition visit (r:rt) (i:nat) (x1:rresult) (r2:rt) : Prop :=
  exists c00, cur (set_active r (Some i)) = Some c00 /\
    sp_step (upd_cur (set_active r (Some i)) (sp_ctx c00)) (sp_ctx c00) = Ok (x1, r2).

(* one pass over the contexts (the for-loop of action::start), from index i with x the result carried so far: visit after
   visit until the end of the list, an exit request, a failure, or the erasure of the last context.  Properties of a pass
   are shown by induction on this relation. *)
Inductive visits : rt -> nat -> rresult -> passres -> Prop :=
| VDone r i x : length (r_ctxs r) <= i -> visits r i x (PassDone x r)
| VExit r i x x1 r2 : visit r i x1 r2 -> r_exit_req r2 = true ->
    visits r i x (PassExit x1 (set_state (set_ctxs r2 []) StEmpty))
| VFailed r i x x1 r2 : visit r i x1 r2 -> r_exit_req r2 = false -> x1 <> ROk -> x1 <> REmpty -> visits r i x (PassExit x1 r2)
| VLast r i x r2 : visit r i REmpty r2 -> r_exit_req r2 = false -> r_ctxs (sp_erase r2 i) = [] ->
    visits r i x (PassExit REmpty (set_active (sp_erase r2 i) None))
| VErased r i x r2 p : visit r i REmpty r2 -> r_exit_req r2 = false -> r_ctxs (sp_erase r2 i) <> [] ->
    visits (sp_erase r2 i) i REmpty p -> visits r i x p
| VNext r i x r2 p : visit r i ROk r2 -> r_exit_req r2 = false -> visits r2 (S i) ROk p -> visits r i x p.

Lemma start_pass_visits : forall fuel r i x p, start_pass fuel r i x = Ok p -> visits r i x p.
Proof.
  induction fuel as [|fuel IH]; intros r i x p H; [discriminate|]. rewrite start_pass_unfold in H.
  destruct (Nat.leb (length (r_ctxs r)) i) eqn:El. { injection H as <-. apply VDone, Nat.leb_le, El. }
  destruct (cur (set_active r (Some i))) as [c00|] eqn:Ec; [|discriminate].
  destruct (sp_step _ _) as [[x1 r2]| | |] eqn:Es; cbn [bindr] in H; try discriminate.
  assert (V : visit r i x1 r2) by (exists c00; auto).
  destruct (r_exit_req r2) eqn:Ee. { injection H as <-. apply VExit; assumption. }
  destruct x1; try (injection H as <-; apply VFailed; [exact V|exact Ee|discriminate|discriminate]).
  - cbv zeta in H. fold (sp_erase r2 i) in H. destruct (r_ctxs (sp_erase r2 i)) eqn:Er.
    + injection H as <-. apply VLast; assumption.
    + eapply VErased; [exact V|exact Ee|rewrite Er; discriminate|apply IH; exact H].
  - eapply VNext; [exact V|exact Ee|apply IH; exact H].
Qed.

(* the whole scheduler loop (the while-loop around the passes): I holds whenever the loop is at its head, Q when it ends *)
Lemma start_loop_rule : forall (I Q : rresult -> rt -> Prop),
  (forall x r, I x r -> r_ctxs r = [] -> Q x r) ->
  (forall x r p, I x r -> r_ctxs r <> [] -> visits r 0 x p ->
     match p with PassExit x1 r1 => Q x1 r1 | PassDone x1 r1 => I x1 r1 end) ->
  forall fuel x r x' r', I x r -> start_loop fuel r x = Ok (x', r') -> Q x' r'.
Proof.
  intros I Q Hend Hpass. induction fuel as [|fuel IH]; intros x r x' r' Hi H; cbn [start_loop] in H; [discriminate|].
  destruct (r_ctxs r) as [|c0 cs] eqn:Ec. { injection H as <- <-. apply Hend; assumption. }
  destruct (start_pass exec_fuel r 0 x) as [p| | |] eqn:Ep; cbn [bindr] in H; try discriminate.
  apply start_pass_visits, (Hpass x r p Hi) in Ep; [|rewrite Ec; discriminate].
  destruct p as [x1 r1|x1 r1]; [eapply IH; eassumption|injection H as <- <-; exact Ep].
Qed.

Lemma sp_step_events : forall r0 c x1 r2, r_err r0 = false -> sp_step r0 c = Ok (x1, r2) -> judged r0 x1 r2.
Proof.
  intros r0 c x1 r2 He H. unfold sp_step in H. destruct (c_suspended c).
  - destruct (now r0) as [t r1] eqn:En. unfold now in En. injection En as _ <-.
    destruct (Z.leb (c_wakeup c) t).
    + apply execute_do_events in H; [|rewrite err_upd_cur; exact He].
      unfold judged in H. rewrite out_upd_cur in H. exact H.
    + match type of H with context [deadline_test ?a] => destruct (deadline_test a) as [expired r3] eqn:Ed end.
      destruct (deadline_keeps _ _ _ Ed) as [Ho2 He2]. cbn in Ho2, He2.
      destruct expired; injection H as <- <-.
      * exists [ev_of d_MaximumRuntimeReached]. split; [unfold idle_expired_machine; cbn; rewrite Ho2; reflexivity|].
        split; [reflexivity|]. intros _. exists [], []. left. reflexivity.
      * exists []. repeat split; [exact Ho2|congruence|discriminate].
  - apply execute_do_events in H; assumption.
Qed.

Lemma visit_events : forall r i x1 r2, r_err r = false -> visit r i x1 r2 -> judged r x1 r2.
Proof.
  intros r i x1 r2 He [c00 [_ Es]]. apply sp_step_events in Es; [|rewrite err_upd_cur; exact He].
  unfold judged in Es. rewrite out_upd_cur in Es. exact Es.
Qed.

Lemma sp_erase_events : forall r2 i x, r_err r2 = false -> x <> RRuntimeError -> judged r2 x (sp_erase r2 i).
Proof.
  intros r2 i x He Hx. assert (E : exists s, r_out (sp_dropped r2) = s ++ r_out r2 /\ r_err (sp_dropped r2) = r_err r2).
  { unfold sp_dropped. destruct (cur r2) as [c2|]; [|exists []; auto].
    destruct (c_values c2) as [|v vs]; [exists []; auto|]. destruct (show true v); eexists [_; _]; split; reflexivity. }
  destruct E as [s [Ho He2]]. exists s. repeat split; [exact Ho|cbn; congruence|intros E; contradiction].
Qed.

(* a pass keeps `judged`: if what went before (from r00 on, with the result x0 carried into the pass) is judged alone, so
   is everything up to the end of the pass *)
Lemma visits_events : forall r i x0 p, visits r i x0 p -> forall r00, judged r00 x0 r -> judged r00 (pass_res p) (pass_rt p).
Proof.
  induction 1 as [r i x Hi|r i x x1 r2 V Ee|r i x x1 r2 V Ee N1 N2|r i x r2 V Ee Er|r i x r2 p V Ee Er _ IH|r i x r2 p V Ee _ IH];
    intros r00 J; try (pose proof J as [_ [_ [He _]]]; apply (visit_events _ _ _ _ He) in V; pose proof V as [_ [_ [He2 _]]]).
  - exact J.
  - exact (judged_trans _ _ _ _ _ J V).
  - exact (judged_trans _ _ _ _ _ J V).
  - apply (judged_trans _ _ _ _ _ (judged_trans _ _ _ _ _ J V)). apply (sp_erase_events r2 i); [exact He2|discriminate].
  - apply IH. apply (judged_trans _ _ _ _ _ (judged_trans _ _ _ _ _ J V)). apply sp_erase_events; [exact He2|discriminate].
  - apply IH. exact (judged_trans _ _ _ _ _ J V).
Qed.

Lemma start_loop_events : forall fuel r x0 x r' r00, judged r00 x0 r -> start_loop fuel r x0 = Ok (x, r') -> judged r00 x r'.
Proof.
  intros fuel r x0 x r' r00. apply (start_loop_rule (fun x1 r1 => judged r00 x1 r1) (fun x1 r1 => judged r00 x1 r1)).
  - intros x1 r1 J _. exact J.
  - intros x1 r1 p J _ V. apply visits_events with (r00 := r00) in V; [|exact J]. destruct p; exact V.
Qed.

(* the prologue of every executing action (runtime.cpp:337-341): the run flag taken, begin_run_if_empty, both requests cleared *)
Definition entry_state (r:rt) : rt :=
  set_state (set_halt_req (set_exit_req (begin_run_if_empty (set_run r true)) false) false) StRunning.

Lemma entry_state_fields : forall r, let r0 := entry_state r in
  r_exit_req r0 = false /\ r_halt_req r0 = false /\ r_run r0 = true /\ r_ctxs r0 = r_ctxs r /\ r_active r0 = r_active r /\
  r_out r0 = r_out r.
Proof. intros r. unfold entry_state, begin_run_if_empty. cbn. destruct (r_state r); cbn; auto 7. Qed.

Lemma entry_state_ok : forall r, (r_err r = false \/ r_state r = StEmpty) -> judged r ROk (entry_state r).
Proof.
  intros r H. destruct (entry_state_fields r) as [_ [_ [_ [_ [_ Ho]]]]]. exists []. split; [exact Ho|]. split; [|discriminate].
  unfold entry_state, begin_run_if_empty. cbn. destruct (r_state r); cbn; destruct H; congruence.
Qed.

(* context_active() touches the context list and the active index only *)
Lemma resolve_active_fields : forall r, r_out (resolve_active r) = r_out r /\ r_err (resolve_active r) = r_err r /\
  r_exit_req (resolve_active r) = r_exit_req r /\ r_halt_req (resolve_active r) = r_halt_req r /\
  r_run (resolve_active r) = r_run r /\ r_state (resolve_active r) = r_state r.
Proof. intros r. unfold resolve_active. destruct (r_active r); [auto 6|]. destruct (r_ctxs r); cbn; auto 6. Qed.

(* the epilogue of every executing action: the state that belongs to the result, everything discarded after an exit
   request, the run flag handed back *)
Lemma finish_action_fields : forall x r, let r' := finish_action x r in
  r_run r' = false /\ r_exit_req r' = r_exit_req r /\ r_out r' = r_out r /\ r_err r' = r_err r /\
  (r_exit_req r = true -> r_state r' = StEmpty /\ r_ctxs r' = [] /\ r_active r' = None) /\
  (r_exit_req r = false -> r_state r' = r_state (state_of_result x r) /\ r_ctxs r' = r_ctxs r /\ r_active r' = r_active r).
Proof.
  intros x r. unfold finish_action. destruct x; cbn; destruct (r_exit_req r) eqn:E; cbn; rewrite ?E; repeat split; auto; discriminate.
Qed.

(* an executing action that got the run flag: prologue, its loop, epilogue *)
Lemma action_events : forall r (loop:res (rresult * rt)) x r', (r_err r = false \/ r_state r = StEmpty) ->
  (forall x1 r1, loop = Ok (x1, r1) -> judged (entry_state r) x1 r1) ->
  bindr loop (fun '(x, r1) => Ok (x, finish_action x r1)) = Ok (x, r') -> judged r x r'.
Proof.
  intros r loop x r' Hr J H. destruct loop as [[x1 r1]| | |]; cbn [bindr] in H; try discriminate. injection H as <- <-.
  apply (judged_trans _ _ _ _ _ (entry_state_ok r Hr)). destruct (J x1 r1 eq_refl) as [s [Ho [He Hx]]].
  destruct (finish_action_fields x1 r1) as [_ [_ [Fo [Fe _]]]]. exists s. rewrite Fo, Fe. auto.
Qed.

Lemma entered_events : forall a r x r', (r_err r = false \/ r_state r = StEmpty) -> r_run r = false -> a = AStart \/ a = AAssemblyStep ->
  execute a r = Ok (x, r') -> judged r x r'.
Proof.
  intros a r x r' Hr Hrun Ha H. pose proof (entry_state_ok r Hr) as [_ [_ [He _]]].
  destruct Ha as [-> | ->]; cbn [execute] in H; rewrite Hrun in H; apply (action_events r _ x r' Hr) in H; try exact H;
    fold (entry_state r); intros x1 r1 E.
  - eapply start_loop_events; [|exact E]. apply judged_refl; [exact He|discriminate].
  - destruct (resolve_active_fields (entry_state r)) as [Ro [Re _]].
    apply execute_do_events in E; [|congruence]. unfold judged in *. rewrite Ro in E. exact E.
Qed.

(* every return of execute, whatever the action: the flag is down (error_not_carried), and a
   runtime_error result is explained by the events of this very call *)
Theorem execute_events : forall a r x r', r_err r = false -> execute a r = Ok (x, r') ->
  exists s, r_out r' = s ++ r_out r /\ r_err r' = false /\ (x = RRuntimeError -> failure_explained s).
Proof.
  intros a r x r' He H. change (judged r x r').
  (* a refused action, stop and abort log nothing, leave the flag alone and do not report a failure *)
  assert (Quiet : forall y r1, Ok (y, r1) = Ok (x, r') -> r_out r1 = r_out r -> r_err r1 = r_err r -> y <> RRuntimeError -> judged r x r').
  { intros y r1 E Ho He1 Hy. injection E as <- <-. exists []. repeat split; [exact Ho|congruence|intros E; contradiction]. }
  destruct (r_run r) eqn:Hrun.
  - destruct a; cbn [execute] in H; rewrite ?Hrun in H; try discriminate H;
      try destruct (r_state r); (eapply Quiet; [exact H|reflexivity|reflexivity|discriminate]).
  - assert (Run : a = AStart \/ a = AAssemblyStep -> judged r x r').
    { intros Ha. exact (entered_events a r x r' (or_introl He) Hrun Ha H). }
    destruct a; auto; cbn [execute] in H; try discriminate H;
      rewrite Hrun in H; destruct (r_state r); (eapply Quiet; [exact H|reflexivity|reflexivity|discriminate]).
Qed.

(* a run that starts on an empty runtime is judged on its own, even if the flag had been left up *)
Theorem execute_on_empty_events : forall a r x r', r_state r = StEmpty -> r_run r = false -> a = AStart \/ a = AAssemblyStep ->
  execute a r = Ok (x, r') ->
  exists s, r_out r' = s ++ r_out r /\ r_err r' = false /\ (x = RRuntimeError -> failure_explained s).
Proof. intros a r x r' Hs Hrun Ha H. exact (entered_events a r x r' (or_intror Hs) Hrun Ha H). Qed.

Lemma load_out : forall r c, r_out (load r c) = r_out r /\ r_err (load r c) = r_err r.
Proof. intros. split; reflexivity. Qed.

Definition run_judged_alone (o:hobs) : Prop :=
  r_err (ho_before o) = false /\ r_err (ho_after o) = false /\
  exists s, r_out (ho_after o) = s ++ r_out (ho_before o) /\
    (ho_result o = RRuntimeError -> failure_explained s) /\
    (has_err s = false -> ho_result o <> RRuntimeError).

Lemma hist_step_inv : forall r h o r1, r_err r = false -> hist_step r h = Ok (o, r1) ->
  run_judged_alone o /\ r_err r1 = false.
Proof.
  intros r h o r1 He H. unfold hist_step in H.
  destruct (execute AStart (load r (h_code h))) as [[x ra]| | |] eqn:E; cbn [bindr] in H; try discriminate.
  pose proof E as E'. apply execute_events in E'; [|exact He]. destruct E' as [s [Ho [Hea Hx]]].
  assert (J: forall xa, run_judged_alone {| ho_before := load r (h_code h); ho_result := x; ho_after := ra; ho_abort := xa |}).
  { intros xa. unfold run_judged_alone. cbn. repeat split; try assumption. exists s. repeat split; try assumption.
    intros Hs ->. apply explained_has_err in Hx; [congruence|reflexivity]. }
  destruct (wants_abort (h_mode h) x).
  - destruct (execute AAbort ra) as [[xa r2]| | |] eqn:Ea; cbn [bindr] in H; try discriminate.
    injection H as <- <-. split; [apply J|]. apply execute_events in Ea; [|assumption]. destruct Ea as [_ [_ [Hr2 _]]]. exact Hr2.
  - injection H as <- <-. split; [apply J|assumption].
Qed.

Lemma create_rt_clean : forall d mr tick ml sl, r_err (create_rt d mr tick ml sl) = false /\ r_state (create_rt d mr tick ml sl) = StEmpty.
Proof. intros. split; reflexivity. Qed.

(* throw (the flag is down): the nearest try-catch frame takes it - frames above are dropped, the catch
   block runs from its start with _exception = the thrown value, nothing is logged *)
Theorem try_catch_accepts_throw : forall r c v k f h g,
  find_handler (c_frames c) 0 = Some k -> nth_error (c_frames c) k = Some f -> f_err f = Some (ECatch h) ->
  r_err r = false ->
  nth_error (c_frames c) 0 = Some g -> f_base g <= length (c_values c) ->
  exists c', op_throw r c v = Ok (r, c', VNil) /\
    c_frames c' = handler_frame f v :: skipn (S k) (c_frames c) /\
    f_code (handler_frame f v) = h /\ f_vars (handler_frame f v) = [("_exception"%string, v)] /\
    f_err (handler_frame f v) = None.
Proof.
  intros r c v k f h g Hf Hn E He Hg Hb. unfold op_throw. rewrite Hf.
  assert (Hn1: nth_error (c_frames (push_value c (VTrace v))) k = Some f) by exact Hn.
  destruct (proj2 (err_enact_spec r (push_value c (VTrace v)) k f Hn1)) as [c2 [exc [Ee [Hfr Hexc]]]].
  { eapply catch_frame_accepts_throw; eassumption. }
  rewrite Ee. cbn [bindr]. eexists. split; [reflexivity|].
  assert (Hp: pop_value (push_value c (VTrace v)) = Some (VTrace v, set_values (push_value c (VTrace v)) (c_values c))).
  { unfold pop_value. cbn [c_values push_value set_values c_frames].
    destruct (c_frames c) as [|g0 fs] eqn:Efs; [discriminate|]. cbn in Hg. injection Hg as ->.
    cbn [length]. destruct (Nat.leb (S (length (c_values c))) (f_base g)) eqn:El; [apply Nat.leb_le in El; lia|reflexivity]. }
  rewrite Hp in Hexc. unfold exception_value in Hexc. rewrite E in Hexc. subst exc.
  cbn [c_frames set_frames]. rewrite Hfr. cbn [c_frames push_value set_values].
  split; [eapply skipn_list_upd; eassumption|].
  unfold handler_frame, handler_code. rewrite E. repeat split.
Qed.

(* The examples of Properties_C04 exhibit machines that meet the hypotheses of instr_error_stops and handler_takes_over_once
   (raises) or whose pass is the round of a restarted scope without instructions (restarted_round).  A machine in normal form is a large term (r_max_loop is 10000 in unary), so the witnesses are not written out: each
   hypothesis has a boolean version, and one evaluation of the conjunction decides the lot. *)
Definition readyb (r:rt) (c:context) : bool :=
  negb (r_exit_req r) && negb (c_suspended c) && match c_frames c with [] => false | _ => true end &&
  match r_state r with StRunning => true | _ => false end.
Definition declinesb (r:rt) (f:frame) : bool :=
  match f_err f with Some (ECatch _) => r_err r | Some (EExcept _ exchanged) => exchanged | None => true end.
Definition acceptsb (r:rt) (f:frame) : bool :=
  match f_err f with Some (ECatch _) => negb (r_err r) | Some (EExcept _ exchanged) => negb exchanged | None => false end.

Lemma readyb_ok : forall r c, cur r = Some c -> readyb r c = true -> ready r c.
Proof.
  intros r c Hc H. unfold readyb in H. apply andb_prop in H. destruct H as [H H4]. apply andb_prop in H. destruct H as [H H3].
  apply andb_prop in H. destruct H as [H1 H2]. apply negb_true_iff in H1. apply negb_true_iff in H2.
  unfold ready. repeat split; try assumption; [destruct (c_frames c); [discriminate|discriminate]|destruct (r_state r); try discriminate; reflexivity].
Qed.
Lemma declinesb_ok : forall r c, forallb (declinesb r) (c_frames c) = true ->
  forall j g, nth_error (c_frames c) j = Some g -> declines r g.
Proof.
  intros r c H j g Hg. rewrite forallb_forall in H. specialize (H g (nth_error_In _ _ Hg)).
  unfold declinesb in H. unfold declines. destruct (f_err g) as [[h|h ex]|]; auto.
Qed.
Lemma acceptsb_ok : forall r f, acceptsb r f = true -> accepts r f.
Proof. intros r f H. unfold acceptsb in H. unfold accepts. destruct (f_err f) as [[h|h ex]|]; try discriminate; apply negb_true_iff; exact H. Qed.

(* raised_in_pass, computed along the path of do_iter *)
Definition raised (r:rt) (c:context) : option rt :=
  match frame_next frame_fuel r c with
  | Ok (fr, r1, c1) =>
      if r_err r1 then Some (upd_cur r1 c1)
      else if match fr with
              | FOk => true
              | FDone => negb (Nat.eqb (length (c_frames c1)) (length (c_frames c)))
              | FRestarted => false end
      then match current_instr c1, deadline_test r1 with
           | Some i, (false, r2) =>
               match exec_instr i r2 c1 with
               | Ok (r3, c5) => if r_err (upd_cur r3 c5) then Some (upd_cur r3 c5) else None
               | _ => None end
           | _, _ => None end
      else None
  | _ => None end.

Lemma raised_sound : forall r c rE, raised r c = Some rE -> raised_in_pass r c rE.
Proof.
  intros r c rE H. unfold raised in H.
  destruct (frame_next frame_fuel r c) as [[[fr r1] c1]| | |] eqn:En; try discriminate.
  destruct (r_err r1) eqn:Ee. { injection H as <-. eapply RaisedByBehaviour; eassumption. }
  assert (Hf : fetches fr c c1 /\ match current_instr c1, deadline_test r1 with
           | Some i, (false, r2) =>
               match exec_instr i r2 c1 with
               | Ok (r3, c5) => if r_err (upd_cur r3 c5) then Some (upd_cur r3 c5) else None
               | _ => None end
           | _, _ => None end = Some rE).
  { destruct fr; [|split; [left; reflexivity|exact H]|discriminate].
    destruct (Nat.eqb (length (c_frames c1)) (length (c_frames c))) eqn:El; [discriminate|].
    apply Nat.eqb_neq in El. split; [right; auto|exact H]. }
  destruct Hf as [Hf G]. destruct (current_instr c1) as [i|] eqn:Ei; [|discriminate].
  destruct (deadline_test r1) as [[|] r2] eqn:Ed; [discriminate|].
  destruct (exec_instr i r2 c1) as [[r3 c5]| | |] eqn:Ex; try discriminate.
  destruct (r_err (upd_cur r3 c5)) eqn:Ee4; [|discriminate]. injection G as <-.
  eapply RaisedByInstr; eassumption.
Qed.

(* the flag is raised in the pass from r, and (taken = false) nobody takes the error, or (taken = true) the innermost frame does *)
Definition raises (taken:bool) (r:rt) : bool :=
  match cur r with
  | Some c =>
      readyb r c &&
      match raised r c with
      | Some rE => match cur rE with
                   | Some cE =>
                       if taken then match c_frames cE with
                                     | f :: _ => acceptsb rE f && Nat.leb (f_base f) (length (c_values cE))
                                     | [] => false end
                       else forallb (declinesb rE) (c_frames cE)
                   | None => false end
      | None => false end
  | None => false end.

Lemma raises_ok : forall taken r, raises taken r = true ->
  exists c rE cE, ready r c /\ raised_in_pass r c rE /\ cur rE = Some cE /\
    if taken then exists f, nth_error (c_frames cE) 0 = Some f /\ accepts rE f /\ f_base f <= length (c_values cE)
    else forall j g, nth_error (c_frames cE) j = Some g -> declines rE g.
Proof.
  intros taken r H. unfold raises in H. destruct (cur r) as [c|] eqn:Hc; [|discriminate].
  apply andb_prop in H. destruct H as [Hr H]. destruct (raised r c) as [rE|] eqn:Hraise; [|discriminate].
  destruct (cur rE) as [cE|] eqn:HcE; [|discriminate]. exists c, rE, cE.
  split; [exact (readyb_ok r c Hc Hr)|]. split; [exact (raised_sound r c rE Hraise)|]. split; [exact HcE|].
  destruct taken; [|exact (declinesb_ok rE cE H)].
  destruct (c_frames cE) as [|f fs]; [discriminate|]. apply andb_prop in H. destruct H as [Ha Hb].
  exists f. split; [reflexivity|]. split; [exact (acceptsb_ok rE f Ha)|apply Nat.leb_le; exact Hb].
Qed.

(* the pass from r is the round of a restarted scope without instructions, and the deadline test answers `expired` *)
Definition restarted_round (expired:bool) (r:rt) : bool :=
  match cur r with
  | Some c => readyb r c && match frame_next frame_fuel r c with
                            | Ok (FRestarted, r1, _) => negb (r_err r1) && Bool.eqb (fst (deadline_test r1)) expired
                            | _ => false end
  | None => false end.

Lemma restarted_round_ok : forall expired r, restarted_round expired r = true ->
  exists c r1 c1 r2, cur r = Some c /\ ready r c /\ frame_next frame_fuel r c = Ok (FRestarted, r1, c1) /\
    r_err r1 = false /\ deadline_test r1 = (expired, r2).
Proof.
  intros expired r H. unfold restarted_round in H. destruct (cur r) as [c|] eqn:Hc; [|discriminate].
  apply andb_prop in H. destruct H as [Hr H]. destruct (frame_next frame_fuel r c) as [[[[| |] r1] c1]| | |] eqn:En; try discriminate.
  apply andb_prop in H. destruct H as [He Hd]. apply negb_true_iff in He. apply Bool.eqb_prop in Hd.
  exists c, r1, c1, (snd (deadline_test r1)). split; [reflexivity|]. split; [exact (readyb_ok r c Hc Hr)|].
  split; [exact En|]. split; [exact He|]. rewrite <- Hd. destruct (deadline_test r1); reflexivity.
Qed.

(* C12 - the scheduler: round-robin passes, bounded slices, sleep, scriptDone, terminate.
   Proofs about the scheduler of the VM model (SchedDefs.start_pass2 / start_loop2 / execute_do2, which are the
   shared start_pass / start_loop / execute_do with ghost instrumentation, see SchedEquiv). *)
From Coq Require Import String Ascii ZArith List Bool Lia Arith.
From SqfVerif Require Import Gen.DiagCodes Gen.Overloads VM.VmDefs VM.VmExec VM.VmFacts VM.SchedDefs VM.SchedOps VM.SchedBase VM.SchedIter VM.C12Defs.
Import ListNotations.
Local Open Scope list_scope.

Opaque frame_fuel exec_fuel.

(* ================================================================== slices *)
(* execute_do performs at most exit_after units: executed instructions plus rounds of empty loop bodies *)
Theorem slice_bounded b fuel : forall r n ki kr x r' ki' kr',
  execute_do2 b fuel r n ki kr = Ok (x, r', (ki', kr')) -> ki <= ki' /\ kr <= kr' /\ (ki' - ki) + (kr' - kr) <= n.
Proof.
  induction fuel; intros r n ki kr x r' ki' kr' H; cbn [execute_do2] in H; [discriminate|].
  destruct (r_exit_req r); [inversion H; subst; lia|].
  destruct n; [inversion H; subst; lia|].
  destruct (do_iter2 b r) as [it| | |]; cbn [bindr] in H; try discriminate.
  destruct it.
  - apply IHfuel in H. lia.
  - apply IHfuel in H. lia.
  - apply IHfuel in H. lia.
  - inversion H; subst. lia.
Qed.

(* ================================================================== ids *)
Lemma remove_nth_map {A B} (f:A->B) l : forall i, map f (remove_nth l i) = remove_nth (map f l) i.
Proof. induction l; intros [|i]; cbn; auto. f_equal. auto. Qed.
Lemma remove_nth_mid {A} (d:list A) c rest : remove_nth (d ++ c :: rest) (length d) = d ++ rest.
Proof. induction d; cbn; auto. f_equal. auto. Qed.

Lemma evolves_ids i l n l' n' : evolves i l n l' n' ->
  exists sp, map c_id l' = map c_id l ++ sp /\ Forall (fun id => n <= id < n') sp /\ NoDup sp /\ n <= n'.
Proof.
  intros (l1 & sp & -> & F & (Le & Fr & Nd) & _). exists (map c_id sp).
  rewrite map_app, (Forall2_ctx_ok_ids _ _ F). repeat split; auto.
  rewrite Forall_forall in *. intros id Hid. apply in_map_iff in Hid. destruct Hid as (c & <- & Hc). auto.
Qed.

Lemma wf_ids_ext r r' sp : wf_ids r -> ids r' = ids r ++ sp ->
  Forall (fun id => r_next_id r <= id < r_next_id r') sp -> NoDup sp -> r_next_id r <= r_next_id r' -> wf_ids r'.
Proof.
  intros [Nd Lt] E Fr Nds Le. unfold wf_ids. rewrite E. split.
  - apply NoDup_app_intro; auto. intros x Hx Hy. rewrite Forall_forall in *. specialize (Lt _ Hx). specialize (Fr _ Hy). lia.
  - apply Forall_app; split; (eapply Forall_impl; [|eassumption]); cbn; intros; lia.
Qed.

(* what a visit does to the ids: the visited script is the one at index i; everybody keeps its place; newly
   spawned scripts are appended with fresh ids *)
Lemma visit_ids b1 b2 r i x r2 v c00 :
  visit_ctx b1 b2 r i = Ok (x, r2, v) -> nth_error (r_ctxs r) i = Some c00 -> wf_ids r ->
  v_id v = c_id c00 /\ v_result v = x /\
  exists sp, ids r2 = ids r ++ sp /\ Forall (fun id => r_next_id r <= id < r_next_id r2) sp /\ NoDup sp /\
             r_next_id r <= r_next_id r2 /\ wf_ids r2.
Proof.
  intros V Hc W. destruct (visit_ctx_shape _ _ _ _ _ _ _ _ V Hc) as (A & B & Sh). split; auto. split; auto.
  pose proof (vs_ctxs _ _ _ (visit_shape_vstep _ _ _ _ _ _ _ _ Sh Hc)) as E.
  destruct (evolves_ids _ _ _ _ _ E) as (sp & E1 & E2 & E3 & E4).
  exists sp. split; [exact E1|]. split; auto. split; auto. split; auto. eapply wf_ids_ext; eauto.
Qed.

Lemma retire_ids r2 i : ids (retire r2 i) = remove_nth (ids r2) i.
Proof. unfold ids. rewrite retire_ctxs. apply remove_nth_map. Qed.
Lemma remove_nth_incl {A} (l:list A) : forall i x, In x (remove_nth l i) -> In x l.
Proof. induction l; intros [|i] x H; cbn in *; auto. destruct H; eauto. Qed.
Lemma remove_nth_NoDup {A} (l:list A) : forall i, NoDup l -> NoDup (remove_nth l i).
Proof.
  induction l; intros [|i] H; cbn; auto; inversion H; subst; auto.
  constructor; auto. intro Hx. apply remove_nth_incl in Hx. auto.
Qed.
Lemma wf_ids_retire r2 i : wf_ids r2 -> wf_ids (retire r2 i).
Proof.
  intros [Nd Lt]. unfold wf_ids. rewrite retire_ids, retire_next_id. split; [apply remove_nth_NoDup; auto|].
  rewrite Forall_forall in *. intros x Hx. apply remove_nth_incl in Hx. auto.
Qed.

Lemma NoDup_mid_notin {A} (d:list A) c t : NoDup (d ++ c :: t) -> ~ In c t.
Proof. intros H Hin. apply NoDup_remove_2 in H. apply H. apply in_or_app; auto. Qed.

(* ================================================================== one pass is one round of the queue *)
Lemma filter_app_kept (a b:list visit) : filter kept (a ++ b) = filter kept a ++ filter kept b.
Proof. apply filter_app. Qed.

(* the turn at index i when the ids before i are done: it is the turn of the head of todo; whatever it spawns is
   appended with fresh ids *)
Lemma visit_head b1 b2 r i x r2 v done todo :
  i < length (r_ctxs r) -> visit_ctx b1 b2 r i = Ok (x, r2, v) -> wf_ids r -> ids r = done ++ todo -> length done = i ->
  exists c rest sp, todo = c :: rest /\ v_id v = c /\ v_result v = x /\ ids r2 = done ++ c :: rest ++ sp /\
    Forall (fun id => r_next_id r <= id) sp /\ r_next_id r <= r_next_id r2 /\ c < r_next_id r /\ wf_ids r2.
Proof.
  intros Hi V W E L.
  destruct todo as [|c rest]; [exfalso; rewrite app_nil_r in E; unfold ids in E; rewrite <- E, map_length in L; lia|].
  destruct (nth_error (r_ctxs r) i) as [c00|] eqn:Hc; [|apply nth_error_None in Hc; lia].
  destruct (visit_ids _ _ _ _ _ _ _ _ V Hc W) as (Vid & Vres & sp & E2 & Fr & _ & Le & W2).
  assert (Q : nth_error (ids r) i = Some (c_id c00)) by (unfold ids; rewrite nth_error_map, Hc; auto).
  rewrite E, <- L, nth_error_mid in Q. injection Q as ->.
  exists (c_id c00), rest, sp. split; [reflexivity|]. split; [exact Vid|]. split; [exact Vres|].
  split; [rewrite E2, E, <- app_assoc; reflexivity|].
  split; [eapply Forall_impl; [|exact Fr]; cbn; intros; lia|]. split; [exact Le|]. split; [|exact W2].
  destruct W as [_ Lt]. rewrite Forall_forall in Lt. apply Lt. rewrite E. apply in_or_app; right; left; auto.
Qed.

(* the pass loop from index i on: the ids before i are those of the turns of this pass so far that did not end with
   "finished", todo are the ids from i on: the turns still to come are todo, then whatever is spawned meanwhile (with ids
   from nid on); a finished script is erased and nobody is skipped; if the pass is cut short (time limit, runtime error, last
   script gone) the turns taken are a prefix of that order *)
Definition pass_round (nid:nat) (log:list visit) (todo:list nat) (p:passres2) : Prop :=
  exists new spawned,
    pass_log p = log ++ new /\
    Forall (fun id => nid <= id) spawned /\ NoDup (todo ++ spawned) /\
    match p with
    | PassDone2 _ r' _ =>
        map v_id new = todo ++ spawned /\ ids r' = map v_id (filter kept (log ++ new)) /\ wf_ids r' /\
        Forall (fun v => kept v = true \/ finished v = true) new
    | PassExit2 _ _ _ => exists later, todo ++ spawned = map v_id new ++ later
    end.

Lemma pass_run_round b1 b2 r i x log p : pass_run b1 b2 r i x log p ->
  forall todo, wf_ids r -> ids r = map v_id (filter kept log) ++ todo -> length (filter kept log) = i ->
  pass_round (r_next_id r) log todo p.
Proof.
  (* a pass that ends with the turn v *)
  assert (Cut : forall r i x1 r2 v done todo, i < length (r_ctxs r) -> visit_ctx b1 b2 r i = Ok (x1, r2, v) ->
            wf_ids r -> ids r = done ++ todo -> length done = i ->
            exists spawned, Forall (fun id => r_next_id r <= id) spawned /\ NoDup (todo ++ spawned) /\
                            exists later, todo ++ spawned = map v_id [v] ++ later).
  { intros r0 i0 x1 r2 v done todo Hi V W E L.
    destruct (visit_head _ _ _ _ _ _ _ _ _ Hi V W E L) as (c & rest & sp & -> & Vid & _ & E2 & Fr & _ & _ & [N2 _]).
    exists sp. split; [exact Fr|]. rewrite E2 in N2. apply NoDup_app_elim in N2. split; [tauto|].
    exists (rest ++ sp). cbn. congruence. }
  (* a pass that goes on after the turn v of the script c; ids are handed out from n2 on afterwards *)
  assert (Step : forall n n2 v c rest sp done log p, kept v = true \/ finished v = true -> v_id v = c ->
            Forall (fun id => n <= id) sp -> n <= n2 -> c < n -> NoDup (done ++ c :: rest ++ sp) ->
            pass_round n2 (log ++ [v]) (rest ++ sp) p -> pass_round n log (c :: rest) p).
  { intros n n2 v c rest sp done log0 p0 KF Vid Fr Le Lc Nall (new & spawned & P1 & P2 & P3 & P4).
    exists (v :: new), (sp ++ spawned). rewrite P1, <- !app_assoc. split; [reflexivity|]. split; [|split].
    - apply Forall_app. split; [exact Fr|]. eapply Forall_impl; [|exact P2]. cbn; intros; lia.
    - cbn [app]. rewrite app_assoc. constructor; [|exact P3].
      rewrite <- app_assoc, !in_app_iff. intros [Hin|[Hin|Hin]].
      + apply (NoDup_mid_notin _ _ _ Nall). apply in_or_app; auto.
      + apply (NoDup_mid_notin _ _ _ Nall). apply in_or_app; auto.
      + rewrite Forall_forall in P2. specialize (P2 _ Hin). lia.
    - rewrite <- !app_assoc in P4. cbn [app] in P4. destruct p0.
      + destruct P4 as (Q1 & Q2 & Q3 & Q4). cbn [map]. rewrite Vid, Q1. auto.
      + destruct P4 as (later & Q). exists later. cbn [map]. rewrite Vid. cbn [app]. rewrite <- Q. reflexivity. }
  induction 1; intros todo W E L.
  - (* end of the list *)
    assert (todo = []).
    { assert (length (ids r) = length (r_ctxs r)) by (unfold ids; apply map_length).
      rewrite E, app_length, map_length in H0. destruct todo; auto. cbn in H0. lia. }
    subst todo. exists [], []. rewrite !app_nil_r in *. cbn [pass_log app map].
    split; [reflexivity|]. split; [constructor|]. split; [constructor|].
    split; [reflexivity|]. split; [auto|]. split; [auto|constructor].
  - (* cut: exit requested *)
    rewrite <- (map_length v_id) in L. destruct (Cut _ _ _ _ _ _ _ H H0 W E L) as (sp & A & B & C). exists [v], sp. auto.
  - (* cut: the turn failed *)
    rewrite <- (map_length v_id) in L. destruct (Cut _ _ _ _ _ _ _ H H0 W E L) as (sp & A & B & C). exists [v], sp. auto.
  - (* cut: the last script finished *)
    rewrite <- (map_length v_id) in L. destruct (Cut _ _ _ _ _ _ _ H H0 W E L) as (sp & A & B & C). exists [v], sp. auto.
  - (* the script finished: erased, the index stays *)
    rewrite <- (map_length v_id) in L.
    destruct (visit_head _ _ _ _ _ _ _ _ _ H H0 W E L) as (c & rest & sp & -> & Vid & Vres & E2 & Fr & Le & Lc & W2).
    assert (K : filter kept (log ++ [v]) = filter kept log) by (rewrite filter_app; cbn; unfold kept at 2; rewrite Vres; apply app_nil_r).
    apply (Step _ (r_next_id r2) v c rest sp (map v_id (filter kept log)));
      [right; unfold finished; rewrite Vres; reflexivity|exact Vid|exact Fr|exact Le|exact Lc|rewrite <- E2; apply W2|].
    rewrite <- (retire_next_id r2 i). apply IHpass_run; [apply wf_ids_retire, W2| |rewrite K, <- L, map_length; reflexivity].
    rewrite K, retire_ids, E2, <- L. apply remove_nth_mid.
  - (* the script goes on: next index *)
    rewrite <- (map_length v_id) in L.
    destruct (visit_head _ _ _ _ _ _ _ _ _ H H0 W E L) as (c & rest & sp & -> & Vid & Vres & E2 & Fr & Le & Lc & W2).
    assert (K : filter kept (log ++ [v]) = filter kept log ++ [v]) by (rewrite filter_app; cbn; unfold kept at 2; rewrite Vres; reflexivity).
    apply (Step _ (r_next_id r2) v c rest sp (map v_id (filter kept log)));
      [left; unfold kept; rewrite Vres; reflexivity|exact Vid|exact Fr|exact Le|exact Lc|rewrite <- E2; apply W2|].
    apply IHpass_run; [exact W2| |rewrite K, app_length, <- L, map_length; cbn; lia].
    rewrite K, map_app, E2, <- app_assoc. cbn [map app]. rewrite Vid. reflexivity.
Qed.

(* A complete pass: every script scheduled at its start gets exactly one turn, in list order, then the scripts
   spawned meanwhile, in spawn order; the scripts still scheduled afterwards are those whose turn did not end
   with "finished", in the same order. Nobody is skipped when a finished script is erased. *)
Theorem round_robin_pass b1 b2 fuel r x x' r' log :
  start_pass2 b1 b2 fuel r 0 x [] = Ok (PassDone2 x' r' log) -> wf_ids r ->
  pass_order (ids r) log /\ pass_survivors log (ids r') /\ wf_ids r' /\
  Forall (fun v => kept v = true \/ finished v = true) log.
Proof.
  intros H W. apply start_pass2_pass_run in H.
  destruct (pass_run_round _ _ _ _ _ _ _ H (ids r) W eq_refl eq_refl) as (new & spawned & P1 & P2 & P3 & Q1 & Q2 & Q3 & Q4).
  cbn in P1. subst new. split; [exists spawned; auto|]. split; [exact Q2|]. split; auto.
Qed.

(* the passes of a run: each complete pass starts with the survivors of the one before, in the same order *)
Fixpoint chained (start:list nat) (ps:list (list visit)) : Prop :=
  match ps with
  | [] => True
  | [l] => pass_order start l \/ (exists spawned later, start ++ spawned = map v_id l ++ later /\ NoDup (start ++ spawned))
  | l :: rest => pass_order start l /\ chained (map v_id (filter kept l)) rest
  end.

Lemma loop_run_chained b1 b2 r x ps x' r' ps' : loop_run b1 b2 r x ps x' r' ps' -> wf_ids r ->
  exists new, ps' = ps ++ new /\ chained (ids r) new.
Proof.
  induction 1; intro W.
  - exists []. rewrite app_nil_r. cbn. auto.
  - exists [log]. split; auto. cbn. right.
    destruct (pass_run_round _ _ _ _ _ _ _ H0 (ids r) W eq_refl eq_refl) as (new & spawned & P1 & P2 & P3 & later & Q).
    cbn in P1. subst new. exists spawned, later. auto.
  - destruct (pass_run_round _ _ _ _ _ _ _ H0 (ids r) W eq_refl eq_refl) as (new & spawned & P1 & P2 & P3 & Q1 & Q2 & Q3 & Q4).
    cbn in P1. subst new. cbn [app] in Q2.
    destruct (IHloop_run Q3) as (new2 & E & C). exists (log :: new2). rewrite E, <- app_assoc. split; auto.
    assert (PO : pass_order (ids r) log) by (exists spawned; auto).
    rewrite Q2 in C. destruct new2; cbn [chained]; auto.
Qed.

Lemma count_occ_notin {A} (dec:forall x y:A, {x=y}+{x<>y}) l x : ~ In x l -> count_occ dec l x = 0.
Proof. intro H. apply count_occ_not_In; auto. Qed.
Lemma count_occ_NoDup_in {A} (dec:forall x y:A, {x=y}+{x<>y}) l x : NoDup l -> In x l -> count_occ dec l x = 1.
Proof. intros N I. rewrite NoDup_count_occ with (decA := dec) in N. apply (count_occ_In dec) in I. specialize (N x). lia. Qed.
Lemma filter_map_in (f:visit->bool) l x : In x (map v_id (filter f l)) -> In x (map v_id l).
Proof. intro H. apply in_map_iff in H. destruct H as (v & E & I). apply filter_In in I. apply in_map_iff. exists v. tauto. Qed.
Lemma NoDup_map_filter (f:visit->bool) l : NoDup (map v_id l) -> NoDup (map v_id (filter f l)).
Proof.
  induction l; cbn; intro H; [constructor|]. inversion H; subst. destruct (f a); cbn; auto.
  constructor; auto. intro Hx. apply filter_map_in in Hx. auto.
Qed.

(* Between two consecutive turns of one script every other script that is scheduled throughout gets exactly one:
   if pass k has the turns a ++ v :: b and v's script stays scheduled, the turns between this one and its next
   (in pass k+1, which starts with the survivors of pass k in order) are b followed by the survivors of a, and
   every other survivor of pass k occurs in them exactly once. *)
Theorem between_two_turns (a b:list visit) (v:visit) (t:nat) :
  NoDup (map v_id (a ++ v :: b)) -> kept v = true ->
  In t (map v_id (filter kept (a ++ v :: b))) -> t <> v_id v ->
  count_occ Nat.eq_dec (map v_id b ++ map v_id (filter kept a)) t = 1.
Proof.
  intros N K I Ne.
  rewrite filter_app in I. cbn [filter] in I. rewrite K in I. rewrite map_app in I. cbn [map] in I.
  rewrite map_app in N. cbn [map] in N.
  apply NoDup_app_elim in N. destruct N as (Na & Nvb & Dab). inversion Nvb; subst.
  rewrite count_occ_app.
  apply in_app_iff in I. destruct I as [I|[I|I]]; [| congruence |].
  - (* t survived from a *)
    rewrite (count_occ_NoDup_in _ _ _ (NoDup_map_filter kept a Na) I).
    rewrite count_occ_notin; auto. intro Hb. apply (Dab t); [apply filter_map_in in I; auto|right; auto].
  - (* t survived from b *)
    assert (Ib : In t (map v_id b)) by (apply filter_map_in in I; auto).
    rewrite (count_occ_NoDup_in _ _ _ H2 Ib).
    rewrite count_occ_notin; auto. intro Ha. apply filter_map_in in Ha. apply (Dab t Ha). right; auto.
Qed.

(* ================================================================== sleep *)

(* When the scheduler comes to a sleeping script it reads the clock once: the script gets its slice only if
   that clock value is not before its wake-up time; otherwise nothing of it executes in this pass and it is
   left as it is. *)
Theorem no_early_wake b1 b2 r i c x r' v :
  visit_ctx b1 b2 r i = Ok (x, r', v) -> nth_error (r_ctxs r) i = Some c ->
  c_suspended c = true -> c_terminate c = false ->
  (v_entered v = true -> (c_wakeup c <= r_clock r + r_tick r)%Z) /\
  ((r_clock r + r_tick r < c_wakeup c)%Z ->
     v_entered v = false /\ v_instr v = 0 /\ v_restarts v = 0 /\ (x = ROk -> nth_error (r_ctxs r') i = Some c)).
Proof.
  intros V Hc Su Te. destruct (visit_ctx_shape _ _ _ _ _ _ _ _ V Hc) as (_ & _ & Sh).
  eapply visit_shape_sleep; eauto.
Qed.

(* ================================================================== scriptDone *)
Theorem scriptdone_spec id r c :
  op_unary "scriptdone" (VScript id) r c = Ok (r, c, VBool (negb (existsb (fun x => Nat.eqb (c_id x) id) (r_ctxs r)))).
Proof. reflexivity. Qed.
Lemma existsb_ids id l : existsb (fun x => Nat.eqb (c_id x) id) l = true <-> In id (map c_id l).
Proof.
  rewrite existsb_exists. split.
  - intros (c & I & E). apply Nat.eqb_eq in E. subst. apply in_map; auto.
  - intro H. apply in_map_iff in H. destruct H as (c & E & I). exists c. split; auto. apply Nat.eqb_eq; auto.
Qed.

Lemma remove_nth_notin {A} (l:list A) : forall i x, NoDup l -> nth_error l i = Some x -> ~ In x (remove_nth l i).
Proof.
  induction l; intros [|i] x N H; cbn in *; try discriminate; inversion N; subst.
  - inversion H; subst. auto.
  - intros [->|Hin]; [apply H2; eapply nth_error_In; eauto|eapply IHl; eauto].
Qed.

(* ================================================================== terminate *)
Theorem terminate_self_sets_flag r c :
  existsb (fun y => Nat.eqb (c_id y) (c_id c)) (r_ctxs r) = true -> c_terminate c = false ->
  op_unary "terminate" (VScript (c_id c)) r c = Ok (r, set_terminate c true, VNil).
Proof. intros A D. cbn. rewrite A, Nat.eqb_refl, D. reflexivity. Qed.

(* the turn of a terminated script: nothing executes, the script is reported as finished *)
Theorem terminated_turn b1 b2 r i c x r' v :
  visit_ctx b1 b2 r i = Ok (x, r', v) -> nth_error (r_ctxs r) i = Some c -> c_terminate c = true ->
  r_exit_req r = false -> 0 < r_slice r ->
  x = REmpty /\ v_instr v = 0 /\ v_restarts v = 0.
Proof.
  intros V Hc Te Ex Sl. destruct (visit_ctx_shape _ _ _ _ _ _ _ _ V Hc) as (_ & _ & Sh).
  destruct (visit_shape_terminated _ _ _ _ _ _ _ _ Sh Hc Te Ex Sl) as (A & B & C & _). auto.
Qed.

(* the flag stays raised until the script's turn comes, whatever the other scripts do *)
Definition flagged (r:rt) (id:nat) : Prop := exists c, In c (r_ctxs r) /\ c_id c = id /\ c_terminate c = true.
(* T: a set of script ids, all of them flagged as long as they are scheduled *)
Definition term_inv (T:nat -> Prop) (r:rt) : Prop :=
  wf_ids r /\ (forall id, T id -> id < r_next_id r) /\ (forall id, T id -> In id (ids r) -> flagged r id).

Lemma term_inv_flagged r : wf_ids r -> term_inv (flagged r) r.
Proof.
  intro W. split; [exact W|]. split; [|auto].
  intros id (c & Ic & Eid & _). destruct W as [_ Lt]. rewrite Forall_forall in Lt. apply Lt. unfold ids. rewrite <- Eid. apply in_map; auto.
Qed.

Lemma NoDup_ids_same_ctx l c1 c2 j : NoDup (map c_id l) -> In c1 l -> nth_error l j = Some c2 -> c_id c1 = c_id c2 -> c1 = c2.
Proof.
  revert j; induction l; intros j N I H E; cbn in *; [contradiction|]. inversion N; subst.
  destruct j; cbn in H.
  - inversion H; subst. destruct I as [->|I]; auto. exfalso. apply H2. rewrite <- E. apply in_map; auto.
  - destruct I as [->|I]; [|eauto]. exfalso. apply H2. rewrite E. apply in_map. eapply nth_error_In; eauto.
Qed.

Lemma visit_term_inv T b1 b2 r i x r2 v c00 :
  visit_ctx b1 b2 r i = Ok (x, r2, v) -> nth_error (r_ctxs r) i = Some c00 -> term_inv T r ->
  term_inv T r2 /\ (T (c_id c00) -> c_terminate c00 = true).
Proof.
  intros V Hc (W & Lt & Fl).
  destruct (visit_ids _ _ _ _ _ _ _ _ V Hc W) as (_ & _ & sp & E2 & Fr & Nd & Le & W2).
  destruct (visit_ctx_shape _ _ _ _ _ _ _ _ V Hc) as (_ & _ & Sh).
  pose proof (vs_ctxs _ _ _ (visit_shape_vstep _ _ _ _ _ _ _ _ Sh Hc)) as (l1 & sp0 & E1 & F2 & _).
  split; [split; [auto|split]|].
  - intros id Tid. specialize (Lt _ Tid). lia.
  - intros id Tid Hin. rewrite E2, in_app_iff in Hin. destruct Hin as [Hin|Hin].
    + destruct (Fl _ Tid Hin) as (c & Ic & Eid & Fc).
      destruct (In_nth_error _ _ Ic) as [j Hj]. destruct (Forall2_nth_ex _ _ _ _ _ F2 Hj) as (c1 & N1 & Ok1).
      exists c1. split; [rewrite E1; apply in_or_app; left; eapply nth_error_In; eauto|].
      split; [rewrite (ctx_ok_id _ _ Ok1); auto|eapply ctx_ok_flag; eauto].
    + rewrite Forall_forall in Fr. specialize (Fr _ Hin). specialize (Lt _ Tid). lia.
  - intro Tc. assert (Hin : In (c_id c00) (ids r)) by (unfold ids; apply in_map; eapply nth_error_In; eauto).
    destruct (Fl _ Tc Hin) as (c & Ic & Eid & Fc). destruct W as [Nd0 _].
    rewrite <- (NoDup_ids_same_ctx _ _ _ _ Nd0 Ic Hc Eid). auto.
Qed.

Lemma remove_nth_in_other {A} (l:list A) : forall i x, In x l -> nth_error l i <> Some x -> In x (remove_nth l i).
Proof.
  induction l; intros [|i] x I H; cbn in *; auto.
  - destruct I as [->|I]; auto. congruence.
  - destruct I as [->|I]; auto.
Qed.
Lemma retire_term_inv T r2 i : term_inv T r2 -> term_inv T (retire r2 i).
Proof.
  intros (W & Lt & Fl). split; [apply wf_ids_retire; auto|split].
  - intros id Tid. rewrite retire_next_id. auto.
  - intros id Tid Hin. rewrite retire_ids in Hin.
    destruct (Fl _ Tid (remove_nth_incl _ _ _ Hin)) as (c & Ic & Eid & Fc).
    exists c. split; auto. rewrite retire_ctxs. apply remove_nth_in_other; auto.
    intro Hn. destruct W as [Nd _].
    assert (Q : nth_error (ids r2) i = Some id) by (unfold ids; rewrite nth_error_map, Hn; cbn; congruence).
    apply (remove_nth_notin _ _ _ Nd Q). auto.
Qed.

Lemma visit_keeps_slice b1 b2 r i x r2 v : visit_ctx b1 b2 r i = Ok (x, r2, v) -> i < length (r_ctxs r) ->
  r_slice r2 = r_slice r.
Proof.
  intros V Hi. destruct (nth_error (r_ctxs r) i) as [c00|] eqn:Hc; [|apply nth_error_None in Hc; lia].
  destruct (visit_ctx_shape _ _ _ _ _ _ _ _ V Hc) as (_ & _ & Sh).
  pose proof (vs_cfg _ _ _ (visit_shape_vstep _ _ _ _ _ _ _ _ Sh Hc)) as C. unfold rcfg in C. congruence.
Qed.

(* in a pass (from any index on) every turn of a script of T executes nothing and reports it as finished *)
Lemma pass_run_terminated T b1 b2 r i x log p : pass_run b1 b2 r i x log p ->
  r_exit_req r = false -> 0 < r_slice r -> term_inv T r ->
  exists new, pass_log p = log ++ new /\
    Forall (fun v => T (v_id v) -> v_instr v = 0 /\ v_restarts v = 0 /\ v_result v = REmpty) new /\
    match p with PassDone2 _ r' _ => r_exit_req r' = false /\ 0 < r_slice r' /\ term_inv T r' | _ => True end.
Proof.
  assert (Turn : forall r i x r2 v, i < length (r_ctxs r) -> visit_ctx b1 b2 r i = Ok (x, r2, v) ->
            r_exit_req r = false -> 0 < r_slice r -> term_inv T r ->
            (T (v_id v) -> v_instr v = 0 /\ v_restarts v = 0 /\ v_result v = REmpty) /\ term_inv T r2 /\ r_slice r2 = r_slice r).
  { intros r0 i0 x0 r2 v Hi V Ex Sl Inv.
    destruct (nth_error (r_ctxs r0) i0) as [c00|] eqn:Hc; [|apply nth_error_None in Hc; lia].
    destruct (visit_term_inv _ _ _ _ _ _ _ _ _ V Hc Inv) as [Inv2 Fl].
    destruct (visit_ctx_shape _ _ _ _ _ _ _ _ V Hc) as (Vid & Vres & _).
    split; [|split; auto; eapply visit_keeps_slice; eauto].
    intro Tv. rewrite Vid in Tv. destruct (terminated_turn _ _ _ _ _ _ _ _ V Hc (Fl Tv) Ex Sl) as (A & B & C).
    rewrite Vres. auto. }
  induction 1; intros Ex Sl Inv.
  - exists []. rewrite app_nil_r. split; [reflexivity|]. split; [constructor|]. auto.
  - destruct (Turn _ _ _ _ _ H H0 Ex Sl Inv) as (A & _ & _). exists [v]. repeat split; auto.
  - destruct (Turn _ _ _ _ _ H H0 Ex Sl Inv) as (A & _ & _). exists [v]. repeat split; auto.
  - destruct (Turn _ _ _ _ _ H H0 Ex Sl Inv) as (A & _ & _). exists [v]. repeat split; auto.
  - destruct (Turn _ _ _ _ _ H H0 Ex Sl Inv) as (A & Inv2 & Sl2).
    destruct IHpass_run as (new & E & F & G).
    + rewrite retire_exit; auto.
    + pose proof (retire_cfg r2 i) as C. unfold rcfg in C. assert (r_slice (retire r2 i) = r_slice r2) by congruence. lia.
    + apply retire_term_inv; auto.
    + exists (v :: new). rewrite E, <- app_assoc. split; auto.
  - destruct (Turn _ _ _ _ _ H H0 Ex Sl Inv) as (A & Inv2 & Sl2).
    destruct IHpass_run as (new & E & F & G); auto; [lia|].
    exists (v :: new). rewrite E, <- app_assoc. split; auto.
Qed.

Lemma loop_run_terminated T b1 b2 r x ps x' r' ps' : loop_run b1 b2 r x ps x' r' ps' ->
  r_exit_req r = false -> 0 < r_slice r -> term_inv T r ->
  exists new, ps' = ps ++ new /\
    Forall (Forall (fun v => T (v_id v) -> v_instr v = 0 /\ v_restarts v = 0 /\ v_result v = REmpty)) new.
Proof.
  induction 1; intros Ex Sl Inv.
  - exists []. rewrite app_nil_r. auto.
  - destruct (pass_run_terminated T _ _ _ _ _ _ _ H0 Ex Sl Inv) as (new & E & F & _). cbn in E. subst log.
    exists [new]. auto.
  - destruct (pass_run_terminated T _ _ _ _ _ _ _ H0 Ex Sl Inv) as (new & E & F & Ex1 & Sl1 & Inv1). cbn in E. subst log.
    destruct (IHloop_run Ex1 Sl1 Inv1) as (new2 & E2 & F2). exists (new :: new2). rewrite E2, <- app_assoc. auto.
Qed.

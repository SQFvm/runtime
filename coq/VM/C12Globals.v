(* C12 - isolation with turns that CREATE globals, part 2: a scheduler turn up to the order of namespace entries.
   Two machines r and r' = app (cst a') r that differ only in their namespaces, where a' is - up to the order of entries -
   G (r_nss r) for a change G the running script cannot observe (sem_ok), take the same turn: same result, same visit
   record, same log, same contexts, and the namespaces afterwards are related in the same way. G = identity gives the
   congruence of req for a turn; G = the replayed writes of another script gives the frame property that the commutation
   of turns needs. Here: the instructions that touch a global; an operator that does not is covered by the exact frame
   lemmas of C12FrameOps.v (the transformer cst a' replaces the namespaces and has the empty footprint), and the way from
   an instruction to a whole turn is the chain of C12Frame.v. *)
From Coq Require Import String Ascii ZArith List Bool Lia Arith.
From SqfVerif Require Import Gen.DiagCodes Gen.Overloads VM.VmDefs VM.VmExec VM.VmFacts VM.SchedDefs VM.SchedOps VM.SchedBase VM.SchedIter VM.C12FrameOps VM.C12Frame VM.C12Commute VM.C12NsEq.
From SqfVerif Require VM.C03Proofs.
Import ListNotations.
Local Open Scope list_scope.
Opaque frame_fuel exec_fuel.

Notation nsm := (list (string * list (string * value))) (only parsing).

(* the transformer that replaces the namespaces: with_nss tr_none a of C12Frame.v, by conversion *)
Definition cst (a:nsm) : tr := {| t_ctx := fun l => l; t_out := []; t_nss := fun _ => a |}.
Lemma cst_ok a i : tr_ok (cst a) i [] [].
Proof. exact (with_nss_ok tr_none i [] [] a (tr_none_ok i [] [])). Qed.
Lemma app_cst a r : app (cst a) r = set_nss r a.
Proof. unfold app, cst, set_nss, rt_with. cbn. rewrite app_nil_r. reflexivity. Qed.
Lemma app_cst_self r : app (cst (r_nss r)) r = r.
Proof. exact (app_with_nss_self r). Qed.
(* machines that are req differ by cst *)
Lemma req_as_cst r r' : req r r' -> r' = app (cst (r_nss r')) r.
Proof.
  intros [E _]. rewrite app_cst. change (set_nss r (r_nss r')) with (set_nss (set_nss r []) (r_nss r')). rewrite E.
  destruct r'; reflexivity.
Qed.
Lemma req_cst r a : nss_eq (r_nss r) a -> req r (app (cst a) r).
Proof. intro N. rewrite app_cst. split; [reflexivity|exact N]. Qed.
Lemma nss_app_cst a r : r_nss (app (cst a) r) = a.
Proof. reflexivity. Qed.

(* ------------------------------------------------------------------ what does not touch a global leaves the namespaces alone *)
Lemma nss_exec_instr ins r c r1 c1 : instr_ok [] [] ins c = true -> exec_instr ins r c = Ok (r1, c1) -> r_nss r1 = r_nss r.
Proof.
  intros I H. pose proof (app_exec_instr (cst (r_nss r)) 0 [] [] ins r c (cst_ok _ _) I) as E. rewrite app_cst_self, H in E. cbn [map_ex] in E.
  injection E as E1. apply (f_equal r_nss) in E1. exact E1.
Qed.
Lemma nss_op_unary n v r c r1 c1 y : uop_ok [] n v c = true -> op_unary n v r c = Ok (r1, c1, y) -> r_nss r1 = r_nss r.
Proof.
  intros I H. pose proof (app_op_unary (cst (r_nss r)) 0 [] [] n v r c (cst_ok _ _) I) as E. rewrite app_cst_self, H in E. cbn [map_op] in E.
  injection E as E1. apply (f_equal r_nss) in E1. exact E1.
Qed.
Lemma nss_op_binary n l v r c r1 c1 y : bop_ok [] [] n l v = true -> op_binary n l v r c = Ok (r1, c1, y) -> r_nss r1 = r_nss r.
Proof.
  intros I H. pose proof (app_op_binary (cst (r_nss r)) 0 [] [] n l v r c (cst_ok _ _) I) as E. rewrite app_cst_self, H in E. cbn [map_op] in E.
  injection E as E1. apply (f_equal r_nss) in E1. exact E1.
Qed.

(* ------------------------------------------------------------------ results related up to the namespaces *)
Section Rel.
Variable G : nsm -> nsm.
(* a' stands, up to the order of entries, for what G makes of the namespaces of r *)
Definition relN (r:rt) (a':nsm) : Prop := nss_eq a' (G (r_nss r)).
Lemma relN_nss r r' a' : r_nss r' = r_nss r -> relN r a' -> relN r' a'.
Proof. unfold relN. intros ->. auto. Qed.

Definition rres_op (x' x:opres) : Prop :=
  match x with
  | Ok (r1, c1, y) => exists a1, x' = Ok (app (cst a1) r1, c1, y) /\ relN r1 a1
  | Unsupported w => x' = Unsupported w | Hang w => x' = Hang w | UB w => x' = UB w end.
Definition rres_ex (x' x:res (rt * context)) : Prop :=
  match x with
  | Ok (r1, c1) => exists a1, x' = Ok (app (cst a1) r1, c1) /\ relN r1 a1
  | Unsupported w => x' = Unsupported w | Hang w => x' = Hang w | UB w => x' = UB w end.
Definition rres_v (x' x:res (rresult * rt * visit)) : Prop :=
  match x with
  | Ok (a, r1, k) => exists a1, x' = Ok (a, app (cst a1) r1, k) /\ relN r1 a1
  | Unsupported w => x' = Unsupported w | Hang w => x' = Hang w | UB w => x' = UB w end.

(* ------------------------------------------------------------------ from an operator to its call instruction *)
Lemma rres_ex_log r a' d c : relN r a' -> rres_ex (Ok (logmsg (app (cst a') r) d, c)) (Ok (logmsg r d, c)).
Proof. intro RL. exists a'. split; [rewrite app_logmsg; reflexivity|]. apply (relN_nss r); [apply nss_logmsg|exact RL]. Qed.

Lemma exec_unary_rel n r c a' : relN r a' ->
  (forall v c1, pop_value c = Some (v, c1) -> rres_op (op_unary (lower n) v (app (cst a') r) c1) (op_unary (lower n) v r c1)) ->
  rres_ex (exec_instr (IUnary n) (app (cst a') r) c) (exec_instr (IUnary n) r c).
Proof.
  intros RL H. rewrite !exec_unary_eq. destruct (pop_value c) as [[v c1]|]; [|apply rres_ex_log, RL].
  destruct (is_nil v); [apply rres_ex_log, RL|]. specialize (H v c1 eq_refl). unfold call_unary.
  destruct (op_unary (lower n) v r c1) as [[[r1 c2] y]| | |]; cbn [rres_op] in H.
  - destruct H as (a1 & -> & RL1). exists a1. split; [reflexivity|exact RL1].
  - rewrite H. destruct (has_unary _ _); [reflexivity|apply rres_ex_log, RL].
  - rewrite H. reflexivity.
  - rewrite H. reflexivity.
Qed.
Lemma exec_binary_rel n r c a' : relN r a' ->
  (forall v c1 l c2, pop_value c = Some (v, c1) -> pop_value c1 = Some (l, c2) ->
     rres_op (op_binary (lower n) l v (app (cst a') r) c2) (op_binary (lower n) l v r c2)) ->
  rres_ex (exec_instr (IBinary n) (app (cst a') r) c) (exec_instr (IBinary n) r c).
Proof.
  intros RL H. rewrite !exec_binary_eq. destruct (pop_value c) as [[v c1]|]; [|apply rres_ex_log, RL].
  destruct (is_nil v); [apply rres_ex_log, RL|]. destruct (pop_value c1) as [[l c2]|] eqn:P2; [|apply rres_ex_log, RL].
  destruct (is_nil l); [apply rres_ex_log, RL|]. specialize (H v c1 l c2 eq_refl P2). unfold call_binary.
  destruct (op_binary (lower n) l v r c2) as [[[r1 c3] y]| | |]; cbn [rres_op] in H.
  - destruct H as (a1 & -> & RL1). exists a1. split; [reflexivity|exact RL1].
  - rewrite H. destruct (has_binary _ _ _); [reflexivity|apply rres_ex_log, RL].
  - rewrite H. reflexivity.
  - rewrite H. reflexivity.
Qed.

(* ------------------------------------------------------------------ instructions *)
Section Instr.
Variables R W : list key.
Hypothesis GOK : sem_ok G R W.

Lemma ns_get_rel r a' ns n : relN r a' -> kin (ns, lower n) R = true -> ns_get (app (cst a') r) ns n = ns_get r ns n.
Proof.
  intros [H _] K. rewrite !ns_get_raw. cbn [r_nss app cst t_nss]. rewrite H. apply (so_get _ _ _ GOK). exact K.
Qed.
Lemma ns_set_rel r a' ns n v : relN r a' -> kin (ns, lower n) W = true ->
  ns_set (app (cst a') r) ns n v = app (cst (raw_set a' ns (lower n) v)) (ns_set r ns n v) /\
  relN (ns_set r ns n v) (raw_set a' ns (lower n) v).
Proof.
  intros H K. split; [reflexivity|]. unfold relN. rewrite ns_set_raw. cbn [r_nss set_nss rt_with].
  eapply nss_eq_trans; [apply nss_eq_set; exact H|]. apply nss_eq_sym. apply (so_set _ _ _ GOK). exact K.
Qed.

Lemma isnil_eq s r c f rest : c_frames c = f :: rest ->
  op_unary "isnil" (VStr s) r c =
    Ok (r, c, VBool (match (match get_variable c s with Some x => Some x | None => ns_get r (f_ns f) s end) with
                     | Some VNil => true | Some _ => false | None => true end)).
Proof. intro Fr. unfold op_unary. rewrite Fr. reflexivity. Qed.

Lemma unary_rel n v r c a' : relN r a' -> uop_ok R n v c = true ->
  rres_op (op_unary n v (app (cst a') r) c) (op_unary n v r c).
Proof.
  intros RL U. destruct (uop_ok [] n v c) eqn:U0.
  - rewrite (app_op_unary (cst a') 0 [] []) by auto using cst_ok.
    destruct (op_unary n v r c) as [[[r1 c1] y]| | |] eqn:E; cbn [map_op rres_op]; try reflexivity.
    exists a'. split; [reflexivity|]. apply (relN_nss r); auto. eapply nss_op_unary; eauto.
  - unfold uop_ok in U, U0.
    destruct (String.eqb n "scriptdone"); [discriminate|]. destruct (String.eqb n "terminate"); [discriminate|].
    destruct (String.eqb n "isnil") eqn:E; [|discriminate]. apply String.eqb_eq in E. subst n.
    destruct v; try discriminate. destruct (c_frames c) as [|f rest] eqn:Fr; [discriminate|].
    rewrite !(isnil_eq _ _ _ _ _ Fr). rewrite (ns_get_rel _ _ _ _ RL U).
    cbn [rres_op]. exists a'. split; [reflexivity|exact RL].
Qed.

Lemma setvar_eq s name x r c : op_binary "setvariable" (VNs s) (VArr [VStr name; x]) r c = Ok (ns_set r s name x, c, VNil).
Proof. reflexivity. Qed.

Lemma binary_rel n l v r c a' : relN r a' -> bop_ok R W n l v = true ->
  rres_op (op_binary n l v (app (cst a') r) c) (op_binary n l v r c).
Proof.
  intros RL U. destruct (bop_ok [] [] n l v) eqn:U0.
  - rewrite (app_op_binary (cst a') 0 [] []) by auto using cst_ok.
    destruct (op_binary n l v r c) as [[[r1 c1] y]| | |] eqn:E; cbn [map_op rres_op]; try reflexivity.
    exists a'. split; [reflexivity|]. apply (relN_nss r); auto. eapply nss_op_binary; eauto.
  - unfold bop_ok in U, U0.
    destruct (String.eqb n "spawn"); [discriminate|].
    destruct (String.eqb n "getvariable") eqn:E1.
    { apply String.eqb_eq in E1. subst n.
      destruct l; try discriminate. destruct v; try discriminate.
      - rewrite !C03Proofs.op_getvariable_string, (ns_get_rel _ _ _ _ RL U). cbn [rres_op]. exists a'. split; [reflexivity|exact RL].
      - destruct l as [|x0 l]; try discriminate. destruct x0; try discriminate.
        destruct l as [|d l]; try discriminate. destruct l; try discriminate.
        rewrite !C03Proofs.op_getvariable_default, (ns_get_rel _ _ _ _ RL U). cbn [rres_op]. exists a'. split; [reflexivity|exact RL]. }
    destruct (String.eqb n "setvariable") eqn:E2; [|discriminate].
    apply String.eqb_eq in E2. subst n.
    destruct l; try discriminate. destruct v; try discriminate.
    destruct l as [|x0 l]; try discriminate. destruct x0; try discriminate.
    destruct l as [|d l]; try discriminate. destruct l; try discriminate.
    rewrite !setvar_eq.
    match type of U with kin (?ss, lower ?nm) W = true => destruct (ns_set_rel r a' ss nm d RL U) as [A B] end. rewrite A.
    cbn [rres_op]. eexists. split; [reflexivity|exact B].
Qed.

Lemma rres_ex_same ins r c a' : relN r a' -> instr_ok [] [] ins c = true ->
  rres_ex (exec_instr ins (app (cst a') r) c) (exec_instr ins r c).
Proof.
  intros RL I. rewrite (app_exec_instr (cst a') 0 [] []) by auto using cst_ok.
  destruct (exec_instr ins r c) as [[r1 c1]| | |] eqn:E; cbn [map_ex rres_ex]; try reflexivity.
  exists a'. split; [reflexivity|]. apply (relN_nss r); auto. eapply nss_exec_instr; eauto.
Qed.

Lemma exec_rel ins r c a' : relN r a' -> instr_ok R W ins c = true ->
  rres_ex (exec_instr ins (app (cst a') r) c) (exec_instr ins r c).
Proof.
  intros RL I. destruct (instr_ok [] [] ins c) eqn:I0; [apply rres_ex_same; auto|].
  destruct ins; cbn [instr_ok] in I, I0; try discriminate; cbn [exec_instr].
  - (* IGet *)
    destruct (is_local n); [discriminate|]. destruct (c_frames c) as [|f rest]; [discriminate|].
    rewrite (ns_get_rel _ _ _ _ RL I). destruct (ns_get r (f_ns f) n); [exists a'; split; [reflexivity|exact RL]|apply rres_ex_log, RL].
  - (* IAssign *)
    destruct (pop_value c) as [[v c1]|]; [|discriminate].
    destruct (String.eqb n ""); [discriminate|]. destruct (is_local n); [discriminate|].
    destruct (c_frames c1) as [|f rest]; [discriminate|].
    set (r1 := match v with VNil => logmsg r d_AssigningNilValue | _ => r end).
    assert (L : (match v with VNil => logmsg (app (cst a') r) d_AssigningNilValue | _ => app (cst a') r end) = app (cst a') r1)
      by (unfold r1; destruct v; rewrite ?app_logmsg; reflexivity).
    rewrite L.
    assert (RL1 : relN r1 a') by (unfold r1; destruct v; try exact RL; apply (relN_nss _ _ _ (nss_logmsg _ _)); exact RL).
    destruct (ns_set_rel r1 a' (f_ns f) n v RL1 I) as [A B]. rewrite A.
    cbn [rres_ex]. eexists. split; [reflexivity|exact B].
  - (* IUnary *)
    apply exec_unary_rel; [exact RL|]. intros v c1 P. rewrite P in I. apply unary_rel; assumption.
  - (* IBinary *)
    apply exec_binary_rel; [exact RL|]. intros v c1 l c2 P P2. rewrite P, P2 in I. apply binary_rel; assumption.
Qed.
End Instr.

(* ------------------------------------------------------------------ one iteration, a slice, a turn *)
(* the chain of C12Frame.v for the transformer that only replaces the namespaces; okI: which instructions the turn may
   execute; Hex: they respect the relation *)
Lemma rel_visit_ctx (okI:instr -> context -> bool) :
  (forall ins r c a', relN r a' -> okI ins c = true -> rres_ex (exec_instr ins (app (cst a') r) c) (exec_instr ins r c)) ->
  forall i b1 b2 r a', relN r a' -> i < length (r_ctxs r) -> visit_okG okI b1 r i = true ->
  rres_v (visit_ctx b1 b2 (app (cst a') r) i) (visit_ctx b1 b2 r i).
Proof.
  intros Hex i b1 b2 r a' RL Hi H.
  assert (Hex' : forall ins r c a', relN r a' -> okI ins c = true ->
            rres tr_none relN upd_ex fst (exec_instr ins (app (with_nss tr_none a') r) c) (exec_instr ins r c)).
  { intros ins r0 c a0 RL0 I. specialize (Hex ins r0 c a0 RL0 I). destruct (exec_instr ins r0 c) as [[r1 c1]| | |]; exact Hex. }
  pose proof (chain_visit_ctx tr_none i (tr_none_ok _ _ _) relN relN_nss okI Hex' b1 b2 r a' RL Hi H) as E.
  destruct (visit_ctx b1 b2 r i) as [[[x r1] v]| | |]; exact E.
Qed.
End Rel.

(* A turn inside the footprints (R, W) does not see a change G of the namespaces that is sem_ok for (R, W) - up to the order
   of the entries: from r with its namespaces replaced by a' ~ G (r_nss r) it returns the same result and visit record, and
   the machine it returns from r with its namespaces replaced by some a1 ~ G (the namespaces it leaves from r). *)
Theorem turn_up_to_order G R W i b1 b2 r a' :
  sem_ok G R W -> relN G r a' -> i < length (r_ctxs r) -> visit_ok b1 R W r i = true ->
  rres_v G (visit_ctx b1 b2 (app (cst a') r) i) (visit_ctx b1 b2 r i).
Proof.
  intros GOK RL Hi OK.
  refine (rel_visit_ctx G (instr_ok R W) _ i b1 b2 r a' RL Hi _).
  - intros ins r0 c a0 RL0 I. exact (exec_rel G R W GOK ins r0 c a0 RL0 I).
  - rewrite visit_okG_instr. exact OK.
Qed.

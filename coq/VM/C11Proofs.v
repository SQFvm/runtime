(* C11 - execution bounds: the per-run time limit and the iteration cap of while in unscheduled code.
   Proofs about the VM model (VmDefs/VmExec) and its scheduler extension (SchedDefs). *)
From Coq Require Import String Ascii ZArith List Bool Lia Arith.
From SqfVerif Require Import Gen.DiagCodes Gen.Overloads VM.VmDefs VM.VmExec VM.SchedDefs VM.SchedOps VM.SchedBase VM.SchedIter VM.SchedEquiv.
Import ListNotations.
Local Open Scope list_scope.

Opaque frame_fuel exec_fuel.

(* ================================================================== the time limit *)

(* ------------------------------------------------------------------ the test itself *)
Lemma deadline_test_fires r : r_max_runtime r <> 0%Z -> (r_max_runtime r + r_run_ts r < r_clock r + r_tick r)%Z ->
  fst (deadline_test r) = true.
Proof.
  intros Hm Hd. rewrite deadline_test_spec. destruct (Z.eqb_spec (r_max_runtime r) 0); [contradiction|].
  cbn. apply Z.ltb_lt; auto.
Qed.
Lemma deadline_test_passes r : (r_clock r + r_tick r <= r_max_runtime r + r_run_ts r)%Z -> fst (deadline_test r) = false.
Proof.
  intros Hd. rewrite deadline_test_spec. destruct (Z.eqb (r_max_runtime r) 0); auto. cbn. apply Z.ltb_ge; auto.
Qed.

(* ------------------------------------------------------------------ one iteration of execute_do *)
(* an iteration that finds the limit exceeded when an instruction is due (or an empty loop body went round) ends
   the slice: the result is runtime_error, MaximumRuntimeReached is logged at fatal level, exit is requested and no
   error state remains *)
Theorem deadline_fires b r i c fr r1 c1 ins :
  r_exit_req r = false -> r_active r = Some i -> nth_error (r_ctxs r) i = Some c ->
  c_suspended c = false -> c_frames c <> [] -> r_state r = StRunning ->
  frame_next2 b frame_fuel r c = Ok (fr, r1, c1) -> r_err r1 = false ->
  (fr = F2Restarted \/ (fr = F2Ok /\ current_instr c1 = Some ins)) ->
  r_max_runtime r <> 0%Z -> (r_max_runtime r + r_run_ts r < r_clock r1 + r_tick r)%Z ->
  exists r', do_iter2 b r = Ok (Return2 RRuntimeError r') /\
    r_exit_req r' = true /\ r_err r' = false /\ r_msgs r' = [] /\
    hd_error (r_out r') = Some (EDiag (fst d_MaximumRuntimeReached) (snd d_MaximumRuntimeReached)).
Proof.
  intros Ex Ha Hc Su Fr St FN Er Due Hm Hd.
  destruct (frame_next2_shape _ _ _ _ _ _ _ FN) as [R1 _].
  pose proof (reach_cfg _ _ R1) as C. unfold rcfg in C.
  assert (F : fst (deadline_test r1) = true).
  { apply deadline_test_fires; [congruence|]. replace (r_max_runtime r1) with (r_max_runtime r) by congruence.
    replace (r_run_ts r1) with (r_run_ts r) by congruence. replace (r_tick r1) with (r_tick r) by congruence. auto. }
  destruct (deadline_test r1) as [exp r2] eqn:T. cbn in F. subst exp.
  exists (abort_run (upd_cur r2 c1)). split; [|repeat split].
  unfold do_iter2. rewrite Ex. unfold cur. rewrite Ha, Hc, Su.
  destruct (c_frames c) eqn:Fr'; [congruence|]. rewrite St. rewrite FN. cbn [bindr]. rewrite Er.
  destruct Due as [->|[-> CI]].
  - rewrite T. reflexivity.
  - rewrite CI, T. reflexivity.
Qed.

(* ------------------------------------------------------------------ a pass, the loop, a run *)

(* action start on a machine that is not running: the scheduler loop from the machine run_start r, then finish_action *)
Definition run_start (r:rt) : rt :=
  set_state (set_halt_req (set_exit_req (begin_run_if_empty (set_run r true)) false) false) StRunning.
Lemma execute_sw_start b1 b2 r x r' ps : execute_sw b1 b2 AStart r = Ok (x, r', ps) -> r_run r = false ->
  exists r1, loop_run b1 b2 (run_start r) RInvalid [] x r1 ps /\ r' = finish_action x r1.
Proof.
  intros H Hr. cbn [execute_sw] in H. rewrite Hr in H. fold (run_start r) in H.
  destruct (start_loop2 b1 b2 exec_fuel (run_start r) RInvalid []) as [[[x1 r1] ps1]| | |] eqn:L; cbn [bindr] in H; try discriminate.
  inversion H; subst. exists r1. split; [apply start_loop2_loop_run in L; exact L|reflexivity].
Qed.

(* the machine after a run that was cut by the time limit *)
Definition cut_by_limit (x:rresult) (r:rt) : Prop :=
  r_exit_req r = true /\ x = RRuntimeError /\ r_ctxs r = [] /\ r_state r = StEmpty /\
  In (EDiag (fst d_MaximumRuntimeReached) (snd d_MaximumRuntimeReached)) (r_out r).

Lemma visit_ctx_exit b1 b2 r i x r' v : visit_ctx b1 b2 r i = Ok (x, r', v) -> i < length (r_ctxs r) -> r_exit_req r = false ->
  (r_exit_req r' = true -> x = RRuntimeError /\ aborted r').
Proof.
  intros V Hi Ex. destruct (nth_error (r_ctxs r) i) as [c00|] eqn:Hc; [|apply nth_error_None in Hc; lia].
  destruct (visit_ctx_shape _ _ _ _ _ _ _ _ V Hc) as (_ & _ & Sh).
  apply (visit_shape_exit _ _ _ _ _ _ _ _ Sh Hc Ex).
Qed.

Lemma pass_run_exit b1 b2 r i x log p : pass_run b1 b2 r i x log p -> r_exit_req r = false ->
  match p with
  | PassDone2 _ r' _ => r_exit_req r' = false
  | PassExit2 x' r' _ => r_exit_req r' = false \/ cut_by_limit x' r'
  end.
Proof.
  induction 1; intro Ex; auto.
  - right. destruct (visit_ctx_exit _ _ _ _ _ _ _ H0 H Ex H1) as [-> [r0 ->]].
    repeat split; auto. cbn. left. reflexivity.
  - left. change (r_exit_req (retire r2 i) = false). rewrite retire_exit. auto.
  - apply IHpass_run. rewrite retire_exit. auto.
  - apply IHpass_run. auto.
Qed.

Lemma loop_run_exit b1 b2 r x ps x' r' ps' : loop_run b1 b2 r x ps x' r' ps' -> r_exit_req r = false ->
  r_exit_req r' = false \/ cut_by_limit x' r'.
Proof.
  induction 1; intro Ex; auto.
  - apply (pass_run_exit _ _ _ _ _ _ _ H0 Ex).
  - apply IHloop_run. apply (pass_run_exit _ _ _ _ _ _ _ H0 Ex).
Qed.

(* ------------------------------------------------------------------ how much can happen before the limit *)
Fixpoint sum_units (l:list visit) : nat := match l with [] => 0 | v :: r => v_units v + sum_units r end.
Fixpoint total_units (ps:list (list visit)) : nat := match ps with [] => 0 | p :: r => sum_units p + total_units r end.
Lemma sum_units_app a b : sum_units (a ++ b) = sum_units a + sum_units b.
Proof. induction a; cbn; lia. Qed.
Lemma total_units_app a b : total_units (a ++ b) = total_units a + total_units b.
Proof. induction a; cbn; lia. Qed.

(* A run that the time limit cut: it is reported as failed (runtime_error), the diagnostic is in the log, and
   the VM is left empty - no contexts, state empty, not running. *)
Theorem run_cut_by_limit b1 b2 r x r' ps :
  execute_sw b1 b2 AStart r = Ok (x, r', ps) -> r_run r = false ->
  r_exit_req r' = true ->
  x = RRuntimeError /\ r_ctxs r' = [] /\ r_active r' = None /\ r_state r' = StEmpty /\ r_run r' = false /\
  In (EDiag (fst d_MaximumRuntimeReached) (snd d_MaximumRuntimeReached)) (r_out r').
Proof.
  intros H Hr Ex. destruct (execute_sw_start _ _ _ _ _ _ H Hr) as (r1 & L & ->).
  apply loop_run_exit in L; [|reflexivity].
  unfold finish_action in *.
  assert (E : r_exit_req (state_of_result x r1) = r_exit_req r1) by (destruct x; reflexivity).
  rewrite E in *. destruct (r_exit_req r1) eqn:E1.
  - destruct L as [L|(_ & -> & C & S & O)]; [discriminate|]. repeat split; auto.
  - cbn in Ex. rewrite E in Ex. congruence.
Qed.

(* the settings of the machine (rcfg: tick, limit, start of the run, ...) stay as they are *)
Lemma visit_ctx_cfg b1 b2 r i x r' v : visit_ctx b1 b2 r i = Ok (x, r', v) -> i < length (r_ctxs r) -> rcfg r' = rcfg r.
Proof.
  intros V Hi. destruct (nth_error (r_ctxs r) i) as [c00|] eqn:Hc; [|apply nth_error_None in Hc; lia].
  destruct (visit_ctx_shape _ _ _ _ _ _ _ _ V Hc) as (_ & _ & Sh).
  apply (vs_cfg _ _ _ (visit_shape_vstep _ _ _ _ _ _ _ _ Sh Hc)).
Qed.
Lemma pass_run_cfg b1 b2 r i x log p : pass_run b1 b2 r i x log p -> rcfg (pass_rt p) = rcfg r.
Proof.
  induction 1; cbn [pass_rt]; try rewrite IHpass_run; try change (rcfg (retire r2 i) = rcfg r); rewrite ?retire_cfg;
    first [reflexivity|exact (visit_ctx_cfg _ _ _ _ _ _ _ H0 H)].
Qed.
Lemma loop_run_cfg b1 b2 r x ps x' r' ps' : loop_run b1 b2 r x ps x' r' ps' -> rcfg r' = rcfg r.
Proof. induction 1; try rewrite IHloop_run; first [reflexivity|exact (pass_run_cfg _ _ _ _ _ _ _ H0)]. Qed.

(* k units of work between r and r', by the clock and the limit of r *)
Definition spent (r r':rt) (k:nat) : Prop :=
  units_ok (r_tick r) (r_max_runtime r + r_run_ts r) (r_clock r) (r_clock r') k.
Lemma spent_seq r r1 r2 k1 k2 : rcfg r1 = rcfg r -> (0 <= r_tick r)%Z -> spent r r1 k1 -> spent r1 r2 k2 -> spent r r2 (k1 + k2).
Proof.
  intros C Ht U1 U2. unfold spent in *. destruct (rcfg_limits _ _ C) as (E1 & E2 & E3 & _). rewrite E1, E2, E3 in U2.
  eapply units_ok_seq; eauto.
Qed.

Lemma visit_ctx_time b1 r i x r' v : visit_ctx b1 false r i = Ok (x, r', v) -> i < length (r_ctxs r) ->
  r_max_runtime r <> 0%Z -> (0 <= r_tick r)%Z -> spent r r' (v_units v).
Proof.
  intros V Hi Hm Ht. destruct (nth_error (r_ctxs r) i) as [c00|] eqn:Hc; [|apply nth_error_None in Hc; lia].
  destruct (visit_ctx_shape _ _ _ _ _ _ _ _ V Hc) as (_ & Hx & Sh). eapply visit_shape_time; eauto.
Qed.

Lemma pass_run_time b1 r i x log p : pass_run b1 false r i x log p ->
  r_max_runtime r <> 0%Z -> (0 <= r_tick r)%Z ->
  exists new, pass_log p = log ++ new /\ spent r (pass_rt p) (sum_units new).
Proof.
  (* a turn, then the rest of the pass from a machine r3 with the settings and the clock of the machine r2 the turn left *)
  assert (Step : forall r r2 r3 v new, rcfg r2 = rcfg r -> rcfg r3 = rcfg r2 -> r_clock r3 = r_clock r2 -> (0 <= r_tick r)%Z ->
            spent r r2 (v_units v) -> forall r', spent r3 r' (sum_units new) -> spent r r' (sum_units (v :: new))).
  { intros r0 r2 r3 v new C2 C3 K Ht U r' U3. apply (spent_seq r0 r3); [congruence|exact Ht| |exact U3].
    unfold spent in *. rewrite K. exact U. }
  induction 1; intros Hm Ht.
  - exists []. rewrite app_nil_r. split; [reflexivity|]. apply units_ok_zero. cbn [pass_rt]. lia.
  - exists [v]. split; [reflexivity|]. cbn [sum_units]. rewrite Nat.add_0_r. exact (visit_ctx_time _ _ _ _ _ _ H0 H Hm Ht).
  - exists [v]. split; [reflexivity|]. cbn [sum_units]. rewrite Nat.add_0_r. exact (visit_ctx_time _ _ _ _ _ _ H0 H Hm Ht).
  - exists [v]. split; [reflexivity|]. cbn [sum_units pass_rt]. rewrite Nat.add_0_r.
    change (spent r (retire r2 i) (v_units v)). unfold spent. rewrite retire_clock. exact (visit_ctx_time _ _ _ _ _ _ H0 H Hm Ht).
  - pose proof (visit_ctx_cfg _ _ _ _ _ _ _ H0 H) as C2. pose proof (retire_cfg r2 i) as C3.
    destruct (rcfg_limits _ _ (eq_trans C3 C2)) as (E1 & E2 & _).
    destruct IHpass_run as (new & E & U3); [rewrite E2; exact Hm|rewrite E1; exact Ht|].
    exists (v :: new). rewrite E, <- app_assoc. split; [reflexivity|].
    exact (Step r r2 _ v new C2 C3 (retire_clock r2 i) Ht (visit_ctx_time _ _ _ _ _ _ H0 H Hm Ht) _ U3).
  - pose proof (visit_ctx_cfg _ _ _ _ _ _ _ H0 H) as C2. destruct (rcfg_limits _ _ C2) as (E1 & E2 & _).
    destruct IHpass_run as (new & E & U3); [rewrite E2; exact Hm|rewrite E1; exact Ht|].
    exists (v :: new). rewrite E, <- app_assoc. split; [reflexivity|].
    exact (Step r r2 r2 v new C2 eq_refl eq_refl Ht (visit_ctx_time _ _ _ _ _ _ H0 H Hm Ht) _ U3).
Qed.

Lemma loop_run_time b1 r x ps x' r' ps' : loop_run b1 false r x ps x' r' ps' ->
  r_max_runtime r <> 0%Z -> (0 <= r_tick r)%Z ->
  exists new, ps' = ps ++ new /\ spent r r' (total_units new).
Proof.
  induction 1; intros Hm Ht.
  - exists []. rewrite app_nil_r. split; [reflexivity|]. apply units_ok_zero. lia.
  - destruct (pass_run_time _ _ _ _ _ _ H0 Hm Ht) as (new & E & U). cbn in E, U. subst log.
    exists [new]. cbn. rewrite Nat.add_0_r. auto.
  - destruct (pass_run_time _ _ _ _ _ _ H0 Hm Ht) as (new & E & U). cbn in E, U. subst log.
    pose proof (pass_run_cfg _ _ _ _ _ _ _ H0) as C. cbn [pass_rt] in C. destruct (rcfg_limits _ _ C) as (E1 & E2 & _).
    destruct IHloop_run as (new2 & E & U2); [rewrite E2; exact Hm|rewrite E1; exact Ht|].
    exists (new :: new2). rewrite E, <- app_assoc. split; [reflexivity|]. exact (spent_seq _ _ _ _ _ C Ht U U2).
Qed.

(* Repaired runtime. Whatever the scripts do: the units of work of a run - executed instructions, empty loop
   rounds, visits of sleeping scripts - all started before the limit, each took at least one tick of the clock.
   With the run's start s, limit m and a clock that advances by tick > 0 per query, a run performs at most
   m / tick of them before the test fails and the run is cut (instantiate with r_state r = StEmpty below). *)
Theorem run_work_bounded b1 r x r' ps :
  execute_sw b1 false AStart r = Ok (x, r', ps) -> r_run r = false ->
  r_max_runtime r <> 0%Z -> (0 < r_tick r)%Z ->
  let r0 := begin_run_if_empty (set_run r true) in
  total_units ps = 0 \/ (r_clock r0 + Z.of_nat (total_units ps) * r_tick r <= r_max_runtime r + r_run_ts r0)%Z.
Proof.
  intros H Hr Hm Ht r0. destruct (execute_sw_start _ _ _ _ _ _ H Hr) as (r1 & L & _).
  set (rS := run_start r) in *.
  assert (C0 : r_max_runtime r0 = r_max_runtime r /\ r_tick r0 = r_tick r).
  { unfold r0, begin_run_if_empty. destruct (r_state (set_run r true)); cbn; auto. }
  destruct C0 as [C1 C2].
  assert (E1 : r_max_runtime rS = r_max_runtime r0) by reflexivity.
  assert (E2 : r_tick rS = r_tick r0) by reflexivity.
  assert (E3 : r_run_ts rS = r_run_ts r0) by reflexivity.
  assert (E4 : r_clock rS = r_clock r0) by reflexivity.
  apply loop_run_time in L; [|congruence|rewrite E2, C2; lia].
  destruct L as (new & -> & [_ U]). cbn [app] in *.
  rewrite E1, E2, E3, E4, C1, C2 in U. auto.
Qed.

(* the limit is measured from the start of the run: a run that begins on an empty runtime takes its start
   time from the clock at that moment, whatever the age of the VM (m_runtime_timestamp is not consulted) *)
Theorem deadline_measured_from_run_start r :
  r_state r = StEmpty ->
  let r0 := begin_run_if_empty (set_run r true) in
  r_run_ts r0 = (r_clock r + r_tick r)%Z /\ r_clock r0 = (r_clock r + r_tick r)%Z /\
  (forall ts, r_run_ts (begin_run_if_empty (set_run (set_timestamp r ts) true)) = r_run_ts r0).
Proof. intro St. unfold begin_run_if_empty. cbn. rewrite St. cbn. auto. Qed.

(* the start time of the run does not change while the run executes *)
Theorem run_ts_constant b1 b2 r x r' ps :
  execute_sw b1 b2 AStart r = Ok (x, r', ps) -> r_run r = false ->
  r_run_ts r' = r_run_ts (begin_run_if_empty (set_run r true)).
Proof.
  intros H Hr. destruct (execute_sw_start _ _ _ _ _ _ H Hr) as (r1 & L & ->).
  destruct (rcfg_limits _ _ (loop_run_cfg _ _ _ _ _ _ _ _ L)) as (_ & _ & G & _).
  unfold finish_action. destruct (r_exit_req (state_of_result x r1)); destruct x; cbn in *; auto.
Qed.

(* ================================================================== the code before the repair: frame::next restarts by itself *)
(* A `for` frame with step 0 and no instructions, its variable within the bound: the behaviour asks for a restart and
   leaves the frame as it found it. *)
Definition spinning (c:context) : Prop :=
  exists f rest var to x, c_frames c = f :: rest /\ f_code f = [] /\ f_pos f = 0 /\ f_die f = false /\
    f_exit f = Some (BFor var to 0) /\ assoc (lower var) (f_vars f) = Some (VNum x) /\ (x <= to)%Z.

(* with the switch on, frame::next goes round such a frame whatever the fuel: one round leads to a spinning frame again *)
Lemma frame_next2_spins k : forall r c, spinning c -> frame_next2 true k r c = Hang "frame::next does not return".
Proof.
  induction k; intros r c (f & rest & var & to & x & Hf & Hc & Hp & Hd & He & Hv & Hx); [reflexivity|].
  destruct f; cbn in Hc, Hp, Hd, He, Hv; subst.
  cbn [frame_next2]. rewrite Hf. cbn. rewrite Hv, Z.add_0_r. destruct (Z.ltb_spec to x); [lia|].
  cbn [bindr]. apply IHk. unfold spinning, clear_values, upd_top. cbn.
  eexists _, rest, var, to, x. split; [reflexivity|]. cbn. rewrite String.eqb_refl. auto 10.
Qed.

Lemma do_iter2_spins r c : r_exit_req r = false -> cur r = Some c -> c_suspended c = false -> r_state r = StRunning ->
  spinning c -> do_iter2 true r = Hang "frame::next does not return".
Proof.
  intros Ex Hc Su St Sp. unfold do_iter2. rewrite Ex, Hc, Su, St, (frame_next2_spins _ r c Sp).
  destruct Sp as (f & rest & _ & _ & _ & -> & _). reflexivity.
Qed.

(* the machine after n iterations of execute_do that executed one instruction each *)
Fixpoint after_instrs (b:bool) (n:nat) (r:rt) : option rt :=
  match n with
  | 0 => Some r
  | S n' => if r_exit_req r then None
            else match do_iter2 b r with Ok (Executed2 r1) => after_instrs b n' r1 | _ => None end
  end.

Lemma execute_do2_hangs b s n : forall r r', after_instrs b n r = Some r' -> r_exit_req r' = false -> do_iter2 b r' = Hang s ->
  forall k ea ki kr, n < k -> n < ea -> execute_do2 b k r ea ki kr = Hang s.
Proof.
  induction n; intros r r' A Ex D k ea ki kr Hk He;
    (destruct k as [|k]; [lia|]); (destruct ea as [|ea]; [lia|]); cbn [execute_do2 after_instrs] in *.
  - inversion A; subst. rewrite Ex, D. reflexivity.
  - destruct (r_exit_req r); [discriminate|]. destruct (do_iter2 b r) as [[]| | |]; try discriminate.
    cbn [bindr]. eapply IHn; eauto; lia.
Qed.

Lemma exec_fuel_S : exists k, exec_fuel = S k.
Proof.
  assert (F : 0 <? exec_fuel = true) by (vm_compute; reflexivity).
  destruct exec_fuel; [discriminate|eauto].
Qed.

(* a run whose first slice, of the first script, does not return *)
Lemma first_slice_hangs b1 b2 r c s :
  r_run r = false -> nth_error (r_ctxs (run_start r)) 0 = Some c -> c_terminate c = false -> c_suspended c = false ->
  execute_do2 b1 exec_fuel (upd_cur (set_active (run_start r) (Some 0)) c) (r_slice (run_start r)) 0 0 = Hang s ->
  execute_sw b1 b2 AStart r = Hang s.
Proof.
  intros Hr Hc Te Su H. unfold execute_sw. rewrite Hr. fold (run_start r). set (r0 := run_start r) in *. clearbody r0.
  destruct exec_fuel_S as [k F]. rewrite F. cbn [start_loop2]. rewrite F. cbn [start_pass2]. unfold visit_ctx.
  change (cur (set_active r0 (Some 0))) with (nth_error (r_ctxs r0) 0). rewrite Hc, Te, Su.
  change (r_slice (upd_cur (set_active r0 (Some 0)) c)) with (r_slice r0). rewrite H.
  destruct (r_ctxs r0); [discriminate|]. reflexivity.
Qed.

(* ================================================================== the iteration cap of while *)
Definition sw_while : string := "while_empty_body_uncapped".

(* One call of the while behaviour that lets the loop go on (any result but ok), in an unscheduled context with
   the cap on: either the condition held and the body is started (counter unchanged), or an iteration was
   completed - the body ran to its end, or there is no body - and then the counter went up by one and is
   still below the cap. *)
Lemma while_enact loops m cond body r c br b1 r' c' :
  enact (BWhile loops m cond body) r c = Ok (br, b1, r', c') ->
  defect r sw_while = false -> c_can_suspend c = false -> 0 < r_max_loop r -> br <> BrOk ->
  (m = WCond /\ body <> [] /\ br = BrExchange body /\ b1 = BWhile loops WCode cond body) \/
  (m = WCond /\ body = [] /\ br = BrSeekStart /\ b1 = BWhile (S loops) WCond cond body /\ S loops < r_max_loop r) \/
  (m = WCode /\ br = BrExchange cond /\ b1 = BWhile (S loops) WCond cond body /\ S loops < r_max_loop r).
Proof.
  intros H D Cs Mx Nok. cbn [enact] in H. unfold sw_while in D. destruct m.
  - destruct (pop_value c) as [[v cx]|]; [|destruct (exit_value_missing r); inversion H; subst; congruence].
    destruct v; try (inversion H; subst; congruence).
    destruct b; [|inversion H; subst; congruence].
    destruct body as [|i0 body].
    + rewrite D, Cs in H. cbn [negb andb] in H.
      destruct (Nat.ltb_spec 0 (r_max_loop r)); [|lia]. cbn [andb] in H.
      destruct (Nat.leb_spec (r_max_loop r) (S loops)); inversion H; subst; [congruence|].
      right; left. repeat split; auto.
    + inversion H; subst. left. repeat split; auto. discriminate.
  - rewrite Cs in H. cbn [negb andb] in H.
    destruct (Nat.ltb_spec 0 (r_max_loop r)); [|lia]. cbn [andb] in H.
    destruct (Nat.leb_spec (r_max_loop r) (S loops)); inversion H; subst; [congruence|].
    right; right. repeat split; auto.
Qed.

(* a history of calls of one loop's behaviour that all let the loop go on; the machine and the context may be
   anything at every call (whatever condition and body did), as long as the context is unscheduled, the cap is
   mx and the switch has the given value; the list records the behaviour before each call *)
Inductive wsteps (old:bool) (mx:nat) : behavior -> list behavior -> behavior -> Prop :=
| ws_nil b : wsteps old mx b [] b
| ws_cons b r c br b1 r' c' l b2 :
    c_can_suspend c = false -> r_max_loop r = mx -> defect r sw_while = old ->
    enact b r c = Ok (br, b1, r', c') -> br <> BrOk -> wsteps old mx b1 l b2 ->
    wsteps old mx b (b :: l) b2.

(* iterations begun: calls made when the condition has just been evaluated (and held, since the loop goes on) *)
Definition in_cond (b:behavior) : bool := match b with BWhile _ WCond _ _ => true | _ => false end.
Definition iterations (l:list behavior) : nat := length (filter in_cond l).

Lemma while_cap_inv mx cond body : 0 < mx -> forall b l b2, wsteps false mx b l b2 ->
  forall loops m, b = BWhile loops m cond body -> loops < mx ->
  iterations l + loops + (match m with WCode => 1 | WCond => 0 end) <= mx.
Proof.
  intros Hmx b l b2 H. induction H; intros loops m Eb Lt.
  - subst. unfold iterations. cbn. destruct m; lia.
  - subst b. rewrite <- H0 in *.
    destruct (while_enact _ _ _ _ _ _ _ _ _ _ H2 H1 H Hmx H3)
      as [(-> & Nb & -> & ->)|[(-> & Eb & -> & -> & Lt2)|(-> & -> & -> & Lt2)]].
    + specialize (IHwsteps loops WCode eq_refl Lt). unfold iterations in *. cbn [filter in_cond length]. lia.
    + specialize (IHwsteps (S loops) WCond eq_refl Lt2). unfold iterations in *. cbn [filter in_cond length]. lia.
    + specialize (IHwsteps (S loops) WCond eq_refl Lt2). unfold iterations in *. cbn [filter in_cond length]. lia.
Qed.

(* In unscheduled code every while loop begins at most mx iterations, whatever its condition and body,
   including an empty body (the behaviour is pushed with a zero counter in condition mode by `do`). *)
Theorem while_cap mx cond body l b2 :
  0 < mx -> wsteps false mx (BWhile 0 WCond cond body) l b2 -> iterations l <= mx.
Proof.
  intros Hmx H. pose proof (while_cap_inv mx cond body Hmx _ _ _ H 0 WCond eq_refl Hmx) as Q. cbv iota in Q. lia.
Qed.

(* the code before the repair (switch on): with an empty body the counter never moved, so the loop could go
   round any number of times although the cap is 1 *)
Definition refute_frame : frame := mk_frame default_ns [IPush (VBool true)] None None [].
Definition refute_ctx : context := push_value (push_frame (new_context 0 false) refute_frame) (VBool true).
Definition refute_rt : rt := init_rt [sw_while] 0 0 1 150.

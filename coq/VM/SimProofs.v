(* C02 simulation, part 1: the VM model running the compiled code of a frame-free expression computes the value the
   big-step relation pev assigns to it (and pushes exactly that one value), for every surrounding code and stack. *)
From Coq Require Import String Ascii.
From Coq Require Import ZArith List Bool Lia.
From SqfVerif Require Import Gen.DiagCodes Gen.Overloads VM.VmDefs VM.VmFacts VM.VmExec VM.RefSem VM.C02Proofs VM.SimDefs.
Import ListNotations.
Local Open Scope string_scope.
Local Open Scope list_scope.

Lemma frame_fuel_S : exists k, frame_fuel = S k.
Proof. destruct frame_fuel eqn:E; [exfalso; unfold frame_fuel in E; lia|eauto]. Qed.

Lemma upd_cur_twice r a b : upd_cur (upd_cur r a) b = upd_cur r b.
Proof.
  unfold upd_cur. destruct (r_active r) as [i|] eqn:A; cbn; rewrite A; [|reflexivity]. cbn. rewrite list_upd_twice. reflexivity.
Qed.
Lemma set_msgs_upd_cur r c : r_msgs r = [] -> set_msgs (upd_cur r c) [] = upd_cur r c.
Proof. intros M. unfold upd_cur. destruct (r_active r); unfold set_msgs, set_ctxs, rt_with; cbn; rewrite <- M; destruct r; reflexivity. Qed.

Lemma good_running r c : Good r c -> c_suspended c = false.
Proof. intros (_ & _ & _ & _ & _ & _ & SU). exact SU. Qed.
Lemma good_upd r c c' : Good r c -> c_suspended c' = false -> Good (upd_cur r c') c'.
Proof.
  intros (C & X & St & E & M & D & SU) SU'. unfold Good. split; [eapply cur_upd_cur; eauto|].
  unfold upd_cur. destruct (r_active r); cbn; auto 10.
Qed.

Lemma step_instr r c f rest i r3 c5 :
  Good r c -> c_frames c = f :: rest -> nth_error (f_code f) (f_pos f) = Some i ->
  exec_instr i r (set_frames c (set_pos f (S (f_pos f)) :: rest)) = Ok (r3, c5) ->
  r_err (upd_cur r3 c5) = false ->
  do_iter r = Ok (Executed (set_msgs (upd_cur r3 c5) [])).
Proof.
  intros (C & X & St & E & M & D & SU) EF N EX NE. unfold do_iter. rewrite X, C, SU, EF, St.
  destruct frame_fuel_S as [k Hk]. rewrite Hk. cbn [frame_next]. rewrite EF.
  assert (P : f_pos f < length (f_code f)) by (apply nth_error_Some; congruence).
  assert (A1 : at_end f = false) by (unfold at_end; apply Nat.eqb_neq; lia).
  assert (A2 : at_end (set_pos f (S (f_pos f))) = false) by (unfold at_end; cbn; apply Nat.eqb_neq; lia).
  rewrite A1, A2.
  destruct (f_exit (set_pos f (S (f_pos f)))) as [b|] eqn:EB.
  - cbn [andb bindr]. rewrite E.
    unfold current_instr. cbn [c_frames set_frames f_code set_pos f_pos]. rewrite Nat.sub_succ, Nat.sub_0_r, N.
    rewrite D. cbn [Z.eqb]. rewrite EX. cbn [bindr]. rewrite NE. reflexivity.
  - cbn [bindr]. rewrite E.
    unfold current_instr. cbn [c_frames set_frames f_code set_pos f_pos]. rewrite Nat.sub_succ, Nat.sub_0_r, N.
    rewrite D. cbn [Z.eqb]. rewrite EX. cbn [bindr]. rewrite NE. reflexivity.
Qed.

Lemma cv_data_not_nil v : is_data v = true -> cv v <> VNil.
Proof. destruct v; cbn; intros H; try discriminate H; discriminate. Qed.

Lemma show_cv b : forall v t, rshow b v = Some t -> show b (cv v) = Some t.
Proof.
  fix IH 1. intros v t. destruct v; cbn [cv rshow show]; try (intros H; exact H); try discriminate.
  intros H.
  assert (E : forall l0 u, (fix go (l:list rvalue) : option string :=
               match l with
               | [] => Some ""
               | u :: l' => match rshow b u, go l' with
                            | Some a, Some b => Some (append a (match l' with [] => b | _ => append "," b end))
                            | _, _ => None end end) l0 = Some u ->
             (fix go (l:list value) : option string :=
               match l with
               | [] => Some ""
               | u :: l' => match show b u, go l' with
                            | Some a, Some b => Some (append a (match l' with [] => b | _ => append "," b end))
                            | _, _ => None end end) (map cv l0) = Some u).
  { induction l0 as [|x l0 IHl]; intros u HU; [exact HU|]. cbn [map].
    destruct (rshow b x) as [a|] eqn:EA; [|discriminate HU]. rewrite (IH x a EA).
    match type of HU with match ?g with _ => _ end = _ => destruct g as [bb|] eqn:EB; [|discriminate HU] end.
    rewrite (IHl bb eq_refl). destruct l0; exact HU. }
  match type of H with match ?g with _ => _ end = _ => destruct g as [u|] eqn:EG; [|discriminate H] end.
  rewrite (E l u EG). exact H.
Qed.

Lemma veqb_cv cs : forall a b, veqb cs (cv a) (cv b) = req cs a b.
Proof.
  fix IH 1. intros a b. destruct a; destruct b; try reflexivity.
  cbn [cv veqb req]. revert l0. induction l as [|u l IHl]; intros [|w l0]; cbn [map]; try reflexivity.
  rewrite IH, IHl. reflexivity.
Qed.

Inductive pure_un : string -> rvalue -> rvalue -> Prop :=
| PUnot b : pure_un "!" (RBool b) (RBool (negb b))
| PUcount l : pure_un "count" (RArr l) (RNum (Z.of_nat (length l)))
| PUstr v t : v <> RNil -> v <> RNone -> rshow true v = Some t -> pure_un "str" v (RStr t)
| PUneg x : Z.eqb x 0 = false -> is_int_in_range (- x) = true -> pure_un "-" (RNum x) (RNum (- x))
| PUnum x : pure_un "+" (RNum x) (RNum x)
| PUarr l : pure_un "+" (RArr l) (RArr l).

Inductive scalars : rvalue -> rvalue -> Prop :=
| SNum x y : scalars (RNum x) (RNum y) | SBool x y : scalars (RBool x) (RBool y) | SStr x y : scalars (RStr x) (RStr y).
Inductive pure_bin : string -> rvalue -> rvalue -> rvalue -> Prop :=
| PBadd x y : is_int_in_range (x + y) = true -> pure_bin "+" (RNum x) (RNum y) (RNum (x + y))
| PBcat x y : pure_bin "+" (RArr x) (RArr y) (RArr (x ++ y))
| PBapp x y : pure_bin "+" (RStr x) (RStr y) (RStr (append x y))
| PBsub x y : is_int_in_range (x - y) = true -> pure_bin "-" (RNum x) (RNum y) (RNum (x - y))
| PBand a b : pure_bin "&&" (RBool a) (RBool b) (RBool (andb a b))
| PBor a b : pure_bin "||" (RBool a) (RBool b) (RBool (orb a b))
| PBlt x y : pure_bin "<" (RNum x) (RNum y) (RBool (Z.ltb x y))
| PBgt x y : pure_bin ">" (RNum x) (RNum y) (RBool (Z.gtb x y))
| PBle x y : pure_bin "<=" (RNum x) (RNum y) (RBool (Z.leb x y))
| PBge x y : pure_bin ">=" (RNum x) (RNum y) (RBool (Z.geb x y))
| PBmul x y : andb (Z.eqb (x * y) 0) (orb (Z.ltb x 0) (Z.ltb y 0)) = false -> is_int_in_range (x * y) = true ->
    pure_bin "*" (RNum x) (RNum y) (RNum (x * y))
| PBeq l r : scalars l r -> pure_bin "==" l r (RBool (req false l r))
| PBne l r : scalars l r -> pure_bin "!=" l r (RBool (negb (req false l r)))
| PBsame l r a b : l <> RNil -> l <> RNone -> r <> RNil -> r <> RNone -> rshow true l = Some a -> rshow true r = Some b ->
    pure_bin "isequalto" l r (RBool (req true l r)).

Lemma pure_unary_inv n va v : pure_unary n va = Some v -> pure_un n va v.
Proof.
  unfold pure_unary, option_map. intros H. crack H; inversion H; subst; econstructor; try eassumption; discriminate.
Qed.
Lemma pure_binary_inv n l r v : pure_binary n l r = Some v -> pure_bin n l r v.
Proof.
  unfold pure_binary. intros H. crack H; inversion H; subst; econstructor; try eassumption; try constructor; discriminate.
Qed.

Lemma pure_unary_nonnil n va v : pure_unary n va = Some v -> cv v <> VNil.
Proof. intros H. destruct (pure_unary_inv _ _ _ H); discriminate. Qed.
Lemma pure_binary_nonnil n va vb v : pure_binary n va vb = Some v -> cv v <> VNil.
Proof. intros H. destruct (pure_binary_inv _ _ _ _ H); discriminate. Qed.

Lemma pure_unary_vm n va v r c : pure_unary n va = Some v -> op_unary n (cv va) r c = Ok (r, c, cv v) /\ cv va <> VNil.
Proof.
  intros H. destruct (pure_unary_inv _ _ _ H) as [| |va t N1 N2 ES|x Z0 R| |]; (split; [|try discriminate]).
  - reflexivity.
  - cbn. now rewrite map_length.
  - unfold op_unary. cbn [String.eqb Ascii.eqb Bool.eqb]. rewrite (show_cv true va t ES). reflexivity.
  - destruct va; try discriminate; contradiction.
  - cbn. rewrite Z0. unfold num. rewrite R. reflexivity.
  - reflexivity.
  - reflexivity.
Qed.

Lemma pure_binary_vm n va vb v r c : pure_binary n va vb = Some v ->
  op_binary n (cv va) (cv vb) r c = Ok (r, c, cv v) /\ cv va <> VNil /\ cv vb <> VNil.
Proof.
  intros H. destruct (pure_binary_inv _ _ _ _ H) as [x y R| | |x y R| | | | | | |x y NZ R|va vb SC|va vb SC|va vb ta tb A1 A2 B1 B2 SA SB];
    try (repeat split; try discriminate; reflexivity).
  - repeat split; try discriminate. cbn. unfold num. rewrite R. reflexivity.
  - repeat split; try discriminate. cbn. now rewrite map_app.
  - repeat split; try discriminate. cbn. unfold num. rewrite R. reflexivity.
  - repeat split; try discriminate. cbn. rewrite NZ. unfold num. rewrite R. reflexivity.
  - destruct SC; (repeat split; try discriminate); unfold op_binary; cbn [String.eqb Ascii.eqb Bool.eqb orb cv]; rewrite <- veqb_cv; reflexivity.
  - destruct SC; (repeat split; try discriminate); unfold op_binary; cbn [String.eqb Ascii.eqb Bool.eqb orb cv]; rewrite <- veqb_cv; reflexivity.
  - split; [|split; [destruct va|destruct vb]; try discriminate; contradiction].
    unfold op_binary. cbn [String.eqb Ascii.eqb Bool.eqb orb]. rewrite (show_cv true va ta SA), (show_cv true vb tb SB), veqb_cv. reflexivity.
Qed.

Definition adv (c:context) (f:frame) (rest:list frame) (k:nat) (vs:list value) : context :=
  set_values (set_frames c (set_pos f (f_pos f + k) :: rest)) (vs ++ c_values c).

Lemma steps_trans a b c : Steps a b -> Steps b c -> Steps a c.
Proof. induction 1; intros; eauto using Steps. Qed.

Lemma lookup_frames_set_pos n f p rest : lookup_frames n (set_pos f p :: rest) = lookup_frames n (f :: rest).
Proof. reflexivity. Qed.

(* what the environment of the relation means on the machine: locals through the frame chain, globals in the
   namespace of the current frame *)
Definition env_ok (loc glob : string -> option rvalue) (r:rt) (fs:list frame) (ns:string) : Prop :=
  (forall k w, hidden k = false -> loc k = Some w -> lookup_frames k fs = Some (cv w)) /\
  (forall k w, glob k = Some w -> match assoc ns (r_nss r) with Some m => assoc k m | None => None end = Some (cv w)).

Lemma adv_adv c f rest k1 vs1 k2 vs2 :
  adv (adv c f rest k1 vs1) (set_pos f (f_pos f + k1)) rest k2 vs2 = adv c f rest (k1 + k2) (vs2 ++ vs1).
Proof. unfold adv. cbn. rewrite Nat.add_assoc, app_assoc. reflexivity. Qed.

Lemma good_adv r c f rest k vs : Good r c -> Good (upd_cur r (adv c f rest k vs)) (adv c f rest k vs).
Proof. intros G. exact (good_upd r c (adv c f rest k vs) G (good_running r c G)). Qed.

Lemma pop_args_stack : forall (ws:list value) c0 f rest vals acc, c_frames c0 = f :: rest -> f_base f <= length vals ->
  pop_args (length ws) (set_values c0 (ws ++ vals)) acc = (rev ws ++ acc, set_values c0 vals, true).
Proof.
  induction ws as [|w ws IH]; intros c0 f rest vals acc EF B.
  - reflexivity.
  - cbn [length pop_args app]. unfold pop_value. cbn [c_values set_values c_frames]. rewrite EF.
    destruct (Nat.leb_spec (length (w :: ws ++ vals)) (f_base f)) as [L|L]; [cbn [length] in L; rewrite app_length in L; lia|].
    change (set_values (set_values c0 (w :: ws ++ vals)) (ws ++ vals)) with (set_values c0 (ws ++ vals)).
    rewrite (IH c0 f rest vals (w :: acc) EF B). cbn [rev]. rewrite <- app_assoc. reflexivity.
Qed.

Lemma compile_unary_nonlit n a : (forall k, a <> ENum k) -> compile_expr (EUnary n a) = compile_expr a ++ [IUnary (lower n)].
Proof. intros H. destruct a; try reflexivity. exfalso. eapply H; reflexivity. Qed.

(* the runtime record the instruction leaves (r3) may differ in what the program can observe, not in what execute_do looks at *)
Lemma run_step r c f rest i r3 c2 :
  Good r c -> c_frames c = f :: rest -> nth_error (f_code f) (f_pos f) = Some i ->
  exec_instr i r (set_frames c (set_pos f (S (f_pos f)) :: rest)) = Ok (r3, c2) -> c_suspended c2 = false ->
  Good r3 c -> cfg_same r r3 -> Steps r (upd_cur r3 c2) /\ Good (upd_cur r3 c2) c2.
Proof.
  intros G EF N EX SU2 G3 CF. pose proof G3 as (_ & _ & _ & E3 & M3 & _). split; [|apply (good_upd r3 c _ G3 SU2)].
  eapply StepsExec; [|eapply cfg_trans; [exact CF|apply cfg_upd_cur]|apply StepsRefl]. rewrite <- (set_msgs_upd_cur r3 c2 M3).
  eapply step_instr; eauto. unfold upd_cur. destruct (r_active r3); exact E3.
Qed.
Lemma run_one r c f rest i c2 :
  Good r c -> c_frames c = f :: rest -> nth_error (f_code f) (f_pos f) = Some i ->
  exec_instr i r (set_frames c (set_pos f (S (f_pos f)) :: rest)) = Ok (r, c2) -> c_suspended c2 = false ->
  Steps r (upd_cur r c2) /\ Good (upd_cur r c2) c2.
Proof. intros G EF N EX SU2. exact (run_step r c f rest i r c2 G EF N EX SU2 G (cfg_refl r)). Qed.

(* what a program can observe of the machine besides its own frames: the namespaces and the markers it logged
   (diag_log output, newest first; the diagnostics in between are the machine's own business) *)
Fixpoint marks (out:list event) : list string :=
  match out with [] => [] | EMark s :: r => s :: marks r | EDiag _ _ :: r => marks r end.
Definition world (r:rt) : list (string * list (string * value)) * list string := (r_nss r, marks (r_out r)).
Lemma world_upd_cur r c : world (upd_cur r c) = world r.
Proof. unfold world, upd_cur. destruct (r_active r); reflexivity. Qed.
Lemma world_nss r a b : world r = (a, b) -> r_nss r = a.
Proof. intros H. exact (f_equal fst H). Qed.
Lemma world_marks r a b : world r = (a, b) -> marks (r_out r) = b.
Proof. intros H. exact (f_equal snd H). Qed.

Lemma env_ok_upd loc glob r c fs ns : env_ok loc glob r fs ns -> env_ok loc glob (upd_cur r c) fs ns.
Proof. intros [A B]. split; [exact A|]. rewrite nss_upd_cur. exact B. Qed.

Lemma susp_adv c f rest k vs : c_suspended (adv c f rest k vs) = c_suspended c. Proof. reflexivity. Qed.

Lemma run_push r c f rest pre post i v :
  Good r c -> c_frames c = f :: rest -> f_code f = pre ++ i :: post -> f_pos f = length pre ->
  (forall c1, c_frames c1 = set_pos f (S (f_pos f)) :: rest -> exec_instr i r c1 = Ok (r, push_value c1 v)) ->
  Steps r (upd_cur r (adv c f rest 1 [v])).
Proof.
  intros G EF EC EP EX.
  assert (N : nth_error (f_code f) (f_pos f) = Some i) by (rewrite EC, EP; apply nth_error_mid).
  destruct (run_one r c f rest i (push_value (set_frames c (set_pos f (S (f_pos f)) :: rest)) v) G EF N) as [S1 _].
  - apply EX. reflexivity.
  - exact (good_running r c G).
  - replace (adv c f rest 1 [v]) with (push_value (set_frames c (set_pos f (S (f_pos f)) :: rest)) v)
      by (unfold adv, push_value; cbn; rewrite Nat.add_1_r; reflexivity).
    exact S1.
Qed.

Lemma exec_unary_nonnil n v r c1 c2 r' c3 x : pop_value c1 = Some (v, c2) -> v <> VNil ->
  op_unary (lower n) v r c2 = Ok (r', c3, x) -> exec_instr (IUnary n) r c1 = Ok (r', push_value c3 x).
Proof. intros P NV OP. cbn [exec_instr]. rewrite P. destruct v; try contradiction; rewrite OP; reflexivity. Qed.

Lemma exec_binary_nonnil n l v r c1 c2 c3 r' c4 x : pop_value c1 = Some (v, c2) -> v <> VNil ->
  pop_value c2 = Some (l, c3) -> l <> VNil ->
  op_binary (lower n) l v r c3 = Ok (r', c4, x) -> exec_instr (IBinary n) r c1 = Ok (r', push_value c4 x).
Proof.
  intros P NV P2 NL OP. cbn [exec_instr]. rewrite P. destruct v; try contradiction; rewrite P2; destruct l; try contradiction; rewrite OP; reflexivity.
Qed.

Lemma upd_cur_self r c : cur r = Some c -> upd_cur r c = r.
Proof.
  unfold cur, upd_cur. destruct (r_active r) as [i|] eqn:A; [|discriminate]. intros H.
  unfold set_ctxs, rt_with. rewrite (list_upd_self _ _ _ H). destruct r; cbn in *. rewrite A. reflexivity.
Qed.
Lemma adv_zero c f rest : c_frames c = f :: rest -> adv c f rest 0 [] = c.
Proof. intros E. unfold adv. cbn. rewrite Nat.add_0_r. destruct c; cbn in *; subst. destruct f; reflexivity. Qed.

Lemma pop_value_top c f rest v vs : c_frames c = f :: rest -> c_values c = v :: vs -> f_base f <= length vs ->
  pop_value c = Some (v, set_values c vs).
Proof.
  intros EF EV B. unfold pop_value. rewrite EV, EF. destruct (Nat.leb_spec (length (v :: vs)) (f_base f)) as [L|L]; [cbn in L; lia|reflexivity].
Qed.

Lemma adv_step r c f rest pre post k ws i y :
  Good r c -> c_frames c = f :: rest -> f_code f = pre ++ i :: post -> f_pos f + k = length pre ->
  (forall r1 c1, c_frames c1 = set_pos f (S (f_pos f + k)) :: rest -> c_values c1 = ws ++ c_values c ->
     exec_instr i r1 c1 = Ok (r1, push_value (set_values c1 (c_values c)) y)) ->
  Steps (upd_cur r (adv c f rest k ws)) (upd_cur r (adv c f rest (k + 1) [y])).
Proof.
  intros G EF EC EP EX. set (c1 := adv c f rest k ws).
  assert (N : nth_error (f_code (set_pos f (f_pos f + k))) (f_pos (set_pos f (f_pos f + k))) = Some i).
  { cbn [f_code f_pos set_pos]. rewrite EC, EP. apply nth_error_mid. }
  destruct (run_one (upd_cur r c1) c1 (set_pos f (f_pos f + k)) rest i (adv c f rest (k + 1) [y]) (good_adv r c f rest k ws G) eq_refl N) as [S2 _].
  - etransitivity; [apply EX; reflexivity|]. unfold c1, adv, push_value. cbn. replace (f_pos f + (k + 1)) with (S (f_pos f + k)) by lia. reflexivity.
  - exact (good_running r c G).
  - rewrite upd_cur_twice in S2. exact S2.
Qed.

Theorem pure_sim loc glob :
  (forall e v, pev loc glob e v -> forall r c f rest pre post,
      Good r c -> c_frames c = f :: rest -> f_code f = pre ++ compile_expr e ++ post -> f_pos f = length pre ->
      f_base f <= length (c_values c) -> env_ok loc glob r (f :: rest) (f_ns f) ->
      Steps r (upd_cur r (adv c f rest (length (compile_expr e)) [cv v])) /\ cv v <> VNil) /\
  (forall l vs, pevs loc glob l vs -> forall r c f rest pre post,
      Good r c -> c_frames c = f :: rest -> f_code f = pre ++ flat_map compile_expr l ++ post -> f_pos f = length pre ->
      f_base f <= length (c_values c) -> env_ok loc glob r (f :: rest) (f_ns f) ->
      Steps r (upd_cur r (adv c f rest (length (flat_map compile_expr l)) (rev (map cv vs)))) /\ length l = length vs).
Proof.
  apply pev_pevs_ind.
  1-3: (* number, boolean, string *) intros x r c f rest pre post G EF EC EP B ENV; (split; [|discriminate]);
    cbn [compile_expr app length] in *; eapply run_push; eauto; intros; reflexivity.
  - (* local variable *) intros n v L HH HL DV r c f rest pre post G EF EC EP B ENV.
    split; [|apply cv_data_not_nil; exact DV].
    cbn [compile_expr app length] in *. eapply run_push; eauto. intros c1 F1. cbn [exec_instr]. rewrite L. unfold get_variable. rewrite F1.
    rewrite lookup_frames_set_pos. destruct ENV as [EL _]. rewrite (EL _ _ HH HL). reflexivity.
  - (* global variable *) intros n v L HL DV r c f rest pre post G EF EC EP B ENV.
    split; [|apply cv_data_not_nil; exact DV].
    cbn [compile_expr app length] in *. eapply run_push; eauto. intros c1 F1. cbn [exec_instr]. rewrite L, F1. unfold ns_get. cbn [f_ns set_pos].
    destruct ENV as [_ EG]. rewrite (EG _ _ HL). reflexivity.
  - (* array *) intros l vs HP IH r c f rest pre post G EF EC EP B ENV.
    rewrite compile_array in *. rewrite app_length. rewrite <- app_assoc in EC.
    destruct (IH r c f rest pre ([IMakeArray (length l)] ++ post) G EF EC EP B ENV) as [S1 LEN].
    split; [|discriminate]. eapply steps_trans; [exact S1|].
    apply (adv_step r c f rest (pre ++ flat_map compile_expr l) post _ _ (IMakeArray (length l)) _ G EF);
      [rewrite EC, app_assoc; reflexivity|rewrite EP, app_length; reflexivity|].
    intros r1 c1 F1 V1. cbn [exec_instr]. rewrite LEN, <- (map_length cv vs), <- (rev_length (map cv vs)).
    replace c1 with (set_values c1 (rev (map cv vs) ++ c_values c)) at 1 by (rewrite <- V1; destruct c1; reflexivity).
    erewrite pop_args_stack; [|exact F1|exact B]. rewrite rev_involutive, app_nil_r. reflexivity.
  - (* unary *) intros n a va v NL HA IHa HU r c f rest pre post G EF EC EP B ENV.
    rewrite (compile_unary_nonlit n a NL) in *. rewrite app_length. rewrite <- app_assoc in EC.
    destruct (IHa r c f rest pre ([IUnary (lower n)] ++ post) G EF EC EP B ENV) as [S1 NV].
    split; [|exact (pure_unary_nonnil _ _ _ HU)]. eapply steps_trans; [exact S1|].
    apply (adv_step r c f rest (pre ++ compile_expr a) post _ [cv va] (IUnary (lower n)) _ G EF);
      [rewrite EC, app_assoc; reflexivity|rewrite EP, app_length; reflexivity|].
    intros r1 c1 F1 V1. apply (exec_unary_nonnil _ (cv va) _ _ (set_values c1 (c_values c))); [|exact NV|].
    + exact (pop_value_top c1 _ rest _ _ F1 V1 B).
    + rewrite lower_idem. exact (proj1 (pure_unary_vm _ _ _ _ _ HU)).
  - (* binary *) intros n a b va vb v HA IHa HB IHb HBin r c f rest pre post G EF EC EP B ENV.
    rewrite compile_binary in *. rewrite !app_length. rewrite <- !app_assoc in EC.
    destruct (IHa r c f rest pre (compile_expr b ++ [IBinary (lower n)] ++ post) G EF EC EP B ENV) as [S1 NVa].
    set (ka := length (compile_expr a)) in *. set (c1 := adv c f rest ka [cv va]) in *.
    destruct (IHb (upd_cur r c1) c1 (set_pos f (f_pos f + ka)) rest (pre ++ compile_expr a) ([IBinary (lower n)] ++ post)
                (good_adv r c f rest ka _ G) eq_refl) as [S2 NVb];
      [cbn [f_code set_pos]; rewrite EC, <- !app_assoc; reflexivity|cbn [f_pos set_pos]; rewrite EP, app_length; reflexivity
      |cbn [f_base set_pos]; unfold c1, adv; cbn; lia|apply env_ok_upd; exact ENV|].
    rewrite upd_cur_twice in S2. unfold c1 in S2. rewrite adv_adv in S2.
    split; [|exact (pure_binary_nonnil _ _ _ _ HBin)]. eapply steps_trans; [exact S1|]. eapply steps_trans; [exact S2|].
    rewrite Nat.add_assoc.
    apply (adv_step r c f rest (pre ++ compile_expr a ++ compile_expr b) post _ _ (IBinary (lower n)) _ G EF);
      [rewrite EC, <- !app_assoc; reflexivity|rewrite EP, !app_length; lia|].
    intros r1 c2 F2 V2.
    apply (exec_binary_nonnil _ (cv va) (cv vb) _ _ (set_values c2 (cv va :: c_values c)) (set_values c2 (c_values c))); [|exact NVb| |exact NVa|].
    + apply (pop_value_top c2 _ rest _ _ F2 V2). cbn; lia.
    + exact (pop_value_top (set_values c2 (cv va :: c_values c)) _ rest _ _ F2 eq_refl B).
    + rewrite lower_idem. exact (proj1 (pure_binary_vm _ _ _ _ _ _ HBin)).
  - (* nil list *) intros r c f rest pre post G EF EC EP B ENV. cbn. split; [|reflexivity].
    rewrite (adv_zero c f rest EF). destruct G as (C & _). rewrite (upd_cur_self r c C). apply StepsRefl.
  - (* cons *) intros e v l vs HE IHe HL IHl r c f rest pre post G EF EC EP B ENV.
    cbn [flat_map map rev] in *. rewrite app_length. rewrite <- app_assoc in EC.
    destruct (IHe r c f rest pre (flat_map compile_expr l ++ post) G EF EC EP B ENV) as [S1 NV].
    set (ke := length (compile_expr e)) in *.
    set (c1 := adv c f rest ke [cv v]) in *.
    assert (G1 : Good (upd_cur r c1) c1) by (apply good_adv; exact G).
    destruct (IHl (upd_cur r c1) c1 (set_pos f (f_pos f + ke)) rest (pre ++ compile_expr e) post G1 eq_refl) as [S2 LEN].
    { cbn [f_code set_pos]. rewrite EC, <- !app_assoc. reflexivity. }
    { cbn [f_pos set_pos]. rewrite EP, app_length. reflexivity. }
    { cbn [f_base set_pos]. unfold c1, adv. cbn. lia. }
    { apply env_ok_upd. exact ENV. }
    rewrite upd_cur_twice in S2. unfold c1 in S2. rewrite adv_adv in S2.
    split; [|cbn; lia]. eapply steps_trans; [exact S1|exact S2].
Qed.

Lemma data_not_nil v : is_data v = true -> v <> RNil /\ v <> RNone.
Proof. destruct v; cbn; intros H; try discriminate H; split; discriminate. Qed.

Lemma pure_unary_data n va v : pure_unary n va = Some v -> is_data va = true -> is_data v = true /\ va <> RNil /\ va <> RNone.
Proof.
  intros H D. split; [|exact (data_not_nil _ D)]. destruct (pure_unary_inv _ _ _ H); try reflexivity; exact D.
Qed.

Lemma pure_binary_data n va vb v : pure_binary n va vb = Some v -> is_data va = true -> is_data vb = true -> is_data v = true.
Proof.
  intros H DA DB. destruct (pure_binary_inv _ _ _ _ H); try reflexivity. cbn in *. rewrite forallb_app, DA, DB. reflexivity.
Qed.

(* the reference side of the fragment (pure_ref, in SimCtl.v) is stated for a reference state that agrees with the environment
   of the relation, and for a fuel bounded by the size of the expression *)
Fixpoint esize (e:expr) : nat :=
  match e with
  | EArr l => S (S ((fix go (l:list expr) : nat := match l with [] => 0 | x :: r => esize x + go r end) l))
  | EUnary _ a => S (S (esize a))
  | EBinary _ a b => S (S (esize a + esize b))
  | _ => 1 end.
Fixpoint esizes (l:list expr) : nat := match l with [] => 0 | x :: r => esize x + esizes r end.
Lemma esize_arr l : esize (EArr l) = S (S (esizes l)).
Proof. cbn [esize]. do 2 apply f_equal. induction l as [|x r IH]; cbn [esizes]; [reflexivity|]. rewrite IH. reflexivity. Qed.

Definition renv_ok (loc glob : string -> option rvalue) (s:sstate) : Prop :=
  (forall k, loc k = lookup_scopes k (st_scopes s)) /\ (forall k, glob k = match assoc (cur_ns_of s) (st_nss s) with Some m => assoc k m | None => None end).

Lemma pev_pevs_data loc glob :
  (forall e v, pev loc glob e v -> is_data v = true) /\ (forall l vs, pevs loc glob l vs -> forallb is_data vs = true).
Proof.
  apply pev_pevs_ind; intros; try reflexivity; try assumption.
  - eapply pure_unary_data; eassumption.
  - eapply pure_binary_data; eassumption.
  - cbn [forallb]. rewrite H, H0. reflexivity.
Qed.
Lemma pev_data loc glob e v : pev loc glob e v -> is_data v = true.
Proof. apply (proj1 (pev_pevs_data loc glob)). Qed.

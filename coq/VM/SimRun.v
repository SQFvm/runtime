(* C02 simulation: from the step relation to execute_do, the loop of runtime.cpp.  A slice of execute_do follows
   the path the simulation describes: it either gets to the end of that path or stops part-way along it (the slice is
   used up, or an exit was requested).  For a whole structured program in the root frame of a context: the slice that
   finishes it returns `empty`, the context has no frame left and holds exactly the program's value, and the
   namespaces are those of the reference result. *)
From Coq Require Import String Ascii.
From Coq Require Import ZArith List Bool Lia.
From SqfVerif Require Import Gen.DiagCodes Gen.Overloads VM.VmDefs VM.VmFacts VM.VmExec VM.RefSem VM.C02Proofs VM.SimDefs VM.SimProofs VM.SimBlock VM.SimCtl VM.SimCtlRuns.
Import ListNotations.
Local Open Scope string_scope.
Local Open Scope list_scope.

Lemma execute_do_follows : forall r r2, Steps r r2 -> forall fuel n x r', execute_do fuel r n = Ok (x, r') ->
  (exists fuel2 n2, fuel2 <= fuel /\ n2 <= n /\ execute_do fuel2 r2 n2 = Ok (x, r')) \/
  (x = ROk /\ Steps r r' /\ Steps r' r2).
Proof.
  induction 1 as [r|r r1 r2 D CF S IH|r r1 r2 D CF S IH]; intros fuel n x r' H.
  - left. exists fuel, n. auto.
  - destruct fuel as [|fuel]; [discriminate H|]. cbn [execute_do] in H.
    destruct (r_exit_req r). { inversion H; subst. right. split; [reflexivity|]. split; [apply StepsRefl|eapply StepsExec; eauto]. }
    destruct n as [|n]. { inversion H; subst. right. split; [reflexivity|]. split; [apply StepsRefl|eapply StepsExec; eauto]. }
    rewrite D in H. cbn [bindr] in H.
    destruct (IH _ _ _ _ H) as [(f2 & n2 & L1 & L2 & E)|(X & S1 & S2)].
    + left. exists f2, n2. split; [lia|]. split; [lia|exact E].
    + right. split; [exact X|]. split; [eapply StepsExec; eauto|exact S2].
  - destruct fuel as [|fuel]; [discriminate H|]. cbn [execute_do] in H.
    destruct (r_exit_req r). { inversion H; subst. right. split; [reflexivity|]. split; [apply StepsRefl|eapply StepsCont; eauto]. }
    destruct n as [|n]. { inversion H; subst. right. split; [reflexivity|]. split; [apply StepsRefl|eapply StepsCont; eauto]. }
    rewrite D in H. cbn [bindr] in H.
    destruct (IH _ _ _ _ H) as [(f2 & n2 & L1 & L2 & E)|(X & S1 & S2)].
    + left. exists f2, n2. split; [lia|]. split; [lia|exact E].
    + right. split; [exact X|]. split; [eapply StepsCont; eauto|exact S2].
Qed.

(* the root frame of a context completes: it leaves its value (if it has one) and no frame *)
Lemma complete_root r c f top vals :
  Good r c -> c_frames c = [f] -> f_pos f = length (f_code f) -> f_exit f = None ->
  c_values c = top ++ vals -> length vals = f_base f ->
  let c4 := set_values (set_frames c []) (match top with [] => vals | x :: _ => x :: vals end) in
  Steps r (upd_cur r c4) /\ do_iter (upd_cur r c4) = Ok (Return REmpty (upd_cur r c4)).
Proof.
  intros G EF EP EX EV LB c4. pose proof G as (C & X & St & E & M & MR & SU).
  assert (G4 : Good (upd_cur r c4) c4) by (apply (good_upd r c c4 G); exact SU).
  split.
  - apply steps_cont_upd.
    unfold do_iter. rewrite X, C, SU, EF, St.
    destruct frame_fuel_S as [k Hk]. rewrite Hk. cbn [frame_next]. rewrite EF.
    assert (A1 : at_end f = false) by (unfold at_end; apply Nat.eqb_neq; lia).
    assert (A2 : at_end (set_pos f (S (f_pos f))) = true) by (unfold at_end; cbn; apply Nat.eqb_eq; lia).
    rewrite A1, A2. cbn [f_exit set_pos]. rewrite EX. cbn [bindr]. rewrite E.
    cbn [c_frames set_frames length]. rewrite Nat.eqb_refl.
    set (c1 := set_frames c [set_pos f (S (f_pos f))]).
    destruct top as [|x top].
    + cbn [app] in EV.
      assert (P : pop_value c1 = None).
      { unfold pop_value. cbn [c_values c1 set_frames c_frames f_base set_pos]. rewrite EV. destruct vals; [reflexivity|].
        destruct (Nat.leb_spec (length (v :: vals)) (f_base f)) as [L|L]; [reflexivity|lia]. }
      rewrite P. unfold clear_values, pop_frame. cbn [c_frames c1 set_frames c_values f_base set_pos tl set_values].
      rewrite EV, LB, Nat.sub_diag. cbn [skipn].
      destruct (defect r "block_value_dropped"); subst c4; cbn; reflexivity.
    + cbn [app] in EV.
      assert (P : pop_value c1 = Some (x, set_values c1 (top ++ vals))).
      { apply (pop_value_top c1 (set_pos f (S (f_pos f))) []); [reflexivity|exact EV|cbn; rewrite app_length; lia]. }
      rewrite P. unfold clear_values, pop_frame. cbn [c_frames c1 set_frames c_values f_base set_pos tl set_values].
      rewrite app_length, <- LB. replace (length top + length vals - length vals) with (length top) by lia.
      rewrite skipn_app, skipn_all, Nat.sub_diag. cbn [skipn app]. unfold push_value. cbn. reflexivity.
  - destruct G4 as (C4 & X4 & _ & _ & _ & _ & SU4). unfold do_iter. rewrite X4, C4, SU4. reflexivity.
Qed.

(* ... as seen at a statement boundary: the context has no frame left and holds exactly the block's value *)
Lemma root_finishes s reg r c f : AtM s reg r c f [] [] -> f_pos f = length (f_code f) -> f_exit f = None ->
  exists rf cf, Steps r rf /\ cur rf = Some cf /\ c_frames cf = [] /\ c_values cf = match reg with RNone => [] | v => [cv v] end /\
    world rf = (mnss (st_nss s), st_trace s) /\ do_iter rf = Ok (Return REmpty rf).
Proof.
  intros ((G & EF & (F & N) & B & D) & LB & top & EV & RR) EP EX.
  destruct (complete_root r c f top [] G EF EP EX EV LB) as [S2 T].
  set (c4 := set_values (set_frames c []) (match top with [] => [] | x :: _ => [x] end)) in *.
  exists (upd_cur r c4), c4. split; [exact S2|].
  destruct G as (C1 & _). split; [eapply cur_upd_cur; exact C1|]. split; [reflexivity|]. split.
  { cbn. destruct top as [|x top]; cbn in RR.
    - rewrite RR. reflexivity.
    - destruct RR as (-> & NN & _). destruct reg; try reflexivity. exfalso. apply NN. reflexivity. }
  split; [rewrite world_upd_cur; exact N|exact T].
Qed.

(* execute_do along a path that ends where a pass returns `empty`: the slice that gets there returns `empty`, every earlier one stops
   part-way along the path *)
Lemma execute_do_to_empty r rf : Steps r rf -> do_iter rf = Ok (Return REmpty rf) ->
  forall fuel n x r', execute_do fuel r n = Ok (x, r') -> (x = REmpty /\ r' = rf) \/ (x = ROk /\ Steps r r' /\ Steps r' rf).
Proof.
  intros S T fuel n x r' H.
  destruct (execute_do_follows r rf S fuel n x r' H) as [(f2 & n2 & _ & _ & E)|Q]; [|right; exact Q].
  destruct f2 as [|f2]; [discriminate E|]. cbn [execute_do] in E.
  destruct (r_exit_req rf) eqn:XR.
  { exfalso. unfold do_iter in T. rewrite XR in T. inversion T. }
  destruct n2 as [|n2].
  - inversion E; subst. right. split; [reflexivity|]. split; [exact S|apply StepsRefl].
  - rewrite T in E. cbn [bindr] in E. inversion E; subst. left. split; reflexivity.
Qed.

Lemma root_fresh s r c f : AtM s RNone r c f [] [] -> Fresh c [].
Proof.
  intros (_ & _ & top & EV & RR). apply fresh_nil. destruct top as [|x t]; [rewrite EV; reflexivity|]. destruct RR as (_ & N & _). exfalso. apply N. reflexivity.
Qed.

(* a whole structured program in the root frame *)
Theorem program_run s p reg s' r c f :
  xblock s RNone p reg s' ->
  AtM s RNone r c f [] [] -> f_code f = compile_block p -> f_pos f = 0 -> f_exit f = None ->
  exists rf cf,
    Steps r rf /\ cur rf = Some cf /\ c_frames cf = [] /\
    c_values cf = match reg with RNone => [] | v => [cv v] end /\
    world rf = (mnss (st_nss s'), st_trace s') /\
    do_iter rf = Ok (Return REmpty rf) /\
    forall fuel n x r', execute_do fuel r n = Ok (x, r') ->
      (x = REmpty /\ r' = rf) \/ (x = ROk /\ Steps r r' /\ Steps r' rf).
Proof.
  intros HB A EC EP EX.
  destruct (proj2 (proj2 (proj2 vm_runs)) s RNone p reg s' HB r c f [] [] [] [] A (root_fresh s r c f A)) as (r1 & c1 & f1 & rest1 & S1 & A1 & MV & P1 & K1);
    [cbn; rewrite app_nil_r; exact EC|exact EP|].
  inversion K1; subst.
  destruct (root_finishes s' reg r1 c1 f1 A1) as (rf & cf & S2 & C2 & F2 & V2 & N2 & T);
    [rewrite P1, EP, (moved_code _ _ MV), EC; reflexivity|rewrite (moved_exit _ _ MV); exact EX|].
  assert (S : Steps r rf) by (eapply steps_trans; eassumption).
  exists rf, cf. split; [exact S|]. split; [exact C2|]. split; [exact F2|]. split; [exact V2|]. split; [exact N2|]. split; [exact T|].
  exact (execute_do_to_empty r rf S T).
Qed.

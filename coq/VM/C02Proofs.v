(* C02 - control structures.  Characterisation lemmas of the VM model's control-structure operators and exit
   behaviours (for ALL arguments, states and arrays), and laws of the reference semantics.  The end-to-end tie
   between the reference semantics (RefSem.v) and the implementation is the program-level differential of
   checks/C02.py; the general simulation VM-model <= RefSem is NOT proved here (see Properties_C02.v header). *)
From Coq Require Import String Ascii.
From Coq Require Import ZArith List Bool Lia.
From SqfVerif Require Import Gen.DiagCodes Gen.Overloads VM.VmDefs VM.VmExec VM.RefSem.
Import ListNotations.
Local Open Scope string_scope.
Local Open Scope list_scope.

Lemma compile_code b : compile_expr (ECode b) = [IPush (VCode (compile_block b))].
Proof.
  cbn [compile_expr]. unfold compile_block.
  match goal with |- [IPush (VCode (?g true b))] = _ => assert (G : forall first b, g first b = compile_block_from first b) end.
  { intros first b0. revert first. induction b0 as [|s r IH]; intros first; [reflexivity|].
    simpl. rewrite IH. destruct s; reflexivity. }
  now rewrite G.
Qed.

Lemma compile_binary n l r : compile_expr (EBinary n l r) = compile_expr l ++ compile_expr r ++ [IBinary (lower n)].
Proof. reflexivity. Qed.

Lemma compile_array l : compile_expr (EArr l) = flat_map compile_expr l ++ [IMakeArray (length l)].
Proof.
  reflexivity.
Qed.

(* the right side of || is entered, as a new frame, when the left side does not decide *)
Lemma lazy_or_enters r c body : op_binary "||" (VBool false) (VCode body) r c =
  Ok (r, push_frame c (mk_frame (cur_ns c) body None None []), VNil).
Proof. reflexivity. Qed.

Lemma if_then_true r c body : op_binary "then" (VIf true) (VCode body) r c =
  Ok (r, push_frame c (mk_frame (cur_ns c) body None None []), VNil).
Proof. reflexivity. Qed.

Lemma exitwith_false r c body : op_binary "exitwith" (VIf false) (VCode body) r c = Ok (r, c, VNil).
Proof. reflexivity. Qed.

Lemma foreach_empty r c body : op_binary "foreach" (VCode body) (VArr []) r c = Ok (r, c, VNil).
Proof. reflexivity. Qed.

Lemma count_step r c arr idx cnt t c1 : pop_value c = Some (VBool t, c1) -> S idx <> length arr ->
  enact (BCount arr idx cnt) r c = Ok (BrSeekStart, BCount arr (S idx) (if t then cnt + 1 else cnt)%Z, r,
                                       restart_with c1 [("_x", nth_val arr (S idx))]).
Proof. intros P H. cbn [enact]. rewrite P. destruct (Nat.eqb_spec (S idx) (length arr)); [contradiction|reflexivity]. Qed.

Lemma apply_step r c arr out idx v c1 : pop_value c = Some (v, c1) -> S idx <> length arr ->
  enact (BApply arr out idx) r c = Ok (BrSeekStart, BApply arr (out ++ [v]) (S idx), r, restart_with c1 [("_x", nth_val arr (S idx))]).
Proof. intros P H. cbn [enact]. rewrite P. destruct (Nat.eqb_spec (S idx) (length arr)); [contradiction|reflexivity]. Qed.
Lemma findif_none r c arr idx c1 : pop_value c = Some (VBool false, c1) -> S idx = length arr ->
  enact (BFindIf arr idx) r c = Ok (BrOk, BFindIf arr (S idx), r, push_value c1 (VNum (-1))).
Proof. intros P H. cbn [enact]. rewrite P, H, Nat.eqb_refl. reflexivity. Qed.

Lemma for_skips r c var from to step body :
  (step <> 0 /\ (if 0 <? step then to <? from else from <? to) = true)%Z ->
  op_binary "do" (VFor var from to step) (VCode body) r c = Ok (r, c, VNil).
Proof.
  intros [Hs Hc]. cbn [op_binary]. cbv beta iota delta [String.eqb Ascii.eqb Bool.eqb]. cbn.
  destruct (Z.eqb_spec step 0); [contradiction|]. cbn. rewrite Hc. reflexivity.
Qed.

Lemma while_cond_true r c l cond b bs c1 : pop_value c = Some (VBool true, c1) ->
  enact (BWhile l WCond cond (b :: bs)) r c = Ok (BrExchange (b :: bs), BWhile l WCode cond (b :: bs), r, restart_with c1 []).
Proof. intros P. cbn [enact]. rewrite P. reflexivity. Qed.

Definition sw_of (v:value) (tgt:code) (now has:bool) := VSwitch v tgt now has.
(* `: {code}` takes the block only for the FIRST armed case (has_match false), then skips the rest of the switch body *)
Lemma colon_takes c r l body sv tgt : get_variable c "___switch" = Some (VSwitch sv tgt true false) ->
  op_binary ":" (VSwitch l [] false false) (VCode body) r c =
  Ok (r, upd_top (assign_local_var c "___switch" (VSwitch sv body false true)) (fun f => set_pos f (S (length (f_code f)))), VNil).
Proof. intros G. cbn [op_binary]. cbv beta iota delta [String.eqb Ascii.eqb Bool.eqb]. cbn. rewrite G. reflexivity. Qed.
Lemma colon_ignored_unarmed c r l body sv tgt hs : get_variable c "___switch" = Some (VSwitch sv tgt false hs) ->
  op_binary ":" (VSwitch l [] false false) (VCode body) r c = Ok (r, c, VNil).
Proof. intros G. cbn [op_binary]. cbv beta iota delta [String.eqb Ascii.eqb Bool.eqb]. cbn. rewrite G. destruct hs; reflexivity. Qed.
(* `default {code}` is remembered only while no case has matched; a later matching case replaces it *)
Lemma default_sets c r body sv tgt nw : get_variable c "___switch" = Some (VSwitch sv tgt nw false) ->
  op_unary "default" (VCode body) r c = Ok (r, assign_local_var c "___switch" (VSwitch sv body nw false), VNil).
Proof. intros G. cbn [op_unary]. cbv beta iota delta [String.eqb Ascii.eqb Bool.eqb]. cbn. rewrite G. reflexivity. Qed.
(* after the body, exactly the chosen block runs (once), in the switch scope *)
Lemma switch_runs_target r c f rest sv t ts nw hs : c_frames c = f :: rest ->
  assoc "___switch" (f_vars f) = Some (VSwitch sv (t :: ts) nw hs) ->
  enact (BSwitch false) r c = Ok (BrExchange (t :: ts), BSwitch true, r, c).
Proof. intros E A. cbn [enact]. rewrite E, A. reflexivity. Qed.
Lemma switch_runs_once r c : enact (BSwitch true) r c = Ok (BrOk, BSwitch true, r, c).
Proof. reflexivity. Qed.

Lemma call_binary_enters r c a body : op_binary "call" a (VCode body) r c =
  Ok (r, push_frame c (mk_frame (cur_ns c) body None None [("_this", a)]), VNil).
Proof. reflexivity. Qed.

(* the right side of a lazy && / || is not evaluated when the left side decides: state and trace unchanged *)
Lemma ref_lazy_or_skips f s b : eval (S (S (S f))) s (EBinary "||" (EBool true) (ECode b)) = (ONormal (RBool true), s).
Proof. reflexivity. Qed.
Lemma ref_exitwith_false f s b : eval (S (S (S (S f)))) s (EBinary "exitWith" (EUnary "if" (EBool false)) (ECode b)) = (ONormal RNil, s).
Proof. reflexivity. Qed.
Lemma ref_foreach_empty f s b : eval (S (S (S f))) s (EBinary "forEach" (ECode b) (EArr [])) = (ONormal RNil, s).
Proof. reflexivity. Qed.
(* a block's value is the value of its last statement *)
Lemma ref_block_last f s e v s1 : eval f s e = (ONormal v, s1) -> v <> RNone ->
  eval_block (S f) s [SExpr e] RNil = (ONormal v, s1).
Proof. intros H NV. cbn [eval_block]. rewrite H. destruct v; try reflexivity. contradiction. Qed.

(* the reference semantics is a function of the program and its fuel: runs are deterministic *)
Lemma ref_deterministic f p : forall o1 o2, run_ref f p = o1 -> run_ref f p = o2 -> o1 = o2.
Proof. intros; congruence. Qed.

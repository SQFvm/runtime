(* C04 - shape lemmas: what any instruction or exit behaviour of the shared VM model can do to the event list and the error flag
   (a consequence of what it can do to the machine at all: VM/SchedOps.v, VM/SchedBase.v). *)
From Coq Require Import String Ascii.
From Coq Require Import ZArith List Bool Lia.
From SqfVerif Require Import Gen.DiagCodes VM.VmDefs VM.VmExec VM.C04Defs VM.SchedOps VM.SchedBase.
Import ListNotations.
Local Open Scope list_scope.

Opaque frame_fuel exec_fuel.

(* ================================================================== 1. logmsg and the flag *)
Lemma error_raises_flag : forall r d, (fst d <= 1)%Z ->
  r_err (logmsg r d) = true /\ r_msgs (logmsg r d) = r_msgs r ++ [d] /\ r_out (logmsg r d) = ev_of d :: r_out r.
Proof.
  intros r d H. unfold logmsg. apply Z.leb_le in H. rewrite H. cbn. auto.
Qed.

Lemma warning_keeps_flag : forall r d, (1 < fst d)%Z ->
  r_err (logmsg r d) = r_err r /\ r_msgs (logmsg r d) = r_msgs r /\ r_out (logmsg r d) = ev_of d :: r_out r.
Proof.
  intros r d H. unfold logmsg. destruct (Z.leb (fst d) 1) eqn:E.
  - apply Z.leb_le in E. lia.
  - cbn. auto.
Qed.

(* ================================================================== 2. what a step can do to the event list and the flag *)
(* r' was reached from r by logging the events s (newest first); the flag is raised exactly by the
   error-level ones and never lowered *)
Definition ext (r r':rt) : Prop := exists s, r_out r' = s ++ r_out r /\ r_err r' = orb (has_err s) (r_err r).

Lemma has_err_app : forall a b, has_err (a ++ b) = orb (has_err a) (has_err b).
Proof. intros. unfold has_err. apply existsb_app. Qed.

Lemma ext_refl : forall r, ext r r.
Proof. intros r. exists []. cbn. auto. Qed.

Lemma ext_trans : forall a b c, ext a b -> ext b c -> ext a c.
Proof.
  intros a b c [s1 [H1 H2]] [s2 [H3 H4]]. exists (s2 ++ s1). split.
  - rewrite H3, H1. apply app_assoc.
  - rewrite H4, H2, has_err_app. apply orb_assoc.
Qed.

Lemma ext_same : forall r a b, r_out b = r_out a -> r_err b = r_err a -> ext r a -> ext r b.
Proof. intros r a b Ho He [s [H1 H2]]. exists s. rewrite Ho, He. auto. Qed.

Lemma ext_logmsg : forall r a d, ext r a -> ext r (logmsg a d).
Proof.
  intros r a d H. eapply ext_trans; [exact H|]. exists [ev_of d]. unfold logmsg, has_err, ev_of.
  destruct (Z.leb (fst d) 1) eqn:E; cbn; rewrite E; cbn; auto.
Qed.

Lemma ext_mark : forall r a s, ext r a -> ext r (mark a s).
Proof. intros r a s H. eapply ext_trans; [exact H|]. exists [EMark s]. cbn. auto. Qed.

Lemma ext_set_active : forall r a x, ext r a -> ext r (set_active a x).
Proof. intros. eapply ext_same; [| |eassumption]; reflexivity. Qed.

(* only logmsg and mark among the machine updates of a step touch the event list or the flag *)
Lemma steps_ext : forall r r', steps r r' -> ext r r'.
Proof.
  induction 1 as [|r1 d _ IH|r1 s _ IH|r1 a b v _ IH|r1 t _ IH _|r1 nc _ IH _|r1 id _ IH];
    [apply ext_refl|apply ext_logmsg, IH|apply ext_mark, IH|..]; (eapply ext_same; [| |exact IH]; reflexivity).
Qed.

Lemma now_ext : forall r t r1, now r = (t, r1) -> ext r r1.
Proof. intros r t r1 H. apply steps_ext. exact (steps_now _ _ _ _ (steps_refl r) H). Qed.

Lemma exec_instr_ext : forall i r c r' c', exec_instr i r c = Ok (r', c') -> ext r r'.
Proof. intros i r c r' c' H. apply steps_ext. exact (proj1 (exec_instr_steps _ _ _ _ _ H)). Qed.

Lemma frame_next_ext : forall fuel r c fr r' c', frame_next fuel r c = Ok (fr, r', c') -> ext r r'.
Proof. intros fuel r c fr r' c' H. apply steps_ext. exact (proj1 (frame_next_steps _ _ _ _ _ _ H)). Qed.

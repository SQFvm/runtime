(* C02 simulation, part 3 (relation xev of SimCtl.v), as a special case of part 5: every rule of xev / xevs / xstmt / xblock is a rule of
   zev / zevs / zstmt / zblock (SimExit.v), so that the machine and the reference semantics run structured programs as vm_runs_z and
   ref_runs_z say. *)
From Coq Require Import String Ascii.
From Coq Require Import ZArith List Bool Lia.
From SqfVerif Require Import Gen.DiagCodes Gen.Overloads VM.VmDefs VM.VmFacts VM.VmExec VM.RefSem VM.C02Proofs VM.SimDefs VM.SimProofs VM.SimBlock VM.SimCtl VM.SimThrowOps VM.SimBreakOps VM.SimSwitchOps VM.SimExit.
Import ListNotations.
Local Open Scope string_scope.
Local Open Scope list_scope.

Lemma x_in_z :
  (forall s e v s', xev s e v s' -> zev s e v s') /\ (forall s l vs s', xevs s l vs s' -> zevs s l vs s') /\
  (forall s reg st reg1 s1, xstmt s reg st reg1 s1 -> zstmt s reg st reg1 s1) /\
  (forall s reg b reg' s', xblock s reg b reg' s' -> zblock s reg b (BNorm reg') s').
Proof.
  apply x_ind; intros; try (econstructor; eassumption).
  - exact (ZCallU s n a b s1 (BNorm reg) s2 e n0 H H0).
  - exact (ZCallB s n a x va b s1 s2 (BNorm reg) s3 e H n0 H0 H1).
  - exact (ZThen s n a b x s1 s2 (BNorm reg) s3 e H H0 H1).
  - exact (ZThenElse s n a b c x y s1 s2 (BNorm reg) s3 e H H0 H1).
Qed.

Theorem vm_runs :
  (forall s e v s', xev s e v s' -> forall r c f rest pre post, Mach s r c f rest ->
      f_code f = pre ++ compile_expr e ++ post -> f_pos f = length pre -> Post s' (cv v) (length (compile_expr e)) r c f rest) /\
  (forall s l vs s', xevs s l vs s' -> forall r c f rest pre post, Mach s r c f rest ->
      f_code f = pre ++ flat_map compile_expr l ++ post -> f_pos f = length pre ->
      (exists r' c' f' rest', Steps r r' /\ Mach s' r' c' f' rest' /\ c_values c' = rev (map cv vs) ++ c_values c /\
         moved f f' /\ f_pos f' = f_pos f + length (flat_map compile_expr l) /\ Forall2 kept rest rest') /\ length l = length vs) /\
  (forall s reg st reg1 s1, xstmt s reg st reg1 s1 -> BlockRuns s reg (compile_stmt st) reg1 s1) /\
  (forall s reg b reg' s', xblock s reg b reg' s' -> BlockRuns s reg (compile_block b) reg' s').
Proof.
  destruct x_in_z as (E1 & E2 & E3 & _). destruct vm_runs_z as (V1 & V2 & V3 & _).
  split; [intros s e v s' H; exact (V1 s e v s' (E1 _ _ _ _ H))|]. split; [intros s l vs s' H; exact (V2 s l vs s' (E2 _ _ _ _ H))|].
  split; [intros s reg st reg1 s1 H; exact (V3 s reg st reg1 s1 (E3 _ _ _ _ _ H))|].
  induction 1 as [s reg|s reg st reg1 s1 HS|s reg st reg1 s1 st2 rest0 reg' s' HS HB IHb].
  - apply (runs_nil AtM).
  - apply (runs_last AtM). exact (V3 _ _ _ _ _ (E3 _ _ _ _ _ HS)).
  - exact (runs_cons AtM _ _ _ _ _ _ _ _ _ end_run (V3 _ _ _ _ _ (E3 _ _ _ _ _ HS)) IHb).
Qed.

Theorem ref_runs :
  (forall s e v s', xev s e v s' -> exists f0, forall f, f0 <= f -> eval f s e = (ONormal v, s')) /\
  (forall s l vs s', xevs s l vs s' -> exists f0, forall f, f0 <= f -> forall acc, go_arr f s l acc = (ONormal (RArr (rev acc ++ vs)), s')) /\
  (forall s reg st reg1 s1, xstmt s reg st reg1 s1 -> exists f0, forall f, f0 <= f -> forall rest,
      eval_block (S f) s (st :: rest) reg = cont f rest s1 reg1) /\
  (forall s reg b reg' s', xblock s reg b reg' s' -> exists f0, forall f, f0 <= f -> eval_block f s b reg = (ONormal reg', s')).
Proof.
  destruct x_in_z as (E1 & E2 & E3 & E4). destruct ref_runs_z as (R1 & R2 & R3 & R4 & _).
  split; [intros s e v s' H; exact (R1 s e v s' (E1 _ _ _ _ H))|]. split; [intros s l vs s' H; exact (R2 s l vs s' (E2 _ _ _ _ H))|].
  split; [intros s reg st reg1 s1 H; exact (R3 s reg st reg1 s1 (E3 _ _ _ _ _ H))|].
  intros s reg b reg' s' H. exact (R4 s reg b (BNorm reg') s' (E4 _ _ _ _ _ H)).
Qed.

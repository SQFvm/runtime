(* C02 - the machine side of breakOut: one pass of execute_do that executes `breakOut "t"` / `v breakOut "t"` finds the innermost
   frame whose scope is named t, pops it and every frame above it - each one's part of the operand stack is cleared first - and
   leaves the value on what lay below the named frame (ops_generic.cpp breakout_any_string, after repair C05-03). *)
From Coq Require Import String Ascii.
From Coq Require Import ZArith List Bool Lia.
From SqfVerif Require Import Gen.DiagCodes Gen.Overloads VM.VmDefs VM.VmFacts VM.VmExec VM.RefSem VM.SimDefs VM.SimProofs VM.SimBlock VM.SimCtl VM.SimMach.
Import ListNotations.
Local Open Scope string_scope.
Local Open Scope list_scope.


(* the first frame (from the top) that carries the name *)
Lemma find_scope_app : forall top fn rest t k, Forall (fun m => f_scope m <> t) top -> f_scope fn = t ->
  find_scope t (top ++ fn :: rest) k = Some (S (k + length top)).
Proof.
  induction top as [|m top IH]; intros fn rest t k HF HE; cbn [app find_scope length].
  - rewrite HE, String.eqb_refl. f_equal. lia.
  - inversion HF as [|? ? HM HF']; subst. destruct (String.eqb_spec (f_scope m) (f_scope fn)) as [E|_]; [contradiction|].
    rewrite (IH fn rest (f_scope fn) (S k) HF' eq_refl). f_equal. lia.
Qed.

(* the frames are popped from the top, each one's part of the operand stack goes with it: what is left is what lay below the base of
   the last one (the bases do not grow towards the bottom of the stack) *)
Lemma pop_clearing_chain : forall top c fn rest,
  c_frames c = top ++ fn :: rest -> Forall (fun m => f_base fn <= f_base m) top -> f_base fn <= length (c_values c) ->
  pop_clearing (S (length top)) c =
  set_values (set_frames c rest) (skipn (length (c_values c) - f_base fn) (c_values c)).
Proof.
  induction top as [|m top IH]; intros c fn rest EF HB HL.
  - cbn [length pop_clearing app] in *. unfold clear_values, pop_frame. rewrite EF. cbn [c_frames set_values c_values tl set_frames]. rewrite EF. reflexivity.
  - cbn [length app] in *. change (pop_clearing (S (S (length top))) c) with (pop_clearing (S (length top)) (pop_frame (clear_values c))).
    inversion HB as [|? ? HM HB']; subst.
    set (c1 := pop_frame (clear_values c)).
    assert (F1 : c_frames c1 = top ++ fn :: rest) by (unfold c1, pop_frame, clear_values; rewrite EF; cbn [c_frames set_values c_values tl set_frames]; rewrite EF; reflexivity).
    assert (V1 : c_values c1 = skipn (length (c_values c) - f_base m) (c_values c)) by (unfold c1, pop_frame, clear_values; rewrite EF; reflexivity).
    assert (L1 : f_base fn <= length (c_values c1)) by (rewrite V1, skipn_length; lia).
    rewrite (IH c1 fn rest F1 HB' L1). rewrite V1, skipn_length, skipn_skipn_add.
    replace (length (c_values c) - (length (c_values c) - f_base m) - f_base fn + (length (c_values c) - f_base m))
      with (length (c_values c) - f_base fn) by lia.
    unfold c1, pop_frame, clear_values. rewrite EF. cbn [c_frames set_values c_values tl set_frames]. rewrite EF. reflexivity.
Qed.

Lemma no_defects r d : r_defects r = [] -> defect r d = false.
Proof. intros E. unfold defect. rewrite E. reflexivity. Qed.

(* what breakOut does to the context when the named scope is found *)
Lemma op_breakout_found r c v t top fn rest :
  r_defects r = [] -> t <> "" -> c_frames c = top ++ fn :: rest ->
  Forall (fun m => f_scope m <> t) top -> f_scope fn = t ->
  Forall (fun m => f_base fn <= f_base m) top -> f_base fn <= length (c_values c) ->
  op_breakout r c v t = Ok (r, set_values (set_frames c rest) (skipn (length (c_values c) - f_base fn) (c_values c)), v).
Proof.
  intros D NT EF HN HE HB HL. unfold op_breakout.
  assert (NE : exists f0 fs, c_frames c = f0 :: fs) by (rewrite EF; destruct top; cbn; eauto).
  destruct NE as (f0 & fs & E0). rewrite E0. rewrite <- E0, EF.
  rewrite (no_defects r _ D). destruct (String.eqb_spec t "") as [E|_]; [contradiction|].
  rewrite (find_scope_app top fn rest t 0 HN HE). cbn [Nat.add].
  rewrite (pop_clearing_chain top c fn rest EF HB HL). reflexivity.
Qed.

Lemma op_unary_breakout t r c : op_unary "breakout" (VStr t) r c = op_breakout r c VNil t.
Proof. reflexivity. Qed.
Lemma op_binary_breakout l t r c : op_binary "breakout" l (VStr t) r c = op_breakout r c l t.
Proof. reflexivity. Qed.

(* the frames as the instruction sees them: the running frame has moved on, names and bases are where they were *)
Lemma chain_pos f restf top fn rest p t :
  f :: restf = top ++ fn :: rest -> Forall (fun m => f_scope m <> t) top -> f_scope fn = t ->
  Forall (fun m => f_base fn <= f_base m) top ->
  exists top' fn', set_pos f p :: restf = top' ++ fn' :: rest /\ Forall (fun m => f_scope m <> t) top' /\ f_scope fn' = t /\
    Forall (fun m => f_base fn' <= f_base m) top' /\ f_base fn' = f_base fn.
Proof.
  intros CH HN HE HB. destruct top as [|m top]; cbn [app] in CH.
  - inversion CH; subst. exists [], (set_pos fn p).
    split; [reflexivity|]. split; [constructor|]. split; [reflexivity|]. split; [constructor|reflexivity].
  - inversion CH; subst. inversion HN as [|? ? HM HN']; subst. inversion HB as [|? ? HBm HB']; subst.
    exists (set_pos m p :: top), fn.
    split; [reflexivity|]. split; [constructor; [exact HM|exact HN']|]. split; [reflexivity|]. split; [constructor; [exact HBm|exact HB']|reflexivity].
Qed.

(* one pass of execute_do at `breakOut "t"` *)
Lemma breakout_run r c f restf n' t vals top fn rest :
  Good r c -> r_defects r = [] -> c_frames c = f :: restf -> nth_error (f_code f) (f_pos f) = Some (IUnary n') ->
  lower n' = "breakout" -> t <> "" -> c_values c = VStr t :: vals -> f_base f <= length vals ->
  f :: restf = top ++ fn :: rest -> Forall (fun m => f_scope m <> t) top -> f_scope fn = t ->
  Forall (fun m => f_base fn <= f_base m) top -> f_base fn <= length vals ->
  let c' := push_value (set_values (set_frames c rest) (skipn (length vals - f_base fn) vals)) VNil in
  Steps r (upd_cur r c') /\ Good (upd_cur r c') c'.
Proof.
  intros G D EF N HN NT EV B CH HS HE HB HL c'.
  destruct (chain_pos f restf top fn rest (S (f_pos f)) t CH HS HE HB) as (top' & fn' & CH' & HS' & HE' & HB' & FB).
  apply (unary_step r c f restf n' (VStr t) vals r _ VNil G EF N EV B); [discriminate| |exact (good_running _ _ G)|apply ctl_same_refl].
  rewrite HN, op_unary_breakout.
  rewrite (op_breakout_found r (set_values (set_frames c (set_pos f (S (f_pos f)) :: restf)) vals) VNil t top' fn' rest D NT CH' HS' HE' HB'); [|cbn; rewrite FB; exact HL].
  cbn [c_values set_values set_frames]. rewrite FB. reflexivity.
Qed.

(* ... and at `v breakOut "t"` *)
Lemma breakout_value_run r c f restf n' t w vals top fn rest :
  Good r c -> r_defects r = [] -> c_frames c = f :: restf -> nth_error (f_code f) (f_pos f) = Some (IBinary n') ->
  lower n' = "breakout" -> t <> "" -> c_values c = VStr t :: w :: vals -> w <> VNil -> f_base f <= length vals ->
  f :: restf = top ++ fn :: rest -> Forall (fun m => f_scope m <> t) top -> f_scope fn = t ->
  Forall (fun m => f_base fn <= f_base m) top -> f_base fn <= length vals ->
  let c' := push_value (set_values (set_frames c rest) (skipn (length vals - f_base fn) vals)) w in
  Steps r (upd_cur r c') /\ Good (upd_cur r c') c'.
Proof.
  intros G D EF N HN NT EV NW B CH HS HE HB HL c'.
  destruct (chain_pos f restf top fn rest (S (f_pos f)) t CH HS HE HB) as (top' & fn' & CH' & HS' & HE' & HB' & FB).
  apply (binary_step r c f restf n' w (VStr t) vals r _ w G EF N EV B); [discriminate|exact NW| |exact (good_running _ _ G)|apply ctl_same_refl].
  rewrite HN, op_binary_breakout.
  rewrite (op_breakout_found r (set_values (set_frames c (set_pos f (S (f_pos f)) :: restf)) vals) w t top' fn' rest D NT CH' HS' HE' HB'); [|cbn; rewrite FB; exact HL].
  cbn [c_values set_values set_frames]. rewrite FB. reflexivity.
Qed.

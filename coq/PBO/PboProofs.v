(* Proofs about the PBO reader model (PboDefs.v). *)
From Coq Require Import ZArith List Lia Bool.
Import ListNotations.
From SqfVerif Require Import PBO.PboDefs.
Local Open Scope Z_scope.
Ltac Zify.zify_post_hook ::= Z.div_mod_to_equations.

Definition isbyte (b:Z) := 0 <= b < 256.
Definition nonul (s:list byte) := Forall (fun b => b <> 0) s.
Definition u32 (n:Z) := 0 <= n < 4294967296.

Lemma u32_0 : u32 0. Proof. unfold u32; lia. Qed.

Lemma len_app a b : len (a ++ b) = len a + len b.
Proof. unfold len. rewrite app_length. lia. Qed.
Lemma len_cons b l : len (b :: l) = 1 + len l.
Proof. unfold len. cbn [length]. lia. Qed.
Lemma len_hdr_bytes name m so ts sz : len (hdr_bytes name m so ts sz) = len name + 21.
Proof. unfold hdr_bytes. now rewrite len_app. Qed.
(* takes the length of a concatenation apart, for lia *)
#[local] Hint Rewrite len_app len_cons len_hdr_bytes : len.

(* What every successful read has in common: it took a non-empty prefix w of the input and handed back the rest; w is read
   the same way whatever stands behind it; and when w consists of bytes the value lies in the range Q. *)
Definition reads {A} (P : list byte -> option (A * list byte)) (Q : A -> Prop) : Prop :=
  forall l v r, P l = Some (v, r) ->
  exists w, l = w ++ r /\ w <> [] /\ (forall x, P (w ++ x) = Some (v, x)) /\ (Forall isbyte w -> Q v).

Lemma reads_ext {A P Q l} {v:A} {r} x : reads P Q -> P l = Some (v, r) -> P (l ++ x) = Some (v, r ++ x).
Proof. intros HP H. destruct (HP _ _ _ H) as (w & -> & _ & X & _). rewrite <- app_assoc. apply X. Qed.

Lemma reads_shorter {A P Q l} {v:A} {r} : reads P Q -> P l = Some (v, r) -> (length r < length l)%nat.
Proof.
  intros HP H. destruct (HP _ _ _ H) as (w & -> & Hw & _). rewrite app_length.
  destruct w; [contradiction|cbn [length]; lia].
Qed.

Lemma reads_bytes {A P Q l} {v:A} {r} : reads P Q -> Forall isbyte l -> P l = Some (v, r) -> Q v /\ Forall isbyte r.
Proof. intros HP F H. destruct (HP _ _ _ H) as (w & -> & _ & _ & U). apply Forall_app in F as [Fw Fr]. auto. Qed.

Lemma take_cstr_app s r : nonul s -> take_cstr (s ++ 0 :: r) = Some (s, r).
Proof.
  induction 1 as [|b s Hb Hs IH]; cbn; auto.
  destruct (Z.eqb_spec b 0); [contradiction|]. now rewrite IH.
Qed.

Lemma take_cstr_inv : forall l s r, take_cstr l = Some (s, r) -> nonul s /\ l = s ++ 0 :: r.
Proof.
  induction l as [|b l IH]; intros s r H; cbn in H; [discriminate|].
  destruct (Z.eqb_spec b 0) as [->|Hb].
  - inversion H; subst. split; [constructor|reflexivity].
  - destruct (take_cstr l) as [[s' r']|] eqn:E; [|discriminate]. inversion H; subst.
    destruct (IH _ _ eq_refl) as (N & ->). split; [constructor; assumption|reflexivity].
Qed.

Lemma reads_cstr : reads take_cstr (fun _ => True).
Proof.
  intros l s r H. apply take_cstr_inv in H as (N & ->). exists (s ++ [0]). repeat split.
  - now rewrite <- app_assoc.
  - now destruct s.
  - intros x. rewrite <- app_assoc. now apply take_cstr_app.
Qed.

Lemma dec_enc32 n r : u32 n -> dec32 (enc32 n ++ r) = Some (n, r).
Proof. unfold u32; intros H. unfold enc32, dec32. cbn [app]. f_equal. f_equal. lia. Qed.

Lemma reads_dec32 : reads dec32 u32.
Proof.
  intros l n r H. destruct l as [|a [|b [|c [|d l]]]]; try discriminate. cbn [dec32] in H.
  assert (E : n = a + 256 * b + 65536 * c + 16777216 * d /\ r = l) by (split; congruence).
  destruct E as [-> ->]. clear H.
  exists [a; b; c; d]. split; [reflexivity|]. split; [discriminate|]. split; [reflexivity|]. intros F.
  rewrite !Forall_cons_iff in F. unfold isbyte, u32 in *. lia.
Qed.

Lemma reads_hdr : reads take_hdr (fun h => u32 (h_size h)).
Proof.
  intros l h r H. unfold take_hdr in H.
  destruct (take_cstr l) as [[name r0]|] eqn:E0; [|discriminate].
  destruct (dec32 r0) as [[m r1]|] eqn:E1; [|discriminate].
  destruct (dec32 r1) as [[so r2]|] eqn:E2; [|discriminate].
  destruct (dec32 r2) as [[u r3]|] eqn:E3; [|discriminate].
  destruct (dec32 r3) as [[ts r4]|] eqn:E4; [|discriminate].
  destruct (dec32 r4) as [[sz r5]|] eqn:E5; [|discriminate].
  inversion H; subst; clear H.
  destruct (reads_cstr _ _ _ E0) as (w0 & -> & N0 & X0 & _).
  destruct (reads_dec32 _ _ _ E1) as (w1 & -> & _ & X1 & _).
  destruct (reads_dec32 _ _ _ E2) as (w2 & -> & _ & X2 & _).
  destruct (reads_dec32 _ _ _ E3) as (w3 & -> & _ & X3 & _).
  destruct (reads_dec32 _ _ _ E4) as (w4 & -> & _ & X4 & _).
  destruct (reads_dec32 _ _ _ E5) as (w5 & -> & _ & X5 & U).
  exists (w0 ++ w1 ++ w2 ++ w3 ++ w4 ++ w5).
  split; [now rewrite <- !app_assoc|]. split; [now destruct w0|]. split.
  - intros x. unfold take_hdr. rewrite <- !app_assoc. now rewrite X0, X1, X2, X3, X4, X5.
  - intros F. cbn [h_size]. apply U. do 5 apply Forall_app in F as [_ F]. exact F.
Qed.

Lemma take_hdr_hdr name m so ts sz r : nonul name -> u32 m -> u32 so -> u32 ts -> u32 sz ->
  take_hdr (hdr_bytes name m so ts sz ++ r)
  = Some ({| h_name := name; h_method := m; h_orig := so; h_time := ts; h_size := sz; h_start := 0 |}, r).
Proof.
  intros Hn Hm Hso Hts Hs. unfold take_hdr, hdr_bytes. rewrite <- app_assoc. cbn [app].
  rewrite take_cstr_app by assumption.
  rewrite <- !app_assoc. now rewrite !dec_enc32 by auto using u32_0.
Qed.

Lemma take_attrs_fuel : forall f f' l, (length l < f)%nat -> (length l < f')%nat -> take_attrs f l = take_attrs f' l.
Proof.
  induction f as [|f IH]; intros f' l H H'; [lia|]. destruct f' as [|f']; [lia|].
  cbn [take_attrs]. destruct (take_cstr l) as [[k r]|] eqn:E; auto.
  destruct k as [|k0 k]; auto.
  destruct (take_cstr r) as [[v r']|] eqn:E'; auto.
  apply (reads_shorter reads_cstr) in E, E'.
  rewrite (IH f' r') by lia. reflexivity.
Qed.

Lemma take_hdrs_fuel : forall f f' l, (length l < f)%nat -> (length l < f')%nat -> take_hdrs f l = take_hdrs f' l.
Proof.
  induction f as [|f IH]; intros f' l H H'; [lia|]. destruct f' as [|f']; [lia|].
  cbn [take_hdrs]. destruct (take_hdr l) as [[h r]|] eqn:E; auto.
  destruct (h_name h) as [|n0 n]; auto.
  apply (reads_shorter reads_hdr) in E.
  rewrite (IH f' r) by lia. reflexivity.
Qed.

Definition wf_key (k:list byte) := k <> [] /\ nonul k /\ invalid k = false.
Definition wf (a:archive) : Prop :=
  Forall (fun kv => wf_key (fst kv) /\ nonul (snd kv)) (props a) /\
  Forall (fun e => wf_key (ename e) /\ u32 (len (edata e)) /\ u32 (etime e)) (entries a).

Definition wf_entry (e:entry) := wf_key (ename e) /\ u32 (len (edata e)) /\ u32 (etime e).

Definition hdr_at (off:Z) (e:entry) : hdr :=
  {| h_name := ename e; h_method := 0; h_orig := len (edata e); h_time := etime e; h_size := len (edata e); h_start := off |}.
Definition end_at (off:Z) : hdr :=
  {| h_name := []; h_method := 0; h_orig := 0; h_time := 0; h_size := 0; h_start := off |}.

Lemma props_bytes_cons k v ps r : props_bytes ((k, v) :: ps) ++ r = k ++ 0 :: v ++ 0 :: props_bytes ps ++ r.
Proof. unfold props_bytes. cbn [flat_map fst snd]. rewrite <- !app_assoc. cbn [app]. now rewrite <- app_assoc. Qed.

Lemma hdrs_bytes_cons e es r :
  hdrs_bytes (e :: es) ++ r = hdr_bytes (ename e) 0 (len (edata e)) (etime e) (len (edata e)) ++ hdrs_bytes es ++ r.
Proof. unfold hdrs_bytes. cbn [flat_map]. now rewrite <- app_assoc. Qed.

(* The two loops read back what the packer wrote, with any fuel above the length of the input (what open gives them). *)
Lemma take_attrs_ok : forall ps r f,
  Forall (fun kv => wf_key (fst kv) /\ nonul (snd kv)) ps -> len (props_bytes ps ++ 0 :: r) < Z.of_nat f ->
  take_attrs f (props_bytes ps ++ 0 :: r) = (ps, 0 :: r).
Proof.
  induction ps as [|[k v] ps IH]; intros r f HF Hf; (destruct f as [|f]; [unfold len in Hf; lia|]).
  - reflexivity.
  - inversion HF as [|? ? ((Hk & Hnk & _) & Hnv) HF']; subst. cbn [fst snd] in *. rewrite props_bytes_cons in *.
    assert (Hf' : len (props_bytes ps ++ 0 :: r) < Z.of_nat f) by (autorewrite with len in *; unfold len in *; lia).
    cbn [take_attrs]. rewrite take_cstr_app by assumption. destruct k as [|k0 k]; [contradiction|].
    rewrite take_cstr_app by assumption. now rewrite IH.
Qed.

Lemma take_hdrs_ok : forall es r f,
  Forall wf_entry es -> len (hdrs_bytes es ++ hdr_bytes [] 0 0 0 0 ++ r) < Z.of_nat f ->
  take_hdrs f (hdrs_bytes es ++ hdr_bytes [] 0 0 0 0 ++ r) = Some (map (hdr_at 0) es ++ [end_at 0], r).
Proof.
  induction es as [|e es IH]; intros r f HF Hf; (destruct f as [|f]; [unfold len in Hf; lia|]).
  - cbn [hdrs_bytes flat_map app take_hdrs map].
    rewrite take_hdr_hdr; auto using u32_0. constructor.
  - inversion HF as [|? ? ((Hn & Hnn & _) & Hsz & Hts) HF']; subst. rewrite hdrs_bytes_cons in *.
    assert (Hf' : len (hdrs_bytes es ++ hdr_bytes [] 0 0 0 0 ++ r) < Z.of_nat f)
      by (autorewrite with len in *; unfold len in *; lia).
    cbn [take_hdrs map]. rewrite take_hdr_hdr; auto using u32_0. cbn [h_name].
    destruct (ename e) as [|n0 n'] eqn:En; [contradiction|].
    rewrite IH by assumption. cbn [app]. unfold hdr_at at 2. now rewrite En.
Qed.

Fixpoint starts (off:Z) (es:list entry) : list hdr :=
  match es with
  | [] => []
  | e :: es' => {| h_name := ename e; h_method := 0; h_orig := len (edata e); h_time := etime e;
                   h_size := len (edata e); h_start := off |} :: starts (off + len (edata e)) es'
  end.

Lemma place_pack : forall es off,
  place off (map (hdr_at 0) es ++ [end_at 0])
  = (starts off es ++ [end_at (off + len (flat_map edata es))], off + len (flat_map edata es)).
Proof.
  induction es as [|e es IH]; intros off.
  - cbn. unfold len; cbn. rewrite !Z.add_0_r. reflexivity.
  - cbn [map app place flat_map starts hdr_at h_size h_name h_method h_orig h_time].
    rewrite IH. rewrite len_app. rewrite Z.add_assoc. reflexivity.
Qed.

Definition packed_pbo (a:archive) : pbo :=
  let base := len (pack a) - len (flat_map edata (entries a)) in
  {| p_attrs := props a;
     p_hdrs := starts base (entries a)
               ++ [{| h_name := []; h_method := 0; h_orig := 0; h_time := 0; h_size := 0;
                      h_start := base + len (flat_map edata (entries a)) |}];
     p_len := len (pack a) |}.

Lemma open_iff l p : open l = Some p <->
  exists h0 r0 ats r2 hs r3 hs' e,
    take_hdr l = Some (h0, r0) /\ take_attrs (length l) r0 = (ats, 0 :: r2) /\
    take_hdrs (length l) r2 = Some (hs, r3) /\ place (len l - len r3) hs = (hs', e) /\ e <= len l /\
    p = {| p_attrs := ats; p_hdrs := hs'; p_len := len l |}.
Proof.
  unfold open. split.
  - destruct (take_hdr l) as [[h0 r0]|]; [|discriminate].
    destruct (take_attrs (length l) r0) as [ats r1] eqn:E1.
    destruct r1 as [|b r2]; [discriminate|].
    destruct (Z.eqb_spec b 0) as [->|]; [|discriminate].
    destruct (take_hdrs (length l) r2) as [[hs r3]|] eqn:E2; [|discriminate].
    destruct (place (len l - len r3) hs) as [hs' e] eqn:E3.
    destruct (Z.leb_spec e (len l)); [|discriminate].
    intros HH. injection HH as <-. exists h0, r0, ats, r2, hs, r3, hs', e. auto 8.
  - intros (h0 & r0 & ats & r2 & hs & r3 & hs' & e & -> & -> & E2 & E3 & Hle & ->).
    cbn [Z.eqb]. rewrite E2, E3. destruct (Z.leb_spec e (len l)); [reflexivity|lia].
Qed.

(* The packed file is a table part followed by the data area; the table part alone fixes what open reports, whatever
   the data area holds. *)
Definition head_bytes (a:archive) : list byte :=
  hdr_bytes [] VERS 0 0 0 ++ props_bytes (props a) ++ [0] ++ hdrs_bytes (entries a) ++ hdr_bytes [] 0 0 0 0.

Lemma pack_head a : pack a = head_bytes a ++ flat_map edata (entries a).
Proof. unfold pack, head_bytes. now rewrite <- !app_assoc. Qed.

Lemma packed_pbo_head a : packed_pbo a =
  {| p_attrs := props a;
     p_hdrs := starts (len (head_bytes a)) (entries a) ++ [end_at (len (pack a))];
     p_len := len (pack a) |}.
Proof.
  unfold packed_pbo, end_at. rewrite pack_head, len_app.
  now replace (len (head_bytes a) + len (flat_map edata (entries a)) - len (flat_map edata (entries a)))
    with (len (head_bytes a)) by lia.
Qed.

Lemma open_head a d : wf a -> length d = length (flat_map edata (entries a)) ->
  open (head_bytes a ++ d) = Some (packed_pbo a).
Proof.
  intros [Hp He] Hd. unfold open. set (L := head_bytes a ++ d).
  assert (EL : len L = len (pack a)).
  { unfold L. rewrite pack_head, !len_app. unfold len. now rewrite Hd. }
  assert (Ed : len L - len d = len (head_bytes a)) by (unfold L; rewrite len_app; lia).
  unfold L at 1. unfold head_bytes. rewrite <- !app_assoc.
  rewrite take_hdr_hdr; [|constructor|unfold u32, VERS; lia|apply u32_0..].
  cbn [app]. rewrite take_attrs_ok; [|assumption|].
  2:{ fold (len L). unfold L, head_bytes. autorewrite with len. unfold len. lia. }
  rewrite Z.eqb_refl, take_hdrs_ok; [|assumption|].
  2:{ fold (len L). unfold L, head_bytes. autorewrite with len. unfold len. lia. }
  rewrite place_pack, Ed, <- len_app, <- pack_head, EL, Z.leb_refl. now rewrite packed_pbo_head.
Qed.

Lemma open_pack_eq : forall a, wf a -> open (pack a) = Some (packed_pbo a).
Proof. intros a W. rewrite pack_head. now apply open_head. Qed.

Lemma filter_all {A} (f:A->bool) l : Forall (fun x => f x = true) l -> filter f l = l.
Proof. induction 1 as [|x l Hx _ IH]; cbn; auto. now rewrite Hx, IH. Qed.

Lemma starts_listing : forall es off,
  map (fun h => (h_name h, method_of (h_method h), h_size h)) (starts off es) = listing {| props := []; entries := es |}.
Proof. induction es as [|e es IH]; intros off; cbn; auto. f_equal. apply IH. Qed.

Lemma starts_valid : forall es off,
  Forall wf_entry es -> Forall (fun h => negb (invalid (h_name h)) = true) (starts off es).
Proof.
  intros es off H. revert off. induction H as [|e es ((_ & _ & Hi) & _) _ IH]; intros off; constructor; [|apply IH].
  cbn. now rewrite Hi.
Qed.

Theorem open_pack : forall a, wf a ->
  exists p, open (pack a) = Some p /\ attributes p = props a /\ files p = listing a.
Proof.
  intros a W. exists (packed_pbo a). split; [apply open_pack_eq; assumption|].
  destruct a as [ps es]. destruct W as [Hp He]. cbn [props entries] in *. split.
  - unfold attributes, packed_pbo. cbn [p_attrs props]. apply filter_all.
    eapply Forall_impl; [|exact Hp]. intros [k v] ((_ & _ & Hi) & _). cbn in *. now rewrite Hi.
  - unfold files, packed_pbo. cbn [p_hdrs entries]. rewrite removelast_last.
    rewrite filter_all by (apply starts_valid; assumption).
    apply starts_listing.
Qed.

Lemma eqbl_spec a b : eqbl a b = true <-> a = b.
Proof.
  revert b; induction a as [|x a IH]; intros [|y b]; cbn; split; try discriminate; auto.
  - intros H. apply andb_prop in H. destruct H as [H1 H2]. apply Z.eqb_eq in H1. apply IH in H2. congruence.
  - intros H. inversion H; subst. rewrite Z.eqb_refl. cbn. apply IH. reflexivity.
Qed.

Lemma slice_skip pre l s n : 0 <= s -> slice (pre ++ l) (len pre + s) n = slice l s n.
Proof.
  intros Hs. unfold slice, len. rewrite skipn_app.
  replace (Z.to_nat (Z.of_nat (length pre) + s)) with (length pre + Z.to_nat s)%nat by lia.
  rewrite skipn_all2 by lia. now rewrite Nat.add_comm, Nat.add_sub.
Qed.

Lemma slice_app pre d post : slice (pre ++ d ++ post) (len pre) (len d) = d.
Proof.
  rewrite <- (Z.add_0_r (len pre)), slice_skip by lia. unfold slice, len. rewrite Nat2Z.id. cbn [Z.to_nat skipn].
  rewrite firstn_app, firstn_all, Nat.sub_diag. cbn. apply app_nil_r.
Qed.

Lemma starts_app : forall es1 es2 off,
  starts off (es1 ++ es2) = starts off es1 ++ starts (off + len (flat_map edata es1)) es2.
Proof.
  induction es1 as [|e es1 IH]; intros es2 off; cbn [app starts flat_map].
  - change (len []) with 0. now rewrite Z.add_0_r.
  - now rewrite IH, len_app, Z.add_assoc.
Qed.

Lemma find_skip pre name off rest : Forall (fun x => eqbl (ename x) name = false) pre ->
  find (fun h => eqbl (h_name h) name && negb (invalid (h_name h))) (starts off pre ++ rest)
  = find (fun h => eqbl (h_name h) name && negb (invalid (h_name h))) rest.
Proof.
  intros Hpre. revert off. induction Hpre as [|x pre Hx _ IH]; intros off; [reflexivity|].
  cbn [starts app find h_name]. rewrite Hx. apply IH.
Qed.

Lemma find_first {A} (f:A->bool) l x : find f l = Some x ->
  exists pre post, l = pre ++ x :: post /\ Forall (fun y => f y = false) pre /\ f x = true.
Proof.
  induction l as [|y l IH]; cbn [find]; [discriminate|]. destruct (f y) eqn:Ey.
  - intros H. injection H as ->. now exists [], l.
  - intros H. destruct (IH H) as (pre & post & -> & Hpre & Hx). exists (y :: pre), post. auto.
Qed.

(* Reading from the table part followed by any data area d: the entry found is the first of that name, and what is
   returned is the stretch of d where the packer put that entry's bytes. *)
Lemma read_head a pre e post d name : wf a -> entries a = pre ++ e :: post ->
  Forall (fun x => eqbl (ename x) name = false) pre -> eqbl (ename e) name = true ->
  read_entry (head_bytes a ++ d) (packed_pbo a) name = Some (slice d (len (flat_map edata pre)) (len (edata e))).
Proof.
  intros [_ He] Ee Hpre Hn. unfold read_entry. rewrite packed_pbo_head. cbn [p_hdrs]. rewrite Ee in *.
  apply Forall_app in He as [_ He]. inversion He as [|? ? ((_ & _ & Hi) & _) _]; subst.
  rewrite starts_app, <- app_assoc, find_skip by assumption.
  cbn [starts app find h_name]. rewrite Hn, Hi. cbn [andb negb h_start h_size].
  now rewrite slice_skip by (unfold len; lia).
Qed.

Theorem read_pack : forall a name, wf a -> name <> [] ->
  exists p, open (pack a) = Some p /\
    read_entry (pack a) p name = option_map edata (find (fun e => eqbl (ename e) name) (entries a)).
Proof.
  intros a name W Hn. exists (packed_pbo a). split; [apply open_pack_eq; assumption|].
  rewrite pack_head. destruct (find _ (entries a)) as [e|] eqn:E; cbn [option_map].
  - destruct (find_first _ _ _ E) as (pre & post & Ee & Hpre & He).
    rewrite (read_head a pre e post _ name W Ee Hpre He). f_equal.
    rewrite Ee, flat_map_app. apply slice_app.
  - unfold read_entry. rewrite packed_pbo_head. cbn [p_hdrs].
    rewrite find_skip by (apply Forall_forall; exact (find_none _ _ E)).
    destruct name; [contradiction|reflexivity].
Qed.

Lemma place_inside : forall hs off hs' e,
  Forall (fun h => 0 <= h_size h) hs -> place off hs = (hs', e) ->
  off <= e /\ Forall (fun h => off <= h_start h /\ h_start h + h_size h <= e /\ 0 <= h_size h) hs'.
Proof.
  induction hs as [|h hs IH]; intros off hs' e F H; cbn [place] in H.
  - inversion H; subst. split; [lia|constructor].
  - destruct (place (off + h_size h) hs) as [r e'] eqn:E. inversion H; subst.
    inversion F as [|? ? Hh F']; subst.
    destruct (IH _ _ _ F' E) as (Le & FA). split; [lia|].
    constructor; [cbn; lia|]. eapply Forall_impl; [|exact FA]. cbn. intros x. lia.
Qed.

Lemma take_hdrs_sizes : forall f l hs r, Forall isbyte l -> take_hdrs f l = Some (hs, r) ->
  Forall (fun h => 0 <= h_size h) hs /\ (length r <= length l)%nat.
Proof.
  induction f as [|f IH]; intros l hs r F H; cbn [take_hdrs] in H; [discriminate|].
  destruct (take_hdr l) as [[h r0]|] eqn:E; [|discriminate].
  destruct (reads_bytes reads_hdr F E) as (U & F0). apply (reads_shorter reads_hdr) in E.
  assert (U0 : 0 <= h_size h) by (unfold u32 in U; lia).
  destruct (h_name h) as [|n0 n].
  - inversion H; subst. split; [repeat constructor; assumption|lia].
  - destruct (take_hdrs f r0) as [[hs0 r1]|] eqn:E1; [|discriminate]. inversion H; subst.
    destruct (IH _ _ _ F0 E1) as (FA & L1). split; [constructor; assumption|lia].
Qed.

Lemma take_attrs_suffix : forall f l ps r, take_attrs f l = (ps, r) -> exists pre, l = pre ++ r.
Proof.
  induction f as [|f IH]; intros l ps r H; cbn [take_attrs] in H.
  all: assert (Stop : ([], l) = (ps, r) -> exists pre, l = pre ++ r) by (intros [= _ <-]; now exists []); auto.
  destruct (take_cstr l) as [[[|k0 k] r0]|] eqn:E; auto.
  destruct (take_cstr r0) as [[v r1]|] eqn:E1; auto.
  destruct (take_attrs f r1) as [ps0 r2] eqn:E2. inversion H; subst.
  destruct (reads_cstr _ _ _ E) as (w & -> & _), (reads_cstr _ _ _ E1) as (w1 & -> & _), (IH _ _ _ E2) as (pre & ->).
  exists (w ++ w1 ++ pre). now rewrite <- !app_assoc.
Qed.

(* Every entry the reader exposes lies inside the file, for ANY byte string. *)
Theorem exposed_inside : forall l p, Forall isbyte l -> open l = Some p ->
  p_len p = len l /\
  Forall (fun h => 0 <= h_start h /\ 0 <= h_size h /\ h_start h + h_size h <= len l) (p_hdrs p).
Proof.
  intros l p F H. apply open_iff in H as (h0 & r0 & ats & r2 & hs & r3 & hs' & e & E0 & E1 & E2 & E3 & Hle & ->).
  split; [reflexivity|]. cbn [p_hdrs].
  destruct (reads_bytes reads_hdr F E0) as (_ & F0). apply (reads_shorter reads_hdr) in E0.
  apply take_attrs_suffix in E1 as (pre & ->). apply Forall_app in F0 as [_ F2]. inversion F2 as [|? ? _ F2']; subst.
  destruct (take_hdrs_sizes _ _ _ _ F2' E2) as (FS & L3).
  destruct (place_inside _ _ _ _ FS E3) as (Le & FA).
  assert (0 <= len l - len r3) by (rewrite app_length in E0; unfold len; cbn [length] in E0; lia).
  eapply Forall_impl; [|exact FA]. cbn. intros x. lia.
Qed.

Lemma slice_length l s n : 0 <= s -> 0 <= n -> s + n <= len l -> len (slice l s n) = n.
Proof.
  intros Hs Hn H. unfold slice, len in *. rewrite firstn_length, skipn_length. lia.
Qed.

(* What read_entry returns is exactly h_size bytes of the file: nothing is read past the end and
   the allocation (descriptor().size) is bounded by the file length. *)
Theorem read_bounded : forall l p name d, Forall isbyte l -> open l = Some p ->
  read_entry l p name = Some d ->
  exists h, In h (p_hdrs p) /\ len d = h_size h /\ h_size h <= len l /\
            d = slice l (h_start h) (h_size h) /\ h_start h + h_size h <= len l.
Proof.
  intros l p name d F H R. destruct (exposed_inside _ _ F H) as (_ & FA).
  unfold read_entry in R.
  destruct (find _ (p_hdrs p)) as [h|] eqn:E; [|discriminate]. inversion R; subst.
  apply find_some in E. destruct E as (I & _).
  rewrite Forall_forall in FA. destruct (FA _ I) as (A & B & C).
  exists h. repeat split; auto; [apply slice_length; lia | lia].
Qed.

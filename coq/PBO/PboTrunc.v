(* C17, damaged archives: truncation, trailing bytes, a damaged data area.
   (1) open_ext: bytes appended behind an archive the reader accepts (a checksum trailer, padding, garbage) change
       nothing - same properties, same header table;
   (2) prefix_refused: when the table of an accepted file ends where the file ends, EVERY proper prefix of the file is
       refused - so a truncated packed archive never exposes an entry at all (it cannot expose a damaged one);
   (3) damaged_head: a packed archive whose data area was overwritten (same length) is the table part of the archive
       followed by the new data, which is what open_head and read_head of PboProofs.v speak about. *)
From Coq Require Import ZArith List Lia.
Import ListNotations.
From SqfVerif Require Import PBO.PboDefs PBO.PboProofs.
Local Open Scope Z_scope.

(* the loops are stable under appended bytes, as the single reads are (reads_ext) *)
Lemma take_hdrs_ext : forall f l hs r x f', take_hdrs f l = Some (hs, r) -> (f <= f')%nat ->
  take_hdrs f' (l ++ x) = Some (hs, r ++ x).
Proof.
  induction f as [|f IH]; intros l hs r x f' H Hf; cbn [take_hdrs] in H; [discriminate|].
  destruct f' as [|f']; [lia|]. cbn [take_hdrs].
  destruct (take_hdr l) as [[h r0]|] eqn:E; [|discriminate]. rewrite (reads_ext x reads_hdr E).
  destruct (h_name h) as [|n0 n]; [inversion H; subst; reflexivity|].
  destruct (take_hdrs f r0) as [[hs' r']|] eqn:E'; [|discriminate]. inversion H; subst.
  rewrite (IH _ _ _ x f' E') by lia. reflexivity.
Qed.

(* the attribute loop, when it stopped in front of a NUL byte (the only stop the reader goes on from): an early stop hands
   back the input, which then begins with that NUL byte, and there the loop stops with any fuel and any continuation *)
Lemma take_attrs_ext : forall f l ps r2 x f', take_attrs f l = (ps, 0 :: r2) -> (f <= f')%nat ->
  take_attrs f' (l ++ x) = (ps, (0 :: r2) ++ x).
Proof.
  induction f as [|f IH]; intros l ps r2 x f' H Hf; cbn [take_attrs] in H.
  all: assert (Stop : ([], l) = (ps, 0 :: r2) -> take_attrs f' (l ++ x) = (ps, (0 :: r2) ++ x))
         by (intros [= <- ->]; now destruct f'); auto.
  destruct f' as [|f']; [lia|].
  destruct (take_cstr l) as [[[|k0 k] r]|] eqn:E; auto.
  destruct (take_cstr r) as [[v r']|] eqn:E'; auto.
  destruct (take_attrs f r') as [ps' r''] eqn:EA. injection H as <- ->.
  cbn [take_attrs]. rewrite (reads_ext x reads_cstr E), (reads_ext x reads_cstr E').
  now rewrite (IH _ _ _ x f' EA) by lia.
Qed.

Theorem open_ext : forall l p x, open l = Some p ->
  open (l ++ x) = Some {| p_attrs := p_attrs p; p_hdrs := p_hdrs p; p_len := len l + len x |}.
Proof.
  intros l p x H.
  apply open_iff in H as (h0 & r0 & ats & r2 & hs & r3 & hs' & e & E0 & E1 & E2 & E3 & Hle & ->).
  assert (Hf : (length l <= length (l ++ x))%nat) by (rewrite app_length; lia).
  apply open_iff. exists h0, (r0 ++ x), ats, (r2 ++ x), hs, (r3 ++ x), hs', e. cbn [p_attrs p_hdrs].
  split; [exact (reads_ext x reads_hdr E0)|].
  split; [exact (take_attrs_ext _ _ _ _ x _ E1 Hf)|].
  split; [exact (take_hdrs_ext _ _ _ _ x _ E2 Hf)|].
  rewrite !len_app. replace (len l + len x - (len r3 + len x)) with (len l - len r3) by lia.
  repeat split; [assumption|unfold len in *; lia].
Qed.

Lemma slice_ext : forall l x s n, 0 <= s -> 0 <= n -> s + n <= len l -> slice (l ++ x) s n = slice l s n.
Proof.
  intros l x s n Hs Hn Hle. unfold slice, len in *.
  rewrite skipn_app. rewrite firstn_app.
  replace (Z.to_nat n - length (skipn (Z.to_nat s) l))%nat with 0%nat by (rewrite skipn_length; lia).
  cbn [firstn]. apply app_nil_r.
Qed.

(* The end that place returns is the end of the last block it placed; so a reader that accepts a file has
   checked that the last block of the table it reports ends inside the file. Appended bytes leave the table as it is:
   a file whose table ends at the end of the file has no accepted proper prefix. *)
Lemma place_last : forall hs off hs' e, place off hs = (hs', e) ->
  forall pre h, hs' = pre ++ [h] -> e = h_start h + h_size h.
Proof.
  induction hs as [|h0 hs IH]; intros off hs' e H; cbn [place] in H.
  - inversion H; subst. intros pre h Hp. now destruct pre.
  - destruct (place (off + h_size h0) hs) as [r e'] eqn:E. inversion H; subst. intros pre h Hp.
    destruct pre as [|y pre]; cbn [app] in Hp; injection Hp as Hy Hr.
    + subst r h. destruct hs as [|h1 hs]; cbn [place] in E.
      * inversion E; subst. reflexivity.
      * destruct (place (off + h_size h0 + h_size h1) hs). discriminate.
    + exact (IH _ _ _ E _ _ Hr).
Qed.

Theorem prefix_refused : forall l p pre h n, open l = Some p ->
  p_hdrs p = pre ++ [h] -> len l <= h_start h + h_size h -> (n < length l)%nat -> open (firstn n l) = None.
Proof.
  intros l p pre h n H Hp Hend Hn. destruct (open (firstn n l)) as [q|] eqn:E; [exfalso|reflexivity].
  pose proof (open_ext _ _ (skipn n l) E) as HX. rewrite firstn_skipn, H in HX. injection HX as ->.
  apply open_iff in E as (h0 & r0 & ats & r2 & hs & r3 & hs' & e & _ & _ & _ & E3 & Hle & ->).
  cbn [p_hdrs] in Hp. rewrite (place_last _ _ _ _ E3 _ _ Hp) in Hle.
  unfold len in *. rewrite firstn_length in Hle. lia.
Qed.

Lemma damaged_head a (d:list byte) : length d = length (flat_map edata (entries a)) ->
  firstn (length (pack a) - length d) (pack a) = head_bytes a.
Proof.
  intros Hd. rewrite pack_head, app_length, Hd, Nat.add_sub, <- (Nat.add_0_r (length (head_bytes a))), firstn_app_2.
  apply app_nil_r.
Qed.

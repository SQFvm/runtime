(* C10 - front ends are total.  Statements about the mechanism models of coq/Front (loop-level
   transition systems of the scanners, cursor = index, every read behind the end an explicit Bad
   outcome).  [repaired] / [rrepaired] is the code with /verif/proposed_fixes/C10-*.diff applied,
   [as_is] / [ras_is] the code at /repo HEAD 382ec7b; the _refuted theorems exhibit the witnesses
   that were replayed on the real code. *)
From Coq Require Import ZArith NArith List Bool Lia.
Import ListNotations.
From SqfVerif Require Import Front.Machine Front.Tok Front.TokProofs Front.Reader Front.ReaderProofs Front.Scan Front.ScanProofs Front.Refuted.
Local Open Scope N_scope.

(* reads_inside_buffer: a byte is only ever obtained from an index below the length *)
Theorem C10_reads_inside_buffer : forall get len, buf_ok get len ->
  (forall i b, get i = Some b -> i < len) /\ (forall p i, isat get p i = true -> i < len).
Proof. intros get len ok. split; [apply (get_inside get len ok)|apply (isat_inside get len ok)]. Qed.
Print Assumptions C10_reads_inside_buffer.

(* scan_total for the span loops (len_match, whitespace, digits, ...): at most (bytes left) + 1 steps *)
Theorem C10_span_total : forall get len, buf_ok get len -> forall p i,
  exists n r, (n <= N.to_nat (len - i) + 1)%nat /\ iter (span_step get p) n i = Fin r /\ span_post get len p i r.
Proof. exact span_total. Qed.
Print Assumptions C10_span_total.

Theorem C10_line_comment_total : forall get len, buf_ok get len -> forall i, i < len ->
  exists n r, (n <= N.to_nat (len - i) + 1)%nat /\ iter (lc_step repaired get len) n i = Fin r /\ i < r /\ r <= len.
Proof. intros get len ok. apply (lc_total get len). Qed.
Print Assumptions C10_line_comment_total.

Theorem C10_block_comment_total : forall get len, buf_ok get len -> forall i, i <= len ->
  exists n r, (n <= N.to_nat (len - i) + 1)%nat /\ iter (bc_step repaired get len) n i = Fin r /\ i <= r /\ r <= len.
Proof. intros get len ok. apply (bc_total get len). Qed.
Print Assumptions C10_block_comment_total.

Theorem C10_string_total : forall get len, buf_ok get len -> forall q i, i <= len ->
  exists n r, (n <= N.to_nat (len - i) + 1)%nat /\ iter (str_step get len q true) n i = Fin r /\ i <= r /\ r <= len.
Proof. exact str_total. Qed.
Print Assumptions C10_string_total.

(* every matcher of try_match, at every position inside the buffer: a length that stays inside *)
Theorem C10_matcher_total : forall get len fl, buf_ok get len -> (N.to_nat len + 2 <= fl)%nat -> forall l t i, i < len ->
  exists n, matcher repaired get len fl l t i = Done n /\ i + n <= len.
Proof. intros get len fl ok Hfl. apply (matcher_ok get len ok fl Hfl). Qed.
Print Assumptions C10_matcher_total.

Theorem C10_next_total : forall get len fl, buf_ok get len -> (N.to_nat len + 2 <= fl)%nat -> forall l i, i <= len ->
  exists t n, next repaired get len fl l i = Done (t, n) /\ i + n <= len /\ (n = 0 <-> final_tt t = true).
Proof. intros get len fl ok Hfl. apply (next_ok get len ok fl Hfl). Qed.
Print Assumptions C10_next_total.

(* lexer_total, for every byte string: the token loop of either tokenizer ends after at most |input| + 1
   tokens, which tile the input (each starts where the previous ended, has >= 1 byte unless it is the final
   eof / invalid token, ends inside the buffer) *)
Theorem C10_lexer_total : forall (inp:list byte) fl l, (length inp + 2 <= fl)%nat ->
  exists ts, lex repaired (lget inp) (llen inp) fl l = Done ts /\ tiles (llen inp) 0 ts /\ (length ts <= length inp + 1)%nat.
Proof.
  intros inp fl l Hfl.
  destruct (lexer_total (lget inp) (llen inp) (list_buf_ok inp) fl) with (l := l) as (ts & E & T & L).
  - unfold llen. lia.
  - exists ts. split; [exact E|]. split; [exact T|]. unfold llen in L. lia.
Qed.
Print Assumptions C10_lexer_total.

(* the preprocessor reader: next() from any state inside the content ends within 2 * (bytes left) + 2 steps,
   stays inside the content and consumes at least one byte unless none is left *)
Theorem C10_reader_next_total : forall budget get len, buf_ok get len -> forall st, r_off st <= len ->
  exists n r, (n <= 2 * N.to_nat (len - r_off st) + 2)%nat /\
              iter (next_step rrepaired budget get) n (mkn P0 st 0 0) = Fin r /\ next_post get len (r_off st) r.
Proof. exact next_total. Qed.
Print Assumptions C10_reader_next_total.

Theorem C10_reader_stream_total : forall budget (inp:list byte) fl, (2 * length inp + 4 <= fl)%nat ->
  exists l e, stream rrepaired budget (lget inp) fl fl (mkr 0 false false) = Done (l, e) /\ (length l <= length inp)%nat /\ r_off e <= llen inp.
Proof.
  intros budget inp fl Hfl.
  destruct (stream_total budget (lget inp) (llen inp) (list_buf_ok inp) fl) with (n := fl) (st := mkr 0 false false) as (l & e & E & L & B).
  - unfold llen. lia.
  - cbn. lia.
  - cbn. unfold llen. lia.
  - exists l, e. split; [exact E|]. split; [|exact B]. cbn in L. unfold llen in L. lia.
Qed.
Print Assumptions C10_reader_stream_total.

Theorem C10_get_word_total : forall budget get len fl, buf_ok get len -> (2 * N.to_nat len + 4 <= fl)%nat -> forall st, r_off st <= len ->
  exists w st', get_word rrepaired budget get len fl st = Done (w, st') /\ r_off st' <= len.
Proof. intros budget get len fl ok Hfl. apply (get_word_total budget get len ok fl Hfl). Qed.
Print Assumptions C10_get_word_total.

Theorem C10_get_line_total : forall budget get len fl, buf_ok get len -> (2 * N.to_nat len + 4 <= fl)%nat -> forall st, r_off st <= len ->
  exists l st', get_line rrepaired budget get fl st = Done (l, st') /\ r_off st' <= len.
Proof. intros budget get len fl ok Hfl. apply (get_line_total budget get len ok fl Hfl). Qed.
Print Assumptions C10_get_line_total.

(* the parameter list of a #define line: at most (bytes left) + 1 rounds, the cursor stays inside the line;
   [be] is what line.find(')') returned *)
Theorem C10_define_args_total : forall (line:list byte) be start, llen line < W64 -> (be = NPOS \/ be < LL line) -> start <= LL line ->
  exists n r, (n <= N.to_nat (LL line - start) + 1)%nat /\ iter (args_step rrepaired line be) n (start, []) = Fin r /\ fst r <= LL line.
Proof. intros line be start H. apply (define_args_total line H). Qed.
Print Assumptions C10_define_args_total.

(* #define F(a,,b) x : the loop of the code as it stood never ends *)
Theorem C10_define_args_refuted : forall n r,
  iter (args_step ras_is define_witness (find_c define_witness 41%Z 0)) n (wadd (find_c define_witness 40%Z 0) 1, []) <> Fin r.
Proof. exact define_args_refuted. Qed.
Print Assumptions C10_define_args_refuted.

(* replace_skip on a macro body (a text without carriage returns, as get_line delivers it) *)
Theorem C10_replace_skip_total : forall budget get len fl, buf_ok get len -> (forall i, get i <> Some CR) -> (2 * N.to_nat len + 4 <= fl)%nat ->
  forall n st ins out, r_off st <= len -> (N.to_nat (len - r_off st) + 2 <= n)%nat ->
  exists st' out', skip_loop rrepaired budget get fl n st ins out = Done (st', out') /\ r_off st <= r_off st' /\ r_off st' <= len.
Proof. intros budget get len fl ok nocr Hfl. apply (skip_total budget get len ok nocr fl Hfl). Qed.
Print Assumptions C10_replace_skip_total.

(* a body that ends inside a string literal: the code as it stood appends NUL for ever, whatever the fuel *)
Theorem C10_replace_skip_refuted : forall budget n out,
  skip_loop ras_is budget (lget skip_witness) 20 n (mkr 4 true false) true out = OutOfFuel.
Proof. exact skip_refuted. Qed.
Print Assumptions C10_replace_skip_refuted.

Theorem C10_find_wordend_total : forall budget get len fl, buf_ok get len -> (2 * N.to_nat len + 4 <= fl)%nat ->
  forall n st start, r_off st <= len -> (N.to_nat (len - r_off st) + 1 <= n)%nat ->
  exists r, wordend_loop rrepaired budget get fl n st start = Done r.
Proof. intros budget get len fl ok Hfl. apply (wordend_total budget get len ok fl Hfl). Qed.
Print Assumptions C10_find_wordend_total.

(* the argument splitter of handle_macro ('NAME(' has been read): it ends within (bytes left) + 1 rounds, also
   on a call that is still open when the input ends, whatever the brackets and quotes in it *)
Theorem C10_macro_args_total : forall budget get len fl, buf_ok get len -> (2 * N.to_nat len + 4 <= fl)%nat ->
  forall n st s, r_off st <= len -> (N.to_nat (len - r_off st) + 1 <= n)%nat ->
  exists st' args, split_loop rrepaired budget get fl n st s = Done (st', args) /\ r_off st' <= len.
Proof. intros budget get len fl ok Hfl. apply (split_total budget get len ok fl Hfl). Qed.
Print Assumptions C10_macro_args_total.

(* handle_arg on one argument: its loop ends within 2 * (bytes left) + 2 rounds for every macro table, provided the
   nested handle_macro returns and only moves the reader forward (the un-read character is read again exactly once) *)
Theorem C10_handle_arg_total : forall budget get len fl, buf_ok get len -> (2 * N.to_nat len + 4 <= fl)%nat ->
  forall (lookup:list byte -> option bool) (hm:rst -> res (rst * bool)),
  (forall st, r_off st <= len -> exists st' e, hm st = Done (st', e) /\ r_off st <= r_off st' /\ r_off st' <= len) ->
  forall n endindex s, r_off (a_st s) <= len -> (amu len s + 1 <= n)%nat ->
  exists st', arg_loop rrepaired budget get fl lookup hm n endindex s = Done st' /\ r_off st' <= len.
Proof. intros budget get len fl ok Hfl lookup hm Hhm. apply (arg_total budget get len ok fl Hfl lookup hm Hhm). Qed.
Print Assumptions C10_handle_arg_total.

(* create_code_segment for a token offset inside the text: no exception (substr, the blank prefix), the
   window starts at or before the token *)
Theorem C10_code_segment_total : forall get len fl off length, buf_ok get len -> off <= len -> (N.to_nat len + 2 <= fl)%nat ->
  exists i ln sp, code_segment get len fl off length = Done (i, ln, sp) /\ i <= off /\ sp = off - i.
Proof. intros get len fl off length ok. apply (code_segment_total get len ok). Qed.
Print Assumptions C10_code_segment_total.

Theorem C10_line_comment_refuted : lex_as_is LSqf w_line_comment = Failed BUb /\ lex_as_is LCfg w_line_comment = Failed BUb.
Proof. exact line_comment_refuted. Qed.
Print Assumptions C10_line_comment_refuted.
Theorem C10_block_comment_refuted : lex_as_is LSqf w_block_comment = Failed BUb /\ lex_as_is LCfg w_block_comment = Failed BUb.
Proof. exact block_comment_refuted. Qed.
Print Assumptions C10_block_comment_refuted.
Theorem C10_line_directive_refuted :
  lex_as_is LSqf w_line_short = Failed BUb /\ lex_as_is LSqf w_line_text = Failed BThrow /\ lex_as_is LSqf w_line_huge = Failed BThrow /\
  lex_as_is LCfg w_line_short = Failed BUb /\ lex_as_is LCfg w_line_text = Failed BThrow.
Proof. exact line_directive_refuted. Qed.
Print Assumptions C10_line_directive_refuted.
Theorem C10_cfg_single_quote_refuted : lex_as_is LCfg w_cfg_squote = Failed BUb.
Proof. exact cfg_single_quote_refuted. Qed.
Print Assumptions C10_cfg_single_quote_refuted.
Theorem C10_cfg_keyword_prefix_refuted : lex_as_is LCfg w_cfg_line_prefix = Failed BUb.
Proof. exact cfg_keyword_prefix_refuted. Qed.
Print Assumptions C10_cfg_keyword_prefix_refuted.
Theorem C10_cfg_sign_dot_refuted :
  lex_as_is LCfg w_cfg_sign_dot = Done [(Num, 0, 1); (Any, 1, 1); (Eof, 2, 0)] /\ stod_finds_number [43%Z] = false /\
  lex_repaired LCfg w_cfg_sign_dot = Done [(Any, 0, 1); (Any, 1, 1); (Eof, 2, 0)].
Proof. exact cfg_sign_dot_refuted. Qed.
Print Assumptions C10_cfg_sign_dot_refuted.

(* recursion of the reader as it stood is unbounded: for every stack budget an input one byte longer exhausts it;
   the repaired reader never reports BStack (C10_reader_next_total holds for every budget) *)
Theorem C10_reader_recursion_unbounded : forall budget, exists get len, buf_ok get len /\ len = budget + 1 /\
  forall fl, (N.to_nat budget + 1 <= fl)%nat -> next_char ras_is budget get fl (mkr 0 false false) = Failed BStack.
Proof. exact reader_recursion_unbounded. Qed.
Print Assumptions C10_reader_recursion_unbounded.

(* recursion guards: pp_expansion_terminates / include_cycle_reported.
   [names] are the defined macros (the files that exist), [uses] names what an expansion (a file) mentions -
   an arbitrary function of the stack and the name, all that is known is that it stays inside [names]. *)
Theorem C10_pp_expansion_terminates : forall (name:Type) (name_eqb:name -> name -> bool),
  (forall a b, name_eqb a b = true <-> a = b) ->
  forall (uses:list name -> name -> list name) (names:list name), (forall st x y, In y (uses st x) -> In y names) ->
  forall n stack x, NoDup stack -> incl stack names -> In x names -> (length names - length stack <= n)%nat ->
  (exists d, visit name name_eqb uses n stack x = GOk name d /\ (d <= length names)%nat) \/
  (exists y, visit name name_eqb uses n stack x = GRecursive name y).
Proof. exact guard_terminates. Qed.
Print Assumptions C10_pp_expansion_terminates.

Theorem C10_include_cycle_reported : forall (name:Type) (name_eqb:name -> name -> bool),
  (forall a b, name_eqb a b = true <-> a = b) ->
  forall (uses:list name -> name -> list name) n stack x, In x stack -> visit name name_eqb uses n stack x = GRecursive name x.
Proof. exact guard_reports_cycle. Qed.
Print Assumptions C10_include_cycle_reported.

(* determinism: every model is a Gallina function of the buffer, the position and the defect setting -
   the same input has one outcome (stated for the token loop and the reader stream) *)
Theorem C10_determinism : forall d rd budget get len fl l st r1 r2 s1 s2,
  lex d get len fl l = r1 -> lex d get len fl l = r2 -> stream rd budget get fl fl st = s1 -> stream rd budget get fl fl st = s2 ->
  r1 = r2 /\ s1 = s2.
Proof. intros; subst; split; reflexivity. Qed.
Print Assumptions C10_determinism.

(* non-vacuity *)
Example ex_tokens_sqf : lex_repaired LSqf [120;32;61;32;49;59]%Z = Done [(Ident, 0, 1); (Ws, 1, 1); (Equal, 2, 1); (Ws, 3, 1); (Num, 4, 1); (Semi, 5, 1); (Eof, 6, 0)].
Proof. vm_compute. reflexivity. Qed.
Example ex_reader : stream rrepaired 0 (lget [97;47;42;120;42;47;98;13;10]%Z) 30 30 (mkr 0 false false) = Done ([97;98;10]%Z, mkr 9 false false).
Proof. vm_compute. reflexivity. Qed.
Example ex_define : parse_define rrepaired [70;40;97;44;44;98;41;32;120]%Z 20 = Done ([70]%Z, Some [[97]%Z; [98]%Z], [120]%Z).
Proof. vm_compute. reflexivity. Qed.
(* the guard on a table of three macros A -> B -> C -> A and on a chain *)
Example ex_guard_cycle : visit nat Nat.eqb (fun _ x => [((x + 1) mod 3)%nat]) 10 [] 0%nat = GRecursive nat 0%nat.
Proof. vm_compute. reflexivity. Qed.
Example ex_guard_chain : visit nat Nat.eqb (fun _ x => if Nat.ltb x 3 then [S x] else []) 10 [] 0%nat = GOk nat 4.
Proof. vm_compute. reflexivity. Qed.

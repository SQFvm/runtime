(* C04 - runtime errors are never silent, never skipped over, never leak into later code.
   The longer proofs live in VM/C04Shape.v and VM/C04Proofs.v.  The theorems speak about the shared
   executable VM model (VM/VmDefs.v, VM/VmExec.v: mirror of runtime.cpp / runtime.h / frame.h /
   ops_generic.cpp / ops_sqfvm.cpp), which checks/C04.py ties to the C++ on every run. *)
From Coq Require Import String Ascii.
From Coq Require Import ZArith List Bool.
Import ListNotations.
From SqfVerif Require Import Gen.DiagCodes VM.VmDefs VM.VmExec VM.C04Defs VM.C04Shape VM.C04Proofs.
Local Open Scope string_scope.
Local Open Scope list_scope.

(* ---- __logmsg: error level or worse raises the flag and records the message; warnings do not *)
Theorem C04_error_raises_flag : forall r d, (fst d <= 1)%Z ->
  r_err (logmsg r d) = true /\ r_msgs (logmsg r d) = r_msgs r ++ [d] /\ r_out (logmsg r d) = ev_of d :: r_out r.
Proof. exact error_raises_flag. Qed.
Print Assumptions C04_error_raises_flag.

Theorem C04_warning_keeps_flag : forall r d, (1 < fst d)%Z ->
  r_err (logmsg r d) = r_err r /\ r_msgs (logmsg r d) = r_msgs r /\ r_out (logmsg r d) = ev_of d :: r_out r.
Proof. exact warning_keeps_flag. Qed.
Print Assumptions C04_warning_keeps_flag.

(* ---- every instruction and every exit behaviour (all modelled operators): the events it logs
   (s, newest first) are appended, and the flag afterwards is up exactly if it was up before or one of
   them is error-level.  Nothing raises the flag silently, nothing lowers it. *)
Theorem C04_instr_flag_iff_error_logged : forall i r c r' c', exec_instr i r c = Ok (r', c') ->
  exists s, r_out r' = s ++ r_out r /\ r_err r' = orb (has_err s) (r_err r).
Proof. intros. eapply exec_instr_ext. eassumption. Qed.
Print Assumptions C04_instr_flag_iff_error_logged.

Theorem C04_behaviour_flag_iff_error_logged : forall fuel r c fr r' c', frame_next fuel r c = Ok (fr, r', c') ->
  exists s, r_out r' = s ++ r_out r /\ r_err r' = orb (has_err s) (r_err r).
Proof. intros. eapply frame_next_ext. eassumption. Qed.
Print Assumptions C04_behaviour_flag_iff_error_logged.

(* ---- one pass of execute_do's loop is exactly one of the eleven cases of `pass` (C04Defs.v; two of them are the round of a
   restarted scope without instructions: deadline test, nothing executed) *)
Theorem C04_do_iter_iff_pass : forall r it, do_iter r = Ok it <-> pass r it.
Proof. intros; split; [apply do_iter_pass|apply pass_do_iter]. Qed.
Print Assumptions C04_do_iter_iff_pass.

(* ---- instr_error_stops: the flag was raised in this pass - by the instruction or by the exit
   behaviour inside frame.next() - and no frame of the active context accepts it (no handler, or all
   decline): this very pass returns runtime_error, the fatal stack-trace diagnostic is logged right
   after the error, the flag is consumed, and execute_do returns - no further instruction runs. *)
Theorem C04_instr_error_stops : forall r c rE cE, ready r c -> raised_in_pass r c rE ->
  cur rE = Some cE -> (forall j g, nth_error (c_frames cE) j = Some g -> declines rE g) ->
  exists rF, do_iter r = Ok (Return RRuntimeError rF) /\
    r_err rF = false /\ r_out rF = ev_of d_Stacktrace :: r_out rE /\
    forall fuel ea, execute_do (S fuel) r (S ea) = Ok (RRuntimeError, rF).
Proof. exact instr_error_stops. Qed.
Print Assumptions C04_instr_error_stops.

(* ---- handler_takes_over_once: frame K accepts and everything above it has no handler or declines
   (K is the nearest taker): the pass goes on, nothing is logged, the frames above K are popped, frame K
   runs its handler code from position 0 with _exception bound (to the messages of the failing
   instruction for except__, when the operand stack is well-formed), its error behaviour is uninstalled,
   flag and messages are consumed. *)
Theorem C04_handler_takes_over_once : forall r c rE cE K f, ready r c -> raised_in_pass r c rE ->
  cur rE = Some cE -> nth_error (c_frames cE) K = Some f -> accepts rE f ->
  (forall j g, j < K -> nth_error (c_frames cE) j = Some g -> declines rE g) ->
  exists rF cF exc, (do_iter r = Ok (Continue rF) \/ do_iter r = Ok (Executed rF)) /\
    r_err rF = false /\ r_msgs rF = [] /\ r_out rF = r_out rE /\
    cur rF = Some cF /\
    c_frames cF = handler_frame f exc :: skipn (S K) (c_frames cE) /\
    f_code (handler_frame f exc) = handler_code f /\ f_pos (handler_frame f exc) = 0 /\
    f_vars (handler_frame f exc) = [("_exception", exc)] /\ f_err (handler_frame f exc) = None /\
    (exc = exception_value f (messages_value (r_msgs rE)) \/ exc = VNil) /\
    (f_base f <= length (c_values cE) -> exc = exception_value f (messages_value (r_msgs rE))).
Proof. exact handler_takes_over_once. Qed.
Print Assumptions C04_handler_takes_over_once.

(* ... once: the taker of an error always has an installed behaviour, and after taking over it has
   none - so a second error inside the handler is not delivered to it again *)
Theorem C04_taker_has_behaviour : forall r r', on_error r = Ok (true, r') ->
  exists c K f, cur r = Some c /\ nth_error (c_frames c) K = Some f /\ f_err f <> None /\
    forall c', cur r' = Some c' -> exists g, nth_error (c_frames c') 0 = Some g /\ f_err g = None /\ f_code g = handler_code f.
Proof.
  intros r r' H. destruct (on_error_handled r r' H) as [_ [_ [_ [c [c' [Hc [Hc' [K [f [exc [Hn [A [_ [Hfr _]]]]]]]]]]]]]].
  exists c, K, f. repeat split; try assumption.
  - unfold accepts in A. destruct (f_err f); [discriminate|contradiction].
  - intros c0 Hc0. rewrite Hc' in Hc0. injection Hc0 as <-. exists (handler_frame f exc). rewrite Hfr. repeat split.
Qed.
Print Assumptions C04_taker_has_behaviour.

Theorem C04_handler_not_reentered : forall f exc rest, find_handler (handler_frame f exc :: rest) 0 <> Some 0.
Proof.
  intros f exc rest H. apply find_handler_some in H. destruct H as [_ [g [Hn [He _]]]].
  cbn in Hn. injection Hn as <-. apply He. reflexivity.
Qed.
Print Assumptions C04_handler_not_reentered.

(* ---- unhandled: exactly the stack trace is logged; handled: nothing is *)
Theorem C04_unhandled_logs_stacktrace : forall r r', on_error r = Ok (false, r') ->
  r_err r' = false /\ r_out r' = ev_of d_Stacktrace :: r_out r /\
  forall c, cur r = Some c -> forall j g, nth_error (c_frames c) j = Some g -> declines r g.
Proof. exact on_error_unhandled. Qed.
Print Assumptions C04_unhandled_logs_stacktrace.

(* ---- try-catch frames decline runtime errors and accept throw *)
Theorem C04_try_catch_declines_runtime_errors : forall r c k f h,
  nth_error (c_frames c) k = Some f -> f_err f = Some (ECatch h) -> r_err r = true ->
  err_enact r c k = Ok (true, r, c).
Proof.
  intros r c k f h Hn E He. apply (proj1 (err_enact_spec r c k f Hn)). eapply catch_frame_declines_runtime_error; eassumption. Qed.
Print Assumptions C04_try_catch_declines_runtime_errors.

Theorem C04_try_catch_only_unhandled : forall r c, cur r = Some c -> r_err r = true ->
  (forall j g, nth_error (c_frames c) j = Some g -> f_err g = None \/ exists h, f_err g = Some (ECatch h)) ->
  exists r', on_error r = Ok (false, r').
Proof.
  intros r c Hc He Hall. apply (all_decline_unhandled r c Hc). intros j g Hg.
  destruct (Hall j g Hg) as [E|[h E]]; unfold declines; rewrite E; [trivial|assumption].
Qed.
Print Assumptions C04_try_catch_only_unhandled.

Theorem C04_try_catch_accepts_throw : forall r c v k f h g,
  find_handler (c_frames c) 0 = Some k -> nth_error (c_frames c) k = Some f -> f_err f = Some (ECatch h) ->
  r_err r = false ->
  nth_error (c_frames c) 0 = Some g -> f_base g <= length (c_values c) ->
  exists c', op_throw r c v = Ok (r, c', VNil) /\
    c_frames c' = handler_frame f v :: skipn (S k) (c_frames c) /\
    f_code (handler_frame f v) = h /\ f_vars (handler_frame f v) = [("_exception", v)] /\
    f_err (handler_frame f v) = None.
Proof. exact try_catch_accepts_throw. Qed.
Print Assumptions C04_try_catch_accepts_throw.

(* ---- flag_cleared_after_handling: the flag is down after every pass, hence after every slice *)
Theorem C04_flag_cleared_after_pass : forall r it, r_err r = false -> do_iter r = Ok it -> r_err (rt_of it) = false.
Proof. exact do_iter_clears_flag. Qed.
Print Assumptions C04_flag_cleared_after_pass.

Theorem C04_flag_cleared_after_execute_do : forall fuel r ea x r', r_err r = false ->
  execute_do fuel r ea = Ok (x, r') -> r_err r' = false.
Proof.
  induction fuel as [|fuel IH]; intros r ea x r' He H; cbn [execute_do] in H; [discriminate|].
  destruct (r_exit_req r). { injection H as _ <-. assumption. }
  destruct ea as [|ea]. { injection H as _ <-. assumption. }
  destruct (do_iter r) as [it| | |] eqn:Ed; cbn [bindr] in H; try discriminate.
  pose proof (do_iter_clears_flag r it He Ed) as Hit.
  destruct it; cbn [rt_of] in Hit.
  - eapply IH; eassumption.
  - eapply IH; eassumption.
  - injection H as _ <-. assumption.
Qed.
Print Assumptions C04_flag_cleared_after_execute_do.

(* ---- an error is never silent: a pass that logged an error-level diagnostic returns
   runtime_error or a handler took over; a pass that returns runtime_error logged the time-limit
   diagnostic or the stack trace directly after this pass's error-level diagnostics *)
Theorem C04_error_never_silent : forall r it, r_err r = false -> pass r it ->
  exists s, r_out (rt_of it) = s ++ r_out r /\
    (forall rF, it = Return RRuntimeError rF ->
       exists s', s = ev_of d_MaximumRuntimeReached :: s' \/ (s = ev_of d_Stacktrace :: s' /\ has_err s' = true)) /\
    (has_err s = true ->
       (exists rF, it = Return RRuntimeError rF) \/
       (exists rE, on_error rE = Ok (true, rt_of it) /\ (it = Continue (rt_of it) \/ it = Executed (rt_of it)))).
Proof. exact pass_events. Qed.
Print Assumptions C04_error_never_silent.

(* ---- no_error_no_failure: a call of execute_do that logged no error-level diagnostic does not
   return runtime_error; one that does is explained by its own events *)
Theorem C04_no_error_no_failure : forall fuel r ea x r', r_err r = false -> execute_do fuel r ea = Ok (x, r') ->
  exists s, r_out r' = s ++ r_out r /\ (has_err s = false -> x <> RRuntimeError).
Proof. exact no_error_no_failure. Qed.
Print Assumptions C04_no_error_no_failure.

Theorem C04_failure_has_cause : forall fuel r ea x r', r_err r = false -> execute_do fuel r ea = Ok (x, r') ->
  exists s, r_out r' = s ++ r_out r /\ r_err r' = false /\ (x = RRuntimeError -> failure_explained s).
Proof. exact execute_do_events. Qed.
Print Assumptions C04_failure_has_cause.

(* ---- error_not_carried: every return of execute (start with its scheduler loop, assembly_step,
   stop, abort) has the flag down and blames only its own events; a run that starts on an empty
   runtime is judged on its own even if the flag had been left up *)
Theorem C04_error_not_carried : forall a r x r', r_err r = false -> execute a r = Ok (x, r') ->
  exists s, r_out r' = s ++ r_out r /\ r_err r' = false /\ (x = RRuntimeError -> failure_explained s).
Proof. exact execute_events. Qed.
Print Assumptions C04_error_not_carried.

Theorem C04_begin_run_resets : forall r, r_state r = StEmpty ->
  r_err (begin_run_if_empty r) = false /\ r_msgs (begin_run_if_empty r) = [] /\ r_out (begin_run_if_empty r) = r_out r.
Proof. intros r H. unfold begin_run_if_empty. rewrite H. cbn. auto. Qed.
Print Assumptions C04_begin_run_resets.

Theorem C04_run_on_empty_judged_alone : forall a r x r', r_state r = StEmpty -> r_run r = false -> a = AStart \/ a = AAssemblyStep ->
  execute a r = Ok (x, r') ->
  exists s, r_out r' = s ++ r_out r /\ r_err r' = false /\ (x = RRuntimeError -> failure_explained s).
Proof. exact execute_on_empty_events. Qed.
Print Assumptions C04_run_on_empty_judged_alone.

(* ---- all sequences of runs on one machine (load, start, the embedder's abort or not): every run
   starts and ends with the flag down; a reported failure is explained by that run's events; a run that
   logged no error-level diagnostic is not reported as failed - whatever earlier runs did *)
Theorem C04_history_runs_judged_alone : forall hs r os r', r_err r = false -> hist r hs = Ok (os, r') ->
  Forall run_judged_alone os /\ r_err r' = false.
Proof.
  induction hs as [|h hs IH]; intros r os r' He H; cbn [hist] in H.
  - injection H as <- <-. auto.
  - destruct (hist_step r h) as [[o r1]| | |] eqn:E; cbn [bindr] in H; try discriminate.
    apply hist_step_inv in E; [|assumption]. destruct E as [J He1].
    destruct (hist r1 hs) as [[os' r2]| | |] eqn:E2; cbn [bindr] in H; try discriminate.
    injection H as <- <-. apply IH in E2; [|assumption]. destruct E2 as [F He2]. split; [constructor; assumption|assumption].
Qed.
Print Assumptions C04_history_runs_judged_alone.

(* ---- sqfvm_call / the CLI after a failed run: the embedder's abort leaves no context behind, so no
   later statement of the failed script can run in a later run, which starts on an empty runtime *)
Theorem C04_failed_run_leaves_no_script : forall r r1 xa r2,
  execute AStart r = Ok (RRuntimeError, r1) -> execute AAbort r1 = Ok (xa, r2) ->
  r_ctxs r2 = [] /\ r_state r2 = StEmpty /\ r_run r2 = false.
Proof.
  intros r r1 xa r2 H Ha. cbn [execute] in H. destruct (r_run r); [discriminate H|].
  destruct (start_loop exec_fuel _ RInvalid) as [[x ra]| | |]; cbn [bindr] in H; try discriminate H.
  injection H as -> <-. destruct (finish_action_fields RRuntimeError ra) as [Hrun [_ [_ [_ [A B]]]]].
  cbn [execute] in Ha. destruct (r_exit_req ra).
  - (* everything was discarded already: the abort is refused *)
    destruct (A eq_refl) as [Hs [Hc _]]. rewrite Hs in Ha. injection Ha as _ <-. auto.
  - destruct (B eq_refl) as [Hs _]. rewrite Hs, Hrun in Ha. injection Ha as _ <-. cbn. auto.
Qed.
Print Assumptions C04_failed_run_leaves_no_script.

(* ================================================================== non-vacuity *)
Definition P (b:list stmt) : code := compile_block b.
Definition fresh : rt := create_rt [] 0 0 10000 150.
Fixpoint steps (n:nat) (r:rt) : rt :=
  match n with O => r | S n' => match execute AAssemblyStep r with Ok (_, r') => steps n' r' | _ => r end end.
Definition ctx_of (r:rt) : context := match cur r with Some c => c | None => new_context 0 false end.

(* the hypotheses are decided by evaluation (C04Proofs.raises, C04Proofs.restarted_round): the witnesses are not written out *)
Definition fault : stmt := SExpr (EBinary "select" (EArr [ENum 1; ENum 2]) (ENum 9)).
Definition mk (n:Z) : stmt := SExpr (EUnary "diag_log" (ENum n)).

(* [1,2] select 9; diag_log 1  - the machine just before the select instruction (4 instructions done) *)
Definition ex_r : rt := entry_state (steps 4 (load fresh (P [fault; mk 1]))).
Example ex_instr_error_stops : exists r c rE cE, ready r c /\ raised_in_pass r c rE /\ cur rE = Some cE /\
  (forall j g, nth_error (c_frames cE) j = Some g -> declines rE g).
Proof.
  exists ex_r. apply (raises_ok false). vm_compute. reflexivity.
Qed.
Example ex_instr_error_run : run_final (load fresh (P [fault; mk 1])) = "2:3:1:60009,0:60001,".
Proof. vm_compute. reflexivity. Qed.

(* {5} count [1]  as the LAST statement: the error is raised by the exit behaviour inside frame.next() *)
Definition behaviour_fault : stmt := SExpr (EBinary "count" (ECode [SExpr (ENum 5)]) (EArr [ENum 1])).
Definition ex_rb : rt := entry_state (steps 8 (load fresh (P [mk 1; behaviour_fault]))).
Example ex_behaviour_error_stops : exists r c rE cE, ready r c /\ raised_in_pass r c rE /\ cur rE = Some cE /\
  (forall j g, nth_error (c_frames cE) j = Some g -> declines rE g).
Proof.
  exists ex_rb. apply (raises_ok false). vm_compute. reflexivity.
Qed.
Example ex_behaviour_error_run : run_final (load fresh (P [mk 1; behaviour_fault])) = "2:3:3:60019,M<1>,1:60068,0:60001,".
Proof. vm_compute. reflexivity. Qed.

(* { [1,2] select 9; diag_log 1 } except__ { diag_log 2 }; diag_log 3 *)
Definition guarded : stmt := SExpr (EBinary "except__" (ECode [fault; mk 1]) (ECode [mk 2])).
Definition ex_rh : rt := entry_state (steps 7 (load fresh (P [guarded; mk 3]))).
Example ex_handler_takes_over : exists r c rE cE K f, ready r c /\ raised_in_pass r c rE /\ cur rE = Some cE /\
  nth_error (c_frames cE) K = Some f /\ accepts rE f /\
  (forall j g, j < K -> nth_error (c_frames cE) j = Some g -> declines rE g) /\ f_base f <= length (c_values cE).
Proof.
  assert (W : raises true ex_rh = true) by (vm_compute; reflexivity).
  apply raises_ok in W. destruct W as [c [rE [cE [Hr [Hraise [Hc [f [Hf [Ha Hb]]]]]]]]].
  exists ex_rh, c, rE, cE, 0, f. split; [exact Hr|]. split; [exact Hraise|]. split; [exact Hc|]. split; [exact Hf|].
  split; [exact Ha|]. split; [|exact Hb]. intros j g Hj. inversion Hj.
Qed.
Example ex_handler_run : run_final (load fresh (P [guarded; mk 3])) = "-1:0:1:60009,3:60019,M<2>,3:60019,M<3>,3:60095,M<VALUE nil>,".
Proof. vm_compute. reflexivity. Qed.

(* try { [1,2] select 9; diag_log 1 } catch { diag_log 2 }; diag_log 3 : declined, the run fails *)
Definition tried : stmt := SExpr (EBinary "catch" (EUnary "try" (ECode [fault; mk 1])) (ECode [mk 2])).
Example ex_try_declines_run : run_final (load fresh (P [tried; mk 3])) = "2:3:1:60009,0:60001,".
Proof. vm_compute. reflexivity. Qed.
(* try { throw 7; diag_log 1 } catch { diag_log _exception }; diag_log 3 *)
Definition thrown : stmt :=
  SExpr (EBinary "catch" (EUnary "try" (ECode [SExpr (EUnary "throw" (ENum 7)); mk 1])) (ECode [SExpr (EUnary "diag_log" (EVar "_exception"))])).
Example ex_throw_caught_run : run_final (load fresh (P [thrown; mk 3])) = "-1:0:3:60019,M<7>,3:60019,M<3>,3:60095,M<VALUE nil>,".
Proof. vm_compute. reflexivity. Qed.

(* a history: a run that ends with a behaviour error, then a clean run on the same machine *)
Definition ex_hist : list hrun :=
  [ {| h_code := P [mk 1; behaviour_fault]; h_mode := HAbortOnFailure |};
    {| h_code := P [mk 2]; h_mode := HAbortOnFailure |} ].
Example ex_history : hist_trace fresh ex_hist [] = ["2:3:3:60019,M<1>,1:60068,0:60001,:0:0"; "-1:0:3:60019,M<2>,3:60095,M<VALUE nil>,"].
Proof. vm_compute. reflexivity. Qed.
Example ex_history_ok : exists os r', hist fresh ex_hist = Ok (os, r') /\ length os = 2.
Proof.
  (* the length is computed from the result as a whole: the observations themselves are not evaluated into the proof *)
  assert (L : match hist fresh ex_hist with Ok (os, _) => length os | _ => 0 end = 2) by (vm_compute; reflexivity).
  destruct (hist fresh ex_hist) as [[os r']| | |]; try discriminate L. exists os, r'. auto.
Qed.

(* {} forEach [1,2,3] : the exit behaviour restarts a scope that has no instructions - frame.next() reports
   `restarted`, the pass executes nothing (cases PRestarted / PRestartExpired of `pass`) *)
Definition spin : stmt := SExpr (EBinary "foreach" (ECode []) (EArr [ENum 1; ENum 2; ENum 3])).
Definition ex_rr : rt := entry_state (steps 6 (load fresh (P [spin]))).
Example ex_restarted_round : exists r1 c1 r2, pass ex_rr (Executed (upd_cur r2 c1)) /\
  frame_next frame_fuel ex_rr (ctx_of ex_rr) = Ok (FRestarted, r1, c1) /\ deadline_test r1 = (false, r2).
Proof.
  assert (W : restarted_round false ex_rr = true) by (vm_compute; reflexivity).
  apply restarted_round_ok in W. destruct W as [c [r1 [c1 [r2 [Hc [Hr [En [Ee Ed]]]]]]]].
  assert (C : ctx_of ex_rr = c) by (unfold ctx_of; rewrite Hc; reflexivity). rewrite C.
  exists r1, c1, r2. split; [exact (PRestarted ex_rr c r1 c1 r2 Hr En Ee Ed)|auto].
Qed.
Example ex_restarted_run : run_final (load fresh (P [spin])) = "-1:0:3:60095,M<VALUE nil>,".
Proof. vm_compute. reflexivity. Qed.
(* the same with a time limit of 6 ticks: the limit is reached in the restarted round, the run fails with
   the time-limit diagnostic *)
Definition limited : rt := create_rt [] 6 1 10000 150.
Definition ex_rx : rt := entry_state (steps 6 (load limited (P [spin]))).
Example ex_restarted_round_expired : exists r1 c1 r2, pass ex_rx (Return RRuntimeError (expired_machine r2 c1)) /\
  frame_next frame_fuel ex_rx (ctx_of ex_rx) = Ok (FRestarted, r1, c1) /\ deadline_test r1 = (true, r2).
Proof.
  assert (W : restarted_round true ex_rx = true) by (vm_compute; reflexivity).
  apply restarted_round_ok in W. destruct W as [c [r1 [c1 [r2 [Hc [Hr [En [Ee Ed]]]]]]]].
  assert (C : ctx_of ex_rx = c) by (unfold ctx_of; rewrite Hc; reflexivity). rewrite C.
  exists r1, c1, r2. split; [exact (PRestartExpired ex_rx c r1 c1 r2 Hr En Ee Ed)|auto].
Qed.
Example ex_restarted_expired_run : run_final (load limited (P [spin])) = "2:0:0:60002,".
Proof. vm_compute. reflexivity. Qed.

(* C11 - Execution bounds hold: max runtime per run, loop cap in unscheduled code.
   The longer proofs live in VM/C11Proofs.v (and VM/Sched*.v). The model is VM/VmDefs.v + VM/VmExec.v with the
   scheduler extension VM/SchedDefs.v; it is tied to src/runtime/runtime.cpp, frame.h and ops_generic.cpp by the
   correspondence runs of checks/C11.py (virtual clock).
   Switch names: the machine's defect list may carry "empty_restart_skips_deadline" and
   "idle_scheduler_skips_deadline" (SchedDefs.sw_restart / sw_idle: the code before repo commit f22674f) and
   "while_empty_body_uncapped" (before d879b80); a switch that is ON describes the code before the repair. The shared
   model (VmDefs/VmExec) is SchedDefs with the first two switches off; the positive theorems are for the switches off,
   the switch-on settings only carry the `_refuted` witnesses. *)
From Coq Require Import String ZArith List Bool Lia Arith.
Import ListNotations.
Set Warnings "-abstract-large-number".
From SqfVerif Require Import Gen.DiagCodes Gen.Consts VM.VmDefs VM.VmExec VM.SchedDefs VM.SchedOps VM.SchedBase VM.SchedIter VM.SchedEquiv VM.C11Proofs.
Local Open Scope list_scope.

(* ------------------------------------------------------------------ the extension is the shared model *)
(* With both switches off, SchedDefs.execute2 is VmExec.execute (ghost counters and visit logs erased): the
   theorems below, stated on execute_sw / do_iter2 / frame_next2 with the switches off, are theorems about the
   shared model. *)
Theorem C11_extension_is_shared_model : forall a r,
  defect r sw_restart = false -> defect r sw_idle = false ->
  map_res (fun '(x, r, _) => (x, r)) (execute2 a r) = execute a r.
Proof. exact extension_is_shared_model. Qed.
Print Assumptions C11_extension_is_shared_model.
Theorem C11_do_iter_is_shared : forall r, map_res erase_iter (do_iter2 false r) = do_iter r.
Proof. exact do_iter2_shared. Qed.
Print Assumptions C11_do_iter_is_shared.

(* ------------------------------------------------------------------ the time limit *)
(* deadline_fires: one iteration of the execute_do loop (any switch setting). The executing script has an
   instruction due (or an empty loop body went round), a limit is configured and the clock value read exceeds
   run start + limit: the iteration returns runtime_error, MaximumRuntimeReached (fatal, 60002) is the newest log
   entry, exit is requested, no error state is left behind. *)
Theorem C11_deadline_fires : forall b r i c fr r1 c1 ins,
  r_exit_req r = false -> r_active r = Some i -> nth_error (r_ctxs r) i = Some c ->
  c_suspended c = false -> c_frames c <> [] -> r_state r = StRunning ->
  frame_next2 b frame_fuel r c = Ok (fr, r1, c1) -> r_err r1 = false ->
  (fr = F2Restarted \/ (fr = F2Ok /\ current_instr c1 = Some ins)) ->
  r_max_runtime r <> 0%Z -> (r_max_runtime r + r_run_ts r < r_clock r1 + r_tick r)%Z ->
  exists r', do_iter2 b r = Ok (Return2 RRuntimeError r') /\
    r_exit_req r' = true /\ r_err r' = false /\ r_msgs r' = [] /\
    hd_error (r_out r') = Some (EDiag (fst d_MaximumRuntimeReached) (snd d_MaximumRuntimeReached)).
Proof. exact deadline_fires. Qed.
Print Assumptions C11_deadline_fires.

(* Every unit of work is preceded by that test: if an iteration executed an instruction or went round an empty
   loop body, the clock value read just before was within the limit (and the clock moved by at least one tick). *)
Theorem C11_no_work_after_the_limit : forall b r r' i c,
  do_iter2 b r = Ok (Executed2 r') \/ do_iter2 b r = Ok (Restarted2 r') ->
  r_active r = Some i -> nth_error (r_ctxs r) i = Some c ->
  r_max_runtime r <> 0%Z -> (0 <= r_tick r)%Z ->
  (r_clock r + r_tick r <= r_max_runtime r + r_run_ts r)%Z /\ (r_clock r + r_tick r <= r_clock r')%Z.
Proof.
  intros b r r' i c H Ha Hc Hm Ht.
  assert (P : passed_test r r').
  { destruct H as [H|H]; apply (do_iter2_spec _ _ _ _ _ H Ha) in Hc; inversion Hc; auto. }
  destruct (passed_test_time _ _ P Hm Ht) as (t & T1 & T2 & T3). lia.
Qed.
Print Assumptions C11_no_work_after_the_limit.

(* A run (action start, any switch setting) that was cut by the time limit is reported as failed, the diagnostic is
   in the log, and the VM is left empty: no contexts, no active context, state empty, not running. *)
Theorem C11_run_cut_by_limit : forall b1 b2 r x r' ps,
  execute_sw b1 b2 AStart r = Ok (x, r', ps) -> r_run r = false -> r_exit_req r' = true ->
  x = RRuntimeError /\ r_ctxs r' = [] /\ r_active r' = None /\ r_state r' = StEmpty /\ r_run r' = false /\
  In (EDiag (fst d_MaximumRuntimeReached) (snd d_MaximumRuntimeReached)) (r_out r').
Proof. exact run_cut_by_limit. Qed.
Print Assumptions C11_run_cut_by_limit.

(* "Whatever the scripts do" (repaired scheduler): the units of work of a run - executed instructions, rounds of
   empty loop bodies, visits of sleeping scripts - each start with a passed test and take at least one tick. A run
   that starts on an empty VM with limit m and a clock advancing by tick > 0 per query performs at most m / tick
   of them; the next test fails and the run is cut (C11_deadline_fires, C11_run_cut_by_limit). *)
Theorem C11_run_work_bounded : forall b1 r x r' ps,
  execute_sw b1 false AStart r = Ok (x, r', ps) -> r_run r = false -> r_state r = StEmpty ->
  (0 < r_max_runtime r)%Z -> (0 < r_tick r)%Z ->
  (Z.of_nat (total_units ps) * r_tick r <= r_max_runtime r)%Z.
Proof.
  intros b1 r x r' ps H Hr St Hm0 Ht. assert (Hm : r_max_runtime r <> 0%Z) by lia.
  destruct (run_work_bounded _ _ _ _ _ H Hr Hm Ht) as [->|B]; [cbn; lia|].
  destruct (deadline_measured_from_run_start r St) as (A1 & A2 & _). rewrite A1, A2 in B. lia.
Qed.
Print Assumptions C11_run_work_bounded.

(* the same for a run that continues on a halted VM: measured from that run's start *)
Theorem C11_run_work_bounded_general : forall b1 r x r' ps,
  execute_sw b1 false AStart r = Ok (x, r', ps) -> r_run r = false ->
  r_max_runtime r <> 0%Z -> (0 < r_tick r)%Z ->
  let r0 := begin_run_if_empty (set_run r true) in
  total_units ps = 0 \/ (r_clock r0 + Z.of_nat (total_units ps) * r_tick r <= r_max_runtime r + r_run_ts r0)%Z.
Proof. exact run_work_bounded. Qed.
Print Assumptions C11_run_work_bounded_general.

(* deadline_measured_from_run_start: the first executing action on an empty VM takes the start of the run from
   the clock at that moment - whatever m_runtime_timestamp (the age of the VM) is - ... *)
Theorem C11_deadline_measured_from_run_start : forall r,
  r_state r = StEmpty ->
  let r0 := begin_run_if_empty (set_run r true) in
  r_run_ts r0 = (r_clock r + r_tick r)%Z /\ r_clock r0 = (r_clock r + r_tick r)%Z /\
  (forall ts, r_run_ts (begin_run_if_empty (set_run (set_timestamp r ts) true)) = r_run_ts r0).
Proof. exact deadline_measured_from_run_start. Qed.
Print Assumptions C11_deadline_measured_from_run_start.

(* ... it does not change while the run executes ... *)
Theorem C11_run_start_is_constant : forall b1 b2 r x r' ps,
  execute_sw b1 b2 AStart r = Ok (x, r', ps) -> r_run r = false ->
  r_run_ts r' = r_run_ts (begin_run_if_empty (set_run r true)).
Proof. exact run_ts_constant. Qed.
Print Assumptions C11_run_start_is_constant.

(* ... and the verdict of the test depends on the limit, the start of the run and the clock only. *)
Theorem C11_deadline_test_footprint : forall r r',
  r_max_runtime r = r_max_runtime r' -> r_run_ts r = r_run_ts r' -> r_clock r = r_clock r' -> r_tick r = r_tick r' ->
  fst (deadline_test r) = fst (deadline_test r').
Proof.
  intros r r' A B C D. rewrite !deadline_test_spec, A, B, C, D. destruct (Z.eqb _ _); reflexivity.
Qed.
Print Assumptions C11_deadline_test_footprint.
Theorem C11_test_within_limit_passes : forall r0 r, r_run_ts r = r_clock r0 -> r_max_runtime r <> 0%Z ->
  (r_clock r + r_tick r <= r_clock r0 + r_max_runtime r)%Z -> fst (deadline_test r) = false.
Proof.
  intros r0 r A B C. apply deadline_test_passes. lia.
Qed.
Print Assumptions C11_test_within_limit_passes.

(* ------------------------------------------------------------------ the code before the repair (switches on) *)
Definition prog_for_step0 : list stmt :=
  [SExpr (EBinary "do" (EBinary "step" (EBinary "to" (EBinary "from" (EUnary "for" (EStr "_i")) (ENum 0)) (ENum 1)) (ENum 0)) (ECode []))].
Definition prog_spawn_sleep : list stmt :=
  [SExpr (EBinary "spawn" (ENum 0) (ECode [SExpr (EUnary "sleep" (ENum 1))]))].
Definition machine (defects:list string) (max_us tick_us:Z) (max_loop:nat) (p:list stmt) : rt :=
  load (create_rt defects max_us tick_us max_loop slice_length) (compile_block p).

(* frame::next restarted an empty loop body by itself: `for "_i" from 0 to 1 step 0 do {}` never comes back to
   execute_do, so no limit can stop it *)
Theorem C11_empty_restart_skips_deadline_refuted :
  execute2 AStart (machine [sw_restart] 1000 1 10000 prog_for_step0) = Hang "frame::next does not return".
Proof.
  (* the first slice executes the ten instructions of the statement; `do` has pushed a frame that spins *)
  unfold execute2. eapply first_slice_hangs; [reflexivity|reflexivity|reflexivity|reflexivity|].
  eapply (execute_do2_hangs _ _ 10).
  - vm_compute. reflexivity.
  - reflexivity.
  - eapply do_iter2_spins; [reflexivity|reflexivity|reflexivity|reflexivity|].
    do 5 eexists. repeat split; try reflexivity. discriminate.
  - apply Nat.ltb_lt. vm_compute. reflexivity.
  - apply Nat.ltb_lt. reflexivity.
Qed.
Print Assumptions C11_empty_restart_skips_deadline_refuted.

(* the scheduler did not look at the limit while every script sleeps: limit 0.1 s, `0 spawn { sleep 1 }`: the run
   ends only after the wake-up, far beyond the limit *)
Theorem C11_idle_scheduler_skips_deadline_refuted :
  exists x r' ps, execute2 AStart (machine [sw_idle] 100000 10000 10000 prog_spawn_sleep) = Ok (x, r', ps) /\
    (r_run_ts r' + r_max_runtime r' + 50 * r_tick r' < r_clock r')%Z.
Proof.
  assert (T : match execute2 AStart (machine [sw_idle] 100000 10000 10000 prog_spawn_sleep) with
              | Ok (_, r', _) => (r_run_ts r' + r_max_runtime r' + 50 * r_tick r' <? r_clock r')%Z
              | _ => false end = true) by (vm_compute; reflexivity).
  destruct (execute2 AStart (machine [sw_idle] 100000 10000 10000 prog_spawn_sleep)) as [[[x r'] ps]| | |]; try discriminate.
  exists x, r', ps. split; [reflexivity|apply Z.ltb_lt; exact T].
Qed.
Print Assumptions C11_idle_scheduler_skips_deadline_refuted.

(* repaired: both runs are cut at the first test after the limit, reported, and the VM is empty *)
Example ex_for_step0_repaired :
  match execute2 AStart (machine [] 1000 1 10000 prog_for_step0) with
  | Ok (x, r', _) => x = RRuntimeError /\ r_ctxs r' = [] /\ r_state r' = StEmpty /\
                     (r_clock r' <= r_run_ts r' + r_max_runtime r' + 2 * r_tick r')%Z /\
                     hd_error (r_out r') = Some (EDiag 0 60002)
  | _ => False end.
Proof. vm_compute. repeat split; discriminate. Qed.
Example ex_spawn_sleep_repaired :
  match execute2 AStart (machine [] 100000 10000 10000 prog_spawn_sleep) with
  | Ok (x, r', _) => x = RRuntimeError /\ r_ctxs r' = [] /\ r_state r' = StEmpty /\
                     (r_clock r' <= r_run_ts r' + r_max_runtime r' + 2 * r_tick r')%Z /\
                     hd_error (r_out r') = Some (EDiag 0 60002)
  | _ => False end.
Proof. vm_compute. repeat split; discriminate. Qed.

(* a VM that is much older than its limit still executes a later run normally (limit 1000, the VM is 100000 old) *)
Definition prog_two_marks : list stmt := [SExpr (EUnary "diag_log" (ENum 1)); SExpr (EUnary "diag_log" (ENum 2))].
Example ex_old_vm_runs :
  let m := load (set_clock (create_rt [] 1000 1 10000 slice_length) 100000) (compile_block prog_two_marks) in
  match execute2 AStart m with
  | Ok (x, r', _) => x = REmpty /\ r_state r' = StEmpty /\
                     rev (r_out r') = [EDiag 3 60019; EMark "1"; EDiag 3 60019; EMark "2"; EDiag 3 60095; EMark "VALUE nil"]
  | _ => False end.
Proof. vm_compute. repeat split. Qed.

(* ------------------------------------------------------------------ the iteration cap of while *)
(* while_cap: in unscheduled code, with cap mx > 0, a while loop - whatever its condition and body do to the
   machine between the calls of its behaviour, including an empty body - begins at most mx iterations.
   wsteps: any history of calls of the loop's behaviour that let the loop go on. *)
Theorem C11_while_cap : forall mx cond body l b2,
  0 < mx -> wsteps false mx (BWhile 0 WCond cond body) l b2 -> iterations l <= mx.
Proof. exact while_cap. Qed.
Print Assumptions C11_while_cap.

Lemma default_max_loop_pos : 0 < default_max_loop.
Proof. apply Nat.ltb_lt. vm_compute. reflexivity. Qed.
(* ... with the default of runtime_conf (Gen.Consts, read from runtime.h) *)
Theorem C11_while_cap_default : forall cond body l b2,
  wsteps false default_max_loop (BWhile 0 WCond cond body) l b2 -> iterations l <= default_max_loop.
Proof. intros. eapply while_cap; eauto. exact default_max_loop_pos. Qed.
Print Assumptions C11_while_cap_default.

(* the invariant behind it: the counter goes up by one with every completed iteration - at the end of the body,
   or when the condition held and there is no body - and the call that lifts it to the cap ends the loop *)
Theorem C11_while_counter_reaches_cap : forall loops m cond body r c br b1 r' c',
  enact (BWhile loops m cond body) r c = Ok (br, b1, r', c') ->
  defect r sw_while = false -> c_can_suspend c = false -> 0 < r_max_loop r ->
  (m = WCode \/ (m = WCond /\ body = [] /\ exists cx, pop_value c = Some (VBool true, cx))) ->
  exists m', b1 = BWhile (S loops) m' cond body /\ (r_max_loop r <= S loops -> br = BrOk).
Proof.
  intros loops m cond body r c br b1 r' c' H D Cs Mx Case. cbn [enact] in H. unfold sw_while in D.
  destruct Case as [->|(-> & -> & cx & P)].
  - rewrite Cs in H. cbn [negb andb] in H. destruct (Nat.ltb_spec 0 (r_max_loop r)); [|lia]. cbn [andb] in H.
    destruct (Nat.leb_spec (r_max_loop r) (S loops)); inversion H; subst; eexists; split; eauto; intro; lia.
  - rewrite P, D, Cs in H. cbn [negb andb] in H. destruct (Nat.ltb_spec 0 (r_max_loop r)); [|lia]. cbn [andb] in H.
    destruct (Nat.leb_spec (r_max_loop r) (S loops)); inversion H; subst; eexists; split; eauto; intro; lia.
Qed.
Print Assumptions C11_while_counter_reaches_cap.

(* the code before commit d879b80 (switch on): with an empty body the counter never moved - any number of
   iterations although the cap is 1 *)
Theorem C11_while_empty_body_uncapped_refuted :
  forall k, exists l b2, wsteps true 1 (BWhile 0 WCond [IPush (VBool true)] []) l b2 /\ iterations l = k.
Proof.
  intro k. exists (repeat (BWhile 0 WCond [IPush (VBool true)] []) k), (BWhile 0 WCond [IPush (VBool true)] []).
  split.
  - induction k; cbn [repeat]; [constructor|].
    eapply (ws_cons true 1 _ refute_rt refute_ctx); try reflexivity; [|exact IHk]. discriminate.
  - unfold iterations. induction k; cbn in *; auto.
Qed.
Print Assumptions C11_while_empty_body_uncapped_refuted.

(* non-vacuity on whole programs: `private _i = 0; while { _i = _i + 1; _i < 10 } do {}; diag_log _i` with cap 2:
   repaired prints 2, the old code printed 10; with a body the cap always held *)
Definition prog_while (body:list stmt) : list stmt :=
  [SLocal "_i" (ENum 0);
   SExpr (EBinary "do" (EUnary "while" (ECode [SAssign "_i" (EBinary "+" (EVar "_i") (ENum 1)); SExpr (EBinary "<" (EVar "_i") (ENum 10))])) (ECode body));
   SExpr (EUnary "diag_log" (EVar "_i"))].
Example ex_while_empty_capped : run_final (machine [] 0 0 2 (prog_while [])) = "-1:0:3:60019,M<2>,3:60095,M<VALUE nil>,"%string.
Proof. vm_compute. reflexivity. Qed.
Example ex_while_empty_old : run_final (machine [sw_while] 0 0 2 (prog_while [])) = "-1:0:3:60019,M<10>,3:60095,M<VALUE nil>,"%string.
Proof. vm_compute. reflexivity. Qed.
Example ex_while_body_capped : run_final (machine [] 0 0 2 (prog_while [SExpr (ENum 7)])) = "-1:0:3:60019,M<2>,3:60095,M<VALUE nil>,"%string.
Proof. vm_compute. reflexivity. Qed.

(* the model's waitUntil cap is the one in ops_generic.cpp (Gen.Consts) *)
Example ex_waituntil_cap : waituntil_cap = waituntil_cap_src.
Proof. vm_compute. reflexivity. Qed.

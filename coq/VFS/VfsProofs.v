(* Lemmas about the VFS model (VFS/VfsDefs.v); the theorems of Properties_C16.v rest on them. *)
From Coq Require Import ZArith List Bool Lia.
Import ListNotations.
From SqfVerif Require Import VFS.VfsDefs.
Local Open Scope Z_scope.

Lemma eqs_eq : forall a b, eqs a b = true <-> a = b.
Proof.
  induction a as [|x a IH]; destruct b as [|y b]; cbn; try (split; intro; (reflexivity || discriminate)).
  rewrite andb_true_iff, Z.eqb_eq, IH. split; [intros [-> ->]; reflexivity|intros E; inversion E; auto].
Qed.

Lemma seqs_eq : forall a b, seqs a b = true <-> a = b.
Proof.
  induction a as [|x a IH]; destruct b as [|y b]; cbn; try (split; intro; (reflexivity || discriminate)).
  rewrite andb_true_iff, eqs_eq, IH. split; [intros [-> ->]; reflexivity|intros E; inversion E; auto].
Qed.

Lemma eqs_refl : forall a, eqs a a = true.
Proof. intros a. apply eqs_eq. reflexivity. Qed.

Lemma eqs_neq : forall a b, eqs a b = false <-> a <> b.
Proof. intros a b. rewrite <- eqs_eq. symmetry. apply not_true_iff_false. Qed.

Lemma eqs_sym : forall a b, eqs a b = eqs b a.
Proof.
  intros a b. destruct (eqs a b) eqn:E; symmetry.
  - apply eqs_eq in E. subst. apply eqs_refl.
  - apply eqs_neq. apply eqs_neq in E. congruence.
Qed.

Definition nosl (s : list Z) : Prop := ~ In SL s.

Lemma split_on_nonnil : forall c s, split_on c s <> [].
Proof.
  intros c s. induction s as [|x r IH]; cbn; [discriminate|].
  destruct (x =? c); [discriminate|]. destruct (split_on c r); [contradiction|discriminate].
Qed.

Lemma split_on_nosep : forall c s, Forall (fun p => ~ In c p) (split_on c s).
Proof.
  intros c s. induction s as [|x r IH]; cbn.
  - constructor; [intros []|constructor].
  - destruct (x =? c) eqn:E; [constructor; [intros []|exact IH]|].
    apply Z.eqb_neq in E. destruct (split_on c r) as [|q qs].
    + constructor; [intros [H|[]]; congruence|constructor].
    + inversion IH; subst. constructor; [intros [H|H]; [congruence|contradiction]|assumption].
Qed.

Lemma gsplit_nosl : forall s, Forall nosl (gsplit s).
Proof.
  intros s. pose proof (split_on_nosep SL s) as H. unfold gsplit.
  destruct (rev (split_on SL s)) as [|[|] r] eqn:E; try exact H.
  apply Forall_rev in H. rewrite E in H. inversion H; subst. apply Forall_rev. assumption.
Qed.

Lemma segs_of_nonnil : forall s, Forall (fun x => x <> []) (segs_of s).
Proof.
  intros s. apply Forall_forall. intros x Hx. apply filter_In in Hx. destruct x; [destruct Hx; discriminate|discriminate].
Qed.

Lemma segs_of_nosl : forall s, Forall nosl (segs_of s).
Proof.
  intros s. apply Forall_forall. intros x Hx. apply filter_In in Hx.
  exact (proj1 (Forall_forall _ _) (gsplit_nosl s) x (proj1 Hx)).
Qed.

Lemma vfull_of_cons : forall s L, vfull_of (s :: L) = SL :: s ++ vfull_of L.
Proof. reflexivity. Qed.

Lemma vfull_of_app : forall a b, vfull_of (a ++ b) = vfull_of a ++ vfull_of b.
Proof. intros a b. unfold vfull_of. rewrite map_app, concat_app. reflexivity. Qed.

Lemma split_on_single : forall c s, ~ In c s -> split_on c s = [s].
Proof.
  intros c s. induction s as [|x r IH]; cbn; intro H; [reflexivity|].
  destruct (x =? c) eqn:E; [apply Z.eqb_eq in E; tauto|]. rewrite IH by tauto. reflexivity.
Qed.

Lemma split_on_app : forall c s t, ~ In c s -> split_on c (s ++ c :: t) = s :: split_on c t.
Proof.
  intros c s t. induction s as [|x r IH]; cbn; intro H; [rewrite Z.eqb_refl; reflexivity|].
  destruct (x =? c) eqn:E; [apply Z.eqb_eq in E; tauto|]. rewrite IH by tauto. reflexivity.
Qed.

Lemma split_vfull : forall L s, nosl s -> Forall nosl L -> split_on SL (s ++ vfull_of L) = s :: L.
Proof.
  induction L as [|s' L IH]; intros s Hs HL.
  - cbn. rewrite app_nil_r. apply split_on_single, Hs.
  - inversion HL; subst. rewrite vfull_of_cons, split_on_app by exact Hs. f_equal. apply IH; assumption.
Qed.

(* the rebuilt request "/a/b" splits into an empty piece and its segments: the last piece is not
   empty, so getline drops nothing *)
Lemma gsplit_vfull : forall L, Forall (fun x => x <> []) L -> Forall nosl L ->
  gsplit (vfull_of L) = match L with [] => [] | _ => [] :: L end.
Proof.
  intros L Hn Hs. destruct L as [|s L]; [reflexivity|].
  inversion Hs; subst. unfold gsplit. rewrite vfull_of_cons. cbn [split_on]. rewrite Z.eqb_refl, split_vfull by assumption.
  destruct (exists_last (l := s :: L)) as (L0 & x & E); [discriminate|]. rewrite E in *.
  apply Forall_elt in Hn. rewrite app_comm_cons, rev_app_distr. destruct x; [contradiction|reflexivity].
Qed.

Lemma segs_of_vfull : forall L, Forall (fun x => x <> []) L -> Forall nosl L -> segs_of (vfull_of L) = L.
Proof.
  intros L Hn Hs. unfold segs_of. rewrite gsplit_vfull by assumption.
  assert (Hf : filter nonempty L = L).
  { clear Hs. induction Hn as [|s L Hs _ IH]; [reflexivity|]. cbn. destruct s; [contradiction|]. cbn. rewrite IH. reflexivity. }
  destruct L; [reflexivity|exact Hf].
Qed.

Lemma ddnorm_go_Forall : forall (P : list Z -> Prop) segs acc,
  Forall P segs -> Forall P acc -> Forall P (ddnorm_go segs acc).
Proof.
  intros P. induction segs as [|s r IH]; cbn; intros acc Hs Ha; [apply Forall_rev, Ha|].
  inversion Hs; subst.
  destruct (eqs s dotdot); [destruct acc as [|a acc']; [|destruct (eqs a dotdot)]|]; apply IH; auto.
  inversion Ha; assumption.
Qed.

Lemma ddnorm_Forall : forall (P : list Z -> Prop) l, Forall P l -> Forall P (ddnorm l).
Proof. intros P l H. apply ddnorm_go_Forall; [exact H|constructor]. Qed.

(* dir-ups pile up at the bottom of the stack only: what ddnorm yields starts with one or has none *)
Lemma ddnorm_go_dd : forall segs acc,
  starts_dd (rev acc) = true \/ Forall (fun s => s <> dotdot) acc ->
  starts_dd (ddnorm_go segs acc) = true \/ Forall (fun s => s <> dotdot) (ddnorm_go segs acc).
Proof.
  induction segs as [|s r IH]; cbn; intros acc H.
  - destruct H as [H|H]; [left; exact H|right; apply Forall_rev, H].
  - assert (Hpush : starts_dd (rev acc) = true -> starts_dd (rev (s :: acc)) = true).
    { cbn. destruct (rev acc); [discriminate|auto]. }
    destruct (eqs s dotdot) eqn:E.
    + destruct acc as [|a acc']; [apply IH; left; exact E|].
      destruct (eqs a dotdot) eqn:Ea; apply IH.
      * left. apply Hpush. destruct H as [H|H]; [exact H|]. inversion H; subst. apply eqs_eq in Ea. contradiction.
      * destruct H as [H|H]; [left|right; inversion H; assumption].
        cbn in H. destruct (rev acc'); [cbn in H; congruence|exact H].
    + apply IH. destruct H as [H|H]; [left; apply Hpush, H|right]. constructor; [apply eqs_neq, E|exact H].
Qed.

Lemma nodd_of_start : forall l, starts_dd (ddnorm l) = false -> Forall (fun s => s <> dotdot) (ddnorm l).
Proof.
  intros l H. destruct (ddnorm_go_dd l [] (or_intror (Forall_nil _))) as [H'|H']; [unfold ddnorm in H; congruence|exact H'].
Qed.

Lemma ddnorm_go_plain : forall l acc, Forall (fun s => s <> dotdot) l -> ddnorm_go l acc = rev acc ++ l.
Proof.
  induction l as [|s r IH]; intros acc H; cbn; [rewrite app_nil_r; reflexivity|].
  inversion H; subst. assert (E : eqs s dotdot = false) by (apply eqs_neq; assumption).
  rewrite E, IH by assumption. cbn. rewrite <- app_assoc. reflexivity.
Qed.

Lemma ddnorm_plain : forall l, Forall (fun s => s <> dotdot) l -> ddnorm l = l.
Proof. intros l H. unfold ddnorm. rewrite ddnorm_go_plain by assumption. reflexivity. Qed.

Lemma notdotdot_true : forall s, notdotdot s = true -> s <> dotdot.
Proof. intros s H. apply eqs_neq, negb_true_iff, H. Qed.

Lemma filter_notdd_id : forall l, Forall (fun s => s <> dotdot) l -> filter notdotdot l = l.
Proof.
  induction l as [|x l IH]; intro H; [reflexivity|]. inversion H; subst. cbn.
  unfold notdotdot at 1. assert (E : eqs x dotdot = false) by (apply eqs_neq; assumption).
  rewrite E, IH by assumption. reflexivity.
Qed.

Fixpoint all_phys (n : node) : list (list Z) :=
  match n with
  | Node nx ph _ =>
    ph ++ (fix go (l : list (list Z * node)) : list (list Z) :=
             match l with [] => [] | (_, c) :: r => all_phys c ++ go r end) nx
  end.
Definition vroots (t : vfs) : list (list Z) := all_phys (v_root t).

Lemma all_phys_self : forall n, incl (n_phys n) (all_phys n).
Proof. intros [nx ph vf] r H. cbn. apply in_or_app. left. exact H. Qed.

Lemma all_phys_child : forall n k c, find_child k (n_next n) = Some c -> incl (all_phys c) (all_phys n).
Proof.
  intros [nx ph vf] k c Hf r Hr. cbn in *. apply in_or_app. right.
  induction nx as [|[k' c'] nx IH]; cbn in *; [discriminate|]. apply in_or_app.
  destruct (eqs k' k); [inversion Hf; subst; left; exact Hr|right; apply IH, Hf].
Qed.

(* the node stack of get_info_virtual (back() first) with the names the nodes were reached by:
   every node lies below root, a name is one segment, and the root has no name *)
Definition stack (root : node) (nodes : list node) (names : list (list Z)) : Prop :=
  Forall (fun m => incl (all_phys m) (all_phys root)) nodes /\ Forall nosl names /\
  length nodes = S (length names).

Lemma stack_root : forall root, stack root [root] [].
Proof. intros root. split; [constructor; [apply incl_refl|constructor]|split; [constructor|reflexivity]]. Qed.

Lemma stack_push : forall root n up names s c,
  stack root (n :: up) names -> nosl s -> find_child s (n_next n) = Some c -> stack root (c :: n :: up) (s :: names).
Proof.
  intros root n up names s c (Hn & Hm & Hl) Hs Hf. split; [|split; [constructor; assumption|cbn in *; lia]].
  constructor; [|exact Hn]. inversion Hn; subst. eapply incl_tran; [eapply all_phys_child; exact Hf|assumption].
Qed.

Lemma stack_pop : forall root n up names, stack root (n :: up) names -> up = [] \/ stack root up (tl names).
Proof.
  intros root n up names (Hn & Hm & Hl). destruct up as [|n' up']; [left; reflexivity|right].
  inversion Hn; subst. destruct names as [|nm0 names']; [discriminate|]. inversion Hm; subst.
  split; [assumption|split; [assumption|cbn in *; lia]].
Qed.

Lemma walk_cur_stack : forall root segs nodes names, stack root nodes names -> Forall nosl segs ->
  walk_cur segs nodes names = Ok None \/
  exists ns nm, walk_cur segs nodes names = Ok (Some (ns, nm)) /\ stack root ns nm.
Proof.
  intros root. induction segs as [|s r IH]; cbn; intros nodes names Hst Hs; [right; eauto|].
  inversion Hs; subst. destruct (is_nil s); [auto|].
  destruct nodes as [|n up]; [destruct Hst as (_ & _ & Hl); discriminate|].
  destruct (find_child s (n_next n)) as [c|] eqn:Ef; [|left; reflexivity].
  apply IH; [eapply stack_push; eassumption|assumption].
Qed.

(* the main walk can pop the root: then the stack stays empty *)
Lemma walk_nil_nodes : forall L nm, fst (fst (walk L [] nm)) = [].
Proof.
  induction L as [|s r IH]; intros nm; cbn; [reflexivity|].
  destruct (is_nil s); [apply IH|reflexivity].
Qed.

Lemma walk_climb : forall L n nm, starts_dd L = true -> fst (fst (walk L [n] nm)) = [].
Proof.
  intros [|s L] n nm H; [discriminate|]. cbn in *.
  replace (is_nil s) with false by (apply eqs_eq in H; subst s; reflexivity). rewrite H. apply walk_nil_nodes.
Qed.

Lemma walk_stack : forall root segs nodes names ns nm rem,
  nodes = [] \/ stack root nodes names -> Forall nosl segs ->
  walk segs nodes names = (ns, nm, rem) -> (ns = [] \/ stack root ns nm) /\ Forall nosl rem.
Proof.
  intros root. induction segs as [|s r IH]; cbn; intros nodes names ns nm rem Hst Hs H.
  - inversion H; subst. auto.
  - inversion Hs; subst. destruct (is_nil s); [eauto|].
    destruct nodes as [|n up]; [inversion H; subst; auto|].
    destruct Hst as [Hst|Hst]; [discriminate|].
    destruct (eqs s dotdot); [eapply IH; [eapply stack_pop; exact Hst|assumption|exact H]|].
    destruct (find_child s (n_next n)) as [c|] eqn:Ef; [|inversion H; subst; auto].
    eapply IH; [right; eapply stack_push; eassumption|assumption|exact H].
Qed.

Lemma fallback_stack : forall root nodes names acc, stack root nodes names ->
  exists n2 ns2 popped, fallback nodes names acc = Some (n2 :: ns2, vfull_of popped ++ acc) /\
    incl (all_phys n2) (all_phys root) /\ Forall (fun s => s <> dotdot /\ nosl s) popped.
Proof.
  intros root. induction nodes as [|n up IH]; intros names acc (Hn & Hm & Hl); [discriminate|]. cbn.
  inversion Hn; subst.
  destruct names as [|nm names']; [exists n, up, []; auto|].
  destruct (is_nil (n_phys n) && notdotdot nm) eqn:Ec; [|exists n, up, []; auto].
  inversion Hm; subst. apply andb_true_iff in Ec. destruct Ec as [_ Ec].
  destruct (IH names' (SL :: nm ++ acc)) as (n2 & ns2 & popped & Hf & Hu & Hp);
    [split; [assumption|split; [assumption|cbn in *; lia]]|].
  exists n2, ns2, (popped ++ [nm]). split; [|split; [exact Hu|]].
  - rewrite Hf, vfull_of_app, <- app_assoc. cbn. rewrite app_nil_r. reflexivity.
  - apply Forall_app. split; [exact Hp|]. constructor; [|constructor]. split; [apply notdotdot_true, Ec|assumption].
Qed.

Section Route.
Variable d : defects.
Variable fsk : list Z -> kind.

Lemma try_roots_first : forall roots rem p, try_roots d fsk roots rem = Some p <->
  exists r1 r r2, roots = r1 ++ r :: r2 /\ p = r ++ rem /\ file_exists d fsk (r ++ rem) = true /\
                  Forall (fun r' => file_exists d fsk (r' ++ rem) = false) r1.
Proof.
  induction roots as [|r0 rs IH]; intros rem p; cbn; split.
  - discriminate.
  - intros (r1 & r & r2 & E & _). destruct r1; discriminate.
  - destruct (file_exists d fsk (r0 ++ rem)) eqn:E0.
    + intros H. inversion H; subst. exists [], r0, rs. repeat split; auto.
    + intros H. apply IH in H. destruct H as (r1 & r & r2 & E & Hp & He & Hf).
      exists (r0 :: r1), r, r2. subst. repeat split; auto.
  - intros (r1 & r & r2 & E & Hp & He & Hf). destruct r1 as [|a r1]; cbn in E; inversion E; subst.
    + rewrite He. reflexivity.
    + inversion Hf; subst. rewrite H1. apply IH. exists r1, r, r2. repeat split; auto.
Qed.

Lemma try_roots_none : forall roots rem, try_roots d fsk roots rem = None <->
  Forall (fun r' => file_exists d fsk (r' ++ rem) = false) roots.
Proof.
  induction roots as [|r0 rs IH]; intros rem; cbn; split; intro H.
  - constructor.
  - reflexivity.
  - destruct (file_exists d fsk (r0 ++ rem)) eqn:E0; [discriminate|]. constructor; [exact E0|apply IH; exact H].
  - inversion H; subst. rewrite H2. apply IH. assumption.
Qed.

(* get_info_virtual in three steps: where the walk starts, the walk, what is made of its result *)
Definition giv_start (t : vfs) (virt curv : list Z) : res (option (list node * list (list Z) * list Z)) :=
  if negb (has_root virt) && negb (is_nil curv) then
    match walk_cur (gsplit curv) [v_root t] [] with
    | Ok (Some (ns, nm)) => Ok (Some (ns, nm, curv ++ SL :: virt))
    | Ok None => Ok None
    | UB l => UB l
    | Throw l => Throw l
    end
  else Ok (Some ([v_root t], [], virt)).
Definition giv_segs (virt : list Z) : list (list Z) :=
  gsplit (if d_drop_dotdot d then virt else vfull_of (ddnorm (segs_of virt))).
Definition try_found (vfullreq : list Z) (roots : list (list Z)) (rem : list Z) : res (option (list Z * list Z)) :=
  match try_roots d fsk roots rem with Some p => Ok (Some (p, vfullreq)) | None => Ok None end.
Definition giv_after (vfullreq : list Z) (w : list node * list (list Z) * list (list Z)) : res (option (list Z * list Z)) :=
  let '(ns1, nm1, rem) := w in
  match ns1 with
  | [] => Ok None
  | _ => match (if d_no_fallback d then Some (ns1, []) else fallback ns1 nm1 []) with
         | Some (n :: _, pre) => try_found vfullreq (n_phys n) (pre ++ vfull_of (filter notdotdot rem))
         | _ => UB 140
         end
  end.

Lemma giv_unfold : forall t req curv, giv d fsk t req curv =
  let virt := trim (cleanse req) in
  if is_nil virt then Ok None else
  match giv_start t virt curv with
  | Ok (Some (ns, nm, vf)) => giv_after vf (walk (giv_segs virt) ns nm)
  | Ok None => Ok None
  | UB l => UB l
  | Throw l => Throw l
  end.
Proof. intros t req curv. unfold giv. destruct (trim (cleanse req)); reflexivity. Qed.

Lemma giv_start_abs : forall t virt curv,
  has_root virt = true \/ curv = [] -> giv_start t virt curv = Ok (Some ([v_root t], [], virt)).
Proof.
  intros t virt curv [H| ->]; unfold giv_start; [rewrite H|rewrite andb_false_r]; reflexivity.
Qed.

Lemma giv_start_stack : forall t virt curv,
  giv_start t virt curv = Ok None \/
  exists ns nm vf, giv_start t virt curv = Ok (Some (ns, nm, vf)) /\ stack (v_root t) ns nm.
Proof.
  intros t virt curv. unfold giv_start.
  destruct (negb (has_root virt) && negb (is_nil curv)); [|right; eauto using stack_root].
  destruct (walk_cur_stack (v_root t) (gsplit curv) [v_root t] [] (stack_root _) (gsplit_nosl curv))
    as [E|(ns & nm & E & H)]; rewrite E; [left; reflexivity|right; eauto].
Qed.

(* what resolution yields, if anything: a mapped physical root followed by segments none of which is a
   dir-up or contains a separator, and the file exists *)
Definition sound (t : vfs) (r : res (option (list Z * list Z))) : Prop :=
  r = Ok None \/
  exists root rem v, In root (vroots t) /\ Forall (fun s => s <> dotdot /\ ~ In SL s) rem /\
                     file_exists d fsk (root ++ vfull_of rem) = true /\ r = Ok (Some (root ++ vfull_of rem, v)).

Lemma try_found_sound : forall t vf n rem,
  incl (all_phys n) (vroots t) -> Forall (fun s => s <> dotdot /\ ~ In SL s) rem ->
  sound t (try_found vf (n_phys n) (vfull_of rem)).
Proof.
  intros t vf n rem Hu Hrem. unfold try_found.
  destruct (try_roots d fsk (n_phys n) (vfull_of rem)) as [p|] eqn:Et; [|left; reflexivity].
  apply try_roots_first in Et. destruct Et as (r1 & r & r2 & Er & -> & He & _).
  right. exists r, rem, vf. split; [|auto]. apply Hu, all_phys_self. rewrite Er. apply in_elt.
Qed.

Lemma giv_after_sound : forall t vf ns nm rem,
  ns = [] \/ stack (v_root t) ns nm -> Forall nosl rem -> sound t (giv_after vf (ns, nm, rem)).
Proof.
  intros t vf ns nm rem [->|Hst] Hrem; [left; reflexivity|].
  (* with or without the way back up, the node used is one of the stack *)
  assert (Hfb : exists n2 ns2 popped,
            (if d_no_fallback d then Some (ns, []) else fallback ns nm []) = Some (n2 :: ns2, vfull_of popped) /\
            incl (all_phys n2) (all_phys (v_root t)) /\ Forall (fun s => s <> dotdot /\ nosl s) popped).
  { destruct (d_no_fallback d).
    - destruct Hst as (Hn & _ & Hl). destruct Hn as [|n1 ns' Hn1 _]; [discriminate|]. exists n1, ns', []. auto.
    - destruct (fallback_stack _ _ _ [] Hst) as (n2 & ns2 & popped & Hf & H). rewrite app_nil_r in Hf. eauto. }
  destruct Hfb as (n2 & ns2 & popped & Hf & Hu & Hp).
  unfold giv_after. destruct ns as [|n1 ns']; [destruct Hst as (_ & _ & Hl); discriminate|].
  rewrite Hf, <- vfull_of_app. apply try_found_sound; [exact Hu|].
  apply Forall_app. split; [exact Hp|]. apply Forall_forall. intros x Hx. apply filter_In in Hx.
  destruct Hx as [Hx1 Hx2]. split; [apply notdotdot_true, Hx2|exact (proj1 (Forall_forall _ _) Hrem x Hx1)].
Qed.

Lemma giv_sound : forall t req curv, sound t (giv d fsk t req curv).
Proof.
  intros t req curv. rewrite giv_unfold. cbv zeta.
  destruct (is_nil (trim (cleanse req))); [left; reflexivity|].
  destruct (giv_start_stack t (trim (cleanse req)) curv) as [E|(ns & nm & vf & E & Hst)]; rewrite E; [left; reflexivity|].
  destruct (walk (giv_segs (trim (cleanse req))) ns nm) as [[ns1 nm1] rem] eqn:Ew.
  destruct (walk_stack _ _ _ _ _ _ _ (or_intror Hst) (gsplit_nosl _) Ew) as [H1 H2].
  apply giv_after_sound; assumption.
Qed.

Lemma prefix_test_ub : forall a b, prefix_test d a b = PUB -> d_mismatch3 d = true.
Proof.
  induction a as [|x a IH]; destruct b as [|y b]; cbn; try discriminate.
  - destruct (d_mismatch3 d); [reflexivity|discriminate].
  - destruct (eqs x y); [apply IH|discriminate].
Qed.

(* get_info_physical hands what it finds to get_info_virtual again, so it yields what that yields, or
   fails in one of its own two ways *)
Definition sound_or_fails (t : vfs) (r : res (option (list Z * list Z))) : Prop :=
  sound t r \/ (d_mismatch3 d = true /\ r = UB 183) \/ (d_substr d = true /\ r = Throw 189).

Lemma gip_loop_sound : forall t cs tf curv, sound_or_fails t (gip_loop d fsk t cs tf curv).
Proof.
  intros t cs. induction cs as [|[vf phys] r IH]; cbn; intros tf curv; [left; left; reflexivity|].
  destruct (prefix_test d (pcomps phys) (pcomps tf)) as [restc| |] eqn:Ep;
    [|apply IH|right; left; split; [eapply prefix_test_ub, Ep|reflexivity]].
  destruct (if d_substr d then substr_from (S (length phys)) tf else Some (fold_left pjoin restc [])) as [rest|] eqn:Er.
  - destruct (giv_sound t (cleanse (lexnorm (vf ++ SL :: rest))) curv) as [E|(root & rem & v & H)].
    + rewrite E. apply IH.
    + destruct H as (H1 & H2 & H3 & E). rewrite E. left. right. exists root, rem, v. auto.
  - right. right. destruct (d_substr d); [auto|discriminate].
Qed.

Lemma get_info_sound : forall t req curp curv, sound_or_fails t (get_info d fsk t req curp curv).
Proof.
  intros t req curp curv.
  pose proof (gip_loop_sound t (cands t) (gip_target d fsk req curp) curv) as Hg. fold (gip d fsk t req curp curv) in Hg.
  assert (Hstd : sound_or_fails t (get_info_std d fsk t req curp curv)).
  { unfold get_info_std. destruct (giv_sound t req curv) as [E|(root & rem & v & H1 & H2 & H3 & E)]; rewrite E;
      [exact Hg|left; right; exists root, rem, v; auto]. }
  unfold get_info. destruct (rel_first d req curp curv); [|exact Hstd].
  destruct Hg as [[E|(root & rem & v & H1 & H2 & H3 & E)]|[[H E]|[H E]]]; rewrite E;
    [exact Hstd|left; right; exists root, rem, v; auto|right; left; auto|right; right; auto].
Qed.

(* no undefined behaviour and no exception once std::mismatch is bounded and the substr is gone *)
Theorem get_info_ok : d_mismatch3 d = false -> d_substr d = false ->
  forall t req curp curv, exists r, get_info d fsk t req curp curv = Ok r.
Proof.
  intros Hmm Hsub t req curp curv.
  destruct (get_info_sound t req curp curv) as [[E|(root & rem & v & _ & _ & _ & E)]|[[H _]|[H _]]];
    [rewrite E; eauto|rewrite E; eauto|congruence|congruence].
Qed.

Lemma get_info_novirt : forall t req curp curv,
  giv d fsk t req curv = Ok None -> get_info d fsk t req curp curv = gip d fsk t req curp curv.
Proof.
  intros t req curp curv H. unfold get_info, get_info_std. rewrite H.
  destruct (rel_first d req curp curv); [|reflexivity]. destruct (gip d fsk t req curp curv) as [[x|]|l|l]; reflexivity.
Qed.

End Route.

Lemma gip_loop_outside : forall fsk t cs tf curv,
  Forall (fun c => prefix_test repaired (pcomps (snd c)) (pcomps tf) = PNo) cs ->
  gip_loop repaired fsk t cs tf curv = Ok None.
Proof.
  intros fsk t cs. induction cs as [|[vf phys] r IH]; intros tf curv H; cbn; [reflexivity|].
  inversion H as [|? ? H1 H2]; subst. cbn in H1. rewrite H1. apply IH. exact H2.
Qed.

(* relative requests: all roots under which the target lies lead to one virtual path tv0 *)
Lemma gip_loop_same : forall fsk t cs tf curv tv0,
  Forall (fun c => forall rc, prefix_test repaired (pcomps (snd c)) (pcomps tf) = PMatch rc ->
                   lexnorm (fst c ++ SL :: fold_left pjoin rc []) = tv0) cs ->
  gip_loop repaired fsk t cs tf curv =
  if existsb (fun c => match prefix_test repaired (pcomps (snd c)) (pcomps tf) with PMatch _ => true | _ => false end) cs
  then giv repaired fsk t (cleanse tv0) curv else Ok None.
Proof.
  intros fsk t cs. induction cs as [|[vf phys] r IH]; intros tf curv tv0 H; cbn; [reflexivity|].
  inversion H as [|? ? H1 H2]; subst. cbn in H1.
  specialize (IH tf curv tv0 H2).
  destruct (prefix_test repaired (pcomps phys) (pcomps tf)) as [rc| |] eqn:Ep.
  - rewrite (H1 rc eq_refl). cbn [orb].
    destruct (giv_sound repaired fsk t (cleanse tv0) curv) as [E|(root & rem & v & _ & _ & _ & E)]; rewrite E; [|reflexivity].
    rewrite IH. destruct (existsb _ r); [exact E|reflexivity].
  - exact IH.
  - apply prefix_test_ub in Ep. discriminate.
Qed.

Theorem relative_to_current : forall fsk t req curp curv tv0 x,
  (rel_first repaired req curp curv = true \/ giv repaired fsk t req curv = Ok None) ->
  Forall (fun c => forall rc, prefix_test repaired (pcomps (snd c)) (pcomps (gip_target repaired fsk req curp)) = PMatch rc ->
                   lexnorm (fst c ++ SL :: fold_left pjoin rc []) = tv0) (cands t) ->
  Exists (fun c => exists rc, prefix_test repaired (pcomps (snd c)) (pcomps (gip_target repaired fsk req curp)) = PMatch rc) (cands t) ->
  giv repaired fsk t (cleanse tv0) curv = Ok (Some x) ->
  get_info repaired fsk t req curp curv = Ok (Some x).
Proof.
  intros fsk t req curp curv tv0 x Hfirst Hall Hex Hg.
  assert (Hgip : gip repaired fsk t req curp curv = Ok (Some x)).
  { unfold gip. rewrite (gip_loop_same fsk t (cands t) _ curv tv0 Hall), Hg.
    apply Exists_exists in Hex. destruct Hex as (c & Hc & rc & Hrc).
    rewrite (proj2 (existsb_exists _ _)); [reflexivity|]. exists c. rewrite Hrc. auto. }
  destruct Hfirst as [Hf|Hf]; [|rewrite get_info_novirt by exact Hf; exact Hgip].
  unfold get_info. rewrite Hf, Hgip. reflexivity.
Qed.

Lemma find_set_child : forall k s c l, find_child k (set_child s c l) = if eqs k s then Some c else find_child k l.
Proof.
  intros k s c l. rewrite (eqs_sym k s). induction l as [|[k' c'] l IH]; cbn; [reflexivity|].
  destruct (eqs k' s) eqn:E; cbn.
  - apply eqs_eq in E. subst k'. destruct (eqs s k); reflexivity.
  - rewrite IH. destruct (eqs k' k) eqn:E'; [|reflexivity].
    apply eqs_eq in E'. subst k'. rewrite (eqs_sym s k), E. reflexivity.
Qed.

(* add_at and pbo_ins both rebuild a node around one new child *)
Lemma node_at_set : forall s c n k q,
  node_at (k :: q) (Node (set_child s c (n_next n)) (n_phys n) (n_vfull n)) =
  if eqs k s then node_at q c else node_at (k :: q) n.
Proof. intros s c n k q. cbn. rewrite find_set_child. destruct (eqs k s); reflexivity. Qed.

Lemma node_at_app : forall p q n, node_at (p ++ q) n = match node_at p n with Some m => node_at q m | None => None end.
Proof.
  induction p as [|s p IH]; intros q n; cbn; [reflexivity|].
  destruct (find_child s (n_next n)); [apply IH|reflexivity].
Qed.

Definition phys_at (q : list (list Z)) (n : node) : list (list Z) :=
  match node_at q n with Some m => n_phys m | None => [] end.

(* add_at below the first segment: the child it goes on with is the one found or a fresh one *)
Lemma add_at_cons : forall s rest pre phys n,
  let c0 := match find_child s (n_next n) with Some c => c | None => Node [] [] (vfull_of (pre ++ [s])) end in
  let r := add_at rest (pre ++ [s]) phys c0 in
  add_at (s :: rest) pre phys n =
  (Node (set_child s (fst r) (n_next n)) (n_phys n) (n_vfull n),
   match find_child s (n_next n) with Some _ => snd r | None => (pre ++ [s]) :: snd r end).
Proof.
  intros s rest pre phys n c0 r. subst c0 r. cbn.
  destruct (find_child s (n_next n)); destruct (add_at _ _ _ _); reflexivity.
Qed.

Lemma add_at_phys : forall segs pre phys n q,
  phys_at q (fst (add_at segs pre phys n)) = phys_at q n ++ (if seqs q segs then [phys] else []).
Proof.
  induction segs as [|s rest IH]; intros pre phys n q.
  - destruct q; unfold phys_at; cbn; [reflexivity|rewrite app_nil_r; reflexivity].
  - rewrite add_at_cons. cbn [fst]. destruct q as [|k q']; [unfold phys_at; cbn; rewrite app_nil_r; reflexivity|].
    unfold phys_at. rewrite node_at_set. cbn [seqs]. destruct (eqs k s) eqn:Eks; [|rewrite app_nil_r; reflexivity].
    apply eqs_eq in Eks. subst k. pose proof (IH (pre ++ [s]) phys) as IH'. unfold phys_at in IH'. rewrite IH'.
    cbn. destruct (find_child s (n_next n)); [reflexivity|destruct q'; reflexivity].
Qed.

Lemma add_at_elems : forall segs pre phys n q m', node_at q (fst (add_at segs pre phys n)) = Some m' ->
  (exists m, node_at q n = Some m /\ n_vfull m' = n_vfull m) \/
  (node_at q n = None /\ In (pre ++ q) (snd (add_at segs pre phys n)) /\ n_vfull m' = vfull_of (pre ++ q)).
Proof.
  induction segs as [|s rest IH]; intros pre phys n q m' H.
  - left. destruct q; cbn in *; [exists n; inversion H; split; reflexivity|eauto].
  - rewrite add_at_cons in *. cbn [fst snd] in *.
    destruct q as [|k q']; [left; exists n; inversion H; split; reflexivity|].
    rewrite node_at_set in H. destruct (eqs k s) eqn:Eks; [|left; eauto].
    apply eqs_eq in Eks. subst k. cbn [node_at]. apply IH in H. rewrite <- !app_assoc in H. cbn [app] in H.
    destruct (find_child s (n_next n)) as [c|].
    + destruct H as [H|(Hn & Hi & Hv)]; [left|right]; auto.
    + right. split; [reflexivity|]. destruct H as [(m & Hm & Hv)|(_ & Hi & Hv)].
      * destruct q'; [|discriminate]. inversion Hm; subst. split; [left; reflexivity|exact Hv].
      * split; [right; exact Hi|exact Hv].
Qed.

Definition vf_of (q : list (list Z)) : list Z := match q with [] => [SL] | _ => vfull_of q end.

Section Build.
Variable d : defects.

Lemma build_snoc : forall ms m, build d (ms ++ [m]) = add_mapping d (build d ms) (fst m) (snd m).
Proof. intros ms m. unfold build. rewrite fold_left_app. reflexivity. Qed.

Lemma add_mapping_eq : forall t phys virt,
  let r := add_at (vsegs virt) [] (root_of d phys) (v_root t) in
  add_mapping d t phys virt = {| v_root := fst r; v_elems := v_elems t ++ snd r; v_pbos := v_pbos t |}.
Proof. intros t phys virt r. subst r. unfold add_mapping, vsegs. destruct (add_at _ _ _ _). reflexivity. Qed.

Lemma roots_at_snoc : forall ms m q,
  roots_at d (ms ++ [m]) q = roots_at d ms q ++ (if seqs q (vsegs (snd m)) then [root_of d (fst m)] else []).
Proof.
  intros ms m q. unfold roots_at. rewrite filter_app, map_app. cbn.
  destruct (seqs q (vsegs (snd m))); reflexivity.
Qed.

Lemma build_phys : forall ms q, phys_at q (v_root (build d ms)) = roots_at d ms q.
Proof.
  intros ms. induction ms as [|m ms IH] using rev_ind; intros q.
  - unfold phys_at. destruct q; reflexivity.
  - rewrite build_snoc, roots_at_snoc, add_mapping_eq. cbn [v_root]. rewrite add_at_phys, IH. reflexivity.
Qed.

(* every node is listed in m_path_elements and carries its own path *)
Lemma build_elems : forall ms q m, node_at q (v_root (build d ms)) = Some m ->
  In q (v_elems (build d ms)) /\ n_vfull m = vf_of q.
Proof.
  intros ms. induction ms as [|m0 ms IH] using rev_ind; intros q m H.
  - destruct q; [|discriminate]. inversion H. split; [left|]; reflexivity.
  - rewrite build_snoc, add_mapping_eq in *. cbn [v_root v_elems] in *.
    destruct (add_at_elems _ _ _ _ _ _ H) as [(m1 & Hm & Hv)|(Hn & Hi & Hv)]; rewrite Hv.
    + destruct (IH q m1 Hm). split; [apply in_or_app; left|]; assumption.
    + split; [apply in_or_app; right; exact Hi|]. destruct q; [discriminate|reflexivity].
Qed.

Lemma cands_in : forall t vf r, In (vf, r) (cands t) <->
  exists q m, In q (v_elems t) /\ node_at q (v_root t) = Some m /\ vf = n_vfull m /\ In r (n_phys m).
Proof.
  intros t vf r. unfold cands. rewrite in_flat_map. split.
  - intros (q & Hq & Hin). destruct (node_at q (v_root t)) as [m|] eqn:Em; [|destruct Hin].
    apply in_map_iff in Hin. destruct Hin as (p & Hp & Hpi). inversion Hp; subst. exists q, m. auto.
  - intros (q & m & Hq & Hm & Hv & Hr). exists q. split; [exact Hq|]. rewrite Hm. apply in_map_iff. exists r. subst. auto.
Qed.

Lemma cands_build : forall ms vf r, In (vf, r) (cands (build d ms)) <->
  exists q, vf = vf_of q /\ In r (roots_at d ms q).
Proof.
  intros ms vf r. rewrite cands_in. split.
  - intros (q & m & Hq & Hm & Hv & Hr). exists q. destruct (build_elems ms q m Hm) as [_ Hvf].
    rewrite <- build_phys. unfold phys_at. rewrite Hm. split; [congruence|exact Hr].
  - intros (q & Hv & Hr). rewrite <- build_phys in Hr. unfold phys_at in Hr.
    destruct (node_at q (v_root (build d ms))) as [m|] eqn:Em; [|destruct Hr].
    destruct (build_elems ms q m Em) as [Hin Hvf]. exists q, m. repeat split; auto; congruence.
Qed.

End Build.

(* [deepest], read off a tree: the physical paths of the deepest node along L, starting at n, that
   has any, with what follows it *)
Fixpoint best (n : node) (L : list (list Z)) : list (list Z) * list (list Z) :=
  match L with
  | [] => (n_phys n, [])
  | s :: r =>
    match find_child s (n_next n) with
    | Some c => let '(rs, rem) := best c r in if is_nil rs then (n_phys n, s :: r) else (rs, rem)
    | None => (n_phys n, s :: r)
    end
  end.

Lemma best_nil : forall L n, is_nil (fst (best n L)) = true -> is_nil (n_phys n) = true.
Proof.
  intros [|s r] n; cbn; [auto|]. destruct (find_child s (n_next n)) as [c|]; [|auto].
  destruct (best c r) as [rs rem]. destruct (is_nil rs) eqn:E; cbn; [auto|congruence].
Qed.

Lemma best_exact : forall L n m, node_at L n = Some m -> is_nil (n_phys m) = false -> best n L = (n_phys m, []).
Proof.
  induction L as [|s r IH]; intros n m Hn Hp; cbn in *; [inversion Hn; reflexivity|].
  destruct (find_child s (n_next n)) as [c|]; [|discriminate]. rewrite (IH c m Hn Hp), Hp. reflexivity.
Qed.

Section Deepest.
Variable d : defects.
Variable ms : list (list Z * list Z).

Lemma no_node_deepest : forall r q, node_at q (v_root (build d ms)) = None -> deepest d ms q r = ([], r).
Proof.
  assert (Hr : forall q, node_at q (v_root (build d ms)) = None -> roots_at d ms q = []).
  { intros q H. rewrite <- build_phys. unfold phys_at. rewrite H. reflexivity. }
  induction r as [|s r IH]; intros q H; cbn; [rewrite Hr by exact H; reflexivity|].
  rewrite IH by (rewrite node_at_app, H; reflexivity). cbn. rewrite Hr by exact H. reflexivity.
Qed.

Lemma best_deepest : forall L pre n, node_at pre (v_root (build d ms)) = Some n -> deepest d ms pre L = best n L.
Proof.
  induction L as [|s r IH]; intros pre n Hn; cbn [deepest best];
    (assert (Hp : roots_at d ms pre = n_phys n) by (rewrite <- build_phys; unfold phys_at; rewrite Hn; reflexivity));
    rewrite Hp; [reflexivity|].
  assert (Hc : node_at (pre ++ [s]) (v_root (build d ms)) = find_child s (n_next n)).
  { rewrite node_at_app, Hn. cbn. destruct (find_child s (n_next n)); reflexivity. }
  destruct (find_child s (n_next n)) as [c|]; [rewrite (IH _ c Hc); reflexivity|].
  rewrite no_node_deepest by exact Hc. reflexivity.
Qed.

End Deepest.

(* what follows needs only the two repairs the virtual route itself reads: dir-ups resolved before the
   walk (default.cpp:131-136) and the way back up to a mapped node (:140) *)
Section Mechanism.
Variable d : defects.
Variable fsk : list Z -> kind.
Hypothesis Hdd : d_drop_dotdot d = false.
Hypothesis Hfb : d_no_fallback d = false.

Lemma fallback_acc : forall nodes names acc,
  fallback nodes names acc =
  match fallback nodes names [] with Some (ns, pre) => Some (ns, pre ++ acc) | None => None end.
Proof.
  induction nodes as [|n up IH]; intros names acc; cbn; [reflexivity|].
  destruct names as [|nm names']; [reflexivity|].
  destruct (is_nil (n_phys n) && notdotdot nm); [|reflexivity].
  rewrite (IH names' (SL :: nm ++ acc)), (IH names' (SL :: nm ++ [])).
  destruct (fallback up names' []) as [[ns pre]|]; [|reflexivity].
  rewrite app_nil_r, <- app_assoc. reflexivity.
Qed.

(* a node with a physical path ends the way back up at once *)
Lemma giv_after_here : forall vf n U NM L, Forall (fun s => s <> dotdot) L ->
  giv_after d fsk vf (n :: U, NM, L) =
  if is_nil (n_phys n) then giv_after d fsk vf (n :: U, NM, L) else try_found d fsk vf (n_phys n) (vfull_of L).
Proof.
  intros vf n U NM L HL. destruct (is_nil (n_phys n)) eqn:Ep; [reflexivity|].
  unfold giv_after. rewrite Hfb, filter_notdd_id by exact HL. cbn. destruct NM; [reflexivity|]. rewrite Ep. reflexivity.
Qed.

(* a node without one is left again, and its name joins the remainder *)
Lemma giv_after_pop : forall vf c n U s NM rem, is_nil (n_phys c) = true -> s <> dotdot ->
  giv_after d fsk vf (c :: n :: U, s :: NM, rem) = giv_after d fsk vf (n :: U, NM, s :: rem).
Proof.
  intros vf c n U s NM rem Hc Hs. apply eqs_neq in Hs.
  assert (Hf : fallback (c :: n :: U) (s :: NM) [] = fallback (n :: U) NM (SL :: s ++ [])).
  { cbn. unfold notdotdot. rewrite Hc, Hs. reflexivity. }
  unfold giv_after. rewrite Hfb. cbn [filter]. unfold notdotdot at 2. rewrite Hf, Hs, fallback_acc. cbn [negb].
  destruct (fallback (n :: U) NM []) as [[[|n2 ns2] pre]|]; try reflexivity.
  rewrite vfull_of_cons, app_nil_r, <- app_assoc. reflexivity.
Qed.

(* walking on from n along L: the deepest node with a physical path decides; when there is none the
   way back up undoes the walk *)
Lemma walk_best : forall vf L n U NM, Forall (fun s => s <> []) L -> Forall (fun s => s <> dotdot) L ->
  giv_after d fsk vf (walk L (n :: U) NM) =
  let '(rs, rest) := best n L in
  if is_nil rs then giv_after d fsk vf (n :: U, NM, L) else try_found d fsk vf rs (vfull_of rest).
Proof.
  intros vf. induction L as [|s r IH]; intros n U NM Hn Hd; cbn [walk best]; [apply giv_after_here, Hd|].
  inversion Hn as [|? ? Hs HnL]; subst. inversion Hd as [|? ? Hsd HdL]; subst.
  replace (is_nil s) with false by (destruct s; [contradiction|reflexivity]).
  rewrite (proj2 (eqs_neq s dotdot) Hsd).
  destruct (find_child s (n_next n)) as [c|]; [|apply giv_after_here, Hd].
  rewrite IH by assumption. pose proof (best_nil r c) as Hc. destruct (best c r) as [rs rest]. cbn [fst] in Hc.
  destruct (is_nil rs) eqn:Ers; [|rewrite Ers; reflexivity].
  rewrite giv_after_pop by auto. apply giv_after_here, Hd.
Qed.

Lemma giv_best : forall t req curv,
  trim (cleanse req) <> [] -> (has_root (trim (cleanse req)) = true \/ curv = []) ->
  giv d fsk t req curv =
  let L := ddnorm (segs_of (trim (cleanse req))) in
  if starts_dd L then Ok None
  else let '(rs, rest) := best (v_root t) L in try_found d fsk (trim (cleanse req)) rs (vfull_of rest).
Proof.
  intros t req curv Hne Habs. rewrite giv_unfold. cbv zeta.
  replace (is_nil (trim (cleanse req))) with false by (destruct (trim (cleanse req)); [contradiction|reflexivity]).
  rewrite giv_start_abs by exact Habs. unfold giv_segs. rewrite Hdd.
  set (virt := trim (cleanse req)). set (L := ddnorm (segs_of virt)).
  assert (HnL : Forall (fun s => s <> []) L) by apply ddnorm_Forall, segs_of_nonnil.
  assert (HsL : Forall nosl L) by apply ddnorm_Forall, segs_of_nosl.
  rewrite (gsplit_vfull L HnL HsL).
  replace (walk match L with [] => [] | _ :: _ => [] :: L end [v_root t] []) with (walk L [v_root t] []) by (destruct L; reflexivity).
  destruct (starts_dd L) eqn:Esd.
  - (* the path climbs above the virtual root *)
    pose proof (walk_climb L (v_root t) [] Esd) as Hn.
    destruct (walk L [v_root t] []) as [[ns1 nm1] rem]. cbn in Hn. subst ns1. reflexivity.
  - rewrite walk_best by (try apply nodd_of_start; assumption).
    pose proof (best_nil L (v_root t)) as Hr. destruct (best (v_root t) L) as [rs rest]. cbn [fst] in Hr.
    destruct (is_nil rs) eqn:Ers; [|reflexivity].
    (* nothing is mapped along the path, not even onto the root *)
    destruct rs; [|discriminate]. unfold giv_after. rewrite Hfb. cbn. destruct (n_phys (v_root t)); [reflexivity|discriminate (Hr eq_refl)].
Qed.

Lemma giv_at_node : forall t L m curv,
  L <> [] -> Forall (fun s => s <> []) L -> Forall (fun s => s <> dotdot) L -> Forall nosl L ->
  trim (cleanse (vfull_of L)) = vfull_of L ->
  node_at L (v_root t) = Some m -> is_nil (n_phys m) = false ->
  giv d fsk t (vfull_of L) curv = try_found d fsk (vfull_of L) (n_phys m) [].
Proof.
  intros t L m curv Hne HnL HdL HsL Htrim Hm Hp.
  rewrite giv_best; rewrite Htrim; [|destruct L; [contradiction|discriminate]|left; destruct L; [contradiction|reflexivity]].
  cbv zeta. rewrite segs_of_vfull, ddnorm_plain by assumption.
  replace (starts_dd L) with false by (destruct HdL as [|s L' Hs _]; [reflexivity|symmetry; apply eqs_neq, Hs]).
  rewrite (best_exact L _ m Hm Hp). reflexivity.
Qed.

Theorem giv_spec : forall ms req curv,
  trim (cleanse req) <> [] ->
  (has_root (trim (cleanse req)) = true \/ curv = []) ->
  giv d fsk (build d ms) req curv =
  Ok (match spec_virtual d fsk ms (ddnorm (segs_of (trim (cleanse req)))) with
      | Some p => Some (p, trim (cleanse req))
      | None => None
      end).
Proof.
  intros ms req curv Hne Habs. rewrite giv_best by assumption. cbv zeta. unfold spec_virtual.
  destruct (starts_dd _); [reflexivity|]. rewrite (best_deepest d ms _ [] _ eq_refl).
  destruct (best _ _) as [rs rest]. unfold try_found. destruct (try_roots _ _ _ _); reflexivity.
Qed.

End Mechanism.

Section Reading.
Variable d : defects.
Variable ms : list (list Z * list Z).

Lemma deepest_char : forall L pre rs rest, deepest d ms pre L = (rs, rest) ->
  exists P, L = P ++ rest /\ rs = roots_at d ms (pre ++ P) /\ (P = [] \/ rs <> []) /\
            forall P' x, rest = P' ++ x -> P' <> [] -> roots_at d ms (pre ++ P ++ P') = [].
Proof.
  induction L as [|s r IH]; intros pre rs rest H; cbn in H.
  - inversion H; subst. exists []. rewrite !app_nil_r. repeat split; auto.
    intros [|a P'] x E Hne; [contradiction|discriminate].
  - destruct (deepest d ms (pre ++ [s]) r) as [rs' rem'] eqn:Ed.
    destruct (IH _ _ _ Ed) as (P0 & E0 & Er & Hp & Hd).
    rewrite <- app_assoc in Er. setoid_rewrite <- app_assoc in Hd. cbn [app] in Er, Hd.
    destruct rs' as [|r0 rs'']; cbn in H; inversion H; subst.
    + (* no prefix from pre ++ [s] on has roots *)
      destruct Hp as [->|Hp]; [|contradiction]. exists []. rewrite app_nil_r. repeat split; auto.
      intros [|a [|b P']] x E Hne; [contradiction| |]; inversion E; subst; [symmetry; exact Er|].
      apply (Hd (b :: P') x eq_refl). discriminate.
    + exists (s :: P0). repeat split; auto. right. discriminate.
Qed.

Lemma deepest_shallow : forall rest pre,
  (forall P' x, rest = P' ++ x -> P' <> [] -> roots_at d ms (pre ++ P') = []) ->
  deepest d ms pre rest = (roots_at d ms pre, rest).
Proof.
  induction rest as [|s r IH]; intros pre H; cbn; [reflexivity|].
  rewrite IH.
  - rewrite (H [s] r eq_refl ltac:(discriminate)). reflexivity.
  - intros P' x E Hne. rewrite <- app_assoc. apply (H (s :: P') x); [cbn; rewrite E; reflexivity|discriminate].
Qed.

Lemma deepest_unique : forall P pre rest,
  roots_at d ms (pre ++ P) <> [] ->
  (forall P' x, rest = P' ++ x -> P' <> [] -> roots_at d ms (pre ++ P ++ P') = []) ->
  deepest d ms pre (P ++ rest) = (roots_at d ms (pre ++ P), rest).
Proof.
  induction P as [|s P IH]; intros pre rest Hr Hd.
  - cbn. rewrite app_nil_r in *. apply deepest_shallow. exact Hd.
  - cbn. rewrite (IH (pre ++ [s]) rest).
    + rewrite <- app_assoc. cbn. destruct (roots_at d ms (pre ++ s :: P)) eqn:E; [contradiction|reflexivity].
    + rewrite <- app_assoc. exact Hr.
    + intros P' x E Hne. rewrite <- app_assoc. cbn. apply (Hd P' x E Hne).
Qed.

End Reading.

Theorem resolve_sound : forall fsk ms req curv p v,
  trim (cleanse req) <> [] -> (has_root (trim (cleanse req)) = true \/ curv = []) ->
  giv repaired fsk (build repaired ms) req curv = Ok (Some (p, v)) ->
  v = trim (cleanse req) /\
  exists P rest r1 root r2,
    ddnorm (segs_of (trim (cleanse req))) = P ++ rest /\
    roots_at repaired ms P = r1 ++ root :: r2 /\
    p = root ++ vfull_of rest /\
    file_exists repaired fsk p = true /\
    Forall (fun r' => file_exists repaired fsk (r' ++ vfull_of rest) = false) r1 /\
    (forall P' x, rest = P' ++ x -> P' <> [] -> roots_at repaired ms (P ++ P') = []) /\
    Forall (fun s => s <> dotdot) (P ++ rest).
Proof.
  intros fsk ms req curv p v Hne Habs H. rewrite (giv_spec repaired fsk eq_refl eq_refl) in H by assumption.
  unfold spec_virtual in H. set (L := ddnorm (segs_of (trim (cleanse req)))) in *.
  destruct (starts_dd L) eqn:Esd; [discriminate|].
  destruct (deepest repaired ms [] L) as [rs rest] eqn:Ed.
  destruct (try_roots repaired fsk rs (vfull_of rest)) as [p'|] eqn:Et; [|discriminate].
  inversion H; subst p' v. split; [reflexivity|].
  apply try_roots_first in Et. destruct Et as (r1 & root & r2 & Er & Hp & He & Hf).
  destruct (deepest_char repaired ms L [] rs rest Ed) as (P & EL & Ers & _ & Hdeep).
  exists P, rest, r1, root, r2. cbn in *. subst p.
  repeat split; auto; [congruence|]. rewrite <- EL. apply nodd_of_start. exact Esd.
Qed.

Definition pseg (s : list Z) : Prop := s <> [] /\ s <> dotdot /\ ~ In SL s.

Lemma pseg_Forall : forall L, Forall pseg L ->
  Forall (fun s => s <> []) L /\ Forall (fun s => s <> dotdot) L /\ Forall nosl L.
Proof. intros L H. repeat split; eapply Forall_impl; try exact H; intros s (A & B & C); assumption. Qed.

Lemma index_of_some : forall x l i, In x l -> exists j, index_of x l i = Some (i + j)%nat /\ nth_error l j = Some x.
Proof.
  induction l as [|y l IH]; intros i Hin; [destruct Hin|]. cbn.
  destruct (eqs y x) eqn:E.
  - apply eqs_eq in E. subst y. exists 0%nat. rewrite Nat.add_0_r. split; reflexivity.
  - destruct Hin as [->|Hin]; [rewrite eqs_refl in E; discriminate|].
    destruct (IH (S i) Hin) as (j & Hj & Hn). exists (S j). rewrite Hj. split; [f_equal; lia|exact Hn].
Qed.

Section PboRoute.
Variable pbop : list Z.

(* the chain of fresh nodes is what pbo_ins makes of one fresh node *)
Lemma fresh_chain_ins : forall comps acc,
  pbo_ins repaired comps acc pbop (Node [] [pbop] acc) = Ok (fresh_chain comps acc pbop).
Proof. destruct comps; reflexivity. Qed.

Lemma pbo_ins_facts : forall comps acc n, exists n',
  pbo_ins repaired comps acc pbop n = Ok n' /\
  (forall q, node_at q n <> None -> node_at q n' <> None) /\
  (forall q m', node_at q n' = Some m' ->
     n_phys m' = [pbop] \/ exists m, node_at q n = Some m /\ n_phys m' = n_phys m) /\
  node_at comps n' <> None.
Proof.
  induction comps as [|c r IH]; intros acc n.
  - exists n. cbn. split; [reflexivity|]. split; [auto|]. split; [eauto|discriminate].
  - set (ch0 := match find_child c (n_next n) with Some ch => ch | None => Node [] [pbop] (pjoin acc c) end).
    destruct (IH (pjoin acc c) ch0) as (ch' & Hi & H1 & H2 & H3).
    exists (Node (set_child c ch' (n_next n)) (n_phys n) (n_vfull n)). split; [|split; [|split]].
    + cbn [pbo_ins d_pbo_end_deref repaired]. subst ch0.
      destruct (find_child c (n_next n)); [rewrite Hi; reflexivity|].
      rewrite fresh_chain_ins in Hi. inversion Hi. reflexivity.
    + intros [|k q'] Hq; [discriminate|]. rewrite node_at_set. destruct (eqs k c) eqn:Ek; [|exact Hq].
      apply eqs_eq in Ek. subst k. apply H1. subst ch0. cbn in Hq.
      destruct (find_child c (n_next n)); [exact Hq|contradiction].
    + intros [|k q'] m' Hq; [right; exists n; inversion Hq; split; reflexivity|].
      rewrite node_at_set in Hq. destruct (eqs k c) eqn:Ek; [|eauto].
      apply eqs_eq in Ek. subst k. cbn [node_at]. destruct (H2 q' m' Hq) as [Hp|(m & Hm & Hp)]; [auto|]. subst ch0.
      destruct (find_child c (n_next n)); [eauto|].
      left. destruct q'; [|discriminate]. inversion Hm; subst. exact Hp.
    + rewrite node_at_set, eqs_refl. exact H3.
Qed.

Definition pbo_tree (n : node) : Prop := forall q m, q <> [] -> node_at q n = Some m -> n_phys m = [pbop].

(* an entry whose path is empty is skipped, which is what inserting the empty path does *)
Lemma pbo_files_cons : forall nm r prefix root,
  pbo_files repaired (nm :: r) prefix pbop root =
  match pbo_ins repaired (pcomps (entry_path repaired prefix nm)) [] pbop root with
  | Ok root1 => pbo_files repaired r prefix pbop root1
  | UB l => UB l
  | Throw l => Throw l
  end.
Proof.
  intros nm r prefix root. cbn [pbo_files d_pbo_native repaired].
  destruct (pcomps (entry_path repaired prefix nm)); reflexivity.
Qed.

Lemma pbo_files_facts : forall names prefix root, pbo_tree root -> exists root',
  pbo_files repaired names prefix pbop root = Ok root' /\ pbo_tree root' /\
  (forall q, node_at q root <> None -> node_at q root' <> None) /\
  (forall nm, In nm names -> node_at (pcomps (entry_path repaired prefix nm)) root' <> None).
Proof.
  induction names as [|nm r IH]; intros prefix root Ht.
  - exists root. cbn. split; [reflexivity|]. split; [exact Ht|]. split; [auto|intros nm []].
  - rewrite pbo_files_cons.
    destruct (pbo_ins_facts (pcomps (entry_path repaired prefix nm)) [] root) as (root1 & Hi & H1 & H2 & H3). rewrite Hi.
    assert (Ht1 : pbo_tree root1).
    { intros q m Hq Hm. destruct (H2 q m Hm) as [Hp|(m0 & Hm0 & Hp)]; [exact Hp|]. rewrite Hp. eapply Ht; eauto. }
    destruct (IH prefix root1 Ht1) as (root' & Hf & Ht' & Hk & Hn).
    exists root'. split; [exact Hf|]. split; [exact Ht'|]. split; [auto|].
    intros nm' [<-|Hin]; [apply Hk, H3|apply Hn, Hin].
Qed.

End PboRoute.

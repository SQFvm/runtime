(* C16 - virtual file system. The theorems; the lemmas they rest on are in VFS/VfsProofs.v.
   The model (VFS/VfsDefs.v) mirrors sqf::fileio::impl_default and the operators that go
   through it; [repaired] is the code with proposed_fixes/C16-*.diff and C17-*.diff applied,
   [as_is] the code as found. The model is tied to the C++ by the correspondence run of
   checks/C16.py (both settings of the switches are executed on every case).

   fsk : path -> {absent, file, directory} is the operating system; it is universally
   quantified in every theorem. Symlinks and case-insensitive file systems are outside. *)
From Coq Require Import ZArith List Bool String Ascii.
Import ListNotations.
From SqfVerif Require Import VFS.VfsDefs VFS.VfsProofs.
Local Open Scope Z_scope.

(* ---- containment: every mapping tree (not only reachable ones), every request, every current
   file, every setting of the defect switches: a resolved path is a mapped physical root followed
   by segments none of which is ".." or contains a separator, and the file exists. *)
Theorem C16_containment : forall d fsk t req curp curv p v,
  get_info d fsk t req curp curv = Ok (Some (p, v)) ->
  (exists root rem, In root (vroots t) /\ p = root ++ vfull_of rem /\
                    Forall (fun s => s <> dotdot /\ ~ In SL s) rem) /\
  file_exists d fsk p = true.
Proof.
  intros d fsk t req curp curv p v H.
  destruct (get_info_sound d fsk t req curp curv) as [[E|(root & rem & v' & Hr & Hrem & He & E)]|[[_ E]|[_ E]]];
    rewrite E in H; try discriminate.
  inversion H; subst. split; [exists root, rem; auto|exact He].
Qed.
Print Assumptions C16_containment.

(* ---- the repaired resolution never runs into undefined behaviour or an exception, whatever the
   tree and the inputs (the model's UB outcomes: end-iterator dereference, back() of an empty
   vector, out_of_range) *)
Theorem C16_no_ub : forall fsk t req curp curv, exists r, get_info repaired fsk t req curp curv = Ok r.
Proof. exact (fun fsk => get_info_ok repaired fsk eq_refl eq_refl). Qed.
Print Assumptions C16_no_ub.

(* ---- the virtual route equals its specification, for ALL lists of mappings, trees on disk and
   request strings (absolute, or relative with no current virtual directory):
   normalise (separators, blanks, ".." against the segment before it); a path that still starts
   with ".." leaves the virtual root: not found; otherwise the deepest prefix that has a root
   decides and its roots are tried in mapping order. *)
Theorem C16_resolve_spec : forall fsk ms req curv,
  trim (cleanse req) <> [] ->
  (has_root (trim (cleanse req)) = true \/ curv = []) ->
  giv repaired fsk (build repaired ms) req curv =
  Ok (match spec_virtual repaired fsk ms (ddnorm (segs_of (trim (cleanse req)))) with
      | Some p => Some (p, trim (cleanse req))
      | None => None
      end).
Proof. exact (fun fsk => giv_spec repaired fsk eq_refl eq_refl). Qed.
Print Assumptions C16_resolve_spec.

(* ---- deepest prefix wins: the resolved path is root ++ rest where the normalised request is
   P ++ rest, root is mapped onto exactly P, and no longer prefix of the request has any root *)
Theorem C16_deepest_prefix_wins : forall fsk ms req curv p v,
  trim (cleanse req) <> [] -> (has_root (trim (cleanse req)) = true \/ curv = []) ->
  giv repaired fsk (build repaired ms) req curv = Ok (Some (p, v)) ->
  exists P rest root,
    ddnorm (segs_of (trim (cleanse req))) = P ++ rest /\
    In root (roots_at repaired ms P) /\ p = root ++ vfull_of rest /\
    (forall P' x, rest = P' ++ x -> P' <> [] -> roots_at repaired ms (P ++ P') = []) /\
    Forall (fun s => s <> dotdot) (P ++ rest).
Proof.
  intros fsk ms req curv p v H1 H2 H.
  destruct (resolve_sound fsk ms req curv p v H1 H2 H) as (_ & P & rest & r1 & root & r2 & E & Er & Hp & _ & _ & Hd & Hn).
  exists P, rest, root. repeat split; auto. rewrite Er. apply in_or_app. right. left. reflexivity.
Qed.
Print Assumptions C16_deepest_prefix_wins.

(* ---- first root wins: among the roots of that prefix, in mapping order, every root before the
   one chosen does not contain the file; the one chosen does *)
Theorem C16_first_root_wins : forall fsk ms req curv p v,
  trim (cleanse req) <> [] -> (has_root (trim (cleanse req)) = true \/ curv = []) ->
  giv repaired fsk (build repaired ms) req curv = Ok (Some (p, v)) ->
  exists P rest r1 root r2,
    ddnorm (segs_of (trim (cleanse req))) = P ++ rest /\
    roots_at repaired ms P = r1 ++ root :: r2 /\ p = root ++ vfull_of rest /\
    file_exists repaired fsk p = true /\
    Forall (fun r' => file_exists repaired fsk (r' ++ vfull_of rest) = false) r1.
Proof.
  intros fsk ms req curv p v H1 H2 H.
  destruct (resolve_sound fsk ms req curv p v H1 H2 H) as (_ & P & rest & r1 & root & r2 & E & Er & Hp & He & Hf & _ & _).
  exists P, rest, r1, root, r2. repeat split; auto.
Qed.
Print Assumptions C16_first_root_wins.

(* ---- and conversely the file is found whenever the property says so *)
Theorem C16_resolves_when_present : forall fsk ms req curv P rest r1 root r2,
  trim (cleanse req) <> [] -> (has_root (trim (cleanse req)) = true \/ curv = []) ->
  ddnorm (segs_of (trim (cleanse req))) = P ++ rest ->
  starts_dd (P ++ rest) = false ->
  roots_at repaired ms P = r1 ++ root :: r2 ->
  (forall P' x, rest = P' ++ x -> P' <> [] -> roots_at repaired ms (P ++ P') = []) ->
  file_exists repaired fsk (root ++ vfull_of rest) = true ->
  Forall (fun r' => file_exists repaired fsk (r' ++ vfull_of rest) = false) r1 ->
  giv repaired fsk (build repaired ms) req curv = Ok (Some (root ++ vfull_of rest, trim (cleanse req))).
Proof.
  intros fsk ms req curv P rest r1 root r2 Hne Habs EL Hsd Hr Hdeep He Hf.
  rewrite (giv_spec repaired fsk eq_refl eq_refl) by assumption. unfold spec_virtual. rewrite EL, Hsd.
  rewrite (deepest_unique repaired ms P [] rest); cbn [app]; [|rewrite Hr; destruct r1; discriminate|exact Hdeep].
  rewrite Hr, (proj2 (try_roots_first repaired fsk _ _ (root ++ vfull_of rest))); [reflexivity|].
  exists r1, root, r2. auto.
Qed.
Print Assumptions C16_resolves_when_present.

(* ---- relative to the current file: a request made from a file without virtual path
   (rel_first), or one whose current virtual path is no virtual directory (giv = not found), is
   read as the physical path gip_target = normal (directory of the current file / request);
   when every mapped root it lies under turns it into the same virtual path tv0, the request
   resolves exactly as the absolute virtual request tv0 does. Any tree. *)
Theorem C16_relative_to_current : forall fsk t req curp curv tv0 x,
  (rel_first repaired req curp curv = true \/ giv repaired fsk t req curv = Ok None) ->
  Forall (fun c => forall rc, prefix_test repaired (pcomps (snd c)) (pcomps (gip_target repaired fsk req curp)) = PMatch rc ->
                   lexnorm (fst c ++ SL :: fold_left pjoin rc []) = tv0) (cands t) ->
  Exists (fun c => exists rc, prefix_test repaired (pcomps (snd c)) (pcomps (gip_target repaired fsk req curp)) = PMatch rc) (cands t) ->
  giv repaired fsk t (cleanse tv0) curv = Ok (Some x) ->
  get_info repaired fsk t req curp curv = Ok (Some x).
Proof. exact relative_to_current. Qed.
Print Assumptions C16_relative_to_current.

(* ---- the same for the tree of ANY list of mappings, hypotheses on the list: q ranges over virtual
   prefixes, r over the roots mapped onto q (vf_of q = "/" for the root prefix, "/a/b" otherwise) *)
Theorem C16_relative_to_current_mappings : forall fsk ms req curp curv tv0 x,
  (rel_first repaired req curp curv = true \/ giv repaired fsk (build repaired ms) req curv = Ok None) ->
  (forall q r rc, In r (roots_at repaired ms q) ->
     prefix_test repaired (pcomps r) (pcomps (gip_target repaired fsk req curp)) = PMatch rc ->
     lexnorm (vf_of q ++ SL :: fold_left pjoin rc []) = tv0) ->
  (exists q r rc, In r (roots_at repaired ms q) /\
     prefix_test repaired (pcomps r) (pcomps (gip_target repaired fsk req curp)) = PMatch rc) ->
  giv repaired fsk (build repaired ms) (cleanse tv0) curv = Ok (Some x) ->
  get_info repaired fsk (build repaired ms) req curp curv = Ok (Some x).
Proof.
  intros fsk ms req curp curv tv0 x Hfirst Hall Hex Hg.
  apply (relative_to_current fsk (build repaired ms) req curp curv tv0 x Hfirst); [| |exact Hg].
  - apply Forall_forall. intros [vf r] Hin rc Hrc. cbn in *.
    apply cands_build in Hin. destruct Hin as (q & Hv & Hr). subst vf. eapply Hall; eauto.
  - destruct Hex as (q & r & rc & Hr & Hrc). apply Exists_exists. exists (vf_of q, r). split.
    + apply cands_build. exists q. auto.
    + exists rc. exact Hrc.
Qed.
Print Assumptions C16_relative_to_current_mappings.

(* ---- traversal, virtual side: a request that, after normalisation, still starts with ".."
   (it climbs above the virtual root) is not found. Any tree. *)
Theorem C16_traversal_not_found_virtual : forall fsk t req curv,
  (has_root (trim (cleanse req)) = true \/ curv = []) ->
  starts_dd (ddnorm (segs_of (trim (cleanse req)))) = true ->
  giv repaired fsk t req curv = Ok None.
Proof.
  intros fsk t req curv Habs Hsd.
  assert (Hne : trim (cleanse req) <> []) by (intros E; rewrite E in Hsd; discriminate).
  rewrite (giv_best repaired fsk eq_refl eq_refl) by assumption. cbv zeta. rewrite Hsd. reflexivity.
Qed.
Print Assumptions C16_traversal_not_found_virtual.

(* ---- traversal, physical side: a request that names nothing virtually and whose lexically
   normal physical reading lies under none of the mapped roots is not found. Any tree.
   (Together with C16_containment: nothing outside the mapped directories is ever yielded.) *)
Theorem C16_traversal_not_found_physical : forall fsk t req curp curv,
  giv repaired fsk t req curv = Ok None ->
  Forall (fun c => prefix_test repaired (pcomps (snd c)) (pcomps (gip_target repaired fsk req curp)) = PNo) (cands t) ->
  get_info repaired fsk t req curp curv = Ok None.
Proof.
  intros fsk t req curp curv Hg Ho. rewrite get_info_novirt by exact Hg. apply gip_loop_outside. exact Ho.
Qed.
Print Assumptions C16_traversal_not_found_physical.

(* ---- the operation acts on the file resolved: reading it cannot fail, it is never a directory,
   and (no archive mounted under that name) it is the regular file at exactly that path *)
Theorem C16_read_after_resolve : forall fsk t req curp curv p v,
  get_info repaired fsk t req curp curv = Ok (Some (p, v)) ->
  exists r, read_file repaired fsk t p v = Ok r /\ r <> RdDirThrow /\
            (pbo_find (lexnorm p) (v_pbos t) = None -> r = RdDisk p).
Proof.
  intros fsk t req curp curv p v H.
  destruct (C16_containment repaired fsk t req curp curv p v H) as [_ He].
  (* what exists is a regular file: a directory does not count once d_dir_is_file is off *)
  assert (Hd : read_disk repaired fsk p = Ok (RdDisk p)).
  { unfold file_exists in He. unfold read_disk. destruct (fsk p); [discriminate|reflexivity|discriminate]. }
  unfold read_file. rewrite Hd. cbn [d_pbo_by_ext repaired].
  destruct (eqs (extension p) pbo_ext); [|eexists; split; [reflexivity|split; [discriminate|reflexivity]]].
  destruct (pbo_find (lexnorm p) (v_pbos t)) as [pb|]; [|eexists; split; [reflexivity|split; [discriminate|reflexivity]]].
  destruct (pbo_prefix pb) as [prefix|]; [destruct (index_of _ _ 0)|]; eexists; (split; [reflexivity|split; discriminate]).
Qed.
Print Assumptions C16_read_after_resolve.

(* ---- execVM runs the (preprocessed) code of the file its argument resolves to *)
Theorem C16_execvm_runs_file : forall fsk cont fuel t req p v,
  get_info repaired fsk t req [] [] = Ok (Some (p, v)) ->
  op_execvm repaired fsk cont fuel t req = ORun (pre_file repaired fsk cont fuel t p v).
Proof.
  intros fsk cont fuel t req p v H. unfold op_execvm. rewrite H.
  destruct (pre_file repaired fsk cont fuel t p v); reflexivity.
Qed.
Print Assumptions C16_execvm_runs_file.

(* ---- the PBO route (what C17 needs of the VFS): after mounting an archive (prefix + entry names)
   on an empty VFS, every entry whose virtual path prefix/name is a plain path L (segments not empty,
   not "..", written without blanks at the ends) resolves, under "/" ++ that path, to the archive, and
   read_file selects entry j - the first entry with this virtual path; PboDefs.read_entry (C17) then
   yields its bytes unchanged. Any list of names, any prefix. *)
Theorem C17_vfs_entry_readable : forall pbop fsk prefix names t nm L,
  add_pbo repaired vfs_empty {| pbo_path := pbop; pbo_prefix := Some prefix; pbo_names := names |} = Ok t ->
  fsk pbop = KFile -> eqs (extension pbop) pbo_ext = true ->
  In nm names ->
  pcomps (entry_path repaired prefix nm) = L -> L <> [] -> Forall pseg L ->
  pbo_wanted (vfull_of L) = entry_path repaired prefix nm ->
  trim (cleanse (vfull_of L)) = vfull_of L ->
  get_info repaired fsk t (vfull_of L) [] [] = Ok (Some (pbop, vfull_of L)) /\
  exists j nm', read_file repaired fsk t pbop (vfull_of L) = Ok (RdPbo (lexnorm pbop) j) /\
                nth_error names j = Some nm' /\
                entry_path repaired prefix nm' = entry_path repaired prefix nm.
Proof.
  intros pbop fsk prefix names t nm L Ha Hk Hext Hin HL Hne Hps Hnorm Htrim.
  (* mounting leaves a tree whose nodes carry the archive's path, with a node for every entry *)
  unfold add_pbo in Ha. cbn in Ha.
  assert (Ht0 : pbo_tree pbop (Node [] [] [SL])) by (intros [|] m Hq Hm; [contradiction|discriminate]).
  destruct (pbo_files_facts pbop names prefix _ Ht0) as (root' & Hf & Ht' & _ & Hn).
  rewrite Hf in Ha. inversion Ha; subst t. clear Ha.
  specialize (Hn nm Hin). rewrite HL in Hn.
  destruct (node_at L root') as [leaf|] eqn:El; [|contradiction].
  assert (Hlp : n_phys leaf = [pbop]) by (eapply Ht'; eauto).
  destruct (pseg_Forall L Hps) as (HnL & HdL & HsL).
  split.
  - unfold get_info, get_info_std.
    replace (rel_first repaired (vfull_of L) [] []) with false by (unfold rel_first; cbn; rewrite andb_false_r; reflexivity).
    rewrite (giv_at_node repaired fsk eq_refl eq_refl _ L leaf) by (rewrite ?Hlp; auto).
    rewrite Hlp. unfold try_found. cbn [try_roots]. rewrite app_nil_r.
    unfold file_exists. rewrite Hk. reflexivity.
  - (* the name asked for is the first one with this entry path *)
    unfold read_file. rewrite Hext. cbn [v_pbos pbo_find]. rewrite eqs_refl. cbn [pbo_prefix pbo_names].
    unfold pbo_entry_name. cbn [d_pbo_substr repaired]. rewrite Hnorm.
    destruct (find (fun nm0 => eqs (entry_path repaired prefix nm0) (entry_path repaired prefix nm)) names) as [nm'|] eqn:Efd.
    + apply find_some in Efd. destruct Efd as [Hin' He']. apply eqs_eq in He'.
      destruct (index_of_some nm' names 0 Hin') as (j & Hj & Hnth). rewrite Hj. cbn.
      exists j, nm'. repeat split; auto.
    + exfalso. pose proof (find_none _ _ Efd nm Hin) as Hx. cbn in Hx. rewrite eqs_refl in Hx. discriminate.
Qed.
Print Assumptions C17_vfs_entry_readable.

Definition zs (s : string) : list Z := map (fun a => Z.of_N (N_of_ascii a)) (list_ascii_of_string s).
Definition pth (s : string) : list (list Z) := filter nonempty (split_on SL (zs s)).
Definition ex_tree : tree :=
  [ (pth "/tmp", true); (pth "/tmp/@@", true);
    (pth "/tmp/@@/r0", true); (pth "/tmp/@@/r0/a.sqf", false); (pth "/tmp/@@/r0/b", true); (pth "/tmp/@@/r0/b/x.sqf", false);
    (pth "/tmp/@@/r1", true); (pth "/tmp/@@/r1/a.sqf", false); (pth "/tmp/@@/r1/m.sqf", false); (pth "/tmp/@@/r1/arch.pbo", false);
    (pth "/tmp/@@/r1/sub", true); (pth "/tmp/@@/r1/sub/a.sqf", false); (pth "/tmp/@@/r1/sub/m.sqf", false);
    (pth "/tmp/@@/r2", true); (pth "/tmp/@@/r2/a.sqf", false); (pth "/tmp/@@/r2/c.sqf", false);
    (pth "/tmp/@@/out", true); (pth "/tmp/@@/out/secret.sqf", false); (pth "/tmp/@@/a.pbo", false) ]%string.
Definition ex_fsk : list Z -> kind := os_kind ex_tree (pth "/tmp/@@").
Definition ex_maps : list (list Z * list Z) :=
  [ (zs "/tmp/@@/r1", zs "/x"); (zs "/tmp/@@/r2", zs "\x"); (zs "/tmp/@@/r1/sub", zs "/x/y") ]%string.

(* non-vacuity of the hypotheses of the positive theorems, on the repaired model *)
Example ex_first_root : giv repaired ex_fsk (build repaired ex_maps) (zs "\x\/a.sqf") [] =
  Ok (Some (zs "/tmp/@@/r1/a.sqf", zs "/x//a.sqf")).
Proof. vm_compute. reflexivity. Qed.
Example ex_second_root : giv repaired ex_fsk (build repaired ex_maps) (zs "/x/zz/../c.sqf") [] =
  Ok (Some (zs "/tmp/@@/r2/c.sqf", zs "/x/zz/../c.sqf")).
Proof. vm_compute. reflexivity. Qed.
Example ex_deepest : giv repaired ex_fsk (build repaired ex_maps) (zs "/x/y/a.sqf") [] =
  Ok (Some (zs "/tmp/@@/r1/sub/a.sqf", zs "/x/y/a.sqf")).
Proof. vm_compute. reflexivity. Qed.
Example ex_escape : get_info repaired ex_fsk (build repaired ex_maps) (zs "/x/../../tmp/@@/out/secret.sqf") [] [] = Ok None
  /\ get_info repaired ex_fsk (build repaired ex_maps) (zs "/tmp/@@/r1/../out/secret.sqf") [] [] = Ok None
  /\ get_info repaired ex_fsk (build repaired ex_maps) (zs "/tmp/@@/out/secret.sqf") [] [] = Ok None
  /\ get_info repaired ex_fsk (build repaired ex_maps) (zs "/tmp/@@") [] [] = Ok None
  /\ starts_dd (ddnorm (segs_of (trim (cleanse (zs "/x/../../tmp/@@/out/secret.sqf"))))) = true.
Proof. vm_compute. repeat split; reflexivity. Qed.
Example ex_relative : get_info repaired ex_fsk (build repaired ex_maps) (zs "..\a.sqf") (zs "/tmp/@@/r1/sub/m.sqf") [] =
  Ok (Some (zs "/tmp/@@/r1/a.sqf", zs "/x/a.sqf"))
  /\ rel_first repaired (zs "..\a.sqf") (zs "/tmp/@@/r1/sub/m.sqf") [] = true
  /\ gip_target repaired ex_fsk (zs "..\a.sqf") (zs "/tmp/@@/r1/sub/m.sqf") = zs "/tmp/@@/r1/a.sqf".
Proof. vm_compute. repeat split; reflexivity. Qed.

(* the hypotheses of C17_vfs_entry_readable hold for an ordinary archive entry *)
Example ex_pbo_hyps :
  let prefix := zs "x\y" in let nm := zs "fn\b.sqf" in let L := [zs "x"; zs "y"; zs "fn"; zs "b.sqf"] in
  pcomps (entry_path repaired prefix nm) = L /\
  pbo_wanted (vfull_of L) = entry_path repaired prefix nm /\
  trim (cleanse (vfull_of L)) = vfull_of L /\ ex_fsk (zs "/tmp/@@/a.pbo") = KFile /\
  eqs (extension (zs "/tmp/@@/a.pbo")) pbo_ext = true.
Proof. vm_compute. repeat split; reflexivity. Qed.

(* the code as found (as_is): witnesses against the statements above *)

(* an absolute path that is a proper prefix of a mapped root: std::mismatch walks off the end *)
Theorem C16_traversal_not_found_refuted_as_is : exists fsk ms req,
  get_info as_is fsk (build as_is ms) req [] [] = UB 183.
Proof. exists ex_fsk, ex_maps, (zs "/tmp/@@"). vm_compute. reflexivity. Qed.
Print Assumptions C16_traversal_not_found_refuted_as_is.

(* a node that exists only for the sake of a deeper mapping hides the shallower mapped prefix *)
Theorem C16_deepest_prefix_wins_refuted_as_is : exists fsk ms req,
  giv as_is fsk (build as_is ms) req [] = Ok None /\
  spec_virtual as_is fsk ms (ddnorm (segs_of (trim (cleanse req)))) <> None.
Proof.
  exists ex_fsk, [ (zs "/tmp/@@/r0", zs "/a"); (zs "/tmp/@@/r1", zs "/a/b/c") ]%string, (zs "/a/b/x.sqf").
  vm_compute. split; [reflexivity|discriminate].
Qed.
Print Assumptions C16_deepest_prefix_wins_refuted_as_is.

(* ".." after a segment below the mapped nodes is dropped: /x/sub/../a.sqf names /x/sub/a.sqf *)
Theorem C16_dotdot_resolved_refuted_as_is : exists fsk ms req p v,
  giv as_is fsk (build as_is ms) req [] = Ok (Some (p, v)) /\
  spec_virtual as_is fsk ms (ddnorm (segs_of (trim (cleanse req)))) <> Some p.
Proof.
  exists ex_fsk, [ (zs "/tmp/@@/r1", zs "/x") ]%string, (zs "/x/sub/../a.sqf"), (zs "/tmp/@@/r1/sub/a.sqf"), (zs "/x/sub/../a.sqf").
  vm_compute. split; [reflexivity|discriminate].
Qed.
Print Assumptions C16_dotdot_resolved_refuted_as_is.

(* a mapped directory resolves as if it were a file; reading it throws *)
Theorem C16_read_after_resolve_refuted_as_is : exists fsk ms req p v,
  get_info as_is fsk (build as_is ms) req [] [] = Ok (Some (p, v)) /\
  read_file as_is fsk (build as_is ms) p v = Ok RdDirThrow.
Proof.
  exists ex_fsk, [ (zs "/tmp/@@/r1", zs "/x") ]%string, (zs "/x/sub"), (zs "/tmp/@@/r1/sub"), (zs "/x/sub").
  vm_compute. split; reflexivity.
Qed.
Print Assumptions C16_read_after_resolve_refuted_as_is.

(* relative requests: a backslash is no separator in the physical route; a root written with a
   trailing separator is never recognised; the virtual root is preferred to the current file *)
Theorem C16_relative_to_current_refuted_as_is : exists fsk,
  get_info as_is fsk (build as_is [ (zs "/tmp/@@/r1", zs "/x") ]%string) (zs "..\a.sqf") (zs "/tmp/@@/r1/sub/m.sqf") (zs "/x/sub/m.sqf")
    = Ok (Some (zs "/tmp/@@/r1/sub/a.sqf", zs "/x/sub/../a.sqf")) /\
  get_info repaired fsk (build repaired [ (zs "/tmp/@@/r1", zs "/x") ]%string) (zs "..\a.sqf") (zs "/tmp/@@/r1/sub/m.sqf") (zs "/x/sub/m.sqf")
    = Ok (Some (zs "/tmp/@@/r1/a.sqf", zs "/x/a.sqf")) /\
  get_info as_is fsk (build as_is [ (zs "/tmp/@@/r1/", zs "/x") ]%string) (zs "a.sqf") (zs "/tmp/@@/r1/sub/m.sqf") (zs "/x/sub/m.sqf") = Ok None /\
  get_info repaired fsk (build repaired [ (zs "/tmp/@@/r1/", zs "/x") ]%string) (zs "a.sqf") (zs "/tmp/@@/r1/sub/m.sqf") (zs "/x/sub/m.sqf")
    = Ok (Some (zs "/tmp/@@/r1/sub/a.sqf", zs "/x/sub/a.sqf")) /\
  get_info as_is fsk (build as_is [ (zs "/tmp/@@/r0", zs "/"); (zs "/tmp/@@/r1", zs "/x") ]%string) (zs "a.sqf") (zs "/tmp/@@/r1/m.sqf") []
    = Ok (Some (zs "/tmp/@@/r0/a.sqf", zs "a.sqf")) /\
  get_info repaired fsk (build repaired [ (zs "/tmp/@@/r0", zs "/"); (zs "/tmp/@@/r1", zs "/x") ]%string) (zs "a.sqf") (zs "/tmp/@@/r1/m.sqf") []
    = Ok (Some (zs "/tmp/@@/r1/a.sqf", zs "/x/a.sqf")).
Proof. exists ex_fsk. vm_compute. repeat split; reflexivity. Qed.
Print Assumptions C16_relative_to_current_refuted_as_is.

(* execVM compiles its own argument *)
Theorem C16_execvm_runs_file_refuted_as_is : exists fsk cont fuel ms req,
  op_execvm as_is fsk cont fuel (build as_is ms) req = ORunArg req /\
  exists p v, get_info as_is fsk (build as_is ms) req [] [] = Ok (Some (p, v)).
Proof.
  exists ex_fsk, (fun _ => zs "RES = 1;"), 5%nat, ex_maps, (zs "/x/a.sqf"). split.
  - vm_compute. reflexivity.
  - eexists. eexists. vm_compute. reflexivity.
Qed.
Print Assumptions C16_execvm_runs_file_refuted_as_is.

(* a plain file whose name ends in .pbo is taken for a mounted archive: nothing is read;
   a root "//" makes substr throw *)
Theorem C16_read_file_refuted_as_is : exists fsk,
  read_file as_is fsk (build as_is ex_maps) (zs "/tmp/@@/r1/arch.pbo") (zs "/x/arch.pbo") = Ok RdEmpty /\
  read_file repaired fsk (build repaired ex_maps) (zs "/tmp/@@/r1/arch.pbo") (zs "/x/arch.pbo") = Ok (RdDisk (zs "/tmp/@@/r1/arch.pbo")) /\
  get_info as_is fsk (build as_is [ (zs "//", zs "/x") ]%string) (zs "/a") [] [] = Throw 189.
Proof. exists ex_fsk. vm_compute. repeat split; reflexivity. Qed.
Print Assumptions C16_read_file_refuted_as_is.

(* ---- the PBO route (needed by C17): with prefix x\y the entries are unreachable as found, an
   entry listed twice runs into the end iterator, and cli.cpp hands an empty config text on *)
Definition ex_pbo : pbo := {| pbo_path := zs "/tmp/@@/a.pbo"; pbo_prefix := Some (zs "x\y");
                              pbo_names := [ zs "a.sqf"; zs "fn\b.sqf" ] |}%string.
Theorem C17_vfs_read_refuted_as_is : exists fsk,
  (exists t, add_pbo as_is vfs_empty ex_pbo = Ok t /\ get_info as_is fsk t (zs "\x\y\fn\b.sqf") [] [] = Ok None) /\
  (exists t, add_pbo repaired vfs_empty ex_pbo = Ok t /\
             get_info repaired fsk t (zs "\x\y\fn\b.sqf") [] [] = Ok (Some (zs "/tmp/@@/a.pbo", zs "/x/y/fn/b.sqf")) /\
             read_file repaired fsk t (zs "/tmp/@@/a.pbo") (zs "/x/y/fn/b.sqf") = Ok (RdPbo (zs "/tmp/@@/a.pbo") 1)) /\
  add_pbo as_is vfs_empty {| pbo_path := zs "/tmp/@@/a.pbo"; pbo_prefix := Some (zs "x/y"); pbo_names := [ zs "a.sqf"; zs "a.sqf" ] |} = UB 250 /\
  cli_pbo_config as_is (zs "class A {};") = [] /\ cli_pbo_config repaired (zs "class A {};") = zs "class A {};".
Proof.
  exists ex_fsk. split; [|split; [|split; [|split]]].
  - eexists. split; vm_compute; reflexivity.
  - eexists. split; [vm_compute; reflexivity|]. split; vm_compute; reflexivity.
  - vm_compute. reflexivity.
  - reflexivity.
  - reflexivity.
Qed.
Print Assumptions C17_vfs_read_refuted_as_is.

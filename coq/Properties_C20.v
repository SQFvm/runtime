(* C20 - runs are deterministic and VM instances are isolated from each other.
   About API/IsoDefs: programs that read / write the process state G (the writable statics of the implementation as found
   by translators/statics.py, Gen/Statics.v) from a fresh VM instance.  iso_as_is = /repo before proposed_fixes/C20-01,
   iso_counter_fixed = with it (the print mode set by toFixed stays process-wide: finding tofixed-process-wide),
   iso_spec = every component in the instance. *)
From Coq Require Import String ZArith List Bool.
From SqfVerif Require Import Gen.Statics VM.VmDefs API.IsoDefs API.IsoProofs.
Import ListNotations.
Local Open Scope list_scope.

(* a run in a fresh VM is a function of the program and the process state: nothing else (no other instance) enters *)
Theorem C20_deterministic : forall d g p o1 g1 o2 g2, run d g p = (o1, g1) -> run d g p = (o2, g2) -> o1 = o2 /\ g1 = g2.
Proof. exact deterministic. Qed.
Print Assumptions C20_deterministic.

(* what a program prints depends only on the components of G it reads *)
Theorem C20_outputs_depend_on_reads_only : forall d p g g', agree (reads d p) g g' -> out_of d g p = out_of d g' p.
Proof. exact outputs_depend_on_reads_only. Qed.
Print Assumptions C20_outputs_depend_on_reads_only.

(* output(P in a fresh VM) is the same whether or not Q ran before it in the process, provided Q writes no shared
   component that P reads - for every placement of the components *)
Theorem C20_noninterference_modulo : forall d p q g, disjoint (reads d p) (writes d q) = true ->
  out_of d (after d g q) p = out_of d g p.
Proof. exact noninterference_modulo. Qed.
Print Assumptions C20_noninterference_modulo.

(* with every component in the instance: full non-interference *)
Theorem C20_noninterference_spec : forall p q g, out_of iso_spec (after iso_spec g q) p = out_of iso_spec g p.
Proof. intros p q g. apply noninterference_modulo, disjoint_reads. intros o c _ Ho. destruct o; destruct Ho. Qed.
Print Assumptions C20_noninterference_spec.

(* with the counter in the runtime (C20-01): P is unaffected unless it prints a number AND Q used toFixed *)
Theorem C20_counter_fixed_only_mode_left : forall p q g, (prints p = false \/ sets_mode q = false) ->
  out_of iso_counter_fixed (after iso_counter_fixed g q) p = out_of iso_counter_fixed g p.
Proof.
  intros p q g H. apply noninterference_modulo, disjoint_reads. intros o c Hop Ho.
  (* what is read is the mode, by an operation that prints a number *)
  assert (Hpn : prints_number o = true /\ c = Dec).
  { destruct o; cbn in Ho; try contradiction; destruct Ho as [<-|[]]; auto. }
  destruct Hpn as [Hpn ->].
  destruct H as [H|H].
  - assert (X : prints p = true) by (apply existsb_exists; eauto). congruence.
  - (* and only toFixed writes it *)
    apply not_true_is_false. intros E. apply existsb_exists in E. destruct E as [x [Hx He]].
    apply in_flat_map in Hx. destruct Hx as [o2 [Hq Ho2]]. destruct o2; cbn in Ho2; try contradiction.
    assert (X : sets_mode q = true) by (apply existsb_exists; eauto). congruence.
Qed.
Print Assumptions C20_counter_fixed_only_mode_left.

(* the code as it is: toFixed in one VM changes what the next VM prints; __COUNTER__ continues across instances *)
Theorem C20_noninterference_refuted :
  (exists p q, out_of iso_as_is (after iso_as_is g0 q) p <> out_of iso_as_is g0 p /\ p = [GPrint 3] /\ q = [GToFixed 2]) /\
  (exists p q, out_of iso_as_is (after iso_as_is g0 q) p <> out_of iso_as_is g0 p /\ p = [GCounter] /\ q = [GCounter]).
Proof. exact noninterference_refuted. Qed.
Print Assumptions C20_noninterference_refuted.

Theorem C20_tofixed_still_leaks_refuted :
  exists p q, out_of iso_counter_fixed (after iso_counter_fixed g0 q) p <> out_of iso_counter_fixed g0 p /\ p = [GPrint 3] /\ q = [GToFixed 2].
Proof. exists [GPrint 3], [GToFixed 2]. split; [vm_compute; discriminate|auto]. Qed.
Print Assumptions C20_tofixed_still_leaks_refuted.

(* every object with static storage in a writable section of the implementation (nm, this run) is one of the classified ones,
   and the only `Mode` entry is the scalar print mode: a new mutable static anywhere in the runtime breaks this obligation *)
Theorem C20_statics_are_exactly_known : statics = map fst modelled_G /\ modes = ["sqf::types::d_scalar::s_decimals"]%string.
Proof. split; [apply sl_eqb_eq; vm_compute; reflexivity|reflexivity]. Qed.
Print Assumptions C20_statics_are_exactly_known.

(* non-vacuity *)
Example ex_run : out_of iso_as_is (after iso_as_is g0 [GToFixed 2; GCounter]) [GPrint 3; GCounter; GIsNil "gx"] = ["3.00"; "1.00"; "true"]%string.
Proof. vm_compute. reflexivity. Qed.
Example ex_disjoint : disjoint (reads iso_as_is [GIsNil "gx"; GPure ["a"%string]]) (writes iso_as_is [GToFixed 2; GCounter]) = true.
Proof. reflexivity. Qed.

(* compile = post-order of the reading; the stack machine computes the value of the reading. *)
From Coq Require Import ZArith List Bool Arith Lia.
Import ListNotations.
From SqfVerif Require Import Syntax.SyntaxDefs Syntax.TreeFacts.

Lemma postorder_stmt_unfold s : postorder_stmt s = match s with
  | SExpr e => postorder e
  | SAssign x e => postorder e ++ [IAssignTo (match x with Var n | Nul n => n | _ => [] end)]
  | SLocal x e => postorder e ++ [IAssignToLocal x]
  end.
Proof. destruct s; reflexivity. Qed.

Lemma text_eqb_eq a b : text_eqb a b = true -> a = b.
Proof.
  revert b. induction a; destruct b; cbn; intros H; try discriminate; auto.
  apply andb_prop in H. destruct H as [H1 H2]. apply Z.eqb_eq in H1. subst. f_equal. auto.
Qed.

Lemma unsigned_postorder : forall a l, unsigned_num a = Some l -> postorder a = [IPush (PLit false l)].
Proof.
  induction a; intros l0 H; cbn [unsigned_num] in H; try discriminate.
  - destruct l; try discriminate; injection H as <-; reflexivity.
  - destruct (text_eqb s sym_plus) eqn:E; [|discriminate].
    apply text_eqb_eq in E. subst s. cbn [postorder]. rewrite H. reflexivity.
  - cbn [postorder]. apply IHa. exact H.
Qed.
Lemma unsigned_kind a l : unsigned_num a = Some l -> (exists s, l = LNum s) \/ (exists s, l = LHex s).
Proof.
  induction a; cbn [unsigned_num]; intros H; try discriminate; auto.
  - destruct l0; try discriminate; injection H as <-; eauto.
  - destruct (text_eqb s sym_plus); [auto|discriminate].
Qed.
Lemma negate_last_push set l : ((exists s, l = LNum s) \/ (exists s, l = LHex s)) ->
  negate_last (set ++ [IPush (PLit false l)]) = Some (set ++ [IPush (PLit true l)]).
Proof.
  intros H. unfold negate_last. rewrite rev_app_distr. cbn [rev app].
  destruct H as [[s ->]|[s ->]]; rewrite rev_involutive; reflexivity.
Qed.

Definition comp_list := fix go (es:list tree) (set:list instr) : option (list instr) :=
  match es with [] => Some set | e :: r => obind (comp e set) (go r) end.
Definition comp_code := fix go (first:bool) (ss:list stmt) (tmp:list instr) : option (list instr) :=
  match ss with
  | [] => Some tmp
  | s :: r => obind (comp_stmt s (if first then tmp else tmp ++ [IEndStatement])) (go false r)
  end.

Lemma comp_arr es set : comp (Arr es) set = obind (comp_list es set) (fun set1 => Some (set1 ++ [IMakeArray (length es)])).
Proof. reflexivity. Qed.
Lemma comp_code_eq ss set : comp (Code ss) set = obind (comp_code true ss []) (fun tmp => Some (set ++ [IPush (PCode tmp)])).
Proof. reflexivity. Qed.
Lemma comp_code_block first ss set : comp_code first ss set = comp_block first ss set.
Proof. revert first set. induction ss; intros; cbn; [reflexivity|]. destruct (comp_stmt _ _); cbn; auto. Qed.

Lemma comp_list_postorder es : Forall (fun e => forall set, comp e set = Some (set ++ postorder e)) es ->
  forall set, comp_list es set = Some (set ++ flat_map postorder es).
Proof.
  induction 1 as [|e es He _ IH]; intros set; [cbn; rewrite app_nil_r; reflexivity|].
  cbn [comp_list flat_map]. rewrite He. cbn [obind]. rewrite IH, <- app_assoc. reflexivity.
Qed.
Lemma comp_block_postorder ss : Forall (fun s => forall set, comp_stmt s set = Some (set ++ postorder_stmt s)) ss ->
  forall first tmp, comp_block first ss tmp =
    Some (tmp ++ match ss with [] => [] | _ => (if first then [] else [IEndStatement]) ++ join [IEndStatement] (map postorder_stmt ss) end).
Proof.
  induction 1 as [|s ss Hs _ IH]; intros first tmp; [cbn; rewrite app_nil_r; reflexivity|].
  cbn [comp_block]. rewrite Hs. cbn [obind]. rewrite IH. destruct ss as [|s2 ss].
  - cbn [map join flat_map]. rewrite !app_nil_r. destruct first; rewrite <- ?app_assoc; reflexivity.
  - cbn [map join flat_map app]. destruct first; rewrite <- !app_assoc; reflexivity.
Qed.

Theorem compile_postorder_both :
  (forall t set, comp t set = Some (set ++ postorder t)) /\
  (forall s set, comp_stmt s set = Some (set ++ postorder_stmt s)).
Proof.
  apply tree_stmt_ind; try reflexivity.
  - intros s a IH set. cbn [comp postorder]. rewrite IH. cbn [obind].
    destruct (unsigned_num a) as [l|] eqn:Eu.
    + rewrite (unsigned_postorder a l Eu).
      destruct (text_eqb s sym_minus) eqn:Em.
      * rewrite orb_true_r. cbn [andb]. rewrite negate_last_push by (eapply unsigned_kind; eauto). reflexivity.
      * rewrite orb_false_r. destruct (text_eqb s sym_plus) eqn:Ep; cbn [andb]; [reflexivity|].
        rewrite <- app_assoc. reflexivity.
    + cbn [andb]. rewrite <- app_assoc. reflexivity.
  - intros k s l r IHl IHr set. cbn [comp postorder]. rewrite IHl. cbn [obind]. rewrite IHr. cbn [obind].
    rewrite <- !app_assoc. reflexivity.
  - intros es IH set. rewrite comp_arr, (comp_list_postorder es IH). cbn [obind postorder]. rewrite <- app_assoc. reflexivity.
  - intros ss IH set. rewrite comp_code_eq, comp_code_block, (comp_block_postorder ss IH). cbn [obind app].
    change (postorder (Code ss)) with [IPush (PCode (join [IEndStatement] (map postorder_stmt ss)))].
    destruct ss; reflexivity.
  - intros a IH set. apply IH.
  - intros e IH set. apply IH.
  - intros x e _ IH set. cbn [comp_stmt postorder_stmt]. rewrite IH. cbn [obind]. rewrite <- app_assoc. reflexivity.
  - intros x e IH set. cbn [comp_stmt postorder_stmt]. rewrite IH. cbn [obind]. rewrite <- app_assoc. reflexivity.
Qed.

Theorem compile_postorder : forall t set, comp t set = Some (set ++ postorder t).
Proof. exact (proj1 compile_postorder_both). Qed.

Theorem compile_block_postorder : forall ss, compile_block ss = Some (postorder_block ss).
Proof.
  intros ss. unfold compile_block, postorder_block. rewrite comp_block_postorder; [destruct ss; reflexivity|].
  apply Forall_forall. intros s _. apply (proj2 compile_postorder_both).
Qed.

Section Stack.
Variable V : Type.
Variable m : sem V.
(* the one thing the sign fold assumes of the operators: `-` / `+` applied to a number literal
   denote its negation / itself (sqf_parser.cpp:76-84) *)
Hypothesis minus_lit : forall l, ((exists s, l = LNum s) \/ (exists s, l = LHex s)) ->
  s_un V m sym_minus (s_lit V m false l) = s_lit V m true l.
Hypothesis plus_lit : forall l, ((exists s, l = LNum s) \/ (exists s, l = LHex s)) ->
  s_un V m sym_plus (s_lit V m false l) = s_lit V m false l.

Lemma run_app c1 c2 st : run_stack V m (c1 ++ c2) st =
  match run_stack V m c1 st with Some st' => run_stack V m c2 st' | None => None end.
Proof. revert st. induction c1; intros; cbn; [reflexivity|]. destruct (step V m a st); auto. Qed.

Lemma pop_n_rev vs st acc : pop_n V (length vs) (rev vs ++ st) acc = Some (vs ++ acc, st).
Proof.
  revert st acc. induction vs using rev_ind; intros st acc; [reflexivity|].
  rewrite app_length, Nat.add_comm. cbn [length plus]. rewrite rev_app_distr. cbn [rev app pop_n].
  rewrite IHvs. rewrite <- app_assoc. reflexivity.
Qed.

Lemma unsigned_eval a l : unsigned_num a = Some l -> eval_tree V m a = s_lit V m false l.
Proof.
  revert l. induction a; intros l0 H; cbn [unsigned_num] in H; try discriminate.
  - destruct l; try discriminate; injection H as <-; reflexivity.
  - destruct (text_eqb s sym_plus) eqn:E; [|discriminate].
    apply text_eqb_eq in E. subst s. cbn [eval_tree]. rewrite (IHa _ H). apply plus_lit. eapply unsigned_kind; eauto.
  - cbn [eval_tree]. auto.
Qed.

Lemma run_elems es : Forall (fun e => forall st, run_stack V m (postorder e) st = Some (eval_tree V m e :: st)) es ->
  forall st, run_stack V m (flat_map postorder es) st = Some (rev (map (eval_tree V m) es) ++ st).
Proof.
  induction 1 as [|e es He _ IH]; intros st; [reflexivity|].
  cbn [flat_map map rev]. rewrite run_app, He, IH, <- app_assoc. reflexivity.
Qed.

Theorem stack_eval_correct : forall t st,
  run_stack V m (postorder t) st = Some (eval_tree V m t :: st).
Proof.
  induction t as [l|v|nm|s a IH|k s l r IHl IHr|es IH|ss|a IH] using tree_list_ind; intros st; try reflexivity.
  - cbn [postorder eval_tree].
    assert (Hgen: run_stack V m (postorder a ++ [ICallUnary (lower s)]) st = Some (s_un V m (lower s) (eval_tree V m a) :: st)).
    { rewrite run_app, IH. reflexivity. }
    destruct (unsigned_num a) as [l|] eqn:Eu; [|exact Hgen].
    pose proof (unsigned_kind a l Eu) as Hk.
    destruct (text_eqb s sym_minus) eqn:Em.
    + apply text_eqb_eq in Em. subst. cbn [run_stack step]. rewrite (unsigned_eval a l Eu).
      change (lower sym_minus) with sym_minus. rewrite minus_lit by assumption. reflexivity.
    + destruct (text_eqb s sym_plus) eqn:Ep; [|exact Hgen].
      apply text_eqb_eq in Ep. subst. cbn [run_stack step]. rewrite (unsigned_eval a l Eu).
      change (lower sym_plus) with sym_plus. rewrite plus_lit by assumption. reflexivity.
  - cbn [postorder eval_tree]. rewrite run_app, IHl, run_app, IHr. reflexivity.
  - cbn [postorder eval_tree]. rewrite run_app, (run_elems es IH). cbn [run_stack step].
    rewrite <- (map_length (eval_tree V m) es), pop_n_rev, app_nil_r. reflexivity.
  - apply IH.
Qed.
End Stack.

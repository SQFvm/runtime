(* lex o render = id : tokens written with arbitrary whitespace (space, tab, CR, LF) between them - and
   none at all next to brackets, separators and after a sign - are read back as the same tokens.
   The step behind it is local: a token's text followed by a character that cannot belong to the token
   (may_follow) is read as that token, whatever comes after the character (lex1_follow).  Syntax/LexGlue.v
   uses the same step with as little whitespace as the token grammar allows. *)
From Coq Require Import ZArith List Bool Arith Lia.
Import ListNotations.
From SqfVerif Require Import Syntax.SyntaxDefs.
Local Open Scope Z_scope.

Definition is_punct_char (c:byte) : bool :=
  (c =? 40) || (c =? 41) || (c =? 91) || (c =? 93) || (c =? 123) || (c =? 125) || (c =? 59) || (c =? 44).
Definition delim (c:byte) : bool := is_ws c || is_punct_char c.

(* tokens after which anything may follow directly: brackets, separators, the signs *)
Definition free_tok (t:rtok) : bool :=
  match t with
  | RCurlyO | RCurlyC | RRoundO | RRoundC | RSquareO | RSquareC | RSemi | RComma => true
  | ROp s => text_eqb s sym_plus || text_eqb s sym_minus
  | _ => false
  end.

Definition follow_ok (t:rtok) (b:text) : Prop :=
  match b with [] => True | c :: _ => delim c = true \/ free_tok t = true end.
Definition dstart (b:text) : Prop := match b with [] => True | c :: _ => delim c = true end.

Ltac btrue := repeat rewrite ?orb_true_iff, ?andb_true_iff, ?Z.eqb_eq, ?Z.leb_le in *.

Lemma delim_not_ident c : delim c = true -> is_ident_char c = false.
Proof.
  intros H. destruct (is_ident_char c) eqn:E; [exfalso|reflexivity].
  unfold delim, is_ws, is_punct_char, is_ident_char, is_alpha, is_upper, is_lower, is_digit in *. btrue. lia.
Qed.
Lemma delim_chars c : delim c = true -> c <> 46 /\ c <> 61 /\ c <> 62 /\ c <> 47 /\ c <> 42 /\ c <> 34 /\ c <> 39.
Proof. unfold delim, is_ws, is_punct_char. intros H. btrue. lia. Qed.

Lemma hex_ident y : is_hexdigit y = true -> is_ident_char y = true.
Proof. intros H. unfold is_hexdigit, is_ident_char, is_alpha, is_upper, is_lower, is_digit in *. btrue. lia. Qed.
Lemma not_ident_hex y : is_ident_char y = false -> is_hexdigit y = false.
Proof. intros H. destruct (is_hexdigit y) eqn:E; [|reflexivity]. rewrite (hex_ident y E) in H. discriminate. Qed.
Lemma not_ident_digit y : is_ident_char y = false -> is_digit y = false.
Proof. unfold is_ident_char. intros H. destruct (is_digit y); [rewrite orb_true_r in H; discriminate|reflexivity]. Qed.
Lemma not_ident_chars y : is_ident_char y = false -> y <> 101 /\ y <> 69 /\ y <> 120.
Proof. intros H. repeat split; intros ->; discriminate. Qed.

Lemma span_local p s y b : p y = false -> span p (s ++ y :: b) = (fst (span p s), snd (span p s) ++ y :: b).
Proof.
  intros Hy. induction s as [|c s IH]; cbn [app span].
  - rewrite Hy. reflexivity.
  - destruct (p c); [|reflexivity]. rewrite IH. destruct (span p s). reflexivity.
Qed.
Lemma span_spec p s : s = fst (span p s) ++ snd (span p s) /\ forallb p (fst (span p s)) = true /\
  match snd (span p s) with [] => True | c :: _ => p c = false end.
Proof.
  induction s as [|c r IH]; cbn [span]; [repeat split|].
  destruct (p c) eqn:E; [|cbn; rewrite E; repeat split].
  destruct (span p r) as [a b]. cbn [fst snd] in *. destruct IH as (H1 & H2 & H3).
  cbn [app forallb]. rewrite E, H2, <- H1. repeat split. exact H3.
Qed.
Lemma span_all_id p a : forallb p a = true -> span p a = (a, []).
Proof.
  induction a as [|c a IH]; cbn [forallb span]; [reflexivity|]. intros H. apply andb_prop in H. destruct H as [Hc Ha].
  rewrite Hc, (IH Ha). reflexivity.
Qed.

Definition kw_lower (kw:text) : Prop := Forall (fun k => is_lower k = true) kw.
Lemma lowc_eq_lower c k : is_lower k = true -> lowc c = k -> is_ident_char c = true.
Proof.
  unfold lowc, is_ident_char, is_alpha. intros H E. destruct (is_upper c) eqn:U; [reflexivity|]. subst. rewrite H. reflexivity.
Qed.

Lemma kw_false_lower : kw_lower kw_false. Proof. repeat constructor. Qed.
Lemma kw_true_lower : kw_lower kw_true. Proof. repeat constructor. Qed.
Lemma kw_private_lower : kw_lower kw_private. Proof. repeat constructor. Qed.

(* a keyword is matched exactly when it is, up to case, the whole run of identifier characters *)
Lemma kw_match_span kw : kw_lower kw -> forall s, kw_match kw s =
  (let '(a, b) := span is_ident_char s in if text_eqb (lower a) kw then Some (a, b) else None).
Proof.
  induction kw as [|k kw IH]; intros Hkw s; cbn [kw_match].
  - destruct s as [|c r]; [reflexivity|]. cbn [span]. destruct (is_ident_char c); [|reflexivity].
    destruct (span is_ident_char r). reflexivity.
  - inversion Hkw as [|? ? Hk Hkw']; subst. destruct s as [|c r]; [reflexivity|]. cbn [span].
    destruct (Z.eqb_spec (lowc c) k) as [E|E].
    + rewrite (lowc_eq_lower c k Hk E), (IH Hkw' r). destruct (span is_ident_char r) as [a b].
      cbn [lower map text_eqb]. fold (lower a). rewrite E, Z.eqb_refl. cbn [andb]. destruct (text_eqb (lower a) kw); reflexivity.
    + destruct (is_ident_char c); [|reflexivity]. destruct (span is_ident_char r) as [a b].
      cbn [lower map text_eqb]. destruct (Z.eqb_spec (lowc c) k); [contradiction|reflexivity].
Qed.

Lemma ident_start_char c : is_ident_start c = true -> is_ident_char c = true.
Proof. unfold is_ident_start, is_ident_char. destruct (is_alpha c), (c =? 95); cbn; try discriminate; intros _; rewrite ?orb_true_r; reflexivity. Qed.
Lemma ident_start_not_ws c : is_ident_start c = true -> is_ws c = false.
Proof.
  unfold is_ident_start, is_alpha, is_upper, is_lower, is_ws. intros H.
  destruct (Z.eqb_spec c 32), (Z.eqb_spec c 10), (Z.eqb_spec c 13), (Z.eqb_spec c 9); try reflexivity; subst; discriminate.
Qed.
Lemma lowc_lower_start c k : is_lower k = true -> lowc c = k -> is_ident_start c = true.
Proof.
  unfold lowc, is_ident_start, is_alpha. destruct (is_upper c) eqn:U; [reflexivity|]. intros Hk ->. rewrite Hk. reflexivity.
Qed.

(* the token of a name: the run of identifier characters, a keyword if it spells one (tokenizer.hpp:459-538:
   the dispatch on the first letter only saves the other two comparisons) *)
Definition name_rtok (a:text) : rtok :=
  if text_eqb (lower a) kw_false then RFalse a else
  if text_eqb (lower a) kw_true then RTrue a else
  if text_eqb (lower a) kw_private then RPrivate a else RIdent a.

Lemma lex1_name c r : is_ident_start c = true ->
  lex1 (c :: r) = (let '(a, b) := span is_ident_char (c :: r) in L1Tok (name_rtok a) b).
Proof.
  intros Hc. unfold lex1. rewrite (ident_start_not_ws c Hc), Hc.
  unfold lex_kw_or_ident, lex_ident.
  rewrite (kw_match_span kw_false kw_false_lower), (kw_match_span kw_true kw_true_lower), (kw_match_span kw_private kw_private_lower).
  cbn [span]. rewrite (ident_start_char c Hc). destruct (span is_ident_char r) as [a b].
  unfold name_rtok. cbn [lower map]. fold (lower a). unfold kw_false, kw_true, kw_private. cbn [text_eqb].
  destruct (Z.eqb_spec (lowc c) 102) as [E|_]; [rewrite ?E; cbn [Z.eqb Pos.eqb andb]; destruct (text_eqb (lower a) _); reflexivity|].
  destruct (Z.eqb_spec (lowc c) 116) as [E|_]; [rewrite ?E; cbn [Z.eqb Pos.eqb andb]; destruct (text_eqb (lower a) _); reflexivity|].
  destruct (Z.eqb_spec (lowc c) 112) as [E|_]; [rewrite ?E; cbn [Z.eqb Pos.eqb andb]; destruct (text_eqb (lower a) _); reflexivity|].
  reflexivity.
Qed.
Lemma name_rtok_text a : rtok_text (name_rtok a) = a.
Proof. unfold name_rtok. repeat destruct (text_eqb _ _); reflexivity. Qed.
Lemma name_rtok_ident a s : name_rtok a = RIdent s ->
  a = s /\ text_eqb (lower s) kw_false = false /\ text_eqb (lower s) kw_true = false /\ text_eqb (lower s) kw_private = false.
Proof.
  unfold name_rtok. destruct (text_eqb (lower a) kw_false) eqn:E1; [discriminate|]. destruct (text_eqb (lower a) kw_true) eqn:E2; [discriminate|].
  destruct (text_eqb (lower a) kw_private) eqn:E3; [discriminate|]. intros H. injection H as <-. auto.
Qed.
Lemma name_rtok_private a s : name_rtok a = RPrivate s -> a = s /\ text_eqb (lower s) kw_private = true.
Proof.
  unfold name_rtok. destruct (text_eqb (lower a) kw_false); [discriminate|]. destruct (text_eqb (lower a) kw_true); [discriminate|].
  destruct (text_eqb (lower a) kw_private) eqn:E; [|discriminate]. intros H. injection H as <-. auto.
Qed.

Lemma lex1_other c : is_ident_start c = false ->
  (lowc c =? 102) = false /\ (lowc c =? 116) = false /\ (lowc c =? 112) = false.
Proof.
  intros Hc. assert (N: forall k, is_lower k = true -> (lowc c =? k) = false).
  { intros k Hk. apply Z.eqb_neq. intros E. rewrite (lowc_lower_start c k Hk E) in Hc. discriminate. }
  repeat split; apply N; reflexivity.
Qed.

Lemma lex_hex_local s a y b : lex_hex s = Some (a, []) -> is_ident_char y = false -> lex_hex (s ++ y :: b) = Some (a, y :: b).
Proof.
  unfold lex_hex. intros H Hy. apply not_ident_hex in Hy.
  destruct s as [|c s]; [discriminate|]. cbn [app].
  destruct (c =? 36).
  - destruct (span is_hexdigit s) as [d0 r] eqn:E. destruct d0; [discriminate|]. injection H as <- ->.
    rewrite span_local, E by assumption. reflexivity.
  - destruct s as [|x s]; [discriminate|]. cbn [app]. destruct (x =? 120); [|discriminate].
    destruct (span is_hexdigit s) as [d0 r] eqn:E. destruct d0; [discriminate|]. injection H as <- ->.
    rewrite span_local, E by assumption. reflexivity.
Qed.
Lemma lex_hex_none_local c r0 y b : lex_hex (c :: r0) = None -> is_ident_char y = false -> lex_hex ((c :: r0) ++ y :: b) = None.
Proof.
  unfold lex_hex. intros H Hy. destruct (not_ident_chars y Hy) as (_ & _ & H120). apply not_ident_hex in Hy.
  cbn [app]. destruct (c =? 36).
  - rewrite span_local by assumption. destruct (span is_hexdigit r0) as [d0 r]. cbn [fst snd].
    destruct d0; [reflexivity|discriminate].
  - destruct r0 as [|x r2]; cbn [app].
    + destruct (Z.eqb_spec y 120); [contradiction|reflexivity].
    + destruct (x =? 120); [|reflexivity]. rewrite span_local by assumption.
      destruct (span is_hexdigit r2) as [d0 r]. cbn [fst snd]. destruct d0; [reflexivity|discriminate].
Qed.

Section Number.
Variables (y:byte) (b:text).
Hypothesis Hy : is_ident_char y = false.
Hypothesis Hdot : y <> 46.

Lemma num_ip_local s : num_ip (s ++ y :: b) = (fst (num_ip s), snd (num_ip s) ++ y :: b) /\ starts1 46 (s ++ y :: b) = starts1 46 s.
Proof.
  unfold num_ip.
  assert (Hs: starts1 46 (s ++ y :: b) = starts1 46 s).
  { destruct s as [|c s]; [|reflexivity]. cbn [app starts1]. destruct (Z.eqb_spec y 46); [contradiction|reflexivity]. }
  rewrite Hs. split; [|reflexivity]. destruct (starts1 46 s); [reflexivity|].
  apply span_local. apply not_ident_digit. exact Hy.
Qed.
Lemma num_fp_local r : num_fp (r ++ y :: b) = (fst (num_fp r), snd (num_fp r) ++ y :: b).
Proof.
  unfold num_fp. destruct r as [|c r]; cbn [app].
  - destruct (Z.eqb_spec y 46); [contradiction|reflexivity].
  - destruct (c =? 46); [|reflexivity]. rewrite span_local by (apply not_ident_digit; exact Hy).
    destruct (span is_digit r) as [d r']. cbn [fst snd]. destruct d; reflexivity.
Qed.
(* the exponent part: when the number ends where the text ends, whatever follows that is not a word character
   leaves it alone (a sign only belongs to an exponent directly behind the e) *)
Lemma num_ep_local r2 ep : num_ep r2 = (ep, []) -> num_ep (r2 ++ y :: b) = (ep, y :: b).
Proof.
  intros H. pose proof (not_ident_digit y Hy) as Hdig.
  unfold num_ep in *. destruct r2 as [|e r]; cbn [app].
  - injection H as <-. destruct (not_ident_chars y Hy) as (H1 & H2 & _).
    destruct (Z.eqb_spec y 101); [contradiction|]. destruct (Z.eqb_spec y 69); [contradiction|]. reflexivity.
  - destruct ((e =? 101) || (e =? 69)); [|discriminate].
    destruct (num_sign r) as [sg r'] eqn:Es. destruct (span is_digit r') as [d r''] eqn:Ed.
    destruct d as [|d0 d].
    + destruct sg as [|z sg]; [discriminate|]. injection H as _ Hr. subst r. cbn in Es. discriminate.
    + injection H as <- ->.
      destruct r as [|g r0].
      * cbn in Es. injection Es as <- <-. cbn in Ed. discriminate.
      * cbn [app]. unfold num_sign in *. destruct ((g =? 43) || (g =? 45)); injection Es as <- <-.
        -- rewrite span_local, Ed by assumption. reflexivity.
        -- change (g :: r0 ++ y :: b) with ((g :: r0) ++ y :: b). rewrite span_local, Ed by assumption. reflexivity.
Qed.
Lemma lex_number_local s n : lex_number s = Some (n, []) -> lex_number (s ++ y :: b) = Some (n, y :: b).
Proof.
  intros H. unfold lex_number in *. destruct (num_ip_local s) as [E1 E2]. rewrite E1, E2.
  destruct (num_ip s) as [ip r1]. cbn [fst snd].
  destruct (negb (starts1 46 s) && match ip with [] => true | _ => false end); [discriminate|].
  rewrite num_fp_local. destruct (num_fp r1) as [fp r2]. cbn [fst snd].
  destruct (num_ep r2) as [ep r3] eqn:E3.
  assert (Hr: r3 = []).
  { destruct (ip ++ fp ++ ep); [discriminate|]. injection H as _ Hr. exact Hr. }
  subst r3. rewrite (num_ep_local r2 ep E3).
  destruct (ip ++ fp ++ ep); [discriminate|]. injection H as <-. reflexivity.
Qed.
Lemma lex_num_local s t : lex_num s = L1Tok t [] -> lex_num (s ++ y :: b) = L1Tok t (y :: b).
Proof.
  unfold lex_num. intros H. destruct (lex_number s) as [[n r]|] eqn:E; [|discriminate].
  injection H as <- ->. rewrite (lex_number_local s n E). reflexivity.
Qed.
End Number.

(* the body of a string literal (after the opening quote) ends at its closing quote *)
Fixpoint closed (q:byte) (s:text) : bool :=
  match s with
  | [] => false
  | c :: r => if c =? q then match r with
                            | d :: r' => if d =? q then closed q r' else false
                            | [] => true
                            end
              else closed q r
  end.
Definition str_closed (s:text) : bool := match s with q :: body => closed q body | [] => false end.

Lemma scan_str_local q b : (match b with [] => True | c :: _ => c <> q end) ->
  forall n s, (length s <= n)%nat -> closed q s = true -> scan_str q (s ++ b) = (s, b).
Proof.
  intros Hb. induction n as [|n IH]; intros s Hn Hc.
  - destruct s; [discriminate|cbn in Hn; lia].
  - destruct s as [|c r]; [discriminate|]. cbn [closed] in Hc. cbn [app scan_str].
    destruct (c =? q).
    + destruct r as [|d r']; cbn [app].
      * destruct b as [|x b']; [reflexivity|]. destruct (Z.eqb_spec x q); [contradiction|reflexivity].
      * destruct (d =? q); [|discriminate]. rewrite (IH r') by (auto; cbn in Hn; lia). reflexivity.
    + rewrite (IH r) by (auto; cbn in Hn; lia). reflexivity.
Qed.

Lemma op_len_two a c r : op_len (a :: c :: r) = op_len [a; c].
Proof. unfold op_len, starts2, starts1. reflexivity. Qed.
Lemma op_len_le2 s : (op_len s <= 2)%nat.
Proof.
  (* op_len is a chain of eighteen tests, each answering 1 or 2: the chain is walked test by test *)
  unfold op_len. repeat (match goal with |- context[if ?x then _ else _] => destruct x end; try lia).
Qed.
Lemma op_len_le_length s : (op_len s <= length s)%nat.
Proof.
  destruct s as [|a [|c r]]; [apply Nat.le_refl| |pose proof (op_len_le2 (a :: c :: r)); cbn [length]; lia].
  unfold op_len, starts2. repeat (match goal with |- context[if ?x then _ else _] => destruct x end; try apply Nat.le_refl).
  apply Nat.le_0_l.
Qed.

Definition one_char_ops : list Z := [60; 62; 43; 45; 47; 42; 37; 94; 33; 58; 35].
Lemma op_len_one a : op_len [a] <> 0%nat -> In a one_char_ops.
Proof.
  (* the same chain on a one-character text: every test that can succeed names a character of the list *)
  unfold op_len, starts2, starts1, one_char_ops. intros H.
  repeat match goal with
  | H : context[a =? ?k] |- _ => destruct (Z.eqb_spec a k); [subst; cbn; tauto|]
  end. cbn in H. congruence.
Qed.
(* the two-character operators that begin with a one-character operator: <= >= >> != *)
Lemma op_len_ext a y : op_len [a] <> 0%nat -> (a = 62 -> y <> 62) -> (a = 60 \/ a = 62 \/ a = 33 -> y <> 61) ->
  op_len [a; y] = 1%nat.
Proof.
  intros Ha H62 H61. apply op_len_one in Ha.
  assert (N62: a = 62 -> (y =? 62) = false) by (intros e; apply Z.eqb_neq; auto).
  assert (N61: a = 60 \/ a = 62 \/ a = 33 -> (y =? 61) = false) by (intros e; apply Z.eqb_neq; auto).
  unfold one_char_ops in Ha. cbn [In] in Ha. unfold op_len, starts2, starts1.
  repeat (destruct Ha as [<-|Ha]; [rewrite ?N61, ?N62 by auto; reflexivity|]). destruct Ha.
Qed.

Lemma lex_op_whole s t : lex_op s = L1Tok t [] -> t = ROp s /\ op_len s = length s /\ s <> [].
Proof.
  unfold lex_op. pose proof (op_len_le_length s) as Hle. destruct (op_len s) as [|n]; [discriminate|].
  intros H. assert (Hs: skipn (S n) s = []) by (injection H as _ Hs; exact Hs).
  assert (Ht: t = ROp (firstn (S n) s)) by (injection H as Ht _; symmetry; exact Ht).
  pose proof (skipn_length (S n) s) as Hl. rewrite Hs in Hl. cbn [length] in Hl.
  assert (En: S n = length s) by lia. rewrite En, firstn_all in Ht.
  split; [exact Ht|]. split; [exact En|]. intros ->. discriminate En.
Qed.

Definition punct_toks : list (byte * rtok) :=
  [(61, REqual); (40, RRoundO); (41, RRoundC); (91, RSquareO); (93, RSquareC); (123, RCurlyO); (125, RCurlyC); (59, RSemi); (44, RComma)].

(* lex1 on a first character that begins no name, read backwards: the dispatch of tokenizer.hpp:459-538, walked once *)
Lemma lex1_other_inv c r t rest : is_ident_start c = false -> lex1 (c :: r) = L1Tok t rest ->
  (exists a, t = RHex a /\ lex_hex (c :: r) = Some (a, rest) /\ ((c =? 48) = true \/ (c =? 36) = true)) \/
  lex_num (c :: r) = L1Tok t rest \/
  lex_op (c :: r) = L1Tok t rest \/
  (exists a, t = RStr (c :: a) /\ ((c =? 34) || (c =? 39)) = true /\ scan_str c r = (a, rest)) \/
  (rest = r /\ In (c, t) punct_toks).
Proof.
  intros Hc H. unfold lex1 in H. destruct (lex1_other c Hc) as (E1 & E2 & E3). rewrite E1, E2, E3, Hc in H.
  destruct (is_ws c); [discriminate|].
  destruct (c =? 48) eqn:E48.
  { destruct (lex_hex (c :: r)) as [[a b]|] eqn:Eh; [injection H as <- <-; left; eauto|auto]. }
  destruct (is_digit c); [auto|]. destruct (c =? 46); [auto|].
  destruct ((c =? 43) || (c =? 45)); [auto|].
  destruct (c =? 47); [destruct (starts1 47 r || starts1 42 r); [discriminate|auto]|].
  destruct (c =? 35); [destruct (kw_match kw_line (c :: r)); [discriminate|auto]|].
  destruct (c =? 36) eqn:E36.
  { destruct (lex_hex (c :: r)) as [[a b]|] eqn:Eh; [injection H as <- <-; left; eauto|discriminate]. }
  assert (P: forall k t0, (c =? k) = true -> L1Tok t0 r = L1Tok t rest -> In (k, t0) punct_toks -> rest = r /\ In (c, t) punct_toks).
  { intros k t0 Ek Ht Hin. apply Z.eqb_eq in Ek. injection Ht as <- <-. subst k. auto. }
  destruct (c =? 61) eqn:E61; [destruct (starts1 61 r); [auto|do 4 right; apply (P 61 REqual E61 H); cbn; auto 12]|].
  destruct ((c =? 34) || (c =? 39)) eqn:Eq.
  { destruct (scan_str c r) as [a b] eqn:Es. injection H as <- <-. do 3 right. left. eauto. }
  destruct (c =? 40) eqn:K1; [do 4 right; apply (P 40 RRoundO K1 H); cbn; auto 12|].
  destruct (c =? 41) eqn:K2; [do 4 right; apply (P 41 RRoundC K2 H); cbn; auto 12|].
  destruct (c =? 91) eqn:K3; [do 4 right; apply (P 91 RSquareO K3 H); cbn; auto 12|].
  destruct (c =? 93) eqn:K4; [do 4 right; apply (P 93 RSquareC K4 H); cbn; auto 12|].
  destruct (c =? 123) eqn:K5; [do 4 right; apply (P 123 RCurlyO K5 H); cbn; auto 12|].
  destruct (c =? 125) eqn:K6; [do 4 right; apply (P 125 RCurlyC K6 H); cbn; auto 12|].
  destruct (c =? 59) eqn:K7; [do 4 right; apply (P 59 RSemi K7 H); cbn; auto 12|].
  destruct (c =? 44) eqn:K8; [do 4 right; apply (P 44 RComma K8 H); cbn; auto 12|].
  match type of H with (if ?x then _ else _) = _ => destruct x end; [auto|discriminate].
Qed.
Lemma lex_num_kind s t r : lex_num s = L1Tok t r -> exists a, t = RNum a.
Proof. unfold lex_num. destruct (lex_number s) as [[a b]|]; [|discriminate]. intros H. injection H as <- _. eauto. Qed.
Lemma lex_op_kind s t r : lex_op s = L1Tok t r -> exists a, t = ROp a.
Proof. unfold lex_op. destruct (op_len s); [discriminate|]. intros H. injection H as <- _. eauto. Qed.

(* a token is well spelled when its text, on its own, is read as exactly that token (and a string
   literal has its closing quote) *)
Definition tok_ok (t:rtok) : Prop :=
  lex1 (rtok_text t) = L1Tok t [] /\ match t with RStr s => str_closed s = true | _ => True end.

(* the character y cannot belong to the token t, nor make something else of it: a word (name, keyword, number)
   ends at a character that is no identifier character and no dot, a string literal is not followed by a quote,
   `=` not by `=`; a one-character operator is not extended to a longer one (tokenizer.hpp:246-267, longest match),
   `/` not to `//` or `/*`, `#` not to `#line` (tokenizer.hpp:459-538) *)
Definition may_follow (t:rtok) (y:byte) : Prop :=
  match t with
  | RTrue _ | RFalse _ | RPrivate _ | RIdent _ | RNum _ | RHex _ => is_ident_char y = false /\ y <> 46
  | RStr _ => y <> 34 /\ y <> 39
  | REqual => y <> 61
  | ROp [a] => (op_len [a] <> 0%nat -> op_len [a; y] = 1%nat) /\ (a = 47 -> y <> 47 /\ y <> 42) /\ (a = 35 -> lowc y <> 108)
  | _ => True
  end.

(* the scanners for words return word tokens *)
Lemma name_rtok_word a y : may_follow (name_rtok a) y -> is_ident_char y = false /\ y <> 46.
Proof. unfold name_rtok. repeat destruct (text_eqb _ _); exact (fun H => H). Qed.
Lemma lex_num_word s t r y : lex_num s = L1Tok t r -> may_follow t y -> is_ident_char y = false /\ y <> 46.
Proof. unfold lex_num. destruct (lex_number s) as [[a b]|]; [|discriminate]. intros H. injection H as <- _. exact (fun H => H). Qed.

Lemma lex_op_local s t y b : lex_op s = L1Tok t [] -> may_follow t y -> lex_op (s ++ y :: b) = L1Tok t (y :: b).
Proof.
  intros H Hm. destruct (lex_op_whole s t H) as (-> & Hlen & Hne).
  assert (E: op_len (s ++ y :: b) = length s).
  { rewrite <- Hlen. destruct s as [|a [|c r]]; [congruence| |cbn [app]; rewrite (op_len_two a c (r ++ y :: b)), (op_len_two a c r); reflexivity].
    cbn [app]. rewrite op_len_two, Hlen. apply Hm. rewrite Hlen. discriminate. }
  unfold lex_op. rewrite E. destruct s as [|a r]; [congruence|]. cbn [length].
  change (S (length r)) with (length (a :: r)). rewrite firstn_app, skipn_app, firstn_all, skipn_all, Nat.sub_diag.
  cbn [firstn skipn app]. rewrite app_nil_r. reflexivity.
Qed.

Lemma kw_line_hash y b : lowc y <> 108 -> kw_match kw_line (35 :: y :: b) = None.
Proof. intros Hy. unfold kw_line. cbn [kw_match lowc is_upper]. cbn. destruct (Z.eqb_spec (lowc y) 108); [contradiction|reflexivity]. Qed.

Theorem lex1_follow t y b : tok_ok t -> may_follow t y -> lex1 (rtok_text t ++ y :: b) = L1Tok t (y :: b).
Proof.
  intros [H Hstr] Hm.
  remember (rtok_text t) as s eqn:Es.
  destruct s as [|c r0]; [cbn in H; discriminate|].
  cbn [app]. destruct (is_ident_start c) eqn:Hc.
  { rewrite lex1_name in * by exact Hc. change (c :: r0 ++ y :: b) with ((c :: r0) ++ y :: b).
    destruct (span is_ident_char (c :: r0)) as [a b0] eqn:Ea. injection H as <- ->.
    rewrite span_local, Ea by apply (name_rtok_word a y Hm). reflexivity. }
  unfold lex1 in *. destruct (lex1_other c Hc) as (E1 & E2 & E3). rewrite E1, E2, E3, Hc in *. clear E1 E2 E3.
  destruct (is_ws c); [discriminate|].
  assert (Hnum: lex_num (c :: r0) = L1Tok t [] -> lex_num (c :: r0 ++ y :: b) = L1Tok t (y :: b)).
  { intros Hl. destruct (lex_num_word (c :: r0) t [] y Hl Hm) as [Hy Hdot]. apply (lex_num_local y b Hy Hdot (c :: r0) t Hl). }
  destruct (c =? 48).
  { change (c :: r0 ++ y :: b) with ((c :: r0) ++ y :: b). destruct (lex_hex (c :: r0)) as [[a r]|] eqn:E.
    - injection H as <- ->. rewrite (lex_hex_local (c :: r0) a y b E); [reflexivity|apply Hm].
    - rewrite (lex_hex_none_local c r0 y b E); [apply Hnum; exact H|apply (lex_num_word (c :: r0) t [] y H Hm)]. }
  destruct (is_digit c); [apply Hnum; exact H|].
  destruct (c =? 46); [apply Hnum; exact H|].
  destruct ((c =? 43) || (c =? 45)); [apply (lex_op_local (c :: r0) t y b H Hm)|].
  (* `/` and `#`: alone they are operators of one character *)
  assert (Hone: op_len (c :: r0) = 1%nat -> lex_op (c :: r0) = L1Tok t [] -> r0 = [] /\ t = ROp [c]).
  { intros Hop Hl. destruct (lex_op_whole _ _ Hl) as (-> & Hlen & _). rewrite Hop in Hlen.
    destruct r0; [auto|discriminate]. }
  destruct (Z.eqb_spec c 47) as [->|_].
  { destruct (starts1 47 r0 || starts1 42 r0) eqn:Ec; [discriminate|].
    destruct (Hone ltac:(destruct r0; reflexivity) H) as [-> ->]. cbn [app].
    destruct (proj1 (proj2 Hm) eq_refl) as [H47 H42]. cbn [starts1].
    destruct (Z.eqb_spec y 47); [contradiction|]. destruct (Z.eqb_spec y 42); [contradiction|].
    apply (lex_op_local [47] (ROp [47]) y b eq_refl Hm). }
  destruct (Z.eqb_spec c 35) as [->|_].
  { destruct (kw_match kw_line (35 :: r0)) as [[? ?]|] eqn:Ek; [discriminate|].
    destruct (Hone ltac:(destruct r0; reflexivity) H) as [-> ->]. cbn [app].
    rewrite (kw_line_hash y b) by (apply Hm; reflexivity). apply (lex_op_local [35] (ROp [35]) y b eq_refl Hm). }
  destruct (c =? 36).
  { destruct (lex_hex (c :: r0)) as [[a r]|] eqn:E; [|discriminate].
    injection H as <- ->. change (c :: r0 ++ y :: b) with ((c :: r0) ++ y :: b).
    rewrite (lex_hex_local (c :: r0) a y b E); [reflexivity|apply Hm]. }
  destruct (Z.eqb_spec c 61) as [->|_].
  { destruct (starts1 61 r0) eqn:E1.
    - destruct r0 as [|x r1]; [discriminate|]. cbn [app starts1] in *. rewrite E1.
      apply (lex_op_local (61 :: x :: r1) t y b H Hm).
    - injection H as <- ->. cbn [app starts1]. cbn [may_follow] in Hm.
      destruct (Z.eqb_spec y 61); [contradiction|reflexivity]. }
  destruct ((c =? 34) || (c =? 39)) eqn:Eq.
  { destruct (scan_str c r0) as [a r] eqn:E. injection H as <- ->.
    cbn [rtok_text] in Es. injection Es as Es. subst a.
    cbn [str_closed] in Hstr. cbn [may_follow] in Hm.
    assert (Hb: y <> c).
    { apply orb_prop in Eq. destruct Eq as [Eq|Eq]; apply Z.eqb_eq in Eq; subst; apply Hm. }
    rewrite (scan_str_local c (y :: b) Hb (length r0) r0 (le_n _) Hstr). reflexivity. }
  destruct (c =? 40); [injection H as <- ->; reflexivity|].
  destruct (c =? 41); [injection H as <- ->; reflexivity|].
  destruct (c =? 91); [injection H as <- ->; reflexivity|].
  destruct (c =? 93); [injection H as <- ->; reflexivity|].
  destruct (c =? 123); [injection H as <- ->; reflexivity|].
  destruct (c =? 125); [injection H as <- ->; reflexivity|].
  destruct (c =? 59); [injection H as <- ->; reflexivity|].
  destruct (c =? 44); [injection H as <- ->; reflexivity|].
  match goal with |- (if ?x then _ else _) = _ => destruct x end; [|discriminate].
  apply (lex_op_local (c :: r0) t y b H Hm).
Qed.

(* a blank, a bracket or a separator cannot belong to any token, and brackets, separators and signs are not
   extended by anything *)
Lemma follow_ok_may t y b : follow_ok t (y :: b) -> may_follow t y.
Proof.
  cbn [follow_ok]. intros Hf.
  assert (Hd: free_tok t = false -> is_ident_char y = false /\ y <> 46 /\ y <> 61 /\ y <> 62 /\ y <> 47 /\ y <> 42 /\ y <> 34 /\ y <> 39).
  { intros Hn. destruct Hf as [Hd|Hd]; [|congruence]. split; [apply delim_not_ident; exact Hd|apply delim_chars; exact Hd]. }
  destruct t; cbn [may_follow]; try exact I;
    try (destruct (Hd eq_refl) as (Hi & H46 & H61 & H62 & H47 & H42 & H34 & H39); auto; fail).
  destruct s as [|a [|c r]]; try exact I. cbn [free_tok] in *.
  destruct (text_eqb [a] sym_plus || text_eqb [a] sym_minus) eqn:Ef.
  - assert (Ha: a = 43 \/ a = 45).
    { unfold sym_plus, sym_minus in Ef. cbn [text_eqb] in Ef. rewrite !andb_true_r in Ef.
      apply orb_prop in Ef. destruct Ef as [E|E]; apply Z.eqb_eq in E; auto. }
    split; [intros Hop; apply (op_len_ext a y Hop); lia|split; lia].
  - destruct (Hd eq_refl) as (Hi & _ & H61 & H62 & H47 & H42 & _).
    split; [intros Hop; apply (op_len_ext a y Hop); auto|split; [auto|]].
    intros _ E. pose proof (lowc_eq_lower y 108 eq_refl E) as Hc. rewrite Hi in Hc. discriminate.
Qed.

Definition all_ws (w:text) : Prop := forallb is_ws w = true.

(* items = (whitespace before the token, token); after each token comes either whitespace, a bracket or
   separator, the end of the text - or anything at all if the token itself is a bracket, separator or sign *)
Fixpoint sep_ok (items:list (text * rtok)) (trail:text) : Prop :=
  match items with
  | [] => all_ws trail
  | (w, t) :: rest => all_ws w /\ tok_ok t /\ follow_ok t (render rest trail) /\ sep_ok rest trail
  end.

(* all that the lexer needs of a text given in pieces (tokens and runs of whitespace): each token is read as
   itself in front of the rest of the text *)
Fixpoint preads (ps:list piece) : Prop :=
  match ps with
  | [] => True
  | PW w :: r => all_ws w /\ preads r
  | PT t :: r => tok_ok t /\ lex1 (rtok_text t ++ pieces_text r) = L1Tok t (pieces_text r) /\ preads r
  end.

Lemma lex1_ws c r : is_ws c = true -> lex1 (c :: r) = L1Ws (snd (span is_ws (c :: r))).
Proof. intros H. unfold lex1. rewrite H. reflexivity. Qed.
Lemma all_ws_app a b : all_ws a -> all_ws b -> all_ws (a ++ b).
Proof. unfold all_ws. rewrite forallb_app. intros -> ->. reflexivity. Qed.

Lemma tok_ok_text t : tok_ok t -> exists c r, rtok_text t = c :: r /\ is_ws c = false.
Proof.
  intros [H _]. destruct (rtok_text t) as [|c r] eqn:E; [cbn in H; discriminate|].
  exists c, r. split; [reflexivity|]. destruct (is_ws c) eqn:W; [|reflexivity].
  rewrite (lex1_ws c r W) in H. discriminate.
Qed.

(* acc: the whitespace met since the last token *)
Lemma lex_f_pieces : forall ps acc, all_ws acc -> preads ps ->
  forall f, (length (acc ++ pieces_text ps) < f)%nat -> lex_f f (acc ++ pieces_text ps) = LexOk (pieces_toks ps).
Proof.
  induction ps as [|[t|w] r IH]; intros acc Hacc Hs f Hf.
  - cbn [pieces_text flat_map pieces_toks] in *. rewrite app_nil_r in *.
    destruct acc as [|c r]; [destruct f; reflexivity|].
    destruct f as [|f]; [cbn in Hf; lia|]. cbn [lex_f].
    assert (Hc: is_ws c = true) by (unfold all_ws in Hacc; cbn [forallb] in Hacc; apply andb_prop in Hacc; apply Hacc).
    rewrite (lex1_ws c r Hc), (span_all_id is_ws (c :: r) Hacc). cbn [snd]. destruct f; reflexivity.
  - cbn [preads] in Hs. destruct Hs as (Hok & Hlex & Hrest).
    change (pieces_text (PT t :: r)) with (rtok_text t ++ pieces_text r) in *.
    change (pieces_toks (PT t :: r)) with (t :: pieces_toks r). set (R := pieces_text r) in *.
    destruct (tok_ok_text t Hok) as (c0 & r0 & Et & Hc0).
    assert (Htok: forall f', (length (rtok_text t ++ R) < f')%nat -> lex_f f' (rtok_text t ++ R) = LexOk (t :: pieces_toks r)).
    { intros f' Hf'. destruct f' as [|f']; [lia|].
      assert (Hne: rtok_text t ++ R = c0 :: r0 ++ R) by (rewrite Et; reflexivity).
      rewrite Hne at 1. cbn [lex_f]. rewrite <- Hne, Hlex.
      assert (E: lex_f f' R = LexOk (pieces_toks r)).
      { apply (IH [] eq_refl Hrest f'). rewrite app_length, Et in Hf'. cbn [length app] in *. lia. }
      rewrite E. reflexivity. }
    destruct acc as [|c w'].
    + cbn [app]. apply Htok. exact Hf.
    + destruct f as [|f]; [cbn in Hf; lia|]. cbn [app lex_f].
      assert (Hc: is_ws c = true) by (unfold all_ws in Hacc; cbn [forallb] in Hacc; apply andb_prop in Hacc; apply Hacc).
      rewrite (lex1_ws c _ Hc).
      change (c :: w' ++ rtok_text t ++ R) with ((c :: w') ++ rtok_text t ++ R).
      rewrite Et at 1. cbn [app]. change (c :: w' ++ c0 :: r0 ++ R) with ((c :: w') ++ c0 :: r0 ++ R).
      rewrite span_local, (span_all_id is_ws (c :: w') Hacc) by exact Hc0. cbn [fst snd app].
      change (c0 :: r0 ++ R) with ((c0 :: r0) ++ R). rewrite <- Et.
      apply Htok. cbn [app length] in Hf. rewrite app_length in Hf. lia.
  - cbn [preads] in Hs. change (pieces_text (PW w :: r)) with (w ++ pieces_text r) in *.
    change (pieces_toks (PW w :: r)) with (pieces_toks r). rewrite app_assoc in *.
    apply IH; [apply all_ws_app; [exact Hacc|apply Hs]|apply Hs|exact Hf].
Qed.
Theorem lex_pieces ps : preads ps -> lex (pieces_text ps) = LexOk (pieces_toks ps).
Proof. intros H. unfold lex. apply (lex_f_pieces ps [] eq_refl H). cbn [app]. lia. Qed.

(* a rendering (whitespace before each token, trailing whitespace) as pieces *)
Definition pieces_of (items:list (text * rtok)) (trail:text) : list piece :=
  flat_map (fun '(w, t) => [PW w; PT t]) items ++ [PW trail].
Lemma pieces_of_text items trail : pieces_text (pieces_of items trail) = render items trail.
Proof.
  unfold pieces_of, render. induction items as [|[w t] rest IH]; cbn [flat_map app pieces_text]; [apply app_nil_r|].
  rewrite <- !app_assoc. f_equal. f_equal. exact IH.
Qed.
Lemma pieces_of_toks items trail : pieces_toks (pieces_of items trail) = map snd items.
Proof. unfold pieces_of. induction items as [|[w t] rest IH]; [reflexivity|]. cbn [flat_map app pieces_toks map snd]. f_equal. exact IH. Qed.

Lemma sep_ok_preads : forall items trail, sep_ok items trail -> preads (pieces_of items trail).
Proof.
  induction items as [|[w t] rest IH]; intros trail H; [split; [exact H|exact I]|].
  destruct H as (Hw & Hok & Hf & Hr). cbn [pieces_of flat_map app preads]. fold (pieces_of rest trail).
  split; [exact Hw|]. split; [exact Hok|]. split; [|apply IH; exact Hr].
  rewrite pieces_of_text. destruct (render rest trail) as [|y b]; [rewrite app_nil_r; apply Hok|].
  apply (lex1_follow t y b Hok (follow_ok_may t y b Hf)).
Qed.

Theorem lex_render : forall items trail, sep_ok items trail -> lex (render items trail) = LexOk (map snd items).
Proof.
  intros items trail H. rewrite <- pieces_of_text, <- (pieces_of_toks items trail). apply lex_pieces, sep_ok_preads, H.
Qed.

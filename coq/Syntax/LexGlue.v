(* lex o render = id with as little whitespace as the token grammar allows: a name, a keyword, a number may be
   followed directly by any character that cannot continue it (an operator character, a quote), a string literal by
   anything but a quote, an operator by anything that does not spell a longer operator, a comment or a #line
   directive with it (`1--1`, `a*-b`, `a&&!b`, `a>=-1`, `"s"select 0`, `x=-1`).  LexProofs.lex_render (blank,
   bracket or separator after every token that is not itself a bracket, a separator or a sign) is the special case. *)
From Coq Require Import ZArith List Bool Arith Lia.
Import ListNotations.
From SqfVerif Require Import Syntax.SyntaxDefs Syntax.ParsePrint Syntax.ParsePrintGen Syntax.LexProofs Syntax.CompileProofs.
Local Open Scope Z_scope.

(* a character that ends a word (name, keyword, number, hexadecimal number) *)
Definition wordc (y:byte) : bool := negb (is_ident_char y) && negb (y =? 46).

(* may the character y follow the token t directly?  tokenizer.hpp:246-267 (operators by longest match),
   459-538 (`//` `/*` start a comment, `#line` a directive, `==` is an operator and `=` is not) *)
Definition gchar (t:rtok) (y:byte) : bool :=
  match t with
  | RTrue _ | RFalse _ | RPrivate _ | RIdent _ | RNum _ | RHex _ => wordc y
  | RStr _ => negb (y =? 34) && negb (y =? 39)
  | REqual => negb (y =? 61)
  | ROp s => match s with
             | [a] => if a =? 62 then negb (y =? 61) && negb (y =? 62)
                      else if (a =? 60) || (a =? 33) then negb (y =? 61)
                      else if a =? 47 then negb (y =? 47) && negb (y =? 42)
                      else if a =? 35 then negb (lowc y =? 108)
                      else true
             | _ => true
             end
  | _ => true
  end.

Definition follow_glued (t:rtok) (b:text) : Prop :=
  match b with [] => True | y :: _ => delim y = true \/ free_tok t = true \/ gchar t y = true end.

Lemma gchar_may_follow t y : gchar t y = true -> may_follow t y.
Proof.
  assert (W: wordc y = true -> is_ident_char y = false /\ y <> 46).
  { unfold wordc. rewrite andb_true_iff, !negb_true_iff, Z.eqb_neq. exact (fun H => H). }
  destruct t as [s|s|s| | | | | | | | | |s|s|s|s|s]; cbn [gchar may_follow]; try exact W; try exact (fun _ => I).
  - rewrite negb_true_iff, Z.eqb_neq. exact (fun H => H).
  - destruct s as [|a [|c r]]; try exact (fun _ => I). intros Hg.
    split; [intros Hop; apply (op_len_ext a y Hop)|split]; intros Ha.
    + subst a. cbn in Hg. rewrite andb_true_iff, !negb_true_iff, !Z.eqb_neq in Hg. apply Hg.
    + destruct Ha as [->|[->| ->]]; cbn in Hg; rewrite ?andb_true_iff, !negb_true_iff, !Z.eqb_neq in Hg; apply Hg.
    + subst a. cbn in Hg. rewrite andb_true_iff, !negb_true_iff, !Z.eqb_neq in Hg. exact Hg.
    + subst a. cbn in Hg. rewrite negb_true_iff, Z.eqb_neq in Hg. exact Hg.
  - rewrite andb_true_iff, !negb_true_iff, !Z.eqb_neq. exact (fun H => H).
Qed.

Lemma follow_glued_may t y b : follow_glued t (y :: b) -> may_follow t y.
Proof.
  cbn [follow_glued]. intros [Hd|[Hf|Hg]]; [apply (follow_ok_may t y b); left; exact Hd|apply (follow_ok_may t y b); right; exact Hf|].
  apply gchar_may_follow. exact Hg.
Qed.

(* items = (whitespace before the token - possibly none -, token); what follows a token directly is whitespace, a
   bracket or separator, the end of the text, anything at all behind a bracket, a separator, a sign - or a
   character that cannot belong to the token (gchar) *)
Fixpoint sep_glued (items:list (text * rtok)) (trail:text) : Prop :=
  match items with
  | [] => all_ws trail
  | (w, t) :: rest => all_ws w /\ tok_ok t /\ follow_glued t (render rest trail) /\ sep_glued rest trail
  end.

Lemma sep_ok_glued : forall items trail, sep_ok items trail -> sep_glued items trail.
Proof.
  induction items as [|[w t] rest IH]; intros trail H; [exact H|].
  cbn [sep_ok sep_glued] in *. destruct H as (Hw & Hok & Hf & Hr).
  split; [exact Hw|]. split; [exact Hok|]. split; [|apply IH; exact Hr].
  unfold follow_ok in Hf. unfold follow_glued. destruct (render rest trail); [exact I|]. destruct Hf; auto.
Qed.

Lemma sep_glued_preads : forall items trail, sep_glued items trail -> preads (pieces_of items trail).
Proof.
  induction items as [|[w t] rest IH]; intros trail H; [split; [exact H|exact I]|].
  destruct H as (Hw & Hok & Hf & Hr). cbn [pieces_of flat_map app preads]. fold (pieces_of rest trail).
  split; [exact Hw|]. split; [exact Hok|]. split; [|apply IH; exact Hr].
  rewrite pieces_of_text. destruct (render rest trail) as [|y b]; [rewrite app_nil_r; apply Hok|].
  apply (lex1_follow t y b Hok (follow_glued_may t y b Hf)).
Qed.

Theorem lex_render_glued : forall items trail, sep_glued items trail -> lex (render items trail) = LexOk (map snd items).
Proof.
  intros items trail H. rewrite <- pieces_of_text, <- (pieces_of_toks items trail). apply lex_pieces, sep_glued_preads, H.
Qed.

Theorem reading_end_to_end_glued : forall (R:registry) (d:defects) (lay:layout) (ss:list stmt) items trail,
  wf_block R ss -> map snd items = print_raw lay ss -> sep_glued items trail ->
  exists f0, forall f, (f0 <= f)%nat -> parse_text d R f (render items trail) = FOk (map strip_stmt ss).
Proof.
  intros R d lay ss items trail Hwf Hit Hsep.
  destruct (parse_print_block_of_gen R d lay ss Hwf) as [f0 H]. exists f0. intros f Hf.
  unfold parse_text. rewrite (lex_render_glued items trail Hsep), Hit, print_raw_toks, (H f Hf). reflexivity.
Qed.

Theorem compiled_reading_glued : forall (R:registry) (d:defects) (lay:layout) (ss:list stmt) items trail,
  wf_block R ss -> map snd items = print_raw lay ss -> sep_glued items trail ->
  exists f0, forall f, (f0 <= f)%nat ->
    match parse_text d R f (render items trail) with FOk p => compile_block p | _ => None end
    = Some (postorder_block (map strip_stmt ss)).
Proof.
  intros R d lay ss items trail Hwf Hit Hsep.
  destruct (reading_end_to_end_glued R d lay ss items trail Hwf Hit Hsep) as [f0 H]. exists f0. intros f Hf.
  rewrite (H f Hf). apply compile_block_postorder.
Qed.

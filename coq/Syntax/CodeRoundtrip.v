(* C06, code half: str / compile round trip of code values.
   reconstruct (the model of instruction::reconstruct + d_code::to_string_sqf) applied to compiled code
   prints the documented reading of the code with the implementation's own parenthesisation rule, so by
   parse o print = id the text compiles back to the same instructions. *)
From Coq Require Import ZArith List Bool Arith Lia.
Import ListNotations.
From Coq Require String.
Import String.StringSyntax.
From SqfVerif Require Import Syntax.SyntaxDefs Syntax.TreeFacts Syntax.ParsePrintGen Syntax.LexProofs Syntax.CompileProofs Syntax.Reading.
From SqfVerif Require Syntax.ParseMono.

(* rp: what reconstruct prints, as a function of the tree *)
Section RP.
Variable show_lit : lit -> lit.
Notation spl := (show_pval_lit show_lit).

Definition target_name (x:tree) : text := match x with Var n | Nul n => n | _ => [] end.

Fixpoint rp (parent:nat) (left:bool) (t:tree) : list piece :=
  match t with
  | Lit l => spl false l
  | Var s => [PT (RIdent s)]
  | Nul s => [PT (raw_of_name (lower s))]
  | Un s a =>
    match unsigned_num a with
    | Some l => if text_eqb s sym_minus then spl true l
                else if text_eqb s sym_plus then spl false l
                else PT (raw_of_name (lower s)) :: sp :: rp 10%nat false a
    | None => PT (raw_of_name (lower s)) :: sp :: rp 10%nat false a
    end
  | Bin k s l r =>
    let body := rp (S k) true l ++ sp :: PT (raw_of_name (lower s)) :: sp :: rp (S k) false r in
    if (if left then (S k <? parent)%nat else (S k <=? parent)%nat) then PT RRoundO :: body ++ [PT RRoundC] else body
  | Arr es => PT RSquareO :: join [PT RComma; sp] (map (rp 0%nat false) es) ++ [PT RSquareC]
  | Code ss => PT RCurlyO :: sp :: join [PT RSemi; sp] (map rp_stmt ss) ++ [sp; PT RCurlyC]
  | Par a => rp parent left a
  end
with rp_stmt (s:stmt) : list piece :=
  match s with
  | SExpr e => rp 0%nat false e
  | SAssign x e => PT (RIdent (target_name x)) :: sp :: PT REqual :: sp :: rp 10%nat false e
  | SLocal x e => PT (RPrivate kw_private) :: sp :: PT (RIdent x) :: sp :: PT REqual :: sp :: rp 10%nat false e
  end.
Definition rp_block (ss:list stmt) : list piece :=
  PT RCurlyO :: sp :: join [PT RSemi; sp] (map rp_stmt ss) ++ [sp; PT RCurlyC].

Lemma rp_stmt_unfold s : rp_stmt s = match s with
  | SExpr e => rp 0%nat false e
  | SAssign x e => PT (RIdent (target_name x)) :: sp :: PT REqual :: sp :: rp 10%nat false e
  | SLocal x e => PT (RPrivate kw_private) :: sp :: PT (RIdent x) :: sp :: PT REqual :: sp :: rp 10%nat false e
  end.
Proof. destruct s; reflexivity. Qed.

Lemma recon_S f parent left i rest : recon show_lit (S f) parent left (i :: rest) =
  match i with
  | IPush (PLit neg l) => Some (spl neg l, rest)
  | IPush (PCode c) => match recon_block show_lit f c with Some ps => Some (ps, rest) | None => None end
  | ICallNular s => Some ([PT (raw_of_name s)], rest)
  | IGetVar s => Some ([PT (RIdent s)], rest)
  | ICallUnary s =>
    match recon show_lit f 10%nat false rest with
    | Some (e, rest') => Some (PT (raw_of_name s) :: sp :: e, rest')
    | None => None
    end
  | ICallBinary s prec =>
    match recon show_lit f prec false rest with
    | Some (re, rest1) =>
      match recon show_lit f prec true rest1 with
      | Some (le, rest2) =>
        let body := le ++ sp :: PT (raw_of_name s) :: sp :: re in
        if (if left then (prec <? parent)%nat else (prec <=? parent)%nat)
        then Some (PT RRoundO :: body ++ [PT RRoundC], rest2)
        else Some (body, rest2)
      | None => None
      end
    | None => None
    end
  | IMakeArray n =>
    match elems_with (recon show_lit f 0%nat false) n rest [] with
    | Some (els, rest') => Some (PT RSquareO :: join [PT RComma; sp] els ++ [PT RSquareC], rest')
    | None => None
    end
  | IAssignTo s =>
    match recon show_lit f 10%nat false rest with
    | Some (e, rest') => Some (PT (RIdent s) :: sp :: PT REqual :: sp :: e, rest')
    | None => None
    end
  | IAssignToLocal s =>
    match recon show_lit f 10%nat false rest with
    | Some (e, rest') => Some (PT (RPrivate kw_private) :: sp :: PT (RIdent s) :: sp :: PT REqual :: sp :: e, rest')
    | None => None
    end
  | IEndStatement => Some ([], rest)
  end.
Proof. reflexivity. Qed.
Lemma recon_block_S f c : recon_block show_lit (S f) c =
  match walk_with (recon show_lit f 0%nat false) (length c) (rev c) [] with
  | Some strs => Some (PT RCurlyO :: sp :: join [PT RSemi; sp] strs ++ [sp; PT RCurlyC])
  | None => None
  end.
Proof. reflexivity. Qed.

Lemma recon_end f p l rest : (1 <= f)%nat -> recon show_lit f p l (IEndStatement :: rest) = Some ([], rest).
Proof. destruct f; [lia|reflexivity]. Qed.

Lemma isize_list_app a b : isize_list (a ++ b) = (isize_list a + isize_list b)%nat.
Proof. unfold isize_list. induction a; cbn; [reflexivity|]. rewrite IHa. lia. Qed.
Lemma isize_pos i : (1 <= isize i)%nat.
Proof. destruct i as [[|]| | | | | | | |]; cbn; lia. Qed.

Lemma rp_nonempty : forall t parent left, rp parent left t <> [].
Proof.
  induction t; intros parent left; cbn [rp]; try discriminate.
  - destruct (unsigned_num t) as [l|]; [|discriminate].
    destruct (text_eqb s sym_minus); [unfold show_pval_lit; intros E; cbn in E; discriminate E|].
    destruct (text_eqb s sym_plus); [unfold show_pval_lit; intros E; cbn in E; discriminate E|discriminate].
  - destruct (if left then _ else _); [discriminate|]. intros E. apply app_eq_nil in E. destruct E as [E _]. exact (IHt1 _ _ E).
  - apply IHt.
Qed.
Lemma rp_stmt_nonempty s : rp_stmt s <> [].
Proof. rewrite rp_stmt_unfold. destruct s; try discriminate. apply rp_nonempty. Qed.

Lemma flat_map_rev {A B} (g:A -> list B) l : rev (flat_map g l) = flat_map (fun x => rev (g x)) (rev l).
Proof.
  induction l as [|x l IH]; [reflexivity|]. cbn [flat_map rev]. rewrite rev_app_distr, IH, flat_map_app. cbn [flat_map].
  rewrite app_nil_r. reflexivity.
Qed.

Lemma postorder_nonempty t : (1 <= length (postorder t))%nat.
Proof.
  induction t; cbn [postorder]; rewrite ?app_length; cbn [length]; try lia.
  destruct (unsigned_num t); [destruct (text_eqb s sym_minus); [cbn; lia|destruct (text_eqb s sym_plus); [cbn; lia|]]|];
    rewrite app_length; cbn; lia.
Qed.
Lemma postorder_stmt_nonempty s : (1 <= length (postorder_stmt s))%nat.
Proof.
  rewrite postorder_stmt_unfold. destruct s; rewrite ?app_length; cbn [length]; try lia. apply postorder_nonempty.
Qed.

Theorem recon_rp :
  (forall t f parent left rest, (2 * isize_list (postorder t) <= f)%nat ->
     recon show_lit f parent left (rev (postorder t) ++ rest) = Some (rp parent left t, rest)) /\
  (forall s f rest, (2 * isize_list (postorder_stmt s) <= f)%nat ->
     recon show_lit f 0%nat false (rev (postorder_stmt s) ++ rest) = Some (rp_stmt s, rest)).
Proof.
  apply tree_stmt_ind.
  - intros l f parent left rest Hf. cbn in Hf. destruct f as [|f]; [lia|]. reflexivity.
  - intros v f parent left rest Hf. cbn in Hf. destruct f as [|f]; [lia|]. reflexivity.
  - intros nm f parent left rest Hf. cbn in Hf. destruct f as [|f]; [lia|]. reflexivity.
  - intros s a IH f parent left rest Hf.
    assert (Hgen: (2 * isize_list (postorder a ++ [ICallUnary (lower s)]) <= f)%nat ->
                  recon show_lit f parent left (rev (postorder a ++ [ICallUnary (lower s)]) ++ rest)
                  = Some (PT (raw_of_name (lower s)) :: sp :: rp 10%nat false a, rest)).
    { intros Hf'. rewrite isize_list_app in Hf'. cbn in Hf'. destruct f as [|f]; [lia|].
      rewrite rev_app_distr. cbn [rev app]. rewrite recon_S. rewrite IH by lia. reflexivity. }
    cbn [postorder rp] in *. destruct (unsigned_num a) as [l|]; [|apply Hgen; exact Hf].
    destruct (text_eqb s sym_minus).
    + cbn in Hf. destruct f as [|f]; [lia|]. reflexivity.
    + destruct (text_eqb s sym_plus); [|apply Hgen; exact Hf].
      cbn in Hf. destruct f as [|f]; [lia|]. reflexivity.
  - intros j s l r IHl IHr f parent left rest Hf. cbn [postorder rp] in *. rewrite !isize_list_app in Hf. cbn in Hf.
    destruct f as [|f]; [lia|].
    rewrite !rev_app_distr. cbn [rev app]. rewrite <- app_assoc. rewrite recon_S.
    rewrite IHr by lia. rewrite IHl by lia. cbv zeta.
    destruct (if left then (S j <? parent)%nat else (S j <=? parent)%nat); reflexivity.
  - intros es IH f parent left rest Hf. rewrite Forall_forall in IH.
    cbn [postorder rp] in *. rewrite isize_list_app in Hf. cbn in Hf.
    destruct f as [|f]; [lia|]. rewrite rev_app_distr. cbn [rev app]. rewrite recon_S.
    rewrite flat_map_rev.
    assert (Hel: forall er acc rest0, (forall e, In e er -> In e es /\ (2 * isize_list (postorder e) <= f)%nat) ->
                elems_with (recon show_lit f 0%nat false) (length er) (flat_map (fun x => rev (postorder x)) er ++ rest0) acc
                = Some (map (rp 0%nat false) (rev er) ++ acc, rest0)).
    { induction er as [|e er IHer]; intros acc rest0 Hin; [reflexivity|].
      cbn [length elems_with flat_map]. rewrite <- app_assoc.
      destruct (Hin e (or_introl eq_refl)) as [H1 H2]. rewrite (IH e H1) by assumption.
      rewrite IHer by (intros; apply Hin; right; assumption).
      cbn [rev]. rewrite map_app. cbn [map]. rewrite <- app_assoc. reflexivity. }
    rewrite <- (rev_length es). rewrite Hel.
    + rewrite rev_involutive, app_nil_r. reflexivity.
    + intros e He. apply in_rev in He. split; [exact He|].
      assert (isize_list (postorder e) <= isize_list (flat_map postorder es))%nat; [|lia].
      clear -He. induction es as [|x es IH]; [destruct He|]. cbn [flat_map]. rewrite isize_list_app.
      destruct He as [->|He]; [lia|]. specialize (IH He). lia.
  - intros ss IH f parent left rest Hf. rewrite Forall_forall in IH.
    change (postorder (Code ss)) with [IPush (PCode (postorder_block ss))] in *.
    change (rp parent left (Code ss)) with (rp_block ss).
    cbn [rev app]. unfold isize_list in Hf. cbn [fold_right isize] in Hf. fold (isize_list (postorder_block ss)) in Hf.
    destruct f as [|f]; [lia|]. rewrite recon_S.
    destruct f as [|f]; [lia|]. rewrite recon_block_S.
    (* the walk over the reversed block *)
    assert (Hw: forall sr acc (g:nat),
              (forall s, In s sr -> In s ss /\ (2 * isize_list (postorder_stmt s) <= f)%nat) ->
              (2 * length sr <= S g)%nat ->
              walk_with (recon show_lit f 0%nat false) g
                (match sr with [] => [] | s :: r => rev (postorder_stmt s) ++ flat_map (fun x => IEndStatement :: rev (postorder_stmt x)) r end) acc
              = Some (map rp_stmt (rev sr) ++ acc)).
    { induction sr as [|s sr IHsr]; intros acc g Hin Hg.
      - destruct g; reflexivity.
      - destruct (Hin s (or_introl eq_refl)) as [H1 H2].
        cbn [length] in Hg. destruct g as [|g]; [lia|].
        assert (Hne: rev (postorder_stmt s) <> []).
        { intros E. apply (f_equal (@length instr)) in E. rewrite rev_length in E. cbn in E.
          pose proof (postorder_stmt_nonempty s). lia. }
        destruct (rev (postorder_stmt s) ++ flat_map (fun x => IEndStatement :: rev (postorder_stmt x)) sr) as [|i0 l0] eqn:El.
        { apply app_eq_nil in El. destruct El as [El _]. contradiction. }
        cbn [walk_with]. rewrite <- El. rewrite (IH s H1) by assumption.
        destruct (rp_stmt s) as [|p0 ps0] eqn:Ep; [exfalso; exact (rp_stmt_nonempty s Ep)|]. rewrite <- Ep.
        destruct sr as [|s2 sr].
        + cbn [flat_map]. destruct g; cbn [walk_with rev map app]; reflexivity.
        + cbn [flat_map]. destruct g as [|g]; [cbn in Hg; lia|]. cbn [walk_with app].
          rewrite recon_end by (pose proof (postorder_stmt_nonempty s) as Hp; assert (1 <= isize_list (postorder_stmt s))%nat; [|lia];
                                clear -Hp; destruct (postorder_stmt s) as [|i l]; [cbn in Hp; lia|]; unfold isize_list; cbn [fold_right]; pose proof (isize_pos i); lia).
          specialize (IHsr (rp_stmt s :: acc) g).
          cbn [rev]. rewrite map_app. cbn [map]. rewrite <- app_assoc. cbn [app].
          apply IHsr; [|cbn [length] in *; lia].
          intros; apply Hin; right; assumption. }
    assert (Hrev: rev (postorder_block ss) =
                  match rev ss with [] => [] | s :: r => rev (postorder_stmt s) ++ flat_map (fun x => IEndStatement :: rev (postorder_stmt x)) r end).
    { unfold postorder_block. clear. induction ss as [|s ss IH]; [reflexivity|].
      destruct ss as [|s2 ss].
      - cbn. rewrite !app_nil_r. reflexivity.
      - change (join [IEndStatement] (map postorder_stmt (s :: s2 :: ss)))
          with (postorder_stmt s ++ IEndStatement :: join [IEndStatement] (map postorder_stmt (s2 :: ss))).
        rewrite rev_app_distr. cbn [rev]. rewrite IH. cbn [rev].
        destruct (rev ss ++ [s2]) as [|x r] eqn:E; [destruct (rev ss); discriminate|].
        cbn [app]. rewrite flat_map_app. cbn [flat_map]. rewrite app_nil_r.
        rewrite <- !app_assoc. reflexivity. }
    rewrite Hrev. rewrite (Hw (rev ss) [] (length (postorder_block ss))).
    + rewrite rev_involutive, app_nil_r. reflexivity.
    + intros s Hs. apply in_rev in Hs. split; [exact Hs|].
      assert (isize_list (postorder_stmt s) <= isize_list (postorder_block ss))%nat; [|lia].
      clear -Hs. unfold postorder_block. induction ss as [|x ss IH]; [destruct Hs|].
      destruct ss as [|x2 ss].
      * destruct Hs as [->|[]]. cbn [map join flat_map]. rewrite app_nil_r. lia.
      * change (join [IEndStatement] (map postorder_stmt (x :: x2 :: ss)))
          with (postorder_stmt x ++ IEndStatement :: join [IEndStatement] (map postorder_stmt (x2 :: ss))).
        rewrite isize_list_app. destruct Hs as [->|Hs]; [lia|]. specialize (IH Hs).
        change (isize_list (IEndStatement :: ?l)) with (S (isize_list l)). cbn [isize_list fold_right isize] in *. lia.
    + rewrite rev_length. clear. unfold postorder_block. induction ss as [|x ss IH]; [cbn; lia|].
      destruct ss as [|x2 ss].
      * cbn [map join flat_map length]. rewrite app_nil_r. pose proof (postorder_stmt_nonempty x). lia.
      * change (join [IEndStatement] (map postorder_stmt (x :: x2 :: ss)))
          with (postorder_stmt x ++ IEndStatement :: join [IEndStatement] (map postorder_stmt (x2 :: ss))).
        rewrite app_length. cbn [length] in *.
        pose proof (postorder_stmt_nonempty x). lia.
  - intros a IH f parent left rest Hf. cbn [postorder rp] in *. apply IH. exact Hf.
  - intros e IH f rest Hf. apply IH. exact Hf.
  - intros x e _ IH f rest Hf. rewrite postorder_stmt_unfold in *. rewrite rp_stmt_unfold.
    rewrite isize_list_app in Hf. cbn in Hf. destruct f as [|f]; [lia|].
    rewrite rev_app_distr. cbn [rev app]. rewrite recon_S. rewrite IH by lia. reflexivity.
  - intros x e IH f rest Hf. rewrite postorder_stmt_unfold in *. rewrite rp_stmt_unfold.
    rewrite isize_list_app in Hf. cbn in Hf. destruct f as [|f]; [lia|].
    rewrite rev_app_distr. cbn [rev app]. rewrite recon_S. rewrite IH by lia. reflexivity.
Qed.
End RP.

Section RImpl.
Variable show_lit : lit -> lit.
Notation I := (fun t:rtok => t).
Notation spl := (show_pval_lit show_lit).

(* printing keeps the kind of a literal: numbers (decimal or hexadecimal) print as decimal numbers,
   strings as strings, booleans as themselves *)
Definition show_kind_ok : Prop := forall l,
  match l with
  | LNum _ | LHex _ => exists s, show_lit l = LNum s
  | LStr _ => exists s, show_lit l = LStr s
  | LTrue _ => exists s, show_lit l = LTrue s
  | LFalse _ => exists s, show_lit l = LFalse s
  end.

(* the tree whose documented rendering is what str prints: literals as printed, names in lower case, folded
   signs resolved, and the parentheses the printer adds around a binary right-hand side of an assignment *)
Definition rhs (e:tree) : tree := if is_bin e then Par e else e.
Fixpoint rimpl (t:tree) : tree :=
  match t with
  | Lit l => Lit (show_lit l)
  | Var s => Var s
  | Nul s => Nul (lower s)
  | Un s a =>
    match unsigned_num a with
    | Some l => if text_eqb s sym_minus then Un sym_minus (Lit (show_lit l))
                else if text_eqb s sym_plus then Lit (show_lit l)
                else Un (lower s) (rimpl a)
    | None => Un (lower s) (rimpl a)
    end
  | Bin k s l r => Bin k (lower s) (rimpl l) (rimpl r)
  | Arr es => Arr (map rimpl es)
  | Code ss => Code (map rimpl_stmt ss)
  | Par a => rimpl a
  end
with rimpl_stmt (s:stmt) : stmt :=
  match s with
  | SExpr e => SExpr (rimpl e)
  | SAssign x e => SAssign x (rhs (rimpl e))
  | SLocal x e => SLocal x (rhs (rimpl e))
  end.
Lemma rimpl_stmt_unfold s : rimpl_stmt s = match s with
  | SExpr e => SExpr (rimpl e) | SAssign x e => SAssign x (rhs (rimpl e)) | SLocal x e => SLocal x (rhs (rimpl e)) end.
Proof. destruct s; reflexivity. Qed.

Definition klev (parent:nat) (left:bool) : nat := if left then (parent - 1)%nat else parent.

Lemma toks_app a b : pieces_toks (a ++ b) = pieces_toks a ++ pieces_toks b.
Proof. unfold pieces_toks. apply flat_map_app. Qed.
Lemma toks_join t els : pieces_toks (join [PT t; sp] els) = join [t] (map pieces_toks els).
Proof.
  destruct els as [|x r]; [reflexivity|]. cbn [join map]. rewrite toks_app. f_equal.
  induction r as [|y r IH]; [reflexivity|]. cbn [flat_map map]. rewrite !toks_app, IH. reflexivity.
Qed.

Notation lmin := (fun _:list stmt => layout_min).
Notation prawI := (praw I lmin).

(* levels of binary nodes are below NLEV everywhere (part of well-formedness) *)
Fixpoint levels_ok (t:tree) : bool :=
  match t with
  | Lit _ | Var _ | Nul _ => true
  | Un _ a => levels_ok a
  | Bin k _ l r => (k <? NLEV)%nat && levels_ok l && levels_ok r
  | Arr es => forallb levels_ok es
  | Code ss => forallb levels_ok_stmt ss
  | Par a => levels_ok a
  end
with levels_ok_stmt (s:stmt) : bool :=
  match s with
  | SExpr e => levels_ok e
  | SAssign x e => (match x with Var _ => true | _ => false end) && levels_ok e
  | SLocal _ e => levels_ok e
  end.
Lemma rhs_print e : (is_bin e = true -> (lvl e < NLEV)%nat) -> prg I lmin 0%nat (rhs e) = prg I lmin NLEV e.
Proof.
  intros H. unfold rhs. destruct e; cbn [is_bin]; try reflexivity.
  specialize (H eq_refl). cbn [lvl] in H.
  rewrite (prg_unfold _ _ NLEV). cbn [lvl]. rewrite (prg_unfold _ _ 0%nat (Par _)). cbn [lvl praw].
  change (0 <=? NLEV)%nat with true. cbv iota.
  destruct (Nat.leb_spec NLEV k); [lia|].
  rewrite prg_unfold. cbn [lvl]. destruct (Nat.leb_spec 0 k); [reflexivity|lia].
Qed.
Lemma rimpl_top t : levels_ok t = true -> is_bin (rimpl t) = true -> (lvl (rimpl t) < NLEV)%nat.
Proof.
  induction t; cbn [rimpl levels_ok is_bin lvl]; intros H Hb; try discriminate.
  - destruct (unsigned_num t); [destruct (text_eqb s sym_minus); [discriminate|destruct (text_eqb s sym_plus); discriminate]|discriminate].
  - apply andb_prop in H. destruct H as [H _]. apply andb_prop in H. destruct H as [H _]. apply Nat.ltb_lt in H. exact H.
  - auto.
Qed.

Lemma raw_minus : raw_of_name sym_minus = ROp sym_minus. Proof. reflexivity. Qed.

Theorem rp_toks :
  (forall t, levels_ok t = true -> forall parent left, (klev parent left <= NLEV)%nat ->
     pieces_toks (rp show_lit parent left t) = prg I lmin (klev parent left) (rimpl t)) /\
  (forall s, levels_ok_stmt s = true -> pieces_toks (rp_stmt show_lit s) = prg_stmt I lmin (rimpl_stmt s)).
Proof.
  (* a node that is never parenthesised (level NLEV) *)
  assert (TOP: forall k t (ts:list rtok), (k <= NLEV)%nat -> lvl t = NLEV -> ts = prawI t -> ts = prg I lmin k t).
  { intros k t ts Hk Ht ->. rewrite prg_unfold, Ht. destruct (Nat.leb_spec k NLEV); [reflexivity|lia]. }
  apply tree_stmt_ind.
  - intros l _ parent left HK. apply TOP; [exact HK|reflexivity|reflexivity].
  - intros v _ parent left HK. apply TOP; [exact HK|reflexivity|reflexivity].
  - intros nm _ parent left HK. apply TOP; [exact HK|reflexivity|reflexivity].
  - intros s a IH Hl parent left HK. cbn [levels_ok] in Hl.
    assert (Hgen: pieces_toks (PT (raw_of_name (lower s)) :: sp :: rp show_lit 10%nat false a)
                  = prg I lmin (klev parent left) (Un (lower s) (rimpl a))).
    { apply TOP; [exact HK|reflexivity|]. cbn [praw pieces_toks flat_map app]. f_equal.
      fold (pieces_toks (rp show_lit 10%nat false a)). apply (IH Hl 10%nat false). cbn. unfold NLEV. lia. }
    cbn [rp rimpl]. destruct (unsigned_num a) as [l|]; [|exact Hgen].
    destruct (text_eqb s sym_minus).
    + apply TOP; [exact HK|reflexivity|]. cbn [praw]. rewrite raw_minus, prg_unfold. reflexivity.
    + destruct (text_eqb s sym_plus); [|exact Hgen]. apply TOP; [exact HK|reflexivity|reflexivity].
  - intros j s l r IHl IHr Hl parent left HK. cbn [levels_ok] in Hl. apply andb_prop in Hl. destruct Hl as [Hl Hr]. apply andb_prop in Hl. destruct Hl as [Hj Hl].
    apply Nat.ltb_lt in Hj. rewrite prg_unfold.
    cbn [rp rimpl lvl praw].
    assert (Hbody: pieces_toks (rp show_lit (S j) true l ++ sp :: PT (raw_of_name (lower s)) :: sp :: rp show_lit (S j) false r)
                   = prg I lmin j (rimpl l) ++ raw_of_name (lower s) :: prg I lmin (S j) (rimpl r)).
    { rewrite toks_app. cbn [pieces_toks flat_map app]. fold (pieces_toks (rp show_lit (S j) false r)).
      rewrite (IHl Hl (S j) true) by (cbn; lia).
      rewrite (IHr Hr (S j) false) by (cbn; lia).
      cbn [klev]. replace (S j - 1)%nat with j by lia. reflexivity. }
    assert (Hc: (if left then (S j <? parent)%nat else (S j <=? parent)%nat) = negb (klev parent left <=? j)%nat).
    { unfold klev. destruct left.
      - destruct (Nat.ltb_spec (S j) parent), (Nat.leb_spec (parent - 1) j); cbn; try reflexivity; lia.
      - destruct (Nat.leb_spec (S j) parent), (Nat.leb_spec parent j); cbn; try reflexivity; lia. }
    rewrite Hc. destruct (klev parent left <=? j)%nat; cbn [negb].
    + exact Hbody.
    + cbn [pieces_toks flat_map app]. f_equal. fold (pieces_toks ((rp show_lit (S j) true l ++ sp :: PT (raw_of_name (lower s)) :: sp :: rp show_lit (S j) false r) ++ [PT RRoundC])).
      rewrite toks_app, Hbody. reflexivity.
  - intros es IH Hl parent left HK. cbn [levels_ok] in Hl. apply TOP; [exact HK|reflexivity|].
    cbn [rp rimpl praw pieces_toks flat_map app]. f_equal.
    fold (pieces_toks (join [PT RComma; sp] (map (rp show_lit 0%nat false) es) ++ [PT RSquareC])).
    rewrite toks_app, toks_join. cbn [pieces_toks flat_map app]. f_equal. f_equal.
    rewrite !map_map. apply (map_ext_forallb levels_ok); [|exact Hl].
    eapply Forall_impl; [|exact IH]. intros e He Hle. apply (He Hle 0%nat false). cbn. lia.
  - intros ss IH Hl parent left HK. change (levels_ok (Code ss)) with (forallb levels_ok_stmt ss) in Hl.
    apply TOP; [exact HK|reflexivity|].
    change (rp show_lit parent left (Code ss)) with (rp_block show_lit ss).
    change (rimpl (Code ss)) with (Code (map rimpl_stmt ss)).
    cbn [praw]. unfold rp_block, prg_block. cbn [lay_lead lay_trail layout_min seps map app].
    change (pieces_toks (PT RCurlyO :: sp :: join [PT RSemi; sp] (map (rp_stmt show_lit) ss) ++ [sp; PT RCurlyC]))
      with (RCurlyO :: pieces_toks (join [PT RSemi; sp] (map (rp_stmt show_lit) ss) ++ [sp; PT RCurlyC])).
    f_equal. rewrite toks_app, toks_join. rewrite app_nil_r.
    change (pieces_toks [sp; PT RCurlyC]) with [RCurlyC]. f_equal.
    unfold mid. cbn [lay_mid_first lay_mid_more layout_min seps map rsep]. f_equal.
    rewrite !map_map. exact (map_ext_forallb _ _ _ ss IH Hl).
  - intros a IH Hl parent left HK. cbn [levels_ok] in Hl. cbn [rp rimpl]. apply IH; assumption.
  - intros e IH Hl. apply (IH Hl 0%nat false). cbn. lia.
  - intros x e _ IH Hl. cbn [levels_ok_stmt] in Hl. rewrite rp_stmt_unfold, rimpl_stmt_unfold, prg_stmt_unfold.
    apply andb_prop in Hl. destruct Hl as [Hx Hl]. destruct x as [|v| | | | | |]; try discriminate.
    cbn [target_name]. rewrite rhs_print by (apply rimpl_top; exact Hl).
    rewrite prg_unfold. cbn [lvl praw]. change (NLEV <=? NLEV)%nat with true. cbv iota.
    change (pieces_toks (PT (RIdent v) :: sp :: PT REqual :: sp :: rp show_lit 10%nat false e))
      with (RIdent v :: REqual :: pieces_toks (rp show_lit 10%nat false e)).
    cbn [app]. f_equal. f_equal.
    apply (IH Hl 10%nat false). cbn. unfold NLEV. lia.
  - intros x e IH Hl. cbn [levels_ok_stmt] in Hl. rewrite rp_stmt_unfold, rimpl_stmt_unfold, prg_stmt_unfold.
    rewrite rhs_print by (apply rimpl_top; exact Hl).
    change (pieces_toks (PT (RPrivate kw_private) :: sp :: PT (RIdent x) :: sp :: PT REqual :: sp :: rp show_lit 10%nat false e))
      with (RPrivate kw_private :: RIdent x :: REqual :: pieces_toks (rp show_lit 10%nat false e)).
    f_equal. f_equal. f_equal.
    apply (IH Hl 10%nat false). cbn. unfold NLEV. lia.
Qed.
End RImpl.

(* after every token comes a blank, a bracket or a separator - or the token is itself a bracket, a separator or
   a sign: a fact about where the printer puts its blanks, whatever the tokens are *)
Fixpoint spaced (ps:list piece) (b:text) : Prop :=
  match ps with
  | [] => True
  | PW w :: r => all_ws w /\ spaced r b
  | PT t :: r => follow_ok t (pieces_text r ++ b) /\ spaced r b
  end.
Definition toks_ok (ps:list piece) : Prop := forall t, In (PT t) ps -> tok_ok t.

Lemma text_app a b : pieces_text (a ++ b) = pieces_text a ++ pieces_text b.
Proof. unfold pieces_text. apply flat_map_app. Qed.
Lemma spaced_preads ps : toks_ok ps -> spaced ps [] -> preads ps.
Proof.
  induction ps as [|[t|w] r IH]; cbn [spaced preads]; intros Hok H; [exact I| |].
  - rewrite app_nil_r in H. assert (Ht: tok_ok t) by (apply Hok; left; reflexivity).
    split; [exact Ht|]. split; [|apply IH; [intros t' Ht'; apply Hok; right; exact Ht'|apply H]].
    destruct (pieces_text r) as [|y b]; [rewrite app_nil_r; apply Ht|].
    apply (lex1_follow t y b Ht (follow_ok_may t y b (proj1 H))).
  - split; [apply H|]. apply IH; [intros t' Ht'; apply Hok; right; exact Ht'|apply H].
Qed.
Lemma spaced_app a c b : spaced a (pieces_text c ++ b) -> spaced c b -> spaced (a ++ c) b.
Proof.
  induction a as [|[t|w] r IH]; cbn [app spaced]; auto.
  - intros (H1 & H2) Hc. rewrite text_app, <- app_assoc. auto.
  - intros (H1 & H2) Hc. auto.
Qed.
Lemma follow_dstart t b : dstart b -> follow_ok t b.
Proof. destruct b; cbn; auto. Qed.
Lemma follow_free t b : free_tok t = true -> follow_ok t b.
Proof. destruct b; cbn; auto. Qed.

Lemma dstart_sp b : dstart (pieces_text (sp :: b)).
Proof. reflexivity. Qed.

Lemma spaced_single t b : dstart b -> spaced [PT t] b.
Proof. intros Hb. cbn [spaced pieces_text flat_map app]. split; [apply follow_dstart; exact Hb|exact I]. Qed.
Lemma spaced_tok_sp t r b : spaced r b -> spaced (PT t :: sp :: r) b.
Proof. intros H. cbn [spaced]. split; [apply follow_dstart; reflexivity|]. split; [reflexivity|exact H]. Qed.
Lemma spaced_free t r b : free_tok t = true -> spaced r b -> spaced (PT t :: r) b.
Proof. intros Hf H. cbn [spaced]. split; [apply follow_free; exact Hf|exact H]. Qed.

(* a list of pieces, each of which is fine before a delimiter, joined by `sep sp` where sep is a bracket or
   separator token, is fine before a delimiter *)
Lemma spaced_join sep (Hfree: free_tok sep = true) (Hd: dstart (rtok_text sep)) : forall els b, dstart b ->
  (forall e, In e els -> forall b', dstart b' -> spaced e b') -> spaced (join [PT sep; sp] els) b.
Proof.
  intros els b Hb H. destruct els as [|x r]; [exact I|]. cbn [join].
  revert x H. induction r as [|y r IH]; intros x H.
  - cbn [flat_map]. rewrite app_nil_r. apply H; [left; reflexivity|exact Hb].
  - cbn [flat_map]. apply spaced_app.
    + apply H; [left; reflexivity|]. rewrite text_app. cbn [pieces_text flat_map app].
      destruct (rtok_text sep) as [|c s'] eqn:E; [reflexivity|]. cbn [app]. exact Hd.
    + change (([PT sep; sp] ++ y) ++ flat_map (fun y0 => [PT sep; sp] ++ y0) r)
        with (PT sep :: sp :: (y ++ flat_map (fun y0 => [PT sep; sp] ++ y0) r)).
      apply spaced_tok_sp. apply (IH y). intros e He. apply H. right. exact He.
Qed.

Section Spacing.
Variable show_lit : lit -> lit.

Theorem rp_spaced :
  (forall t parent left b, dstart b -> spaced (rp show_lit parent left t) b) /\
  (forall s b, dstart b -> spaced (rp_stmt show_lit s) b).
Proof.
  apply tree_stmt_ind.
  - intros l parent left b Hb. cbn [rp show_pval_lit app]. apply spaced_single. exact Hb.
  - intros v parent left b Hb. apply spaced_single. exact Hb.
  - intros nm parent left b Hb. apply spaced_single. exact Hb.
  - intros s a IH parent left b Hb.
    assert (Hgen: spaced (PT (raw_of_name (lower s)) :: sp :: rp show_lit 10%nat false a) b) by (apply spaced_tok_sp, IH; exact Hb).
    cbn [rp]. destruct (unsigned_num a) as [l|]; [|exact Hgen].
    destruct (text_eqb s sym_minus).
    + cbn [show_pval_lit app]. apply spaced_free; [reflexivity|]. apply spaced_single. exact Hb.
    + destruct (text_eqb s sym_plus); [|exact Hgen]. cbn [show_pval_lit app]. apply spaced_single. exact Hb.
  - intros j s l r IHl IHr parent left b Hb. cbn [rp].
    assert (Hbody: forall b', dstart b' ->
              spaced (rp show_lit (S j) true l ++ sp :: PT (raw_of_name (lower s)) :: sp :: rp show_lit (S j) false r) b').
    { intros b' Hb'. apply spaced_app; [apply IHl; reflexivity|]. split; [reflexivity|]. apply spaced_tok_sp, IHr. exact Hb'. }
    destruct (if left then (S j <? parent)%nat else (S j <=? parent)%nat); [|apply Hbody; exact Hb].
    apply spaced_free; [reflexivity|]. apply spaced_app; [apply Hbody; reflexivity|apply spaced_single; exact Hb].
  - intros es IH parent left b Hb. rewrite Forall_forall in IH.
    cbn [rp]. apply spaced_free; [reflexivity|]. apply spaced_app; [|apply spaced_single; exact Hb].
    apply spaced_join; [reflexivity|reflexivity|reflexivity|].
    intros e He b' Hb'. apply in_map_iff in He. destruct He as (x & <- & Hx). apply (IH x Hx). exact Hb'.
  - intros ss IH parent left b Hb. rewrite Forall_forall in IH.
    change (rp show_lit parent left (Code ss)) with (rp_block show_lit ss). unfold rp_block.
    apply spaced_free; [reflexivity|]. split; [reflexivity|].
    apply spaced_app; [|split; [reflexivity|apply spaced_single; exact Hb]].
    apply spaced_join; [reflexivity|reflexivity|reflexivity|].
    intros e He b' Hb'. apply in_map_iff in He. destruct He as (x & <- & Hx). apply (IH x Hx). exact Hb'.
  - intros a IH parent left b Hb. apply IH. exact Hb.
  - intros e IH b Hb. apply IH. exact Hb.
  - intros x e _ IH b Hb. rewrite rp_stmt_unfold. apply spaced_tok_sp, spaced_tok_sp, IH. exact Hb.
  - intros x e IH b Hb. rewrite rp_stmt_unfold. apply spaced_tok_sp, spaced_tok_sp, spaced_tok_sp, IH. exact Hb.
Qed.
End Spacing.

Lemma lowc_idem c : lowc (lowc c) = lowc c.
Proof.
  unfold lowc. destruct (is_upper c) eqn:U; [|rewrite U; reflexivity].
  assert (is_upper (c + 32) = false); [|rewrite H; reflexivity].
  unfold is_upper in *. apply andb_prop in U. destruct U as [U1 U2]. apply Z.leb_le in U1, U2.
  apply andb_false_iff. right. apply Z.leb_gt. lia.
Qed.
Lemma lower_idem s : lower (lower s) = lower s.
Proof. unfold lower. rewrite map_map. apply map_ext. apply lowc_idem. Qed.
Lemma ident_start_lowc c : is_ident_start (lowc c) = is_ident_start c.
Proof.
  unfold is_ident_start, is_alpha, lowc. destruct (is_upper c) eqn:U; [|rewrite U; reflexivity].
  unfold is_upper, is_lower in *. apply andb_prop in U. destruct U as [U1 U2]. apply Z.leb_le in U1, U2.
  cbn [orb]. destruct (Z.leb_spec 65 (c + 32)), (Z.leb_spec (c + 32) 90), (Z.leb_spec 97 (c + 32)), (Z.leb_spec (c + 32) 122),
    (Z.eqb_spec (c + 32) 95), (Z.eqb_spec c 95); cbn; try reflexivity; lia.
Qed.
Lemma raw_of_name_lower s : raw_of_name (lower s) =
  match raw_of_name s with RPrivate _ => RPrivate (lower s) | RIdent _ => RIdent (lower s) | ROp _ => ROp (lower s) | x => x end.
Proof.
  destruct s as [|c s']; [reflexivity|].
  assert (E: raw_of_name (lower (c :: s')) =
             if is_ident_start (lowc c) then (if text_eqb (lower (lower (c :: s'))) kw_private then RPrivate (lower (c :: s')) else RIdent (lower (c :: s')))
             else ROp (lower (c :: s'))) by reflexivity.
  rewrite E, ident_start_lowc, lower_idem. unfold raw_of_name.
  destruct (is_ident_start c); [destruct (text_eqb (lower (c :: s')) kw_private)|]; reflexivity.
Qed.
Definition retext (t:tok) (s:text) : tok :=
  match t with TOp c _ => TOp c s | TIdent _ => TIdent s | TPrivate _ => TPrivate s | x => x end.
Lemma classify_name_lower R b s : classify_name R b (lower s) = retext (classify_name R b s) (lower s).
Proof.
  unfold classify_name. rewrite lower_idem.
  destruct (oi_bin (R (lower s))) as [p|], (oi_un (R (lower s))), (oi_nul (R (lower s)));
    try (destruct ((1 <=? p)%nat && (p <=? 10)%nat)); destruct b; reflexivity.
Qed.
Lemma name_tok_lower R s : name_tok R (lower s) = retext (name_tok R s) (lower s).
Proof.
  unfold name_tok. rewrite raw_of_name_lower. unfold raw_of_name. destruct s as [|c s'].
  - cbn [classify]. apply classify_name_lower.
  - destruct (is_ident_start c); [destruct (text_eqb (lower (c :: s')) kw_private)|]; cbn [classify retext];
      try reflexivity; apply classify_name_lower.
Qed.

Local Open Scope Z_scope.
Lemma text_eqb_sym1 s k : text_eqb s [k] = match s with [c] => c =? k | _ => false end.
Proof. destruct s as [|c [|c' s']]; cbn; rewrite ?andb_true_r, ?andb_false_r; reflexivity. Qed.
Lemma lower_sym1 s k : k < 65 -> text_eqb (lower s) [k] = text_eqb s [k].
Proof.
  intros Hk. rewrite !text_eqb_sym1. destruct s as [|c [|c' s']]; try reflexivity. cbn [lower map].
  unfold lowc. destruct (is_upper c) eqn:U; [|reflexivity].
  unfold is_upper in U. apply andb_prop in U. destruct U as [U1 U2]. apply Z.leb_le in U1, U2.
  destruct (Z.eqb_spec (c + 32) k), (Z.eqb_spec c k); try reflexivity; lia.
Qed.
Lemma lower_sym_plus s : text_eqb (lower s) sym_plus = text_eqb s sym_plus.
Proof. apply lower_sym1. reflexivity. Qed.
Lemma lower_sym_minus s : text_eqb (lower s) sym_minus = text_eqb s sym_minus.
Proof. apply lower_sym1. reflexivity. Qed.
Local Close Scope Z_scope.

Fixpoint mapl_i (g:lit -> lit) (i:instr) : instr :=
  match i with
  | IPush v => IPush (match v with PLit neg l => PLit neg (g l) | PCode c => PCode (map (mapl_i g) c) end)
  | x => x
  end.

Section Final.
Variable show_lit : lit -> lit.
Hypothesis Hkind : show_kind_ok show_lit.
Variable R : registry.
Notation rimpl := (rimpl show_lit).
Notation rimpl_stmt := (rimpl_stmt show_lit).

Lemma wfb_rhs e : wfb R (rhs e) = wfb R e.
Proof. unfold rhs. destruct (is_bin e); reflexivity. Qed.

Theorem wf_rimpl :
  (forall t, wfb R t = true -> wfb R (rimpl t) = true) /\
  (forall s, wfb_stmt R s = true -> wfb_stmt R (rimpl_stmt s) = true).
Proof.
  apply tree_stmt_ind; try (intros; assumption).
  - intros nm Hwf. cbn [CodeRoundtrip.rimpl wfb] in *. rewrite name_tok_lower. destruct (name_tok R nm); try discriminate. exact Hwf.
  - intros s a IH Hwf. cbn [wfb] in Hwf. apply andb_prop in Hwf. destruct Hwf as [Hu Ha].
    assert (Hgen: wfb R (Un (lower s) (rimpl a)) = true).
    { cbn [wfb]. rewrite name_tok_lower, (IH Ha), andb_true_r. destruct (name_tok R s); try discriminate; exact Hu. }
    cbn [CodeRoundtrip.rimpl]. destruct (unsigned_num a) as [l|]; [|exact Hgen].
    destruct (text_eqb s sym_minus) eqn:Em.
    + apply text_eqb_eq in Em. subst. cbn [wfb]. rewrite Hu. reflexivity.
    + destruct (text_eqb s sym_plus); [reflexivity|exact Hgen].
  - intros j s l r IHl IHr Hwf. cbn [wfb] in Hwf. apply andb_prop in Hwf. destruct Hwf as [Hwf Hr]. apply andb_prop in Hwf. destruct Hwf as [Hwf Hl].
    apply andb_prop in Hwf. destruct Hwf as [Hj Hc].
    cbn [CodeRoundtrip.rimpl wfb]. rewrite Hj, name_tok_lower, (IHl Hl), (IHr Hr), !andb_true_r. cbn [andb].
    destruct (name_tok R s); try discriminate; exact Hc.
  - intros es IH Hwf. cbn [wfb CodeRoundtrip.rimpl] in *. rewrite forallb_map. exact (forallb_Forall_impl _ _ es IH Hwf).
  - intros ss IH Hwf. rewrite wfb_Code in Hwf. change (wfb R (rimpl (Code ss))) with (forallb (wfb_stmt R) (map rimpl_stmt ss)).
    rewrite forallb_map. exact (forallb_Forall_impl _ _ ss IH Hwf).
  - intros a IH Hwf. apply IH, Hwf.
  - intros e IH Hwf. apply IH, Hwf.
  - intros x e _ IH Hwf. rewrite rimpl_stmt_unfold. rewrite wfb_stmt_unfold in *.
    apply andb_prop in Hwf. destruct Hwf as [Hx He]. rewrite Hx, wfb_rhs, (IH He). reflexivity.
  - intros x e IH Hwf. rewrite rimpl_stmt_unfold. rewrite wfb_stmt_unfold in *.
    apply andb_prop in Hwf. destruct Hwf as [Hx He]. rewrite Hx, wfb_rhs, (IH He). reflexivity.
Qed.

Lemma show_num_kind l : ((exists s, l = LNum s) \/ (exists s, l = LHex s)) -> exists s', show_lit l = LNum s'.
Proof. intros [[s ->]|[s ->]]; [exact (Hkind (LNum s))|exact (Hkind (LHex s))]. Qed.

Lemma unsigned_rimpl a : unsigned_num (rimpl a) = option_map show_lit (unsigned_num a).
Proof.
  induction a; cbn [CodeRoundtrip.rimpl unsigned_num option_map]; try reflexivity.
  - destruct l as [s|s|s|s|s]; pose proof (Hkind (LNum s)) as K1; pose proof (Hkind (LHex s)) as K2; pose proof (Hkind (LStr s)) as K3;
      pose proof (Hkind (LTrue s)) as K4; pose proof (Hkind (LFalse s)) as K5; cbn in *.
    + destruct K1 as [s' E]. rewrite E. reflexivity.
    + destruct K2 as [s' E]. rewrite E. reflexivity.
    + destruct K3 as [s' E]. rewrite E. reflexivity.
    + destruct K4 as [s' E]. rewrite E. reflexivity.
    + destruct K5 as [s' E]. rewrite E. reflexivity.
  - destruct (unsigned_num a) as [l|] eqn:Eu.
    + destruct (show_num_kind l (unsigned_kind a l Eu)) as [s' Es].
      destruct (text_eqb s sym_minus) eqn:Em.
      * assert (text_eqb s sym_plus = false).
        { apply text_eqb_eq in Em. subst. reflexivity. }
        rewrite H. cbn [unsigned_num]. reflexivity.
      * destruct (text_eqb s sym_plus) eqn:Ep.
        -- cbn [unsigned_num option_map]. rewrite Es. reflexivity.
        -- cbn [unsigned_num]. rewrite lower_sym_plus, Ep. reflexivity.
    + cbn [unsigned_num]. rewrite lower_sym_plus. destruct (text_eqb s sym_plus); [exact IHa|reflexivity].
  - exact IHa.
Qed.

Lemma postorder_rhs e : postorder (rhs e) = postorder e.
Proof. unfold rhs. destruct (is_bin e); reflexivity. Qed.

Theorem postorder_rimpl :
  (forall t, postorder (rimpl t) = map (mapl_i show_lit) (postorder t)) /\
  (forall s, postorder_stmt (rimpl_stmt s) = map (mapl_i show_lit) (postorder_stmt s)).
Proof.
  apply tree_stmt_ind; try reflexivity.
  - intros nm. cbn [CodeRoundtrip.rimpl postorder map mapl_i]. rewrite lower_idem. reflexivity.
  - intros s a IH. cbn [CodeRoundtrip.rimpl postorder].
    destruct (unsigned_num a) as [l|] eqn:Eu.
    + destruct (show_num_kind l (unsigned_kind a l Eu)) as [s' Es].
      destruct (text_eqb s sym_minus) eqn:Em.
      * cbn [postorder unsigned_num]. rewrite Es. cbn [text_eqb sym_minus]. rewrite Z.eqb_refl. cbn [andb map mapl_i]. rewrite Es. reflexivity.
      * destruct (text_eqb s sym_plus) eqn:Ep.
        -- cbn [postorder map mapl_i]. reflexivity.
        -- cbn [postorder]. rewrite unsigned_rimpl, Eu. cbn [option_map]. rewrite lower_sym_minus, lower_sym_plus, Em, Ep, lower_idem, IH.
           rewrite map_app. reflexivity.
    + cbn [postorder]. rewrite unsigned_rimpl, Eu. cbn [option_map]. rewrite lower_idem, IH, map_app. reflexivity.
  - intros j s l r IHl IHr. cbn [CodeRoundtrip.rimpl postorder]. rewrite IHl, IHr, lower_idem, !map_app. reflexivity.
  - intros es IH. cbn [CodeRoundtrip.rimpl postorder]. rewrite map_app, map_length. cbn [map mapl_i]. f_equal.
    induction IH as [|e es He _ IHes]; [reflexivity|]. cbn [map flat_map]. rewrite map_app, He, IHes. reflexivity.
  - intros ss IH.
    change (postorder (rimpl (Code ss))) with [IPush (PCode (join [IEndStatement] (map postorder_stmt (map rimpl_stmt ss))))].
    change (postorder (Code ss)) with [IPush (PCode (join [IEndStatement] (map postorder_stmt ss)))].
    cbn [map mapl_i]. f_equal. f_equal. f_equal. rewrite map_join. cbn [map mapl_i]. f_equal.
    rewrite !map_map. apply map_ext_Forall. exact IH.
  - intros a IH. exact IH.
  - intros e IH. exact IH.
  - intros x e _ IH. rewrite rimpl_stmt_unfold, !postorder_stmt_unfold, postorder_rhs, IH, map_app. reflexivity.
  - intros x e IH. rewrite rimpl_stmt_unfold, !postorder_stmt_unfold, postorder_rhs, IH, map_app. reflexivity.
Qed.
End Final.

Lemma unsigned_strip a : unsigned_num (strip a) = unsigned_num a.
Proof.
  induction a; cbn [strip unsigned_num]; try reflexivity; auto.
  destruct (text_eqb s sym_plus); auto.
Qed.
Theorem postorder_strip :
  (forall t, levels_ok t = true -> postorder (strip t) = postorder t) /\
  (forall s, levels_ok_stmt s = true -> postorder_stmt (strip_stmt s) = postorder_stmt s).
Proof.
  apply tree_stmt_ind; try reflexivity.
  - intros s a IH Hl. cbn [levels_ok] in Hl. cbn [strip postorder]. rewrite unsigned_strip, (IH Hl). reflexivity.
  - intros j s l r IHl IHr Hl. cbn [levels_ok] in Hl. apply andb_prop in Hl. destruct Hl as [Hl Hr]. apply andb_prop in Hl. destruct Hl as [_ Hl].
    cbn [strip postorder]. rewrite (IHl Hl), (IHr Hr). reflexivity.
  - intros es IH Hl. cbn [levels_ok] in Hl. cbn [strip postorder]. rewrite map_length. f_equal.
    induction IH as [|e es He _ IHes]; [reflexivity|]. cbn [forallb] in Hl. apply andb_prop in Hl.
    cbn [map flat_map]. rewrite He, IHes by apply Hl. reflexivity.
  - intros ss IH Hl. change (levels_ok (Code ss)) with (forallb levels_ok_stmt ss) in Hl.
    change (postorder (strip (Code ss))) with [IPush (PCode (join [IEndStatement] (map postorder_stmt (map strip_stmt ss))))].
    change (postorder (Code ss)) with [IPush (PCode (join [IEndStatement] (map postorder_stmt ss)))].
    f_equal. f_equal. f_equal. f_equal. rewrite map_map. exact (map_ext_forallb _ _ _ ss IH Hl).
  - intros a IH Hl. exact (IH Hl).
  - intros e IH Hl. exact (IH Hl).
  - intros x e _ IH Hl. cbn [levels_ok_stmt] in Hl. apply andb_prop in Hl. destruct Hl as [Hx Hl]. destruct x; try discriminate.
    cbn [strip_stmt strip]. rewrite !postorder_stmt_unfold, (IH Hl). reflexivity.
  - intros x e IH Hl. cbn [strip_stmt]. rewrite !postorder_stmt_unfold, (IH Hl). reflexivity.
Qed.
Lemma postorder_block_strip ss : forallb levels_ok_stmt ss = true -> postorder_block (map strip_stmt ss) = postorder_block ss.
Proof.
  intros Hl. unfold postorder_block. f_equal. rewrite map_map. apply (map_ext_forallb levels_ok_stmt); [|exact Hl].
  apply Forall_forall. intros s _. apply postorder_strip.
Qed.

Theorem wf_levels R :
  (forall t, wfb R t = true -> levels_ok t = true) /\
  (forall s, wfb_stmt R s = true -> levels_ok_stmt s = true).
Proof.
  apply tree_stmt_ind; try reflexivity.
  - intros s a IH H. cbn [wfb] in H. apply andb_prop in H. apply IH, H.
  - intros k s l r IHl IHr H. cbn [wfb levels_ok] in *. apply andb_prop in H. destruct H as [H Hr]. apply andb_prop in H. destruct H as [H Hl].
    apply andb_prop in H. destruct H as [Hj _]. rewrite Hj, IHl, IHr by assumption. reflexivity.
  - intros es IH H. exact (forallb_Forall_impl _ _ es IH H).
  - intros ss IH H. exact (forallb_Forall_impl _ _ ss IH H).
  - intros a IH H. apply IH, H.
  - intros e IH H. apply IH, H.
  - intros x e _ IH H. rewrite wfb_stmt_unfold in H. apply andb_prop in H. destruct H as [Hx He].
    cbn [levels_ok_stmt]. destruct x; try discriminate. apply IH, He.
  - intros x e IH H. rewrite wfb_stmt_unfold in H. apply andb_prop in H. apply IH, H.
Qed.

(* For every registry and every well-formed block ss (the code of a code value), with c the compiled code:
   str prints a text (reconstruct never runs off the instruction vector); if every token of that text
   is spelled so that it reads as itself (operator and variable names are lexable, literals are printed as
   literals of their kind - the number/string half of C06), then the text is `{ ... }` and compiles back,
   for all sufficiently large fuel, to a single code value whose instructions are those of c with every
   literal replaced by its printed form. *)
Theorem code_roundtrip : forall (R:registry) (d:defects) (show_lit:lit -> lit) (ss:list stmt),
  show_kind_ok show_lit -> wf_block R ss ->
  exists ps, reconstruct show_lit (postorder_block ss) = Some ps /\
    (toks_ok ps ->
     exists f0, forall f, (f0 <= f)%nat ->
       exists ss', parse_text d R f (pieces_text ps) = FOk [SExpr (Code ss')] /\
                   compile_block ss' = Some (map (mapl_i show_lit) (postorder_block ss))).
Proof.
  intros R d show_lit ss Hkind Hwf.
  set (c := postorder_block ss).
  (* what reconstruct returns *)
  assert (Hrec: reconstruct show_lit c = Some (rp_block show_lit ss)).
  { unfold reconstruct.
    pose proof (proj1 (recon_rp show_lit) (Code ss) (S (S (S (2 * isize_list c)))) 0%nat false []) as H.
    change (postorder (Code ss)) with [IPush (PCode c)] in H. cbn [rev app] in H.
    rewrite recon_S in H.
    assert (Hf: (2 * isize_list [IPush (PCode c)] <= S (S (S (2 * isize_list c))))%nat).
    { unfold isize_list at 1. cbn [fold_right isize]. fold (isize_list c). lia. }
    specialize (H Hf). destruct (recon_block show_lit (S (S (2 * isize_list c))) c) as [ps|]; [|discriminate].
    injection H as ->. reflexivity. }
  exists (rp_block show_lit ss). split; [exact Hrec|].
  intros Hok.
  assert (HwfC: wfb R (Code ss) = true) by exact Hwf.
  assert (Hlev: levels_ok (Code ss) = true) by (apply (wf_levels R); exact HwfC).
  (* the text lexes to the rendering of the printed tree *)
  assert (Hlex: lex (pieces_text (rp_block show_lit ss)) = LexOk (print_raw layout_min [SExpr (rimpl show_lit (Code ss))])).
  { rewrite lex_pieces.
    - f_equal. change (rp_block show_lit ss) with (rp show_lit 0%nat false (Code ss)).
      rewrite (proj1 (rp_toks show_lit) (Code ss) Hlev 0%nat false) by (cbn; lia).
      unfold print_raw, pr_block. cbn [klev lay_lead lay_trail layout_min seps map app join flat_map]. rewrite !app_nil_r. reflexivity.
    - apply spaced_preads; [exact Hok|]. change (rp_block show_lit ss) with (rp show_lit 0%nat false (Code ss)).
      apply (rp_spaced show_lit). exact I. }
  assert (Hwf': wf_block R [SExpr (rimpl show_lit (Code ss))]).
  { unfold wf_block. cbn [forallb]. rewrite andb_true_r.
    change (wfb_stmt R (SExpr (rimpl show_lit (Code ss)))) with (wfb R (rimpl show_lit (Code ss))).
    apply (wf_rimpl show_lit R). exact HwfC. }
  destruct (parse_print_block_of_gen R d layout_min _ Hwf') as [f0 Hp].
  exists f0. intros f Hf.
  exists (map strip_stmt (map (rimpl_stmt show_lit) ss)). split.
  - unfold parse_text. rewrite Hlex, print_raw_toks, (Hp f Hf). reflexivity.
  - assert (Hl2: forallb levels_ok_stmt (map (rimpl_stmt show_lit) ss) = true).
    { apply (proj1 (wf_levels R) (rimpl show_lit (Code ss))). apply (wf_rimpl show_lit R). exact HwfC. }
    rewrite compile_block_postorder, postorder_block_strip by exact Hl2. f_equal.
    unfold c, postorder_block. rewrite map_join. cbn [map mapl_i]. f_equal. rewrite !map_map. apply map_ext. intros s.
    apply (postorder_rimpl show_lit Hkind).
Qed.

(* The formatter before 382ec7b (model pretty_asis) never re-emitted source parentheses: refuted on `(a + b) * c`
   (pp_R, pp_src; Properties_C06_code.C06_pretty_roundtrip_refuted).  The repaired formatter (model `pretty`) is exercised
   by the correspondence run and by the examples below; its round-trip theorem is PrettyRoundtrip.pretty_roundtrip. *)
Definition pp_R : registry := fun key =>
  if text_eqb key [43%Z] then {| oi_bin := Some 6%nat; oi_un := true; oi_nul := false |}
  else if text_eqb key [42%Z] then {| oi_bin := Some 7%nat; oi_un := false; oi_nul := false |}
  else no_op.
Definition pp_src : text := Eval compute in s2b "(a + b) * c"%string.

Definition compile_text (R:registry) (f:nat) (s:text) : option (list instr) :=
  match parse_text as_is R f s with FOk p => compile_block p | _ => None end.
Definition pretty_then_compile (pp:list stmt -> list piece) (R:registry) (f:nat) (s:text) : option (list instr) :=
  match parse_text as_is R f s with FOk p => compile_text R f (pieces_text (pp p)) | _ => None end.

Lemma parse_text_mono d R f0 s p : parse_text d R f0 s = FOk p -> forall f, (f0 <= f)%nat -> parse_text d R f s = FOk p.
Proof.
  unfold parse_text. intros H f Hf. destruct (lex s); try discriminate.
  destruct (parse_toks d f0 (map (classify R) ts)) eqn:E; try discriminate.
  rewrite (ParseMono.mono_parse d f0 f _ ltac:(rewrite E; discriminate) Hf), E. exact H.
Qed.

(* the repaired printer on the same program, and on a unary operand *)
Example pretty_repaired_ex1 : pretty_then_compile pretty_program pp_R 100 pp_src = compile_text pp_R 100 pp_src.
Proof. vm_compute. reflexivity. Qed.
Example pretty_repaired_ex2 : pretty_then_compile pretty_program pp_R 100 (s2b "+ (a + b) * (c * (a * b))"%string)
                              = compile_text pp_R 100 (s2b "+ (a + b) * (c * (a * b))"%string).
Proof. vm_compute. reflexivity. Qed.

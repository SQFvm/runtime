(* Unfolding equations of the mutually recursive parser functions (bodies copied from SyntaxDefs.v by
   Syntax/mk_parse_eqs.py; each is checked by reflexivity). *)
From Coq Require Import ZArith List Bool Arith Lia.
Import ListNotations.
From SqfVerif Require Import Syntax.SyntaxDefs.

(* p_stmts' test for the end of a block and p_stmt's test for `private x = ...` as functions of the tokens:
   a proof that follows these parsers splits on their answer, not on the tokens (p_stmts_S_end, p_stmt_S_local) *)
Definition block_end (ts:list tok) : bool := match ts with [] | TCurlyC :: _ => true | _ => false end.
Definition local_decl (ts:list tok) : option text :=
  match ts with TPrivate _ :: TIdent x :: TEqual :: _ => Some x | _ => None end.

Section Eqs.
Variable d : defects.

Lemma p_exp_S (f:nat) (k:nat) (ts:list tok) :
  p_exp d (S f) k ts =
    if (NLEV <=? k)%nat then
      match ts with
      | [] => PErr
      | t :: r =>
        (* a thunk: the extracted code is strict, the operand must only be parsed when the token is unary *)
        let unary := fun (_:unit) => match p_exp d f NLEV r with
                                     | POk (a, r') => POk (Un (tok_name t) a, r')
                                     | PErr => PErr | POut => POut
                                     end in
        match t with
        | TRoundO => match p_exp d f 0%nat r with
                     | POk (e, TRoundC :: r') => POk (e, r')
                     | POk _ => PErr
                     | PErr => PErr | POut => POut
                     end
        | TSquareO => match r with
                      | TSquareC :: r' => POk (Arr [], r')
                      | _ => match p_items d f r with
                             | POk (es, r') => POk (Arr es, r')
                             | PErr => PErr | POut => POut
                             end
                      end
        | TCurlyO => match p_stmts d f r with
                     | POk (ss, TCurlyC :: r') => POk (Code ss, r')
                     | POk _ => PErr
                     | PErr => PErr | POut => POut
                     end
        | TPrivate _ => unary tt
        | TOp CU _ | TOp (CBU _) _ => unary tt
        | TOp (CBUN _) s => if next_starts_expu r then unary tt else POk (Nul s, r)
        | TOp CUN s => if next_starts_expu r then unary tt
                       else if d_un_no_operand d then PErr else POk (Nul s, r)
        | TOp CN s | TOp (CBN _) s => POk (Nul s, r)
        | TOp (CB _) _ => PErr
        | TIdent s => POk (Var s, r)
        | TNumber s => POk (Lit (LNum s), r)
        | THex s => POk (Lit (LHex s), r)
        | TString s => POk (Lit (LStr s), r)
        | TTrue s => POk (Lit (LTrue s), r)
        | TFalse s => POk (Lit (LFalse s), r)
        | _ => PErr
        end
      end
    else
      match p_exp d f (S k) ts with
      | POk (l, r) => p_loop d f k l r
      | PErr => PErr | POut => POut
      end.
Proof. reflexivity. Qed.

Lemma p_exp_O (k:nat) (ts:list tok) : p_exp d O k ts = POut.
Proof. reflexivity. Qed.

Lemma p_loop_S (f:nat) (k:nat) (acc:tree) (ts:list tok) :
  p_loop d (S f) k acc ts =
    match ts with
    | o :: r => match binlevel o with
                | Some j => if (j =? k)%nat then
                              match p_exp d f (S k) r with
                              | POk (x, r') => p_loop d f k (Bin k (tok_name o) acc x) r'
                              | PErr => PErr | POut => POut
                              end
                            else POk (acc, ts)
                | None => POk (acc, ts)
                end
    | [] => POk (acc, ts)
    end.
Proof. reflexivity. Qed.

Lemma p_loop_O (k:nat) (acc:tree) (ts:list tok) : p_loop d O k acc ts = POut.
Proof. reflexivity. Qed.

Lemma p_items_S (f:nat) (ts:list tok) :
  p_items d (S f) ts =
    match p_exp d f 0%nat ts with
    | POk (e, TComma :: r) => match p_items d f r with
                              | POk (es, r') => POk (e :: es, r')
                              | PErr => PErr | POut => POut
                              end
    | POk (e, TSquareC :: r) => POk ([e], r)
    | POk _ => PErr
    | PErr => PErr | POut => POut
    end.
Proof. reflexivity. Qed.

Lemma p_items_O (ts:list tok) : p_items d O ts = POut.
Proof. reflexivity. Qed.

Lemma p_stmts_S (f:nat) (ts:list tok) :
  p_stmts d (S f) ts =
    match skip_seps ts with
    | [] => POk ([], [])
    | TCurlyC :: r => POk ([], TCurlyC :: r)
    | ts' =>
      match p_stmt d f ts' with
      | POk (s, r) =>
        match r with
        | t :: _ => if is_sep t then
                      match p_stmts d f r with
                      | POk (ss, r') => POk (s :: ss, r')
                      | PErr => PErr | POut => POut
                      end
                    else POk ([s], r)
        | [] => POk ([s], r)
        end
      | PErr => PErr | POut => POut
      end
    end.
Proof. reflexivity. Qed.

Lemma p_stmts_O (ts:list tok) : p_stmts d O ts = POut.
Proof. reflexivity. Qed.

Lemma p_stmt_S (f:nat) (ts:list tok) :
  p_stmt d (S f) ts =
    match p_exp d f 0%nat ts with
    | POk (e, TEqual :: r) =>
      match ts with
      | TPrivate _ :: TIdent x :: TEqual :: _ =>            (* parser.y:225 "private" IDENT "=" expression *)
        match p_exp d f 0%nat r with
        | POk (e', r') => POk (SLocal x e', r')
        | PErr => PErr | POut => POut
        end
      | _ =>
        if is_value_tree e && negb (starts_paren ts) then   (* parser.y:226 value "=" expression *)
          match p_exp d f 0%nat r with
          | POk (e', r') => POk (SAssign e e', r')
          | PErr => PErr | POut => POut
          end
        else POk (SExpr e, TEqual :: r)
      end
    | POk (e, r) => POk (SExpr e, r)
    | PErr => PErr | POut => POut
    end.
Proof. reflexivity. Qed.

Lemma p_stmt_O (ts:list tok) : p_stmt d O ts = POut.
Proof. reflexivity. Qed.

Lemma p_stmts_S_end (f:nat) (ts:list tok) :
  p_stmts d (S f) ts =
    if block_end (skip_seps ts) then POk ([], skip_seps ts) else
    match p_stmt d f (skip_seps ts) with
    | POk (s, r) =>
      match r with
      | t :: _ => if is_sep t then
                    match p_stmts d f r with
                    | POk (ss, r') => POk (s :: ss, r')
                    | PErr => PErr | POut => POut
                    end
                  else POk ([s], r)
      | [] => POk ([s], r)
      end
    | PErr => PErr | POut => POut
    end.
Proof. rewrite p_stmts_S. destruct (skip_seps ts) as [|t r]; [reflexivity|]. destruct t; reflexivity. Qed.

Lemma p_stmt_S_local (f:nat) (ts:list tok) :
  p_stmt d (S f) ts =
    match p_exp d f 0%nat ts with
    | POk (e, TEqual :: r) =>
      match local_decl ts with
      | Some x =>
        match p_exp d f 0%nat r with
        | POk (e', r') => POk (SLocal x e', r')
        | PErr => PErr | POut => POut
        end
      | None =>
        if is_value_tree e && negb (starts_paren ts) then
          match p_exp d f 0%nat r with
          | POk (e', r') => POk (SAssign e e', r')
          | PErr => PErr | POut => POut
          end
        else POk (SExpr e, TEqual :: r)
      end
    | POk (e, r) => POk (SExpr e, r)
    | PErr => PErr | POut => POut
    end.
Proof.
  rewrite p_stmt_S. destruct (p_exp d f 0%nat ts) as [[e [|t r]]| |]; try reflexivity. destruct t; try reflexivity.
  destruct ts as [|t1 ts1]; [reflexivity|]. destruct t1; try reflexivity.
  destruct ts1 as [|t2 ts2]; [reflexivity|]. destruct t2; try reflexivity.
  destruct ts2 as [|t3 ts3]; [reflexivity|]. destruct t3; reflexivity.
Qed.

End Eqs.

(* Fuel monotonicity of the parser model: once an answer is not "out of fuel", more fuel never changes it. *)
From Coq Require Import ZArith List Bool Arith Lia.
Import ListNotations.
From SqfVerif Require Import Syntax.SyntaxDefs Syntax.ParseEqs.

Section Mono.
Variable d : defects.

(* a strict match on an earlier result keeps an answer that is not "out of fuel" when its scrutinee and its continuation do *)
Lemma bind_mono {A B} (c c' : pres A) (K K' : A -> pres B) :
  (c <> POut -> c' = c) -> (forall x, K x <> POut -> K' x = K x) ->
  match c with POk x => K x | PErr => PErr | POut => POut end <> POut ->
  match c' with POk x => K' x | PErr => PErr | POut => POut end = match c with POk x => K x | PErr => PErr | POut => POut end.
Proof. intros Hc HK H. destruct c as [x| |]; [|rewrite Hc by discriminate; reflexivity|congruence]. rewrite Hc by discriminate. apply HK, H. Qed.

Lemma mono_gen : forall f,
  (forall k ts, p_exp d f k ts <> POut -> forall f', (f <= f')%nat -> p_exp d f' k ts = p_exp d f k ts) /\
  (forall k acc ts, p_loop d f k acc ts <> POut -> forall f', (f <= f')%nat -> p_loop d f' k acc ts = p_loop d f k acc ts) /\
  (forall ts, p_items d f ts <> POut -> forall f', (f <= f')%nat -> p_items d f' ts = p_items d f ts) /\
  (forall ts, p_stmts d f ts <> POut -> forall f', (f <= f')%nat -> p_stmts d f' ts = p_stmts d f ts) /\
  (forall ts, p_stmt d f ts <> POut -> forall f', (f <= f')%nat -> p_stmt d f' ts = p_stmt d f ts).
Proof.
  induction f as [|f (IHe & IHl & IHi & IHss & IHs)].
  { repeat split; intros; exfalso; apply H; reflexivity. }
  repeat split; intros until ts; intros H f' Hf; (destruct f' as [|f']; [lia|]);
    assert (Hle: (f <= f')%nat) by lia; clear Hf.
  - (* p_exp *) rewrite !p_exp_S in *. destruct (NLEV <=? k)%nat.
    + destruct ts as [|t r]; [reflexivity|]. cbv zeta in *.
      assert (UN: forall g : tree -> tree,
                match p_exp d f NLEV r with POk (a, r') => POk (g a, r') | PErr => PErr | POut => POut end <> POut ->
                match p_exp d f' NLEV r with POk (a, r') => POk (g a, r') | PErr => PErr | POut => POut end =
                match p_exp d f NLEV r with POk (a, r') => POk (g a, r') | PErr => PErr | POut => POut end).
      { intros g. apply bind_mono; [intros Hc; apply IHe; assumption|]. intros x _. reflexivity. }
      destruct t; try reflexivity; try exact (UN _ H).
      * revert H. apply bind_mono; [intros Hc; apply IHss; assumption|]. intros x _. reflexivity.
      * revert H. apply bind_mono; [intros Hc; apply IHe; assumption|]. intros x _. reflexivity.
      * destruct r as [|t' r']; [|destruct t'; try reflexivity];
          (revert H; apply bind_mono; [intros Hc; apply IHi; assumption|]; intros x _; reflexivity).
      * destruct c; try reflexivity; try exact (UN _ H); (destruct (next_starts_expu r); [exact (UN _ H)|reflexivity]).
    + revert H. apply bind_mono; [intros Hc; apply IHe; assumption|]. intros [l r] Hx. apply IHl; assumption.
  - (* p_loop *) rewrite !p_loop_S in *. destruct ts as [|o r]; [reflexivity|]. destruct (binlevel o) as [j|]; [|reflexivity].
    destruct (j =? k)%nat; [|reflexivity]. revert H. apply bind_mono; [intros Hc; apply IHe; assumption|].
    intros [x r'] Hx. apply IHl; assumption.
  - (* p_items *) rewrite !p_items_S in *. revert H. apply bind_mono; [intros Hc; apply IHe; assumption|].
    intros [e [|t r]] Hx; try reflexivity. destruct t; try reflexivity.
    revert Hx. apply bind_mono; [intros Hc; apply IHi; assumption|]. intros [es r'] _. reflexivity.
  - (* p_stmts *) rewrite !p_stmts_S_end in *. destruct (block_end (skip_seps ts)); [reflexivity|].
    revert H. apply bind_mono; [intros Hc; apply IHs; assumption|].
    intros [s [|t r]] Hx; [reflexivity|]. destruct (is_sep t); [|reflexivity].
    revert Hx. apply bind_mono; [intros Hc; apply IHss; assumption|]. intros [ss r'] _. reflexivity.
  - (* p_stmt *) rewrite !p_stmt_S_local in *. revert H. apply bind_mono; [intros Hc; apply IHe; assumption|].
    intros [e [|t r]] Hx; try reflexivity. destruct t; try reflexivity.
    destruct (local_decl ts).
    + revert Hx. apply bind_mono; [intros Hc; apply IHe; assumption|]. intros [e' r'] _. reflexivity.
    + destruct (is_value_tree e && negb (starts_paren ts)); [|reflexivity].
      revert Hx. apply bind_mono; [intros Hc; apply IHe; assumption|]. intros [e' r'] _. reflexivity.
Qed.
Lemma mono_e f f' k ts r : p_exp d f k ts = POk r -> (f <= f')%nat -> p_exp d f' k ts = POk r.
Proof. intros E H. rewrite (proj1 (mono_gen f) k ts ltac:(rewrite E; discriminate) f' H). exact E. Qed.
Lemma mono_l f f' k acc ts r : p_loop d f k acc ts = POk r -> (f <= f')%nat -> p_loop d f' k acc ts = POk r.
Proof. intros E H. rewrite (proj1 (proj2 (mono_gen f)) k acc ts ltac:(rewrite E; discriminate) f' H). exact E. Qed.
Lemma mono_i f f' ts r : p_items d f ts = POk r -> (f <= f')%nat -> p_items d f' ts = POk r.
Proof. intros E H. rewrite (proj1 (proj2 (proj2 (mono_gen f))) ts ltac:(rewrite E; discriminate) f' H). exact E. Qed.
Lemma mono_ss_gen f f' ts : p_stmts d f ts <> POut -> (f <= f')%nat -> p_stmts d f' ts = p_stmts d f ts.
Proof. intros E H. exact (proj1 (proj2 (proj2 (proj2 (mono_gen f)))) ts E f' H). Qed.
Lemma mono_ss f f' ts r : p_stmts d f ts = POk r -> (f <= f')%nat -> p_stmts d f' ts = POk r.
Proof. intros E H. rewrite (mono_ss_gen f f' ts ltac:(rewrite E; discriminate) H). exact E. Qed.
Lemma mono_s f f' ts r : p_stmt d f ts = POk r -> (f <= f')%nat -> p_stmt d f' ts = POk r.
Proof. intros E H. rewrite (proj2 (proj2 (proj2 (proj2 (mono_gen f)))) ts ltac:(rewrite E; discriminate) f' H). exact E. Qed.

Lemma mono_parse f f' ts : parse_toks d f ts <> POut -> (f <= f')%nat -> parse_toks d f' ts = parse_toks d f ts.
Proof.
  unfold parse_toks. intros H Hle.
  assert (Hne: p_stmts d f ts <> POut) by (intros E; rewrite E in H; apply H; reflexivity).
  rewrite (mono_ss_gen f f' ts Hne Hle). reflexivity.
Qed.
Lemma parse_stable f0 ts : parse_toks d f0 ts <> POut -> forall f, parse_toks d f ts = parse_toks d f0 ts \/ parse_toks d f ts = POut.
Proof.
  intros H f. destruct (Nat.le_ge_cases f0 f) as [Hle|Hle]; [left; apply mono_parse; assumption|].
  destruct (parse_toks d f ts) eqn:E; [left| left |right; reflexivity].
  - rewrite <- E. symmetry. apply mono_parse; [rewrite E; discriminate|assumption].
  - rewrite <- E. symmetry. apply mono_parse; [rewrite E; discriminate|assumption].
Qed.
End Mono.

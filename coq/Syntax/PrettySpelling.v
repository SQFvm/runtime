(* C06, code half, pretty printer: PrettyRoundtrip.pretty_roundtrip with its spelling hypothesis on the input.
   The formatter writes the tokens of its input, except that it lowers the names of unary and binary operators
   and writes `$ff` as `0xff` (sqf_formatter.cpp:38-40, 49-51, 65-71).  A token that reads as itself still does
   after this respelling, so: if every token of the program reads as itself (`spelled`), so does every token of
   the printed text. *)
From Coq Require Import ZArith List Bool Arith Lia.
Import ListNotations.
From SqfVerif Require Import Syntax.SyntaxDefs Syntax.TreeFacts Syntax.LexProofs Syntax.CompileProofs Syntax.CodeRoundtrip Syntax.PrettyRoundtrip.
Local Open Scope Z_scope.

Lemma is_ident_char_lowc c : is_ident_char (lowc c) = is_ident_char c.
Proof.
  unfold is_ident_char, is_alpha, lowc. destruct (is_upper c) eqn:U; [|rewrite U; reflexivity].
  assert (L: is_lower (c + 32) = true).
  { unfold is_upper, is_lower in *. apply andb_prop in U. destruct U as [U1 U2]. apply Z.leb_le in U1, U2.
    apply andb_true_intro. split; apply Z.leb_le; lia. }
  rewrite L, orb_true_r. reflexivity.
Qed.
Lemma not_ident_start_not_upper c : is_ident_start c = false -> is_upper c = false.
Proof. unfold is_ident_start, is_alpha. destruct (is_upper c); [discriminate|reflexivity]. Qed.

Lemma span_ident_lower s : span is_ident_char (lower s) = (lower (fst (span is_ident_char s)), lower (snd (span is_ident_char s))).
Proof.
  induction s as [|c r IH]; [reflexivity|]. cbn [lower map span]. fold (lower r). rewrite is_ident_char_lowc.
  destruct (is_ident_char c); [|reflexivity]. rewrite IH. destruct (span is_ident_char r) as [a b]. reflexivity.
Qed.
Lemma lex1_ident_lower s : (match s with c :: _ => is_ident_start c = true | [] => False end) ->
  lex1 s = L1Tok (RIdent s) [] -> lex1 (lower s) = L1Tok (RIdent (lower s)) [].
Proof.
  destruct s as [|c r]; [intros []|]. intros Hc H.
  change (lower (c :: r)) with (lowc c :: lower r).
  rewrite lex1_name in H by exact Hc. rewrite lex1_name by (rewrite ident_start_lowc; exact Hc).
  change (lowc c :: lower r) with (lower (c :: r)). rewrite span_ident_lower.
  destruct (span is_ident_char (c :: r)) as [a b]. cbn [fst snd]. injection H as H ->.
  destruct (name_rtok_ident _ _ H) as (-> & E1 & E2 & E3).
  unfold name_rtok. rewrite lower_idem, E1, E2, E3. reflexivity.
Qed.

(* a name read as an operator token consists of operator characters: nothing to lower *)
Lemma op2_second_not_upper a b : op_len [a; b] = 2%nat -> is_upper b = false.
Proof.
  destruct (Z.eqb_spec b 61); [subst; reflexivity|]. destruct (Z.eqb_spec b 62); [subst; reflexivity|].
  destruct (Z.eqb_spec b 124); [subst; reflexivity|]. destruct (Z.eqb_spec b 38); [subst; reflexivity|].
  unfold op_len, starts2, starts1.
  replace (b =? 61) with false by (symmetry; apply Z.eqb_neq; assumption).
  replace (b =? 62) with false by (symmetry; apply Z.eqb_neq; assumption).
  replace (b =? 124) with false by (symmetry; apply Z.eqb_neq; assumption).
  replace (b =? 38) with false by (symmetry; apply Z.eqb_neq; assumption).
  rewrite !andb_false_r.
  repeat match goal with |- context[if ?x then _ else _] => destruct x end; discriminate.
Qed.

Lemma lex1_op_inv s : lex1 s = L1Tok (ROp s) [] -> lex_op s = L1Tok (ROp s) [].
Proof.
  intros H. destruct s as [|c r]; [discriminate|]. destruct (is_ident_start c) eqn:Hc.
  - rewrite lex1_name in H by exact Hc. destruct (span is_ident_char (c :: r)) as [a b]. injection H as H _.
    unfold name_rtok in H. repeat destruct (text_eqb _ _); discriminate.
  - destruct (lex1_other_inv c r _ _ Hc H) as [(a & E & _)|[Hn|[Ho|[(a & E & _)|[_ Hp]]]]]; try discriminate; [|exact Ho|].
    + destruct (lex_num_kind _ _ _ Hn) as [a E]. discriminate.
    + unfold punct_toks in Hp. cbn [In] in Hp. repeat (destruct Hp as [E|Hp]; [discriminate|]). destruct Hp.
Qed.

Lemma op_name_lower s : (match s with c :: _ => is_ident_start c = false | [] => True end) ->
  lex1 s = L1Tok (ROp s) [] -> lower s = s.
Proof.
  intros Hc H. apply lex1_op_inv in H. unfold lex_op in H. pose proof (op_len_le2 s) as Hle.
  destruct (op_len s) as [|n] eqn:En; [discriminate|]. injection H as Hf Hs.
  destruct s as [|c r]; [reflexivity|]. apply not_ident_start_not_upper in Hc.
  assert (Hlc: lowc c = c) by (unfold lowc; rewrite Hc; reflexivity).
  cbn [skipn] in Hs. destruct r as [|b r'].
  - cbn [lower map]. rewrite Hlc. reflexivity.
  - destruct n as [|n]; [discriminate|]. destruct n as [|n]; [|lia]. cbn [skipn] in Hs. subst r'.
    pose proof (op2_second_not_upper c b En) as Hb. cbn [lower map]. unfold lowc at 2. rewrite Hb, Hlc. reflexivity.
Qed.

Theorem tok_ok_name_lower s : tok_ok (raw_of_name s) -> tok_ok (raw_of_name (lower s)).
Proof.
  intros H. rewrite raw_of_name_lower. destruct s as [|c r]; [exact H|].
  unfold raw_of_name in *. destruct (is_ident_start c) eqn:Hc; [destruct (text_eqb (lower (c :: r)) kw_private) eqn:Ep|].
  - apply text_eqb_eq in Ep. rewrite Ep. split; [reflexivity|exact I].
  - destruct H as [H _]. split; [|exact I]. cbn [rtok_text] in *. apply lex1_ident_lower; assumption.
  - destruct H as [H H2]. cbn [rtok_text] in H. rewrite (op_name_lower (c :: r) Hc H). split; assumption.
Qed.

Theorem tok_ok_hexnorm l : tok_ok (raw_of_lit l) -> tok_ok (pretty_lit l).
Proof.
  destruct l as [s|s|s|s|s]; try (intros H; exact H). destruct s as [|c r]; [intros H; exact H|].
  cbn [pretty_lit raw_of_lit]. destruct (Z.eqb_spec c 36) as [E|Hne]; [subst c|intros H; exact H].
  intros [H _]. split; [|exact I]. cbn [rtok_text] in *.
  unfold lex1 in H. cbn in H.
  destruct (span is_hexdigit r) as [dg r'] eqn:Es. destruct dg as [|d0 dg]; [discriminate|]. injection H as Hd Hr. subst r'.
  unfold lex1. change (is_ws 48) with false. cbv iota.
  change (lowc 48 =? 102) with false. change (lowc 48 =? 116) with false. change (lowc 48 =? 112) with false.
  change (is_ident_start 48) with false. change (48 =? 48) with true. cbv iota.
  unfold lex_hex. change (48 =? 36) with false. cbv iota. change (120 =? 120) with true. cbv iota.
  rewrite Es, Hd. reflexivity.
Qed.

Fixpoint spelled (t:tree) : Prop :=
  match t with
  | Lit l => tok_ok (raw_of_lit l)
  | Var s => tok_ok (RIdent s)
  | Nul s => tok_ok (raw_of_name s)
  | Un s a => tok_ok (raw_of_name s) /\ spelled a
  | Bin _ s l r => tok_ok (raw_of_name s) /\ spelled l /\ spelled r
  | Arr es => fold_right (fun e P => spelled e /\ P) True es
  | Code ss => fold_right (fun s P => spelled_stmt s /\ P) True ss
  | Par a => spelled a
  end
with spelled_stmt (s:stmt) : Prop :=
  match s with
  | SExpr e => spelled e
  | SAssign x e => (match x with Var n | Nul n => tok_ok (RIdent n) | _ => True end) /\ spelled e
  | SLocal x e => tok_ok (RIdent x) /\ spelled e
  end.
Definition spelled_block (ss:list stmt) : Prop := forall s, In s ss -> spelled_stmt s.

Lemma fold_and_in {X} (P:X -> Prop) l : fold_right (fun e Q => P e /\ Q) True l -> forall e, In e l -> P e.
Proof. induction l as [|x l IH]; cbn; intros H e []; subst; [apply H|apply IH; tauto]. Qed.
Lemma spelled_stmt_unfold s : spelled_stmt s = match s with
  | SExpr e => spelled e
  | SAssign x e => (match x with Var n | Nul n => tok_ok (RIdent n) | _ => True end) /\ spelled e
  | SLocal x e => tok_ok (RIdent x) /\ spelled e end.
Proof. destruct s; reflexivity. Qed.

Lemma toks_ok_PT t r : tok_ok t -> toks_ok r -> toks_ok (PT t :: r).
Proof. intros H Hr t0 [E|Hin]; [injection E as <-; exact H|apply Hr; exact Hin]. Qed.
Lemma toks_ok_PW w r : toks_ok r -> toks_ok (PW w :: r).
Proof. intros Hr t0 [E|Hin]; [discriminate|apply Hr; exact Hin]. Qed.
Lemma toks_ok_app_intro a b : toks_ok a -> toks_ok b -> toks_ok (a ++ b).
Proof. intros Ha Hb t Ht. apply in_app_or in Ht. destruct Ht; auto. Qed.
Lemma toks_ok_nil : toks_ok [].
Proof. intros t []. Qed.
Lemma toks_ok_indent d r : toks_ok r -> toks_ok (indent d ++ r).
Proof. destruct d; [auto|]. intros H. cbn [indent app]. apply toks_ok_PW. exact H. Qed.
Lemma toks_ok_paren_intro c ps : toks_ok ps -> toks_ok (paren_if c ps).
Proof.
  destruct c; [|auto]. intros H. cbn [paren_if]. apply toks_ok_PT; [repeat split|].
  apply toks_ok_app_intro; [exact H|]. apply toks_ok_PT; [repeat split|apply toks_ok_nil].
Qed.
Lemma toks_ok_join_comma els : (forall e, In e els -> toks_ok e) -> toks_ok (join [PT RComma; sp] els).
Proof.
  intros H. destruct els as [|x r]; [apply toks_ok_nil|]. cbn [join]. apply toks_ok_app_intro; [apply H; left; reflexivity|].
  assert (Hr: forall e, In e r -> toks_ok e) by (intros; apply H; right; assumption). clear H.
  induction r as [|y r IH]; [apply toks_ok_nil|]. cbn [flat_map]. apply toks_ok_app_intro.
  - cbn [app]. apply toks_ok_PT; [repeat split|]. apply toks_ok_PW. apply Hr. left. reflexivity.
  - apply IH. intros; apply Hr; right; assumption.
Qed.
Lemma toks_ok_stmts (pre:list piece) d ss : (forall ps, toks_ok ps -> toks_ok (pre ++ ps)) ->
  (forall s, In s ss -> toks_ok (pretty_stmt d s)) ->
  toks_ok (flat_map (fun s => pre ++ pretty_stmt d s ++ [PT RSemi; nl]) ss).
Proof.
  intros Hpre H. induction ss as [|s r IH]; [apply toks_ok_nil|]. cbn [flat_map]. apply toks_ok_app_intro.
  - apply Hpre. apply toks_ok_app_intro; [apply H; left; reflexivity|].
    apply toks_ok_PT; [repeat split|]. apply toks_ok_PW. apply toks_ok_nil.
  - apply IH. intros; apply H; right; assumption.
Qed.

Theorem spelled_pretty :
  (forall t, spelled t -> forall depth, toks_ok (pretty depth t)) /\
  (forall s, spelled_stmt s -> forall depth, toks_ok (pretty_stmt depth s)).
Proof.
  apply tree_stmt_ind.
  - intros l Hsp depth. cbn [pretty]. apply toks_ok_PT; [apply tok_ok_hexnorm; exact Hsp|apply toks_ok_nil].
  - intros v Hsp depth. cbn [pretty]. apply toks_ok_PT; [exact Hsp|apply toks_ok_nil].
  - intros nm Hsp depth. cbn [pretty]. apply toks_ok_PT; [exact Hsp|apply toks_ok_nil].
  - intros s a IH Hsp depth. cbn [spelled] in Hsp. destruct Hsp as [Hs Ha]. cbn [pretty].
    apply toks_ok_PT; [apply tok_ok_name_lower; exact Hs|]. apply toks_ok_PW. apply toks_ok_paren_intro. apply IH. exact Ha.
  - intros j s l r IHl IHr Hsp depth. cbn [spelled] in Hsp. destruct Hsp as (Hs & Hl & Hr). cbn [pretty].
    apply toks_ok_app_intro; [apply toks_ok_paren_intro; apply IHl; exact Hl|].
    apply toks_ok_PW. apply toks_ok_PT; [apply tok_ok_name_lower; exact Hs|]. apply toks_ok_PW.
    apply toks_ok_paren_intro. apply IHr. exact Hr.
  - intros es IH Hsp depth. rewrite Forall_forall in IH.
    cbn [spelled] in Hsp. pose proof (fold_and_in spelled es Hsp) as Hin. cbn [pretty].
    apply toks_ok_PT; [repeat split|]. apply toks_ok_app_intro; [|apply toks_ok_PT; [repeat split|apply toks_ok_nil]].
    apply toks_ok_join_comma. intros e He. apply in_map_iff in He. destruct He as (x & <- & Hx).
    apply (IH x Hx). apply Hin. exact Hx.
  - intros ss IH Hsp depth. rewrite Forall_forall in IH.
    change (spelled (Code ss)) with (fold_right (fun s P => spelled_stmt s /\ P) True ss) in Hsp.
    pose proof (fold_and_in spelled_stmt ss Hsp) as Hin. rewrite pretty_code. destruct ss as [|s0 r].
    + apply toks_ok_PT; [repeat split|]. apply toks_ok_indent. apply toks_ok_PT; [repeat split|apply toks_ok_nil].
    + apply toks_ok_PT; [repeat split|]. apply toks_ok_PW. apply toks_ok_app_intro.
      * apply toks_ok_stmts; [intros ps; apply toks_ok_indent|].
        intros s Hs. apply (IH s Hs). apply Hin. exact Hs.
      * apply toks_ok_indent. apply toks_ok_PT; [repeat split|apply toks_ok_nil].
  - intros a IH Hsp depth. cbn [pretty]. apply IH. exact Hsp.
  - intros e IH Hsp depth. apply IH. exact Hsp.
  - intros x e _ IH Hsp depth. rewrite spelled_stmt_unfold in Hsp. rewrite pretty_stmt_unfold. destruct Hsp as [Hx He].
    assert (Hgen: forall nm, tok_ok (RIdent nm) -> toks_ok (PT (RIdent nm) :: sp :: PT REqual :: sp :: pretty depth e)).
    { intros nm Hnm. apply toks_ok_PT; [exact Hnm|]. apply toks_ok_PW. apply toks_ok_PT; [repeat split|]. apply toks_ok_PW.
      apply IH. exact He. }
    destruct x as [l|v|nm| | | | |]; try (apply IH; exact He); apply Hgen; exact Hx.
  - intros x e IH Hsp depth. rewrite spelled_stmt_unfold in Hsp. rewrite pretty_stmt_unfold. destruct Hsp as [Hx He].
    apply toks_ok_PT; [repeat split|]. apply toks_ok_PW. apply toks_ok_PT; [exact Hx|]. apply toks_ok_PW.
    apply toks_ok_PT; [repeat split|]. apply toks_ok_PW. apply IH. exact He.
Qed.

Theorem spelled_pretty_program ss : spelled_block ss -> toks_ok (pretty_program ss).
Proof.
  intros H. unfold pretty_program.
  change (fun s => pretty_stmt 0 s ++ [PT RSemi; nl]) with (fun s => [] ++ pretty_stmt 0 s ++ [PT RSemi; nl]).
  apply toks_ok_stmts; [intros ps Hps; exact Hps|]. intros s Hs.
  apply spelled_pretty. apply H. exact Hs.
Qed.

Theorem pretty_roundtrip_spelled : forall (R:registry) (d:defects) (ss:list stmt),
  wf_block R ss -> forallb noparb_stmt ss = true -> spelled_block ss ->
  exists f0, forall f, (f0 <= f)%nat ->
    parse_text d R f (pieces_text (pretty_program ss)) = FOk (map pnorm_stmt ss) /\
    exists c, compile_block ss = Some c /\ compile_block (map pnorm_stmt ss) = Some (map (mapl_i hexnorm) c).
Proof. intros R d ss Hwf Hnp Hsp. apply pretty_roundtrip; auto. apply spelled_pretty_program. exact Hsp. Qed.

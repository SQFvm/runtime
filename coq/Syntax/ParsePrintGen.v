(* parse o print = id : every rendering of a well-formed tree - minimal parentheses, any redundant
   ones (Par nodes), any separator layout, which may differ from block to block - is parsed back to the
   tree (with Par nodes erased).
   `prg F layf` is the documented reading of SyntaxDefs.pr where the layout of a statement list ss
   (leading / middle / trailing separators) is `layf ss` instead of one fixed layout; pr is the instance
   `layf = fun _ => lay` (prg_const).  The per-block layout is what the pretty printer needs
   (sqf_formatter.cpp prints `{}` for an empty block and `{ a; b; }` otherwise, which no single layout
   describes).  The left-recursive loop is handled by the continuation-style claim CAt: whatever the loop
   at the level of t answers from the accumulator `strip t` on, p_exp answers on the printed t. *)
From Coq Require Import ZArith List Bool Arith Lia.
Import ListNotations.
From SqfVerif Require Import Syntax.SyntaxDefs Syntax.TreeFacts Syntax.ParseEqs Syntax.ParseMono Syntax.ParsePrint.

Section PrintG.
Context {A:Type}.
Variable F : rtok -> A.
Variable layf : list stmt -> layout.

Fixpoint prg (k:nat) (t:tree) : list A :=
  let raw := match t with
             | Lit l => [F (raw_of_lit l)]
             | Var s => [F (RIdent s)]
             | Nul s => [F (raw_of_name s)]
             | Un s a => F (raw_of_name s) :: prg NLEV a
             | Bin j s l r => prg j l ++ F (raw_of_name s) :: prg (S j) r
             | Arr es => F RSquareO :: join [F RComma] (map (prg 0%nat) es) ++ [F RSquareC]
             | Code ss => F RCurlyO :: (seps F (lay_lead (layf ss)) ++ join (mid F (layf ss)) (map prg_stmt ss)
                                        ++ seps F (lay_trail (layf ss))) ++ [F RCurlyC]
             | Par a => F RRoundO :: prg 0%nat a ++ [F RRoundC]
             end in
  if (k <=? lvl t)%nat then raw else F RRoundO :: raw ++ [F RRoundC]
with prg_stmt (s:stmt) : list A :=
  match s with
  | SExpr e => prg 0%nat e
  | SAssign x e => prg NLEV x ++ F REqual :: prg 0%nat e
  | SLocal x e => F (RPrivate kw_private) :: F (RIdent x) :: F REqual :: prg 0%nat e
  end.
Definition prg_block (ss:list stmt) : list A :=
  seps F (lay_lead (layf ss)) ++ join (mid F (layf ss)) (map prg_stmt ss) ++ seps F (lay_trail (layf ss)).

(* a node without the parentheses its position may ask for *)
Definition praw (t:tree) : list A :=
  match t with
  | Lit l => [F (raw_of_lit l)]
  | Var s => [F (RIdent s)]
  | Nul s => [F (raw_of_name s)]
  | Un s a => F (raw_of_name s) :: prg NLEV a
  | Bin j s l r => prg j l ++ F (raw_of_name s) :: prg (S j) r
  | Arr es => F RSquareO :: join [F RComma] (map (prg 0%nat) es) ++ [F RSquareC]
  | Code ss => F RCurlyO :: prg_block ss ++ [F RCurlyC]
  | Par a => F RRoundO :: prg 0%nat a ++ [F RRoundC]
  end.
Lemma prg_unfold k t : prg k t = if (k <=? lvl t)%nat then praw t else F RRoundO :: praw t ++ [F RRoundC].
Proof. destruct t; reflexivity. Qed.
Lemma prg_stmt_unfold s : prg_stmt s = match s with
  | SExpr e => prg 0%nat e
  | SAssign x e => prg NLEV x ++ F REqual :: prg 0%nat e
  | SLocal x e => F (RPrivate kw_private) :: F (RIdent x) :: F REqual :: prg 0%nat e
  end.
Proof. destruct s; reflexivity. Qed.
End PrintG.

Definition printg_raw (layf:list stmt -> layout) (ss:list stmt) : list rtok := prg_block (fun t => t) layf ss.
Definition printg_toks (R:registry) (layf:list stmt -> layout) (ss:list stmt) : list tok := prg_block (classify R) layf ss.

Section PPG.
Variable R : registry.
Variable d : defects.
Variable layf : list stmt -> layout.

Notation F := (classify R).
Notation P := (prg (classify R) layf).
Notation PS := (prg_stmt (classify R) layf).
Notation PB := (prg_block (classify R) layf).
Notation PR := (praw (classify R) layf).

Lemma pr_raw_eq k t : (k < lvl t)%nat -> P k t = P (S k) t.
Proof.
  intros H. rewrite !prg_unfold.
  destruct (Nat.leb_spec k (lvl t)); [|lia]. destruct (Nat.leb_spec (S k) (lvl t)); [reflexivity|lia].
Qed.
Lemma pr_par_eq k k' t : (lvl t < k)%nat -> (lvl t < k')%nat -> P k t = P k' t.
Proof.
  intros H H'. rewrite !prg_unfold.
  destruct (Nat.leb_spec k (lvl t)); [lia|]. destruct (Nat.leb_spec k' (lvl t)); [lia|reflexivity].
Qed.
Lemma pr_at_lvl k t : (k <= lvl t)%nat -> P k t = PR t.
Proof. intros H. rewrite prg_unfold. destruct (Nat.leb_spec k (lvl t)); [reflexivity|lia]. Qed.
Lemma pr_above_lvl k t : (lvl t < k)%nat -> P k t = F RRoundO :: PR t ++ [F RRoundC].
Proof. intros H. rewrite prg_unfold. destruct (Nat.leb_spec k (lvl t)); [lia|reflexivity]. Qed.

(* from level hi down to level lo, as long as the printed form does not change and the loops stop *)
Lemma climb_many t a X : forall n lo hi, (hi - lo = n)%nat -> (lo <= hi)%nat -> (hi <= NLEV)%nat ->
  (forall j, (lo <= j < hi)%nat -> P j t = P (S j) t) -> stops lo X ->
  (exists f, p_exp d f hi (P hi t ++ X) = POk (a, X)) ->
  exists f, p_exp d f lo (P lo t ++ X) = POk (a, X).
Proof.
  induction n as [|n IH]; intros lo hi Hn Hle HN Heq HX [f E].
  - assert (lo = hi) by lia. subst. eauto.
  - destruct (IH (S lo) hi) as [f' E']; try lia; eauto.
    + intros j Hj. apply Heq. lia.
    + eapply stops_mono; eauto.
    + exists (S (S f')). rewrite (Heq lo) by lia. apply climb; auto. lia.
Qed.

Lemma head_raw t : wf_tree R t -> lvl t = NLEV -> head_ok (PR t).
Proof.
  unfold wf_tree. destruct t; cbn [wfb lvl praw]; intros H HN.
  - destruct l; eexists _, _; (split; [reflexivity|reflexivity]).
  - cbn [classify] in *. destruct (classify_name R true s) eqn:E; try discriminate.
    eexists _, _. split; [reflexivity|reflexivity].
  - fold (name_tok R s). destruct (name_tok R s) eqn:E; try discriminate.
    eexists _, _. split; [reflexivity|]. destruct c; try discriminate; reflexivity.
  - apply andb_prop in H. destruct H as [H _]. apply wf_un_tok in H. destruct H as (_ & H & _).
    eexists _, _. split; [reflexivity|exact H].
  - apply andb_prop in H. destruct H as [H _]. apply andb_prop in H. destruct H as [H _].
    apply andb_prop in H. destruct H as [H _]. apply Nat.ltb_lt in H. lia.
  - eexists _, _. split; reflexivity.
  - eexists _, _. split; reflexivity.
  - eexists _, _. split; reflexivity.
Qed.

Lemma head_pr k t : wf_tree R t -> head_ok (P k t).
Proof.
  intros H. rewrite prg_unfold. destruct (Nat.leb_spec k (lvl t)).
  - revert k H0. induction t; intros k0 Hk; try (apply head_raw; [assumption|reflexivity]).
    cbn [praw]. apply head_ok_app. unfold wf_tree in H. cbn [wfb] in H.
    apply andb_prop in H. destruct H as [H _]. apply andb_prop in H. destruct H as [_ H].
    rewrite prg_unfold. destruct (Nat.leb_spec k (lvl t1)).
    + apply (IHt1 H k). assumption.
    + eexists _, _. split; reflexivity.
  - eexists _, _. split; reflexivity.
Qed.

Lemma head_stmt s : wfb_stmt R s = true -> head_ok (PS s).
Proof.
  rewrite wfb_stmt_unfold; destruct s; intros H; rewrite prg_stmt_unfold.
  - apply head_pr. exact H.
  - apply andb_prop in H. destruct H as [H _]. destruct x; try discriminate.
    apply head_ok_app. apply head_pr. unfold wf_tree. cbn [wfb]. exact H.
  - eexists _, _. split; reflexivity.
Qed.

Definition GoodAt (k:nat) (t:tree) : Prop :=
  forall X, stops k X -> exists f, p_exp d f k (P k t ++ X) = POk (strip t, X).
Definition CAt (t:tree) : Prop :=
  (lvl t < NLEV)%nat -> forall X res, stops (S (lvl t)) X ->
  (exists f, p_loop d f (lvl t) (strip t) X = POk res) ->
  exists f, p_exp d f (lvl t) (P (lvl t) t ++ X) = POk res.
Definition GoodS (s:stmt) : Prop :=
  forall X, stmt_end X -> exists f, p_stmt d f (PS s ++ X) = POk (strip_stmt s, X).

Lemma items_ok : forall es, es <> [] -> Forall (GoodAt 0%nat) es -> forall X,
  exists f, p_items d f (join [F RComma] (map (P 0%nat) es) ++ F RSquareC :: X) = POk (map strip es, X).
Proof.
  induction es as [|e es IH]; intros Hne HF X; [congruence|].
  inversion HF as [|? ? He HF']; subst.
  destruct es as [|e2 es].
  - cbn [join map flat_map]. rewrite app_nil_r.
    destruct (He (TSquareC :: X) I) as [f E]. exists (S f). rewrite p_items_S.
    cbn [classify] in *. rewrite E. reflexivity.
  - destruct (IH ltac:(discriminate) HF' X) as [f2 E2].
    assert (Hj: join [F RComma] (map (P 0%nat) (e :: e2 :: es)) ++ F RSquareC :: X
                = P 0%nat e ++ TComma :: (join [F RComma] (map (P 0%nat) (e2 :: es)) ++ F RSquareC :: X)).
    { cbn [join map flat_map]. rewrite <- !app_assoc. reflexivity. }
    rewrite Hj.
    destruct (He (TComma :: join [F RComma] (map (P 0%nat) (e2 :: es)) ++ F RSquareC :: X) I) as [f1 E1].
    exists (S (max f1 f2)). rewrite p_items_S.
    rewrite (mono_e d _ (max f1 f2) _ _ _ E1) by lia.
    rewrite (mono_i d _ (max f1 f2) _ _ E2) by lia. reflexivity.
Qed.

Fixpoint pr_from (lay:layout) (ss:list stmt) : list tok :=
  match ss with
  | [] => seps F (lay_trail lay)
  | s :: r => PS s ++ match r with [] => seps F (lay_trail lay) | _ => mid F lay ++ pr_from lay r end
  end.
Lemma pr_from_join lay ss : join (mid F lay) (map PS ss) ++ seps F (lay_trail lay) = pr_from lay ss.
Proof.
  induction ss as [|s r IH]; [reflexivity|].
  destruct r as [|s2 r].
  - cbn [map join flat_map pr_from]. rewrite app_nil_r. reflexivity.
  - change (pr_from lay (s :: s2 :: r)) with (PS s ++ mid F lay ++ pr_from lay (s2 :: r)).
    rewrite <- IH. cbn [map join flat_map]. rewrite <- !app_assoc. reflexivity.
Qed.
Lemma pr_block_from ss : PB ss = seps F (lay_lead (layf ss)) ++ pr_from (layf ss) ss.
Proof. unfold prg_block. f_equal. apply pr_from_join. Qed.

Lemma stmts_ok lay : forall ss, Forall GoodS ss -> forallb (wfb_stmt R) ss = true ->
  forall X, (X = [] \/ exists r, X = TCurlyC :: r) -> forall l0,
  exists f, p_stmts d f (seps F l0 ++ pr_from lay ss ++ X) = POk (map strip_stmt ss, X).
Proof.
  induction ss as [|s r IH]; intros HF Hwf X HX l0.
  - exists 1%nat. cbn [pr_from map]. rewrite app_assoc. unfold seps. rewrite <- map_app.
    apply (block_end_cases R d X HX 0%nat (l0 ++ lay_trail lay)).
  - inversion HF as [|? ? Hs HF']; subst. cbn [forallb] in Hwf. apply andb_prop in Hwf. destruct Hwf as [Hw Hwr].
    pose proof (head_stmt s Hw) as Hh.
    cbn [pr_from map].
    set (Y := match r with [] => seps F (lay_trail lay) | _ => mid F lay ++ pr_from lay r end ++ X).
    assert (Hts: seps F l0 ++ (PS s ++ match r with [] => seps F (lay_trail lay) | _ :: _ => mid F lay ++ pr_from lay r end) ++ X
                 = seps F l0 ++ PS s ++ Y).
    { unfold Y. rewrite <- app_assoc. reflexivity. }
    rewrite Hts.
    assert (HendY: stmt_end Y).
    { unfold Y. destruct r.
      - destruct (lay_trail lay) as [|s0 l]; cbn [seps map app].
        + destruct HX as [->|[r' ->]]; cbn; auto.
        + destruct s0; cbn; auto.
      - unfold mid. destruct (lay_mid_first lay); cbn; auto. }
    destruct (Hs Y HendY) as [f1 E1].
    assert (Hrest: exists f, match Y with
                     | t' :: _ => if is_sep t' then match p_stmts d f Y with
                                                    | POk (ss, r') => POk (strip_stmt s :: ss, r')
                                                    | PErr => PErr | POut => POut end
                                  else POk ([strip_stmt s], Y)
                     | [] => POk ([strip_stmt s], Y)
                     end = POk (strip_stmt s :: map strip_stmt r, X)).
    { unfold Y. destruct r as [|s2 r].
      - destruct (lay_trail lay) as [|s0 l] eqn:Et.
        + cbn [seps map app]. destruct HX as [->|[r' ->]]; exists 0%nat; reflexivity.
        + destruct (IH HF' Hwr X HX []) as [f2 E2]. cbn [pr_from seps map app] in E2. rewrite Et in E2.
          destruct (seps_cons_sep R s0 l X) as (t & r' & Heq & Hsep). unfold seps in *. cbn [map] in *.
          rewrite Heq in *. exists f2. rewrite Hsep. rewrite E2. reflexivity.
      - destruct (IH HF' Hwr X HX (lay_mid_first lay :: lay_mid_more lay)) as [f2 E2].
        unfold mid. destruct (seps_cons_sep R (lay_mid_first lay) (lay_mid_more lay) (pr_from lay (s2 :: r) ++ X)) as (t & r' & Heq & Hsep).
        rewrite <- app_assoc. rewrite Heq in *. exists f2. rewrite Hsep. rewrite E2. reflexivity. }
    destruct Hrest as [f2 E2].
    destruct Hh as (t0 & r0 & Hp & Ht0).
    exists (S (max f1 f2)). rewrite (p_stmts_skip d _ _ (PS s ++ Y)) by apply skip_seps_seps.
    rewrite Hp in *. cbn [app]. rewrite p_stmts_step by assumption.
    cbn [app] in E1. rewrite (mono_s d _ (max f1 f2) _ _ E1) by lia.
    destruct Y as [|t' Y'].
    + exact E2.
    + destruct (is_sep t').
      * destruct (p_stmts d f2 (t' :: Y')) as [[ss' r'']| |] eqn:E3; try discriminate.
        rewrite (mono_ss d _ (max f1 f2) _ _ E3) by lia. exact E2.
      * exact E2.
Qed.

(* once a tree is read back at its own level it is read back at every level: below it the loops in between
   stop, above it the printer has put it in parentheses and the group is read at level NLEV *)
Lemma good_all_levels t : wf_tree R t -> GoodAt (lvl t) t -> forall k, (k <= NLEV)%nat -> GoodAt k t.
Proof.
  intros Hwf Q. pose proof (lvl_le_N R t Hwf) as HlN.
  assert (G0: GoodAt 0%nat t).
  { intros X0 HX0. apply (climb_many t (strip t) X0 (lvl t - 0) 0%nat (lvl t)); auto; try lia.
    - intros j Hj. apply pr_raw_eq. lia.
    - apply Q. eapply stops_mono; eauto. lia. }
  intros k Hk X HX.
  destruct (Nat.le_gt_cases k (lvl t)) as [Hle|Hgt].
  - apply (climb_many t (strip t) X (lvl t - k) k (lvl t)); auto.
    + intros j Hj. apply pr_raw_eq. lia.
    + apply Q. eapply stops_mono; eauto.
  - apply (climb_many t (strip t) X (NLEV - k) k NLEV); auto.
    + intros j Hj. apply pr_par_eq; lia.
    + destruct (G0 (TRoundC :: X) I) as [f E].
      exists (S f). rewrite pr_above_lvl by lia. rewrite (pr_at_lvl 0%nat) in E by lia.
      cbn [classify app]. rewrite <- app_assoc. cbn [app]. apply p_exp_paren. exact E.
Qed.

Lemma good_var v : wf_tree R (Var v) -> GoodAt NLEV (Var v).
Proof.
  intros Hwf X HX. exists 1%nat. rewrite pr_at_lvl by (cbn; lia). cbn [praw app strip].
  unfold wf_tree in Hwf. cbn [wfb] in Hwf. cbn [classify] in *.
  destruct (classify_name R true v) eqn:E; try discriminate.
  destruct (classify_name_cases R true v) as [[c H]|[H|H]]; rewrite H in E; try discriminate.
  injection E as <-. apply p_exp_value. reflexivity.
Qed.
Lemma good_un s a : wf_tree R (Un s a) -> GoodAt NLEV a -> GoodAt NLEV (Un s a).
Proof.
  intros Hwf Ga X HX. unfold wf_tree in Hwf. cbn [wfb] in Hwf. apply andb_prop in Hwf. destruct Hwf as [Hu Hwa].
  destruct (wf_un_tok R _ Hu) as (H1 & H2 & H3).
  destruct (Ga X HX) as [f E].
  exists (S f). rewrite pr_at_lvl by (cbn; lia). cbn [praw app strip]. fold (name_tok R s).
  rewrite <- H3 at 2. apply p_exp_unary; auto.
  apply head_ok_next. apply head_ok_app. apply head_pr. exact Hwa.
Qed.

Lemma bin_chain j s l r : wf_tree R (Bin j s l r) -> CAt l -> (forall k, (k <= NLEV)%nat -> GoodAt k l) ->
  (forall k, (k <= NLEV)%nat -> GoodAt k r) -> CAt (Bin j s l r).
Proof.
  intros Hwf Cl Gl Gr. unfold CAt. cbn [lvl]. intros Hj X res HX [fl EL].
  destruct (wf_bin R _ _ _ _ Hwf) as (_ & Hbl & Hnm & Hwl & Hwr).
  rewrite pr_at_lvl by (cbn [lvl]; lia). cbn [praw]. fold (name_tok R s).
  cbn [strip] in EL.
  (* what the loop does once the left operand is the accumulator *)
  assert (HL: exists f, p_loop d f j (strip l) (name_tok R s :: P (S j) r ++ X) = POk res).
  { destruct (Gr (S j) ltac:(lia) X HX) as [fr Er].
    exists (S (max fr fl)). rewrite p_loop_S. rewrite Hbl, Nat.eqb_refl.
    rewrite (mono_e d _ (max fr fl) _ _ _ Er) by lia. rewrite Hnm.
    eapply mono_l; [exact EL|lia]. }
  assert (HX': stops (S j) (name_tok R s :: P (S j) r ++ X)).
  { cbn [stops]. rewrite Hbl. lia. }
  rewrite <- app_assoc. cbn [app].
  destruct (Nat.eq_dec (lvl l) j) as [e|ne].
  - (* same level on the left: the chain continues, no parentheses *)
    subst j. apply Cl; assumption.
  - (* otherwise the left operand is read one level up, then the loop runs *)
    assert (Heq: P j l = P (S j) l).
    { destruct (Nat.lt_ge_cases j (lvl l)); [apply pr_raw_eq; lia|apply pr_par_eq; lia]. }
    destruct (Gl (S j) ltac:(lia) _ HX') as [f1 E1].
    destruct HL as [f2 E2].
    exists (S (max f1 f2)). rewrite p_exp_lt by assumption. rewrite Heq.
    rewrite (mono_e d _ (max f1 f2) _ _ _ E1) by lia.
    eapply mono_l; [exact E2|lia].
Qed.

Theorem parse_printg_good :
  (forall t, wf_tree R t -> CAt t /\ forall k, (k <= NLEV)%nat -> GoodAt k t) /\
  (forall s, wfb_stmt R s = true -> GoodS s).
Proof.
  (* a node that is not binary: there is no chain to continue *)
  assert (TOP: forall t, lvl t = NLEV -> wf_tree R t -> GoodAt NLEV t -> CAt t /\ forall k, (k <= NLEV)%nat -> GoodAt k t).
  { intros t Hl Hwf Q. split; [unfold CAt; lia|]. apply good_all_levels; [exact Hwf|rewrite Hl; exact Q]. }
  apply tree_stmt_ind.
  - intros lt Hwf. apply TOP; [reflexivity|exact Hwf|]. intros X HX.
    exists 1%nat. rewrite pr_at_lvl by (cbn; lia). cbn [praw app strip]. apply p_exp_value. destruct lt; reflexivity.
  - intros v Hwf. apply TOP; [reflexivity|exact Hwf|apply good_var; exact Hwf].
  - intros nm Hwf. apply TOP; [reflexivity|exact Hwf|]. intros X HX.
    exists 1%nat. rewrite pr_at_lvl by (cbn; lia). cbn [praw app strip]. fold (name_tok R nm).
    unfold wf_tree in Hwf. cbn [wfb] in Hwf.
    destruct (name_tok R nm) eqn:E; try discriminate. pose proof (name_tok_op R _ _ _ E). subst s.
    apply p_exp_value. destruct c; try discriminate; reflexivity.
  - intros s a IH Hwf. apply TOP; [reflexivity|exact Hwf|]. apply good_un; [exact Hwf|].
    unfold wf_tree in Hwf. cbn [wfb] in Hwf. apply andb_prop in Hwf. apply (IH (proj2 Hwf)). lia.
  - intros j s l r IHl IHr Hwf. destruct (wf_bin R _ _ _ _ Hwf) as (Hj & _ & _ & Hwl & Hwr).
    assert (HC: CAt (Bin j s l r)) by (apply bin_chain; [exact Hwf|apply (IHl Hwl)|apply (IHl Hwl)|apply (IHr Hwr)]).
    split; [exact HC|]. apply good_all_levels; [exact Hwf|]. cbn [lvl]. intros X HX.
    apply (HC Hj X (strip (Bin j s l r), X)); [eapply stops_mono; eauto|].
    exists 1%nat. apply loop_stop. exact HX.
  - intros es IH Hwf. apply TOP; [reflexivity|exact Hwf|]. intros X HX.
    unfold wf_tree in Hwf. cbn [wfb] in Hwf.
    rewrite pr_at_lvl by (cbn; lia). cbn [praw app strip classify].
    destruct es as [|e es].
    + exists 1%nat. cbn [map join app]. apply p_exp_arr0.
    + assert (HF: Forall (GoodAt 0%nat) (e :: es)).
      { rewrite forallb_forall in Hwf. rewrite Forall_forall in *. intros x Hx. apply (IH x Hx (Hwf x Hx)). lia. }
      destruct (items_ok (e :: es) ltac:(discriminate) HF X) as [f E].
      assert (Hh: head_ok (join [F RComma] (map (P 0%nat) (e :: es)) ++ F RSquareC :: X)).
      { cbn [map join]. rewrite <- app_assoc. apply head_ok_app. apply head_pr.
        cbn [forallb] in Hwf. apply andb_prop in Hwf. apply Hwf. }
      destruct Hh as (t0 & r0 & Hp & Ht0).
      exists (S f). rewrite <- app_assoc. cbn [app]. cbn [classify] in *. rewrite Hp in *.
      apply p_exp_arr; [|exact E]. intros ->. discriminate.
  - intros ss IH Hwf. apply TOP; [reflexivity|exact Hwf|]. intros X HX.
    unfold wf_tree in Hwf. rewrite wfb_Code in Hwf.
    assert (HF: Forall GoodS ss).
    { rewrite forallb_forall in Hwf. rewrite Forall_forall in *. intros x Hx. apply (IH x Hx (Hwf x Hx)). }
    destruct (stmts_ok (layf ss) ss HF Hwf (TCurlyC :: X) ltac:(right; eauto) (lay_lead (layf ss))) as [f E].
    exists (S f). rewrite pr_at_lvl by (cbn [lvl]; lia).
    change (strip (Code ss)) with (Code (map strip_stmt ss)).
    cbn [praw app classify].
    rewrite pr_block_from. rewrite <- !app_assoc. cbn [app].
    apply p_exp_code. exact E.
  - intros a IH Hwf. apply TOP; [reflexivity|exact Hwf|]. intros X HX.
    unfold wf_tree in Hwf. cbn [wfb] in Hwf.
    destruct (proj2 (IH Hwf) 0%nat ltac:(lia) (TRoundC :: X) I) as [f E].
    exists (S f). rewrite pr_at_lvl by (cbn; lia). cbn [praw app strip classify].
    rewrite <- app_assoc. cbn [app]. apply p_exp_paren. exact E.
  - intros e IH Hwf X HX. pose proof (stmt_end_stops X HX) as HX0.
    destruct (proj2 (IH Hwf) 0%nat ltac:(lia) X HX0) as [f E].
    exists (S f). rewrite p_stmt_S. change (PS (SExpr e)) with (P 0%nat e). rewrite E.
    destruct X as [|t X']; [reflexivity|].
    cbn [stmt_end] in HX. destruct HX as [HX| ->]; [destruct t; try discriminate; reflexivity|reflexivity].
  - intros x e IHx IHe Hwf X HX. pose proof (stmt_end_stops X HX) as HX0.
    rewrite wfb_stmt_unfold in Hwf. rewrite prg_stmt_unfold. cbn [strip_stmt].
    apply andb_prop in Hwf. destruct Hwf as [Hx He].
    destruct x as [|v| | | | | |]; try discriminate.
    destruct (proj2 (IHe He) 0%nat ltac:(lia) X HX0) as [f2 E2].
    assert (Hcv: classify_name R true v = TIdent v).
    { cbn [classify] in Hx. destruct (classify_name_cases R true v) as [[c H]|[H|H]]; rewrite H in Hx; try discriminate. exact H. }
    destruct (proj2 (IHx Hx) 0%nat ltac:(lia) (TEqual :: P 0%nat e ++ X) I) as [f1 E1].
    rewrite pr_at_lvl in E1 by (cbn; lia). cbn [praw classify app strip] in E1. rewrite Hcv in E1.
    exists (S (max f1 f2)). rewrite pr_at_lvl by (cbn; lia). cbn [praw classify app strip]. rewrite Hcv.
    rewrite p_stmt_S. rewrite (mono_e d _ (max f1 f2) _ _ _ E1) by lia.
    cbn [is_value_tree starts_paren negb andb].
    rewrite (mono_e d _ (max f1 f2) _ _ _ E2) by lia. reflexivity.
  - intros x e IH Hwf X HX. pose proof (stmt_end_stops X HX) as HX0.
    rewrite wfb_stmt_unfold in Hwf. rewrite prg_stmt_unfold. cbn [strip_stmt].
    apply andb_prop in Hwf. destruct Hwf as [Hx He].
    destruct (proj2 (IH He) 0%nat ltac:(lia) X HX0) as [f2 E2].
    assert (Hcv: classify_name R true x = TIdent x).
    { cbn [classify] in Hx. destruct (classify_name_cases R true x) as [[c H]|[H|H]]; rewrite H in Hx; try discriminate. exact H. }
    (* `private x` is read as the unary operator applied to the variable *)
    assert (Hwp: wf_tree R (Un kw_private (Var x))).
    { unfold wf_tree. cbn [wfb]. cbn [classify]. rewrite Hcv.
      change (name_tok R kw_private) with (TPrivate kw_private). reflexivity. }
    assert (Gp: GoodAt 0%nat (Un kw_private (Var x))).
    { apply good_all_levels; [exact Hwp| |lia]. apply good_un; [exact Hwp|]. apply good_var. exact Hx. }
    destruct (Gp (TEqual :: P 0%nat e ++ X) I) as [f1 E1].
    rewrite pr_at_lvl in E1 by (cbn; lia). cbn [praw] in E1.
    rewrite pr_at_lvl in E1 by (cbn; lia). cbn [praw classify app strip] in E1. rewrite Hcv in E1.
    change (classify R (raw_of_name kw_private)) with (TPrivate kw_private) in E1.
    exists (S (max f1 f2)). cbn [classify app]. rewrite Hcv.
    rewrite p_stmt_S. rewrite (mono_e d _ (max f1 f2) _ _ _ E1) by lia.
    rewrite (mono_e d _ (max f1 f2) _ _ _ E2) by lia. reflexivity.
Qed.

Theorem parse_printg_block : forall ss, wf_block R ss ->
  exists f0, forall f, (f0 <= f)%nat -> parse_toks d f (printg_toks R layf ss) = POk (map strip_stmt ss).
Proof.
  intros ss Hwf.
  assert (HF: Forall GoodS ss).
  { apply Forall_forall. intros s Hs. apply parse_printg_good.
    unfold wf_block in Hwf. rewrite forallb_forall in Hwf. apply Hwf. exact Hs. }
  destruct (stmts_ok (layf ss) ss HF Hwf [] (or_introl eq_refl) (lay_lead (layf ss))) as [f0 E].
  exists f0. intros f Hf. unfold parse_toks, printg_toks. rewrite pr_block_from.
  rewrite app_nil_r in E. rewrite (mono_ss d _ f _ _ E Hf). reflexivity.
Qed.
End PPG.

Section Const.
Context {A:Type}.
Variable F : rtok -> A.
Variable lay : layout.
Lemma prg_const k t : prg F (fun _ => lay) k t = pr F lay k t.
Proof. reflexivity. Qed.
Lemma prg_stmt_const s : prg_stmt F (fun _ => lay) s = pr_stmt F lay s.
Proof. reflexivity. Qed.
Lemma prg_block_const ss : prg_block F (fun _ => lay) ss = pr_block F lay ss.
Proof. reflexivity. Qed.
End Const.

(* the fixed-layout printer print_toks *)
Corollary parse_print_block_of_gen : forall (R:registry) (d:defects) (lay:layout) (ss:list stmt), wf_block R ss ->
  exists f0, forall f, (f0 <= f)%nat -> parse_toks d f (print_toks R lay ss) = POk (map strip_stmt ss).
Proof. intros R d lay ss Hwf. exact (parse_printg_block R d (fun _ => lay) ss Hwf). Qed.

(* stops, head_ok and the two facts about them that Syntax/ParsePrint.v states, under this file's name as well *)
Section Here.
Variable d : defects.
Definition stops (k:nat) (X:list tok) : Prop :=
  match X with
  | o :: _ => match binlevel o with Some j => (j < k)%nat | None => True end
  | [] => True
  end.
Definition head_ok (ts:list tok) : Prop := exists t0 r, ts = t0 :: r /\ starts_expu t0 = true.

Lemma climb f k ts a X : (k < NLEV)%nat -> stops k X ->
  p_exp d f (S k) ts = POk (a, X) -> p_exp d (S (S f)) k ts = POk (a, X).
Proof. exact (ParsePrint.climb d f k ts a X). Qed.
Lemma skip_seps_head ts : head_ok ts -> skip_seps ts = ts.
Proof. exact (ParsePrint.skip_seps_head ts). Qed.
End Here.

Lemma map_join {A B} (g:A -> B) sep l : map g (join sep l) = join (map g sep) (map (map g) l).
Proof.
  destruct l as [|x r]; [reflexivity|]. cbn [join map]. rewrite map_app. f_equal.
  induction r as [|y r IH]; [reflexivity|]. cbn [flat_map map]. rewrite !map_app, IH. reflexivity.
Qed.

(* printing is natural in the token type: print raw tokens, then classify - or print classified tokens *)
Section PrMap.
Context {A:Type}.
Variable F : rtok -> A.
Variable layf : list stmt -> layout.
Notation I := (fun t:rtok => t).

Lemma seps_map l : map F (seps I l) = seps F l.
Proof. unfold seps. rewrite map_map. reflexivity. Qed.

Lemma prg_block_map ss : Forall (fun s => map F (prg_stmt I layf s) = prg_stmt F layf s) ss ->
  map F (prg_block I layf ss) = prg_block F layf ss.
Proof.
  intros H. unfold prg_block. rewrite !map_app, !seps_map. f_equal. f_equal.
  rewrite map_join. unfold mid. rewrite seps_map. f_equal. rewrite map_map. apply map_ext_Forall. exact H.
Qed.
Lemma prg_map_raw t : map F (praw I layf t) = praw F layf t -> forall k, map F (prg I layf k t) = prg F layf k t.
Proof. intros H k. rewrite !prg_unfold. destruct (k <=? lvl t)%nat; [exact H|]. cbn [map]. rewrite map_app, H. reflexivity. Qed.

Lemma prg_map :
  (forall t k, map F (prg I layf k t) = prg F layf k t) /\
  (forall s, map F (prg_stmt I layf s) = prg_stmt F layf s).
Proof.
  apply tree_stmt_ind; try (intros; apply prg_map_raw; reflexivity).
  - intros s a IH. apply prg_map_raw. cbn [praw map]. rewrite IH. reflexivity.
  - intros k s l r IHl IHr. apply prg_map_raw. cbn [praw]. rewrite map_app. cbn [map]. rewrite IHl, IHr. reflexivity.
  - intros es IH. apply prg_map_raw. cbn [praw map]. rewrite map_app, map_join, map_map. cbn [map]. f_equal. f_equal. f_equal.
    apply map_ext_Forall. eapply Forall_impl; [|exact IH]. intros e He. apply He.
  - intros ss IH. apply prg_map_raw. cbn [praw map]. rewrite map_app, (prg_block_map ss IH). reflexivity.
  - intros a IH. apply prg_map_raw. cbn [praw map]. rewrite map_app, IH. reflexivity.
  - intros e IH. apply IH.
  - intros x e IHx IHe. rewrite !prg_stmt_unfold, map_app. cbn [map]. rewrite IHx, IHe. reflexivity.
  - intros x e IH. rewrite !prg_stmt_unfold. cbn [map]. rewrite IH. reflexivity.
Qed.
End PrMap.

Lemma print_raw_toks R lay ss : map (classify R) (print_raw lay ss) = print_toks R lay ss.
Proof. apply (prg_block_map (classify R) (fun _ => lay)). apply Forall_forall. intros s _. apply prg_map. Qed.

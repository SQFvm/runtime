(* Facts about the generated tables: Gen/Registry.v (operator registry of the built runtime) and
   Gen/Grammar.v (bison rule tables, actions and the yylex token switch).  Finite tables: each fact is a
   boolean sweep evaluated by vm_compute and lifted with forallb_forall. *)
From Coq Require Import ZArith List Bool Arith Lia String Ascii.
Import ListNotations.
From SqfVerif Require Import Syntax.SyntaxDefs Ops.Ascending.
From SqfVerif Require Gen.Registry Gen.Grammar.

Definition entry := (string * (list nat * bool * bool))%type.
Definition e_precs (e:entry) : list nat := fst (fst (snd e)).

Definition single_precb (e:entry) : bool :=
  match e_precs e with [] => true | p :: r => forallb (Nat.eqb p) r end.
Definition prec_rangeb (e:entry) : bool := forallb (fun p => (1 <=? p)%nat && (p <=? 10)%nat) (e_precs e).

Lemma single_precb_ok e : single_precb e = true -> forall p q, In p (e_precs e) -> In q (e_precs e) -> p = q.
Proof.
  unfold single_precb. destruct (e_precs e) as [|p0 r]; [intros _ p q []|].
  intros H p q Hp Hq. rewrite forallb_forall in H.
  assert (A: forall x, In x (p0 :: r) -> x = p0).
  { intros x [<-|Hx]; [reflexivity|]. specialize (H x Hx). apply Nat.eqb_eq in H. congruence. }
  rewrite (A p Hp), (A q Hq). reflexivity.
Qed.

Lemma registry_single_prec_b : forallb single_precb Registry.table = true.
Proof. vm_compute. reflexivity. Qed.
Lemma registry_prec_range_b : forallb prec_rangeb Registry.table = true.
Proof. vm_compute. reflexivity. Qed.

Theorem registry_single_prec : forall name ps u n, In (name, (ps, u, n)) Registry.table ->
  forall p q, In p ps -> In q ps -> p = q.
Proof.
  intros name ps u n Hin. pose proof registry_single_prec_b as H. rewrite forallb_forall in H.
  specialize (H _ Hin). exact (single_precb_ok _ H).
Qed.
Theorem registry_prec_range : forall name ps u n, In (name, (ps, u, n)) Registry.table ->
  forall p, In p ps -> (1 <= p <= 10)%nat.
Proof.
  intros name ps u n Hin p Hp. pose proof registry_prec_range_b as H. rewrite forallb_forall in H.
  specialize (H _ Hin). unfold prec_rangeb in H. rewrite forallb_forall in H. specialize (H p Hp).
  apply andb_prop in H. destruct H as [H1 H2]. apply Nat.leb_le in H1. apply Nat.leb_le in H2. lia.
Qed.

(* the generator writes the names in increasing byte order *)
Theorem registry_names_distinct : NoDup (map fst Registry.table).
Proof. apply (ascending_NoDup str_cmp str_cmp_ok). vm_compute. reflexivity. Qed.

(* the registry as the lexer glue sees it (parser.y:360-381): precedence of the first overload *)
Definition gen_registry : registry := fun key =>
  match find (fun e:entry => text_eqb (s2b (fst e)) key) Registry.table with
  | Some e => {| oi_bin := hd_error (e_precs e); oi_un := snd (fst (snd e)); oi_nul := snd (snd e) |}
  | None => no_op
  end.

Local Open Scope string_scope.
Definition rule := (string * list string * string)%type.
Definition dg (k:nat) : string := String (ascii_of_nat (48 + k)) "".
Definition q (s:string) : string := """" ++ s ++ """".

Section Layered.
Variable n : nat.      (* number of binary levels *)
Definition expn (k:nat) : string := "exp" ++ dg k.
Definition nxt (k:nat) : string := if (S k =? n)%nat then "expu" else expn (S k).
Definition optok (c:string) (k:nat) : string := "OPERATOR_" ++ c ++ "_" ++ dg k.
Definition bin_act (k:nat) : string := "$$ = astnode{ astkind::EXP" ++ dg k ++ ", $2 }; $$.append($1); $$.append($3);".
Definition un_act : string := "$$ = astnode{ astkind::EXPU, $1 }; $$.append($2);".
Definition nul_act : string := "$$ = astnode{ astkind::EXPN, $1 };".
Definition copy_act : string := "$$ = $1;".
Definition levels := seq 0 n.

Definition exp_rules (k:nat) : list rule :=
  (expn k, [nxt k], copy_act) ::
  map (fun c => (expn k, [expn k; optok c k; nxt k], bin_act k)) ["B"; "BU"; "BN"; "BUN"].

Definition layered_rules : list rule :=
  [ ("start", ["END_OF_FILE"], "result = astnode{};");
    ("start", ["statements"], "result = astnode{}; result.append($1);");
    ("start", ["separators"], "result = astnode{};");
    ("start", ["separators"; "statements"], "result = astnode{}; result.append($2);");
    ("statements", ["statement"], "$$ = astnode{ astkind::STATEMENTS }; $$.append($1);");
    ("statements", ["statements"; "separators"], copy_act);
    ("statements", ["statements"; "separators"; "statement"], "$$ = $1; $$.append($3);");
    ("statement", ["assignment"], copy_act);
    ("statement", ["expression"], copy_act);
    ("separator", [q ";"], "");
    ("separator", [q ","], "");
    ("separators", ["separator"], "");
    ("separators", ["separators"; "separator"], "");
    ("value", ["STRING"], "$$ = astnode{ astkind::STRING, $1 };");
    ("value", ["OPERATOR_N"], nul_act) ]
  ++ map (fun k => ("value", [optok "BN" k], nul_act)) levels
  ++ map (fun k => ("value", [optok "BUN" k], nul_act)) levels
  ++ [ ("value", ["IDENT"], "$$ = astnode{ astkind::IDENT, $1 };");
       ("value", ["NUMBER"], "$$ = astnode{ astkind::NUMBER, $1 };");
       ("value", ["HEXNUMBER"], "$$ = astnode{ astkind::HEXNUMBER, $1 };");
       ("value", [q "true"], "$$ = astnode{ astkind::BOOLEAN_TRUE, $1 };");
       ("value", [q "false"], "$$ = astnode{ astkind::BOOLEAN_FALSE, $1 };");
       ("value", ["code"], copy_act);
       ("value", ["array"], copy_act);
       ("exp_list", ["expression"], "$$ = astnode{ astkind::EXPRESSION_LIST }; $$.append($1);");
       ("exp_list", ["exp_list"; q ","; "expression"], "$$ = $1; $$.append($3);");
       ("code", [q "{"; "statements"; q "}"], "$$ = astnode{ astkind::CODE, $1 }; $$.append($2);");
       ("code", [q "{"; "separators"; "statements"; q "}"], "$$ = astnode{ astkind::CODE, $1 }; $$.append($3);");
       ("code", [q "{"; "separators"; q "}"], "$$ = astnode{ astkind::CODE, $1 };");
       ("code", [q "{"; q "}"], "$$ = astnode{ astkind::CODE, $1 };");
       ("array", [q "["; "exp_list"; q "]"], "$$ = astnode{ astkind::ARRAY, $1 }; $$.append_children($2);");
       ("array", [q "["; q "]"], "$$ = astnode{ astkind::ARRAY, $1 };");
       ("assignment", [q "private"; "IDENT"; q "="; "expression"], "$$ = astnode{ astkind::ASSIGNMENT_LOCAL, $2 }; $$.append($4);");
       ("assignment", ["value"; q "="; "expression"], "$$ = astnode{ astkind::ASSIGNMENT, $2 }; $$.append($1); $$.append($3);");
       ("expression", [expn 0], copy_act) ]
  ++ flat_map exp_rules levels
  ++ [ ("expu", [q "private"; "expu"], un_act);
       ("expu", ["OPERATOR_U"; "expu"], un_act);
       ("expu", ["OPERATOR_UN"; "expu"], un_act) ]
  ++ map (fun k => ("expu", [optok "BU" k; "expu"], un_act)) levels
  ++ map (fun k => ("expu", [optok "BUN" k; "expu"], un_act)) levels
  ++ [ ("expu", [q "("; "expression"; q ")"], "$$ = $2;");
       ("expu", ["value"], copy_act) ].

End Layered.

Fixpoint lstr_eqb (a b:list string) : bool :=
  match a, b with [], [] => true | x :: a', y :: b' => String.eqb x y && lstr_eqb a' b' | _, _ => false end.
Definition rule_eqb (a b:rule) : bool :=
  String.eqb (fst (fst a)) (fst (fst b)) && lstr_eqb (snd (fst a)) (snd (fst b)) && String.eqb (snd a) (snd b).
Lemma lstr_eqb_eq a b : lstr_eqb a b = true -> a = b.
Proof.
  revert b. induction a; destruct b; cbn; intros H; try discriminate; auto.
  apply andb_prop in H. destruct H as [H1 H2]. apply String.eqb_eq in H1. subst. f_equal. auto.
Qed.
Lemma rule_eqb_eq a b : rule_eqb a b = true -> a = b.
Proof.
  destruct a as [[a1 a2] a3], b as [[b1 b2] b3]. unfold rule_eqb. cbn [fst snd]. intros H.
  apply andb_prop in H. destruct H as [H H3]. apply andb_prop in H. destruct H as [H1 H2].
  apply String.eqb_eq in H1, H3. apply lstr_eqb_eq in H2. subst. reflexivity.
Qed.
Definition subsetb {A} (eqb:A -> A -> bool) (l1 l2:list A) : bool := forallb (fun x => existsb (eqb x) l2) l1.
Lemma subsetb_ok {A} (eqb:A -> A -> bool) (Heq: forall a b, eqb a b = true -> a = b) l1 l2 :
  subsetb eqb l1 l2 = true -> forall x, In x l1 -> In x l2.
Proof.
  unfold subsetb. rewrite forallb_forall. intros H x Hx. specialize (H x Hx).
  apply existsb_exists in H. destruct H as (y & Hy & E). apply Heq in E. subst. exact Hy.
Qed.

(* the grammar bison generated the tables from is exactly the 10-level layered grammar the parser model
   follows: same rules, same actions (order of alternatives is immaterial) *)
Theorem grammar_is_layered : forall r, In r Grammar.rules <-> In r (layered_rules 10).
Proof.
  intros r. split; apply (subsetb_ok rule_eqb rule_eqb_eq); vm_compute; reflexivity.
Qed.

(* the model's classification is the yylex switch: a name with registry facts (binary at p / unary /
   nular) becomes token class c exactly when the switch has the row *)
Definition class_name (c:opclass) : string :=
  match c with
  | CB k => optok "B" k | CBU k => optok "BU" k | CBN k => optok "BN" k | CBUN k => optok "BUN" k
  | CU => "OPERATOR_U" | CN => "OPERATOR_N" | CUN => "OPERATOR_UN"
  end.
Definition info (b u nl:bool) (p:nat) : opinfo := {| oi_bin := if b then Some p else None; oi_un := u; oi_nul := nl |}.

(* for a registry that answers the same for every name, the class does not depend on the name *)
Lemma classify_class i b s s' c x : classify_name (fun _ => i) b s = TOp c x -> classify_name (fun _ => i) b s' = TOp c s'.
Proof.
  unfold classify_name. destruct (oi_bin i) as [p|], (oi_un i), (oi_nul i);
    try (destruct ((1 <=? p)%nat && (p <=? 10)%nat)); destruct b; intros H; try discriminate; injection H as <- _; reflexivity.
Qed.
Definition lexrow_okb (row:bool * bool * bool * nat * string) : bool :=
  match row with
  | (b, u, nl, p, t) => match classify_name (fun _ => info b u nl p) true [] with
                        | TOp c _ => String.eqb (class_name c) t
                        | _ => false
                        end
  end.
Lemma lexmap_rows_ok : forallb lexrow_okb Grammar.lexmap = true.
Proof. vm_compute. reflexivity. Qed.

Theorem lexmap_ok : forall b u nl p t s, In (b, u, nl, p, t) Grammar.lexmap ->
  exists c, classify_name (fun _ => info b u nl p) true s = TOp c s /\ class_name c = t.
Proof.
  intros b u nl p t s Hin. pose proof lexmap_rows_ok as H. rewrite forallb_forall in H. specialize (H _ Hin).
  cbn [lexrow_okb] in H. destruct (classify_name (fun _ => info b u nl p) true []) as [| | | | | | | | | | | |c x| | | | |] eqn:E; try discriminate.
  exists c. split; [exact (classify_class _ _ _ s _ _ E)|apply String.eqb_eq; exact H].
Qed.

Definition lm_eqb (a b:bool * bool * bool * nat * string) : bool :=
  let '(b1, u1, n1, p1, t1) := a in let '(b2, u2, n2, p2, t2) := b in
  Bool.eqb b1 b2 && Bool.eqb u1 u2 && Bool.eqb n1 n2 && Nat.eqb p1 p2 && String.eqb t1 t2.
Lemma lm_eqb_eq a b : lm_eqb a b = true -> a = b.
Proof.
  destruct a as [[[[b1 u1] n1] p1] t1], b as [[[[b2 u2] n2] p2] t2]. unfold lm_eqb. intros H.
  repeat (apply andb_prop in H; destruct H as [H ?]).
  apply Bool.eqb_prop in H. apply Bool.eqb_prop in H3. apply Bool.eqb_prop in H2.
  apply Nat.eqb_eq in H1. apply String.eqb_eq in H0. subst. reflexivity.
Qed.
Lemma lm_mem x l : existsb (lm_eqb x) l = true -> In x l.
Proof. intros H. apply existsb_exists in H. destruct H as (y & Hy & E). apply lm_eqb_eq in E. subst. exact Hy. Qed.

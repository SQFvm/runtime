(* From text to tree: lexer and parser theorems combined. *)
From Coq Require Import ZArith List Bool Arith Lia.
Import ListNotations.
From SqfVerif Require Import Syntax.SyntaxDefs Syntax.ParsePrintGen Syntax.LexProofs Syntax.LexGlue.

(* The reading, end to end: write the documented reading of a well-formed program as text - the tokens
   of print_raw (minimal parentheses plus any redundant ones, any separator layout), each token spelled
   so that it reads as itself, any whitespace in between - and the front end returns the program. *)
Theorem reading_end_to_end : forall (R:registry) (d:defects) (lay:layout) (ss:list stmt) items trail,
  wf_block R ss -> map snd items = print_raw lay ss -> sep_ok items trail ->
  exists f0, forall f, (f0 <= f)%nat -> parse_text d R f (render items trail) = FOk (map strip_stmt ss).
Proof.
  intros R d lay ss items trail Hwf Hit Hsep.
  exact (reading_end_to_end_glued R d lay ss items trail Hwf Hit (sep_ok_glued items trail Hsep)).
Qed.

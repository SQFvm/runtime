(* The recorded C01 defect, for theorems about the parser model with the switch on / off
   (C01_nular_operand_UN_refuted / _repaired in Properties_C01.v):
   a name registered as unary AND nular cannot be used as an operand (parser.y `value:` has no
   OPERATOR_UN alternative).  The registry here is a two-name one, so the theorems do not depend on
   whether today's runtime still has such a name. *)
From Coq Require Import ZArith List Bool Arith Lia.
Import ListNotations.
From Coq Require String.
Import String.StringSyntax.
From SqfVerif Require Import Syntax.SyntaxDefs Syntax.ParseMono.

Definition un_name : text := Eval compute in s2b "un"%string.
Definition R_un : registry := fun key =>
  if text_eqb key un_name then {| oi_bin := None; oi_un := true; oi_nul := true |} else no_op.

(* `x = un`: the documented reading is an assignment of the nular operator's value *)
Definition un_src : text := Eval compute in s2b "x = un"%string.
Definition un_reading : list stmt := [SAssign (Var (s2b "x"%string)) (Nul un_name)].

Lemma un_tokens : lex un_src = LexOk [RIdent (s2b "x"%string); REqual; RIdent un_name].
Proof. vm_compute. reflexivity. Qed.

(* as a unary operator the same name is fine under both settings *)
Theorem un_as_unary : forall d, exists f0, forall f, (f0 <= f)%nat ->
  parse_text d R_un f (s2b "un x"%string) = FOk [SExpr (Un un_name (Var (s2b "x"%string)))].
Proof.
  intros d. exists 40%nat. intros f Hf. unfold parse_text.
  assert (Hl: lex (s2b "un x"%string) = LexOk [RIdent un_name; RIdent (s2b "x"%string)]) by (vm_compute; reflexivity).
  rewrite Hl.
  assert (H0: parse_toks d 40 (map (classify R_un) [RIdent un_name; RIdent (s2b "x"%string)]) = POk [SExpr (Un un_name (Var (s2b "x"%string)))])
    by (destruct d as [[|]]; vm_compute; reflexivity).
  rewrite (mono_parse d 40 f _ ltac:(rewrite H0; discriminate) Hf). rewrite H0. reflexivity.
Qed.

(* What the parser model returns: every node of the tree is built from tokens of the input, in the class
   the grammar rule asks for, and there is no Par node (parser.y:299 `$$ = $2`).  From this: the tree of an
   accepted text has no Par nodes; if every token of the text reads as itself it is spelled; if moreover no
   name is used as a nular operand although it is also unary, and every assignment target is a variable, it
   is well formed for the registry (wf_block).  The three side conditions are needed - see the witnesses at the
   end (C06_parse_spelled_refuted, C06_parse_wf_refuted, C06_pretty_roundtrip_text_refuted in Properties_C06_code.v). *)
From Coq Require Import ZArith List Bool Arith Lia.
Import ListNotations.
From SqfVerif Require Import Syntax.SyntaxDefs Syntax.TreeFacts Syntax.ParseEqs Syntax.LexProofs Syntax.CompileProofs Syntax.CodeRoundtrip
  Syntax.PrettyRoundtrip Syntax.PrettySpelling.

Definition nulcap (d:defects) (c:opclass) : bool :=
  match c with CN | CBN _ | CBUN _ => true | CUN => negb (d_un_no_operand d) | _ => false end.
Definition lit_tok (l:lit) : tok :=
  match l with LNum s => TNumber s | LHex s => THex s | LStr s => TString s | LTrue s => TTrue s | LFalse s => TFalse s end.

Lemma fold_and_intro {X} (P:X -> Prop) l : (forall e, In e l -> P e) -> fold_right (fun e Q => P e /\ Q) True l.
Proof. induction l as [|x l IH]; cbn; intros H; [exact I|]. split; [apply H; left; reflexivity|apply IH; intros; apply H; right; assumption]. Qed.

Lemma local_decl_In ts x : local_decl ts = Some x -> In (TIdent x) ts.
Proof.
  destruct ts as [|t1 [|t2 [|t3 ts]]]; try discriminate; destruct t1; try discriminate; destruct t2; try discriminate.
  - destruct t3; try discriminate. intros H. injection H as <-. right. left. reflexivity.
Qed.

Section Inv.
Variable d : defects.
Variable TS : list tok.

Fixpoint G (t:tree) : Prop :=
  match t with
  | Lit l => In (lit_tok l) TS
  | Var s => In (TIdent s) TS
  | Nul s => exists c, In (TOp c s) TS /\ nulcap d c = true
  | Un s a => (In (TPrivate s) TS \/ exists c, In (TOp c s) TS /\ is_unclass c = true) /\ G a
  | Bin k s l r => (k < NLEV)%nat /\ (exists c, In (TOp c s) TS /\ is_binclass k c = true) /\ G l /\ G r
  | Arr es => fold_right (fun e P => G e /\ P) True es
  | Code ss => fold_right (fun s P => GS s /\ P) True ss
  | Par _ => False
  end
with GS (s:stmt) : Prop :=
  match s with
  | SExpr e => G e
  | SAssign x e => G x /\ G e
  | SLocal x e => In (TIdent x) TS /\ G e
  end.

Lemma incl_skip_seps ts : incl (skip_seps ts) ts.
Proof. induction ts as [|t r IH]; [apply incl_refl|]. cbn [skip_seps]. destruct (is_sep t); [apply incl_tl; exact IH|apply incl_refl]. Qed.

Lemma inv_gen : forall f,
  (forall k ts e r, incl ts TS -> p_exp d f k ts = POk (e, r) -> G e /\ incl r ts) /\
  (forall k acc ts e r, (k < NLEV)%nat -> incl ts TS -> G acc -> p_loop d f k acc ts = POk (e, r) -> G e /\ incl r ts) /\
  (forall ts es r, incl ts TS -> p_items d f ts = POk (es, r) -> (forall e, In e es -> G e) /\ incl r ts) /\
  (forall ts ss r, incl ts TS -> p_stmts d f ts = POk (ss, r) -> (forall s, In s ss -> GS s) /\ incl r ts) /\
  (forall ts s r, incl ts TS -> p_stmt d f ts = POk (s, r) -> GS s /\ incl r ts).
Proof.
  induction f as [|f (IHe & IHl & IHi & IHss & IHs)].
  { repeat split; intros; discriminate. }
  split; [|split; [|split; [|split]]].
  - (* p_exp *)
    intros k ts e r Hin H. rewrite p_exp_S in H. destruct (NLEV <=? k)%nat eqn:Ek.
    + destruct ts as [|t r0]; [discriminate|]. cbv zeta in H.
      assert (Ht: In t TS) by (apply Hin; left; reflexivity).
      assert (Hr0: incl r0 TS) by (intros x Hx; apply Hin; right; exact Hx).
      assert (UN: forall s, tok_name t = s -> (In (TPrivate s) TS \/ exists c, In (TOp c s) TS /\ is_unclass c = true) ->
                  match p_exp d f NLEV r0 with POk (a, r') => POk (Un (tok_name t) a, r') | PErr => PErr | POut => POut end = POk (e, r) ->
                  G e /\ incl r (t :: r0)).
      { intros s Hs Hc HU. destruct (p_exp d f NLEV r0) as [[a r']| |] eqn:E; try discriminate. injection HU as <- <-.
        destruct (IHe _ _ _ _ Hr0 E) as [Ga Hi]. split; [cbn [G]; rewrite Hs; split; assumption|apply incl_tl; exact Hi]. }
      destruct t; try discriminate.
      * injection H as <- <-. split; [exact Ht|apply incl_tl, incl_refl].
      * injection H as <- <-. split; [exact Ht|apply incl_tl, incl_refl].
      * apply (UN s eq_refl); [left; exact Ht|exact H].
      * destruct (p_stmts d f r0) as [[ss r']| |] eqn:E; try discriminate.
        destruct r' as [|t' r'']; try discriminate. destruct t'; try discriminate. injection H as <- <-.
        destruct (IHss _ _ _ Hr0 E) as [Gs Hi]. split; [cbn [G]; apply fold_and_intro; exact Gs|].
        apply incl_tl. intros x Hx. apply Hi. right. exact Hx.
      * destruct (p_exp d f 0%nat r0) as [[e0 r']| |] eqn:E; try discriminate.
        destruct r' as [|t' r'']; try discriminate. destruct t'; try discriminate. injection H as <- <-.
        destruct (IHe _ _ _ _ Hr0 E) as [Ge Hi]. split; [exact Ge|].
        apply incl_tl. intros x Hx. apply Hi. right. exact Hx.
      * assert (HI: match p_items d f r0 with POk (es, r') => POk (Arr es, r') | PErr => PErr | POut => POut end = POk (e, r) -> G e /\ incl r (TSquareO :: r0)).
        { intros HU. destruct (p_items d f r0) as [[es r']| |] eqn:E; try discriminate. injection HU as <- <-.
          destruct (IHi _ _ _ Hr0 E) as [Ge Hi]. split; [cbn [G]; apply fold_and_intro; exact Ge|apply incl_tl; exact Hi]. }
        destruct r0 as [|t' r'']; [apply HI; exact H|].
        destruct t'; try (apply HI; exact H).
        injection H as <- <-. split; [exact I|apply incl_tl, incl_tl, incl_refl].
      * (* operators *)
        destruct c as [j|j|j|j| | |]; try discriminate.
        -- apply (UN s eq_refl); [right; exists (CBU j); split; [exact Ht|reflexivity]|exact H].
        -- injection H as <- <-. split; [exists (CBN j); split; [exact Ht|reflexivity]|apply incl_tl, incl_refl].
        -- destruct (next_starts_expu r0).
           ++ apply (UN s eq_refl); [right; exists (CBUN j); split; [exact Ht|reflexivity]|exact H].
           ++ injection H as <- <-. split; [exists (CBUN j); split; [exact Ht|reflexivity]|apply incl_tl, incl_refl].
        -- apply (UN s eq_refl); [right; exists CU; split; [exact Ht|reflexivity]|exact H].
        -- injection H as <- <-. split; [exists CN; split; [exact Ht|reflexivity]|apply incl_tl, incl_refl].
        -- destruct (next_starts_expu r0).
           ++ apply (UN s eq_refl); [right; exists CUN; split; [exact Ht|reflexivity]|exact H].
           ++ destruct (d_un_no_operand d) eqn:Ed; [discriminate|].
              injection H as <- <-. split; [exists CUN; split; [exact Ht|cbn; rewrite Ed; reflexivity]|apply incl_tl, incl_refl].
      * injection H as <- <-. split; [exact Ht|apply incl_tl, incl_refl].
      * injection H as <- <-. split; [exact Ht|apply incl_tl, incl_refl].
      * injection H as <- <-. split; [exact Ht|apply incl_tl, incl_refl].
      * injection H as <- <-. split; [exact Ht|apply incl_tl, incl_refl].
    + destruct (p_exp d f (S k) ts) as [[l r1]| |] eqn:E; try discriminate.
      destruct (IHe _ _ _ _ Hin E) as [Gl Hi].
      apply Nat.leb_gt in Ek.
      destruct (IHl k l r1 e r Ek ltac:(eapply incl_tran; eassumption) Gl H) as [Ge Hi2].
      split; [exact Ge|eapply incl_tran; eassumption].
  - (* p_loop *)
    intros k acc ts e r Hk Hin Ga H. rewrite p_loop_S in H.
    destruct ts as [|o r0]; [injection H as <- <-; split; [exact Ga|apply incl_refl]|].
    destruct (binlevel o) as [j|] eqn:Eb; [|injection H as <- <-; split; [exact Ga|apply incl_refl]].
    destruct (Nat.eqb_spec j k) as [->|Hne]; [|injection H as <- <-; split; [exact Ga|apply incl_refl]].
    destruct (p_exp d f (S k) r0) as [[x r']| |] eqn:E; try discriminate.
    assert (Hr0: incl r0 TS) by (intros y Hy; apply Hin; right; exact Hy).
    destruct (IHe _ _ _ _ Hr0 E) as [Gx Hi].
    assert (Gb: G (Bin k (tok_name o) acc x)).
    { cbn [G]. split; [exact Hk|]. split; [|split; assumption].
      assert (Ho: In o TS) by (apply Hin; left; reflexivity).
      destruct o; try discriminate. cbn [tok_name]. exists c. split; [exact Ho|].
      destruct c; cbn in Eb; try discriminate; injection Eb as ->; cbn; apply Nat.eqb_refl. }
    destruct (IHl k _ r' e r Hk ltac:(eapply incl_tran; eassumption) Gb H) as [Ge Hi2].
    split; [exact Ge|]. apply incl_tl. eapply incl_tran; eassumption.
  - (* p_items *)
    intros ts es r Hin H. rewrite p_items_S in H.
    destruct (p_exp d f 0%nat ts) as [[e0 r1]| |] eqn:E; try discriminate.
    destruct (IHe _ _ _ _ Hin E) as [Ge Hi].
    destruct r1 as [|t1 r1']; try discriminate. destruct t1; try discriminate.
    + injection H as <- <-. split; [intros x [<-|[]]; exact Ge|]. intros y Hy. apply Hi. right. exact Hy.
    + destruct (p_items d f r1') as [[es' r'']| |] eqn:E2; try discriminate. injection H as <- <-.
      assert (H1: incl r1' TS) by (intros y Hy; apply Hin, Hi; right; exact Hy).
      destruct (IHi _ _ _ H1 E2) as [Ges Hi2].
      split; [intros x [<-|Hx]; [exact Ge|apply Ges; exact Hx]|]. intros y Hy. apply Hi. right. apply Hi2. exact Hy.
  - (* p_stmts *)
    intros ts ss r Hin H. rewrite p_stmts_S_end in H. pose proof (incl_skip_seps ts) as Hsk.
    destruct (block_end (skip_seps ts)); [injection H as <- <-; split; [intros s []|exact Hsk]|].
    assert (Hin0: incl (skip_seps ts) TS) by (eapply incl_tran; eassumption).
    destruct (p_stmt d f (skip_seps ts)) as [[s r1]| |] eqn:E; try discriminate.
    destruct (IHs _ _ _ Hin0 E) as [Gs Hi].
    assert (ONE: POk ([s], r1) = POk (ss, r) -> (forall s, In s ss -> GS s) /\ incl r ts).
    { intros HO. injection HO as <- <-. split; [intros x [<-|[]]; exact Gs|eapply incl_tran; eassumption]. }
    destruct r1 as [|t1 r1']; [apply ONE; exact H|]. destruct (is_sep t1); [|apply ONE; exact H].
    destruct (p_stmts d f (t1 :: r1')) as [[ss' r'']| |] eqn:E2; try discriminate. injection H as <- <-.
    destruct (IHss _ _ _ ltac:(eapply incl_tran; eassumption) E2) as [Gss Hi2].
    split; [intros x [<-|Hx]; [exact Gs|apply Gss; exact Hx]|]. eapply incl_tran; [exact Hi2|]. eapply incl_tran; eassumption.
  - (* p_stmt *)
    intros ts s r Hin H. rewrite p_stmt_S_local in H.
    destruct (p_exp d f 0%nat ts) as [[e0 r1]| |] eqn:E; try discriminate.
    destruct (IHe _ _ _ _ Hin E) as [Ge Hi].
    assert (EX: POk (SExpr e0, r1) = POk (s, r) -> GS s /\ incl r ts).
    { intros HO. injection HO as <- <-. split; [exact Ge|exact Hi]. }
    destruct r1 as [|t1 r1']; [apply EX; exact H|]. destruct t1; try (apply EX; exact H).
    assert (Hr1: incl r1' TS) by (intros y Hy; apply Hin, Hi; right; exact Hy).
    (* both forms of assignment read the right-hand side from r1' *)
    assert (RHS: forall mk, (forall e', G e' -> GS (mk e')) ->
              match p_exp d f 0%nat r1' with POk (e', r') => POk (mk e', r') | PErr => PErr | POut => POut end = POk (s, r) ->
              GS s /\ incl r ts).
    { intros mk Hmk HA. destruct (p_exp d f 0%nat r1') as [[e' r']| |] eqn:E2; try discriminate. injection HA as <- <-.
      destruct (IHe _ _ _ _ Hr1 E2) as [Ge' Hi2]. split; [apply Hmk; exact Ge'|].
      intros y Hy. apply Hi. right. apply Hi2. exact Hy. }
    destruct (local_decl ts) as [x|] eqn:El.
    + apply (RHS (SLocal x)); [|exact H]. intros e' Ge'. split; [apply Hin, local_decl_In, El|exact Ge'].
    + destruct (is_value_tree e0 && negb (starts_paren ts)); [|apply EX; exact H].
      apply (RHS (SAssign e0)); [|exact H]. intros e' Ge'. split; assumption.
Qed.

Theorem parse_toks_inv f ss : parse_toks d f TS = POk ss -> forall s, In s ss -> GS s.
Proof.
  unfold parse_toks. intros H. destruct (p_stmts d f TS) as [[ss' r]| |] eqn:E; try discriminate.
  destruct r; try discriminate. injection H as <-.
  exact (proj1 (proj1 (proj2 (proj2 (proj2 (inv_gen f)))) _ _ _ (incl_refl TS) E)).
Qed.
End Inv.

Local Open Scope Z_scope.
Definition name_like (t:rtok) : bool := match t with RIdent _ | RPrivate _ | RTrue _ | RFalse _ => true | _ => false end.
Lemma lex1_not_start c r t b : is_ident_start c = false -> lex1 (c :: r) = L1Tok t b -> name_like t = false.
Proof.
  intros Hc H. destruct (lex1_other_inv c r t b Hc H) as [(a & -> & _)|[Hn|[Ho|[(a & -> & _)|[_ Hp]]]]]; try reflexivity.
  - destruct (lex_num_kind _ _ _ Hn) as [a ->]. reflexivity.
  - destruct (lex_op_kind _ _ _ Ho) as [a ->]. reflexivity.
  - unfold punct_toks in Hp. cbn [In] in Hp. repeat (destruct Hp as [E|Hp]; [injection E as _ <-; reflexivity|]). destruct Hp.
Qed.

Lemma tok_ok_op_canon s : tok_ok (ROp s) -> raw_of_name s = ROp s.
Proof.
  intros [H _]. cbn [rtok_text] in H. destruct s as [|c r]; [reflexivity|]. unfold raw_of_name.
  destruct (is_ident_start c) eqn:Hc; [|reflexivity]. exfalso. rewrite lex1_name in H by exact Hc.
  destruct (span is_ident_char (c :: r)) as [a b]. injection H as H _. unfold name_rtok in H.
  repeat destruct (text_eqb _ _); discriminate.
Qed.
Lemma tok_ok_ident_canon s : tok_ok (RIdent s) -> raw_of_name s = RIdent s.
Proof.
  intros [H _]. cbn [rtok_text] in H. destruct s as [|c r]; [discriminate|]. unfold raw_of_name.
  destruct (is_ident_start c) eqn:Hc; [|pose proof (lex1_not_start _ _ _ _ Hc H); discriminate].
  rewrite lex1_name in H by exact Hc. destruct (span is_ident_char (c :: r)) as [a b]. injection H as H _.
  destruct (name_rtok_ident _ _ H) as (_ & _ & _ & Ep). rewrite Ep. reflexivity.
Qed.
Lemma tok_ok_private_canon s : tok_ok (RPrivate s) -> raw_of_name s = RPrivate s.
Proof.
  intros [H _]. cbn [rtok_text] in H. destruct s as [|c r]; [discriminate|]. unfold raw_of_name.
  destruct (is_ident_start c) eqn:Hc; [|pose proof (lex1_not_start _ _ _ _ Hc H); discriminate].
  rewrite lex1_name in H by exact Hc. destruct (span is_ident_char (c :: r)) as [a b]. injection H as H _.
  destruct (name_rtok_private _ _ H) as [_ Ep]. rewrite Ep. reflexivity.
Qed.
Local Close Scope Z_scope.

Lemma classify_name_inv R b s : (exists c, classify_name R b s = TOp c s) \/ (b = true /\ classify_name R b s = TIdent s) \/ classify_name R b s = TInvalid.
Proof.
  unfold classify_name.
  destruct (oi_bin (R (lower s))) as [p|], (oi_un (R (lower s))), (oi_nul (R (lower s)));
    try (destruct ((1 <=? p)%nat && (p <=? 10)%nat)); destruct b; eauto.
Qed.
Lemma classify_lit R rt l : classify R rt = lit_tok l -> rt = raw_of_lit l.
Proof.
  destruct rt; cbn [classify]; intros H;
    try (destruct l; cbn in H; try discriminate; injection H as <-; reflexivity);
    try (destruct l; discriminate).
  - destruct (classify_name_inv R false s) as [[c E]|[[E0 E]|E]]; rewrite E in H; destruct l; discriminate.
  - destruct (classify_name_inv R true s) as [[c E]|[[E0 E]|E]]; rewrite E in H; destruct l; discriminate.
Qed.
Lemma classify_ident R rt s : classify R rt = TIdent s -> rt = RIdent s.
Proof.
  destruct rt; cbn [classify]; intros H; try discriminate.
  - destruct (classify_name_inv R false s0) as [[c E]|[[E0 E]|E]]; rewrite E in H; discriminate.
  - destruct (classify_name_inv R true s0) as [[c E]|[[E0 E]|E]]; rewrite E in H; try discriminate. injection H as <-. reflexivity.
Qed.
Lemma classify_private R rt s : classify R rt = TPrivate s -> rt = RPrivate s.
Proof.
  destruct rt; cbn [classify]; intros H; try discriminate.
  - injection H as <-. reflexivity.
  - destruct (classify_name_inv R false s0) as [[c E]|[[E0 E]|E]]; rewrite E in H; discriminate.
  - destruct (classify_name_inv R true s0) as [[c E]|[[E0 E]|E]]; rewrite E in H; discriminate.
Qed.
Lemma classify_op R rt c s : classify R rt = TOp c s -> rt = ROp s \/ rt = RIdent s.
Proof.
  destruct rt; cbn [classify]; intros H; try discriminate.
  - destruct (classify_name_inv R false s0) as [[c' E]|[[E0 E]|E]]; rewrite E in H; try discriminate. injection H as _ <-. auto.
  - destruct (classify_name_inv R true s0) as [[c' E]|[[E0 E]|E]]; rewrite E in H; try discriminate. injection H as _ <-. auto.
Qed.

(* no name is used as a nular operand although it is also unary: names registered unary+nular have no binary
   overload and the parser is the one that refuses them as operands (the code as it stands, Findings.v) *)
Definition reg_ok (d:defects) (R:registry) : Prop :=
  forall key, oi_un (R key) = true -> oi_nul (R key) = true -> oi_bin (R key) = None /\ d_un_no_operand d = true.
Lemma classify_name_nul d R b s c : reg_ok d R -> classify_name R b s = TOp c s -> nulcap d c = true -> is_nulclass c = true.
Proof.
  intros HR H Hn. unfold classify_name in H. specialize (HR (lower s)).
  destruct (oi_bin (R (lower s))) as [p|], (oi_un (R (lower s))), (oi_nul (R (lower s)));
    try (destruct ((1 <=? p)%nat && (p <=? 10)%nat)); destruct b; try discriminate; injection H as <-;
    try reflexivity; try discriminate Hn;
    try (destruct (HR eq_refl eq_refl) as [E _]; discriminate E);
    try (destruct (HR eq_refl eq_refl) as [_ E]; cbn in Hn; rewrite E in Hn; discriminate Hn).
Qed.

(* every assignment target is a variable *)
Fixpoint tv (t:tree) : bool :=
  match t with
  | Lit _ | Var _ | Nul _ => true
  | Un _ a => tv a
  | Bin _ _ l r => tv l && tv r
  | Arr es => forallb tv es
  | Code ss => forallb tv_stmt ss
  | Par a => tv a
  end
with tv_stmt (s:stmt) : bool :=
  match s with
  | SExpr e => tv e
  | SAssign x e => (match x with Var _ => true | _ => false end) && tv e
  | SLocal _ e => tv e
  end.
Lemma tv_stmt_unfold s : tv_stmt s = match s with
  | SExpr e => tv e | SAssign x e => (match x with Var _ => true | _ => false end) && tv e | SLocal _ e => tv e end.
Proof. destruct s; reflexivity. Qed.

Lemma raw_of_name_cases nm : raw_of_name nm = RPrivate nm \/ raw_of_name nm = RIdent nm \/ raw_of_name nm = ROp nm.
Proof. unfold raw_of_name. destruct nm as [|c r]; auto. destruct (is_ident_start c); auto. destruct (text_eqb _ _); auto. Qed.

Section Props.
Variable d : defects.
Variable R : registry.
Variable ts : list rtok.
Notation TS := (map (classify R) ts).

Lemma GS_unfold s : GS d TS s = match s with
  | SExpr e => G d TS e | SAssign x e => G d TS x /\ G d TS e | SLocal x e => In (TIdent x) TS /\ G d TS e end.
Proof. destruct s; reflexivity. Qed.

Theorem G_noparb :
  (forall t, G d TS t -> noparb t = true) /\
  (forall s, GS d TS s -> noparb_stmt s = true).
Proof.
  apply tree_stmt_ind; try reflexivity.
  - intros s a IH Hg. cbn [G] in Hg. apply IH, Hg.
  - intros j s l r IHl IHr Hg. cbn [G] in Hg. destruct Hg as (_ & _ & Hl & Hr). cbn [noparb]. rewrite (IHl Hl), (IHr Hr). reflexivity.
  - intros es IH Hg. cbn [G] in Hg. pose proof (fold_and_in _ es Hg) as Hin. rewrite Forall_forall in IH.
    cbn [noparb]. apply forallb_forall. intros e He. apply (IH e He), Hin, He.
  - intros ss IH Hg. change (G d TS (Code ss)) with (fold_right (fun s P => GS d TS s /\ P) True ss) in Hg.
    pose proof (fold_and_in _ ss Hg) as Hin. rewrite Forall_forall in IH. change (noparb (Code ss)) with (forallb noparb_stmt ss).
    apply forallb_forall. intros s Hs. apply (IH s Hs), Hin, Hs.
  - intros a _ [].
  - intros e IH Hg. apply IH, Hg.
  - intros x e IHx IHe Hg. rewrite GS_unfold in Hg. destruct Hg as [Hx He]. cbn [noparb_stmt]. rewrite (IHx Hx), (IHe He). reflexivity.
  - intros x e IH Hg. rewrite GS_unfold in Hg. apply IH, Hg.
Qed.

Hypothesis Hok : Forall tok_ok ts.

Lemma src_tok t : In t TS -> exists rt, In rt ts /\ tok_ok rt /\ classify R rt = t.
Proof.
  intros H. apply in_map_iff in H. destruct H as (rt & E & Hin). exists rt. rewrite Forall_forall in Hok. auto.
Qed.
Lemma src_ident s : In (TIdent s) TS -> tok_ok (RIdent s) /\ classify R (RIdent s) = TIdent s.
Proof. intros H. destruct (src_tok _ H) as (rt & _ & Hk & E). pose proof (classify_ident R rt s E). subst rt. split; assumption. Qed.
(* an operator token in the list: the name reads as itself, and classifying the name's own spelling gives the token *)
Lemma src_op c s : In (TOp c s) TS -> tok_ok (raw_of_name s) /\ name_tok R s = TOp c s.
Proof.
  intros H. destruct (src_tok _ H) as (rt & _ & Hk & E). unfold name_tok.
  destruct (classify_op R rt c s E); subst rt.
  - rewrite (tok_ok_op_canon s Hk). split; assumption.
  - rewrite (tok_ok_ident_canon s Hk). split; assumption.
Qed.
Lemma src_private s : In (TPrivate s) TS -> tok_ok (raw_of_name s) /\ name_tok R s = TPrivate s.
Proof.
  intros H. destruct (src_tok _ H) as (rt & _ & Hk & E). unfold name_tok.
  pose proof (classify_private R rt s E). subst rt. rewrite (tok_ok_private_canon s Hk). split; assumption.
Qed.

Theorem G_spelled_wf :
  (forall t, G d TS t -> tv t = true -> spelled t /\ (reg_ok d R -> wfb R t = true)) /\
  (forall s, GS d TS s -> tv_stmt s = true -> spelled_stmt s /\ (reg_ok d R -> wfb_stmt R s = true)).
Proof.
  apply tree_stmt_ind.
  - intros l Hg _. cbn [G] in Hg. destruct (src_tok _ Hg) as (rt & _ & Hk & E). rewrite (classify_lit R rt l E) in Hk.
    split; [exact Hk|reflexivity].
  - intros v Hg _. cbn [G] in Hg. destruct (src_ident _ Hg) as [Hk E]. split; [exact Hk|]. intros _. cbn [wfb]. rewrite E. reflexivity.
  - intros nm Hg _. cbn [G] in Hg. destruct Hg as (c & Hin & Hc). destruct (src_op _ _ Hin) as [Hk E]. split; [exact Hk|].
    intros HR. cbn [wfb]. rewrite E. unfold name_tok in E.
    destruct (raw_of_name_cases nm) as [Er|[Er|Er]]; rewrite Er in E; cbn [classify] in E; try discriminate;
      eapply classify_name_nul; eauto.
  - intros s a IH Hg Htv. cbn [G] in Hg. destruct Hg as [Hop Ha]. cbn [tv] in Htv.
    destruct (IH Ha Htv) as [Sa Wa]. destruct Hop as [Hp|(c & Hin & Hc)].
    + destruct (src_private _ Hp) as [Hk E]. split; [split; assumption|]. intros HR. cbn [wfb]. rewrite E, (Wa HR). reflexivity.
    + destruct (src_op _ _ Hin) as [Hk E]. split; [split; assumption|]. intros HR. cbn [wfb]. rewrite E, Hc, (Wa HR). reflexivity.
  - intros j s l r IHl IHr Hg Htv. cbn [G] in Hg. destruct Hg as (Hj & (c & Hin & Hc) & Hl & Hr). cbn [tv] in Htv. apply andb_prop in Htv. destruct Htv as [Tl Tr].
    destruct (IHl Hl Tl) as [Sl Wl]. destruct (IHr Hr Tr) as [Sr Wr].
    destruct (src_op _ _ Hin) as [Hk E]. split; [cbn [spelled]; split; [exact Hk|split; assumption]|]. intros HR. cbn [wfb].
    rewrite E, Hc, (Wl HR), (Wr HR). apply Nat.ltb_lt in Hj. rewrite Hj. reflexivity.
  - intros es IH Hg Htv. rewrite Forall_forall in IH.
    cbn [G] in Hg. pose proof (fold_and_in _ es Hg) as Hin. cbn [tv] in Htv. rewrite forallb_forall in Htv.
    assert (H: forall e, In e es -> spelled e /\ (reg_ok d R -> wfb R e = true)).
    { intros e He. apply (IH e He); [apply Hin; exact He|apply Htv; exact He]. }
    split; [cbn [spelled]; apply fold_and_intro; intros e He; apply H; exact He|].
    intros HR. cbn [wfb]. apply forallb_forall. intros e He. apply H; assumption.
  - intros ss IH Hg Htv. rewrite Forall_forall in IH.
    change (G d TS (Code ss)) with (fold_right (fun s P => GS d TS s /\ P) True ss) in Hg.
    pose proof (fold_and_in _ ss Hg) as Hin. change (tv (Code ss)) with (forallb tv_stmt ss) in Htv. rewrite forallb_forall in Htv.
    assert (H: forall s, In s ss -> spelled_stmt s /\ (reg_ok d R -> wfb_stmt R s = true)).
    { intros s Hs. apply (IH s Hs); [apply Hin; exact Hs|apply Htv; exact Hs]. }
    split; [change (spelled (Code ss)) with (fold_right (fun s P => spelled_stmt s /\ P) True ss); apply fold_and_intro; intros s Hs; apply H; exact Hs|].
    intros HR. rewrite wfb_Code. apply forallb_forall. intros s Hs. apply H; assumption.
  - intros a _ [].
  - intros e IH Hg Htv. apply IH; assumption.
  - intros x e _ IH Hg Htv. rewrite GS_unfold in Hg. rewrite tv_stmt_unfold in Htv. rewrite spelled_stmt_unfold, wfb_stmt_unfold.
    destruct Hg as [Hx He]. apply andb_prop in Htv. destruct Htv as [Tx Te]. destruct x as [|v| | | | | |]; try discriminate.
    cbn [G] in Hx. destruct (src_ident _ Hx) as [Hk E]. destruct (IH He Te) as [Se We].
    split; [split; assumption|]. intros HR. rewrite E, (We HR). reflexivity.
  - intros x e IH Hg Htv. rewrite GS_unfold in Hg. rewrite tv_stmt_unfold in Htv. rewrite spelled_stmt_unfold, wfb_stmt_unfold.
    destruct Hg as [Hx He]. destruct (src_ident _ Hx) as [Hk E]. destruct (IH He Htv) as [Se We].
    split; [split; assumption|]. intros HR. rewrite E, (We HR). reflexivity.
Qed.
End Props.

(* every token of the text, lexed on its own, is that token *)
Definition src_spelled (s:text) : Prop := forall ts, lex s = LexOk ts -> Forall tok_ok ts.

Theorem parse_text_sound : forall (d:defects) (R:registry) (f:nat) (s:text) (ss:list stmt),
  parse_text d R f s = FOk ss ->
  forallb noparb_stmt ss = true /\
  (src_spelled s -> forallb tv_stmt ss = true -> spelled_block ss /\ (reg_ok d R -> wf_block R ss)).
Proof.
  intros d R f s ss H. unfold parse_text in H. destruct (lex s) as [ts| | |] eqn:El; try discriminate.
  destruct (parse_toks d f (map (classify R) ts)) as [ss'| |] eqn:Ep; try discriminate. injection H as <-.
  pose proof (parse_toks_inv d _ f ss' Ep) as HG. split.
  - apply forallb_forall. intros x Hx. apply (G_noparb d R ts). apply HG. exact Hx.
  - intros Hsp Htv. specialize (Hsp ts El). rewrite forallb_forall in Htv.
    assert (H: forall x, In x ss' -> spelled_stmt x /\ (reg_ok d R -> wfb_stmt R x = true)).
    { intros x Hx. apply (G_spelled_wf d R ts Hsp); [apply HG; exact Hx|apply Htv; exact Hx]. }
    split; [intros x Hx; apply H; exact Hx|]. intros HR. unfold wf_block. apply forallb_forall. intros x Hx. apply H; assumption.
Qed.

Lemma parse_text_mono_err d R f0 s : parse_text d R f0 s = FParseError -> forall f, (f0 <= f)%nat -> parse_text d R f s = FParseError.
Proof.
  unfold parse_text. intros H f Hf. destruct (lex s); try discriminate; try reflexivity.
  destruct (parse_toks d f0 (map (classify R) ts)) eqn:E; try discriminate.
  rewrite (ParseMono.mono_parse d f0 f _ ltac:(rewrite E; discriminate) Hf), E. reflexivity.
Qed.

From Coq Require String.
Import String.StringSyntax.
Definition w_string : text := Eval compute in s2b """a"%string.          (* an unterminated string literal *)
Definition w_target : text := Eval compute in s2b "1 = 2"%string.        (* `value = expression` with a value that is no variable *)
Definition w_number : text := Eval compute in s2b "1e+ 2"%string.        (* tokenizer.hpp t_number: `1e` `+` `2` *)
Definition w_nular : text := Eval compute in s2b "foo"%string.
Definition R_bun : registry := fun key =>
  if text_eqb key (s2b "foo"%string) then {| oi_bin := Some 4%nat; oi_un := true; oi_nul := true |} else no_op.

(* the worked text of PrettyRoundtrip.v meets the side conditions *)
Example ex_text_hyps : parse_text as_is ex_R 200 ex_src = FOk ex_prog /\ src_spelled ex_src /\ forallb tv_stmt ex_prog = true /\ reg_ok as_is ex_R.
Proof.
  split; [vm_compute; reflexivity|]. split; [|split].
  - intros ts H. vm_compute in H. injection H as <-.
    repeat (apply Forall_cons; [split; [vm_compute; reflexivity|vm_compute; first [exact I|reflexivity]]|]). apply Forall_nil.
  - vm_compute. reflexivity.
  - intros key. unfold ex_R. repeat (destruct (text_eqb key _); [cbn; intros; discriminate|]). cbn. intros; discriminate.
Qed.

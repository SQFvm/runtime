(* Structural facts about the syntax trees of SyntaxDefs: induction over a tree and the statements inside
   it, and the equations of the functions on statements. *)
From Coq Require Import List Bool Arith Lia.
Import ListNotations.
From SqfVerif Require Import Syntax.SyntaxDefs.

(* tree is nested through list (Arr, Code) and mutual with stmt: the induction hypotheses for the elements
   of an array and the statements of a block come as Forall *)
Section TreeInd.
Variables (P : tree -> Prop) (Q : stmt -> Prop).
Hypothesis HLit : forall l, P (Lit l).
Hypothesis HVar : forall s, P (Var s).
Hypothesis HNul : forall s, P (Nul s).
Hypothesis HUn : forall s a, P a -> P (Un s a).
Hypothesis HBin : forall k s l r, P l -> P r -> P (Bin k s l r).
Hypothesis HArr : forall es, Forall P es -> P (Arr es).
Hypothesis HCode : forall ss, Forall Q ss -> P (Code ss).
Hypothesis HPar : forall a, P a -> P (Par a).
Hypothesis HExpr : forall e, P e -> Q (SExpr e).
Hypothesis HAssign : forall x e, P x -> P e -> Q (SAssign x e).
Hypothesis HLocal : forall x e, P e -> Q (SLocal x e).

Fixpoint tree_all (t:tree) : P t :=
  match t with
  | Lit l => HLit l
  | Var s => HVar s
  | Nul s => HNul s
  | Un s a => HUn s a (tree_all a)
  | Bin k s l r => HBin k s l r (tree_all l) (tree_all r)
  | Arr es => HArr es ((fix go (l:list tree) : Forall P l :=
                          match l with [] => Forall_nil P | x :: r => Forall_cons x (tree_all x) (go r) end) es)
  | Code ss => HCode ss ((fix go (l:list stmt) : Forall Q l :=
                            match l with [] => Forall_nil Q | x :: r => Forall_cons x (stmt_all x) (go r) end) ss)
  | Par a => HPar a (tree_all a)
  end
with stmt_all (s:stmt) : Q s :=
  match s with
  | SExpr e => HExpr e (tree_all e)
  | SAssign x e => HAssign x e (tree_all x) (tree_all e)
  | SLocal x e => HLocal x e (tree_all e)
  end.

Lemma tree_stmt_ind : (forall t, P t) /\ (forall s, Q s).
Proof. exact (conj tree_all stmt_all). Qed.
End TreeInd.

Lemma tree_list_ind (P : tree -> Prop) :
  (forall l, P (Lit l)) -> (forall s, P (Var s)) -> (forall s, P (Nul s)) -> (forall s a, P a -> P (Un s a)) ->
  (forall k s l r, P l -> P r -> P (Bin k s l r)) -> (forall es, Forall P es -> P (Arr es)) -> (forall ss, P (Code ss)) ->
  (forall a, P a -> P (Par a)) -> forall t, P t.
Proof. intros. apply (tree_stmt_ind P (fun _ => True)); auto. Qed.

(* wfb takes the registry as a parameter, which keeps cbn from folding the statement half back *)
Lemma wfb_stmt_unfold R s : wfb_stmt R s = match s with
  | SExpr e => wfb R e
  | SAssign x e => (match x with
                    | Var v => match classify R (RIdent v) with TIdent _ => true | _ => false end
                    | _ => false end) && wfb R e
  | SLocal x e => (match classify R (RIdent x) with TIdent _ => true | _ => false end) && wfb R e
  end.
Proof. destruct s; reflexivity. Qed.
Lemma wfb_Code R ss : wfb R (Code ss) = forallb (wfb_stmt R) ss.
Proof. reflexivity. Qed.

Lemma map_ext_forallb {A B} (p:A -> bool) (f g:A -> B) l :
  Forall (fun x => p x = true -> f x = g x) l -> forallb p l = true -> map f l = map g l.
Proof.
  induction 1 as [|x l Hx _ IH]; [reflexivity|]. cbn [forallb map]. intros H. apply andb_prop in H.
  rewrite Hx, IH by apply H. reflexivity.
Qed.

Lemma forallb_Forall_impl {A} (p q:A -> bool) l :
  Forall (fun x => p x = true -> q x = true) l -> forallb p l = true -> forallb q l = true.
Proof.
  induction 1 as [|x l Hx _ IH]; [reflexivity|]. cbn [forallb]. intros H. apply andb_prop in H.
  rewrite Hx, IH by apply H. reflexivity.
Qed.
Lemma forallb_map {A B} (p:B -> bool) (f:A -> B) l : forallb p (map f l) = forallb (fun x => p (f x)) l.
Proof. induction l as [|x l IH]; [reflexivity|]. cbn [map forallb]. rewrite IH. reflexivity. Qed.

(* trees without Par nodes are what the parser returns *)
Lemma strip_nopar :
  (forall t, noparb t = true -> strip t = t) /\
  (forall s, noparb_stmt s = true -> strip_stmt s = s).
Proof.
  apply tree_stmt_ind; try reflexivity.
  - intros s a IH H. cbn [noparb strip] in *. rewrite IH by exact H. reflexivity.
  - intros k s l r IHl IHr H. cbn [noparb strip] in *. apply andb_prop in H. rewrite IHl, IHr by apply H. reflexivity.
  - intros es IH H. cbn [noparb strip] in *. rewrite (map_ext_forallb noparb strip (fun e => e) es IH H), map_id. reflexivity.
  - intros ss IH H. change (noparb (Code ss)) with (forallb noparb_stmt ss) in H.
    change (strip (Code ss)) with (Code (map strip_stmt ss)).
    rewrite (map_ext_forallb noparb_stmt strip_stmt (fun s => s) ss IH H), map_id. reflexivity.
  - discriminate.
  - intros e IH H. cbn [noparb_stmt strip_stmt] in *. rewrite IH by exact H. reflexivity.
  - intros x e IHx IHe H. cbn [noparb_stmt strip_stmt] in *. apply andb_prop in H. rewrite IHx, IHe by apply H. reflexivity.
  - intros x e IH H. cbn [noparb_stmt strip_stmt] in *. rewrite IH by exact H. reflexivity.
Qed.

(* C06, code half: the CLI pretty printer (src/parser/sqf/sqf_formatter.cpp as repaired by 382ec7b, model
   SyntaxDefs.pretty / pretty_program) emits a text that is parsed back to the tree it was given - operator
   names in lower case, `$ff` spelled `0xff` - and therefore compiles to the same instruction sequence.

   Shape of the proof (that of Syntax/CodeRoundtrip.v for `str`):
     tokens of the printed text  =  the documented reading (ParsePrintGen.prg) of the tree `pimpl t`
                                    under the layout `{}` / `{ a; b; }` (pretty_layf)
     pimpl t                     =  t with names lowered, hex literals respelled, and a Par node wherever the
                                    formatter writes parentheses that the reading does not need (`if (x)`, `! (x)`);
                                    the parentheses it writes around binary operands are exactly the minimal
                                    ones of the reading (left operand of a looser level, right operand of the
                                    same or a looser level, binary operand of a unary operator)
     spacing                     :  every token is followed by a blank, a bracket or a separator, so the text
                                    lexes to these tokens (LexProofs.lex_pieces)
     parse o print = id          :  ParsePrintGen.parse_printg_block. *)
From Coq Require Import ZArith List Bool Arith Lia.
From Coq Require String Ascii.
Import String.StringSyntax.
Import ListNotations.
From SqfVerif Require Import Syntax.SyntaxDefs Syntax.TreeFacts Syntax.ParsePrintGen Syntax.LexProofs Syntax.CompileProofs Syntax.Reading Syntax.CodeRoundtrip.
From SqfVerif Require Num.NumDefs.

(* sqf_formatter.cpp:65-71 *)
Definition hexnorm (l:lit) : lit :=
  match l with
  | LHex (c :: r) => if (c =? 36)%Z then LHex (48%Z :: 120%Z :: r) else LHex (c :: r)
  | l => l
  end.
Lemma pretty_lit_hexnorm l : pretty_lit l = raw_of_lit (hexnorm l).
Proof. destruct l as [s|s|s|s|s]; try reflexivity. destruct s as [|c r]; [reflexivity|]. cbn [pretty_lit hexnorm]. destruct (c =? 36)%Z; reflexivity. Qed.

(* sqf_formatter.cpp:55 without the last disjunct: parentheses that do not depend on the operand being binary *)
Definition forced (s':text) (a:tree) : bool := (text_eqb s' kw_if && negb (top_token_is_not a)) || text_eqb s' sym_not.

(* one block layout per statement list: nothing for the empty list, `;` after every statement otherwise
   (sqf_formatter.cpp:82-99 and 134-143) *)
Definition lay_semi : layout := {| lay_lead := []; lay_mid_first := SepSemi; lay_mid_more := []; lay_trail := [SepSemi] |}.
Definition pretty_layf (ss:list stmt) : layout := match ss with [] => layout_min | _ => lay_semi end.

Fixpoint pimpl (t:tree) : tree :=
  match t with
  | Lit l => Lit (hexnorm l)
  | Var s => Var s
  | Nul s => Nul s
  | Un s a => Un (lower s) (if forced (lower s) a && negb (is_bin a) then Par (pimpl a) else pimpl a)
  | Bin k s l r => Bin k (lower s) (pimpl l) (pimpl r)
  | Arr es => Arr (map pimpl es)
  | Code ss => Code (map pimpl_stmt ss)
  | Par a => pimpl a
  end
with pimpl_stmt (s:stmt) : stmt :=
  match s with
  | SExpr e => SExpr (pimpl e)
  | SAssign x e => SAssign x (pimpl e)
  | SLocal x e => SLocal x (pimpl e)
  end.
Lemma pimpl_stmt_unfold s : pimpl_stmt s = match s with
  | SExpr e => SExpr (pimpl e) | SAssign x e => SAssign x (pimpl e) | SLocal x e => SLocal x (pimpl e) end.
Proof. destruct s; reflexivity. Qed.

(* what the parser returns for the printed text: the tree itself, normalised *)
Fixpoint pnorm (t:tree) : tree :=
  match t with
  | Lit l => Lit (hexnorm l)
  | Var s => Var s
  | Nul s => Nul s
  | Un s a => Un (lower s) (pnorm a)
  | Bin k s l r => Bin k (lower s) (pnorm l) (pnorm r)
  | Arr es => Arr (map pnorm es)
  | Code ss => Code (map pnorm_stmt ss)
  | Par a => Par (pnorm a)
  end
with pnorm_stmt (s:stmt) : stmt :=
  match s with
  | SExpr e => SExpr (pnorm e)
  | SAssign x e => SAssign x (pnorm e)
  | SLocal x e => SLocal x (pnorm e)
  end.
Lemma pnorm_stmt_unfold s : pnorm_stmt s = match s with
  | SExpr e => SExpr (pnorm e) | SAssign x e => SAssign x (pnorm e) | SLocal x e => SLocal x (pnorm e) end.
Proof. destruct s; reflexivity. Qed.

Lemma pretty_stmt_unfold depth s : pretty_stmt depth s = match s with
  | SExpr e => pretty depth e
  | SAssign x e =>
    match x with
    | Var n | Nul n => PT (RIdent n) :: sp :: PT REqual :: sp :: pretty depth e
    | _ => pretty depth e
    end
  | SLocal x e => PT (RPrivate kw_private) :: sp :: PT (RIdent x) :: sp :: PT REqual :: sp :: pretty depth e
  end.
Proof. destruct s; reflexivity. Qed.
Lemma pretty_code depth ss : pretty depth (Code ss) =
  match ss with
  | [] => PT RCurlyO :: indent depth ++ [PT RCurlyC]
  | _ => PT RCurlyO :: nl ::
         flat_map (fun s => indent (S depth) ++ pretty_stmt (S depth) s ++ [PT RSemi; nl]) ss
         ++ indent depth ++ [PT RCurlyC]
  end.
Proof. reflexivity. Qed.
Lemma lvl_nonbin t : is_bin t = false -> lvl t = NLEV.
Proof. destruct t; cbn; try reflexivity; discriminate. Qed.
Lemma lvl_pimpl t : noparb t = true -> lvl (pimpl t) = lvl t.
Proof. destruct t; cbn; try reflexivity; discriminate. Qed.
Lemma paren_left_eq k l : (k <= NLEV)%nat -> is_bin l && (lvl l <? k)%nat = negb (k <=? lvl l)%nat.
Proof.
  intros Hk. destruct (is_bin l) eqn:E.
  - cbn [andb]. apply Nat.ltb_antisym.
  - rewrite (lvl_nonbin l E). cbn [andb]. destruct (Nat.leb_spec k NLEV); [reflexivity|lia].
Qed.
Lemma paren_right_eq k r : (k < NLEV)%nat -> is_bin r && (lvl r <=? k)%nat = negb (S k <=? lvl r)%nat.
Proof.
  intros Hk. destruct (is_bin r) eqn:E.
  - cbn [andb]. rewrite Nat.leb_antisym. reflexivity.
  - rewrite (lvl_nonbin r E). cbn [andb]. destruct (Nat.leb_spec (S k) NLEV); [reflexivity|lia].
Qed.

Lemma join_trail {A} (x:A) l : l <> [] -> join [x] l ++ [x] = flat_map (fun y => y ++ [x]) l.
Proof.
  destruct l as [|y r]; [congruence|]. intros _. cbn [join flat_map]. rewrite <- !app_assoc. f_equal.
  induction r as [|z r IH]; [reflexivity|]. cbn [flat_map]. rewrite <- !app_assoc. cbn [app]. f_equal. f_equal.
  cbn [app] in IH. exact IH.
Qed.

Section Toks.
Context {A:Type}.
Variable F : rtok -> A.
Notation G := (prg F pretty_layf).
Notation GS := (prg_stmt F pretty_layf).
Notation GB := (prg_block F pretty_layf).

Definition TK (ps:list piece) : list A := map F (pieces_toks ps).
Lemma TK_app a b : TK (a ++ b) = TK a ++ TK b.
Proof. unfold TK. rewrite toks_app, map_app. reflexivity. Qed.
Lemma TK_PT t r : TK (PT t :: r) = F t :: TK r.
Proof. reflexivity. Qed.
Lemma TK_PW w r : TK (PW w :: r) = TK r.
Proof. reflexivity. Qed.
Lemma TK_sp r : TK (sp :: r) = TK r.
Proof. reflexivity. Qed.
Lemma TK_nl r : TK (nl :: r) = TK r.
Proof. reflexivity. Qed.
Lemma TK_indent d r : TK (indent d ++ r) = TK r.
Proof. destruct d; reflexivity. Qed.
Lemma TK_paren b ps : TK (paren_if b ps) = if b then F RRoundO :: TK ps ++ [F RRoundC] else TK ps.
Proof. destruct b; [|reflexivity]. cbn [paren_if]. rewrite TK_PT, TK_app. reflexivity. Qed.
Lemma TK_join_comma els : TK (join [PT RComma; sp] els) = join [F RComma] (map TK els).
Proof.
  unfold TK. rewrite toks_join, map_join. cbn [map]. rewrite !map_map. reflexivity.
Qed.
Lemma TK_flat d ss :
  TK (flat_map (fun s => indent d ++ pretty_stmt d s ++ [PT RSemi; nl]) ss) = flat_map (fun s => TK (pretty_stmt d s) ++ [F RSemi]) ss.
Proof.
  induction ss as [|s r IH]; [reflexivity|]. cbn [flat_map]. rewrite TK_app, TK_indent, TK_app, IH. reflexivity.
Qed.

Notation prawG := (praw F pretty_layf).
Lemma flat_map_map {X Y Z} (f:Y -> list Z) (g:X -> Y) l : flat_map f (map g l) = flat_map (fun x => f (g x)) l.
Proof. induction l as [|x l IH]; [reflexivity|]. cbn [map flat_map]. rewrite IH. reflexivity. Qed.
Lemma GB_semi ss : ss <> [] -> GB ss = flat_map (fun s => GS s ++ [F RSemi]) ss.
Proof.
  intros Hne. unfold prg_block. destruct ss as [|s r]; [congruence|].
  cbn [pretty_layf lay_semi lay_lead lay_trail seps map app]. unfold mid. cbn [lay_mid_first lay_mid_more lay_semi seps map rsep].
  change (GS s :: map GS r) with (map GS (s :: r)).
  rewrite (join_trail (F RSemi) (map GS (s :: r))) by discriminate.
  apply flat_map_map.
Qed.

Theorem pretty_toks :
  (forall t, noparb t = true -> levels_ok t = true -> forall depth, TK (pretty depth t) = prawG (pimpl t)) /\
  (forall s, noparb_stmt s = true -> levels_ok_stmt s = true -> forall depth, TK (pretty_stmt depth s) = GS (pimpl_stmt s)).
Proof.
  (* an operand where the reading expects exp_k: the formatter's parentheses are the minimal ones *)
  assert (OP: forall t, noparb t = true -> (forall depth, TK (pretty depth t) = prawG (pimpl t)) -> forall depth k,
            TK (paren_if (negb (k <=? lvl t)%nat) (pretty depth t)) = G k (pimpl t)).
  { intros t Hp IH depth k. rewrite TK_paren, prg_unfold, (lvl_pimpl t Hp), (IH depth).
    destruct (k <=? lvl t)%nat; reflexivity. }
  apply tree_stmt_ind; try reflexivity.
  - intros l _ _ depth. cbn [pretty pimpl praw]. rewrite pretty_lit_hexnorm. reflexivity.
  - intros s a IH Hp Hl depth. cbn [noparb] in Hp. cbn [levels_ok] in Hl. specialize (IH Hp Hl).
    cbn [pretty pimpl praw]. fold (forced (lower s) a).
    rewrite TK_PT, TK_sp. f_equal.
    destruct (is_bin a) eqn:Eb.
    + rewrite orb_true_r, andb_false_r.
      assert (Hlt: (lvl a < NLEV)%nat).
      { destruct a; try discriminate. cbn [levels_ok lvl] in *. apply andb_prop in Hl. destruct Hl as [Hl _].
        apply andb_prop in Hl. destruct Hl as [Hl _]. apply Nat.ltb_lt in Hl. exact Hl. }
      rewrite <- (OP a Hp IH depth NLEV).
      destruct (Nat.leb_spec NLEV (lvl a)); [lia|reflexivity].
    + rewrite orb_false_r, andb_true_r. destruct (forced (lower s) a).
      * rewrite prg_unfold. cbn [lvl praw]. change (NLEV <=? NLEV)%nat with true. cbv iota.
        rewrite <- (OP a Hp IH depth 0%nat). cbn [Nat.leb negb paren_if]. rewrite TK_PT, TK_app. reflexivity.
      * rewrite <- (OP a Hp IH depth NLEV). rewrite (lvl_nonbin a Eb). change (NLEV <=? NLEV)%nat with true. reflexivity.
  - intros j s l r IHl IHr Hp Hl depth. cbn [noparb] in Hp. apply andb_prop in Hp. destruct Hp as [Hpl Hpr].
    cbn [levels_ok] in Hl. apply andb_prop in Hl. destruct Hl as [Hl Hr]. apply andb_prop in Hl. destruct Hl as [Hj Hl].
    apply Nat.ltb_lt in Hj.
    cbn [pretty pimpl praw]. rewrite TK_app, TK_sp, TK_PT, TK_sp.
    rewrite paren_left_eq by lia. rewrite paren_right_eq by lia.
    rewrite (OP l Hpl (IHl Hpl Hl)), (OP r Hpr (IHr Hpr Hr)). reflexivity.
  - intros es IH Hp Hl depth. cbn [noparb] in Hp. cbn [levels_ok] in Hl. rewrite forallb_forall in Hp, Hl. rewrite Forall_forall in IH.
    cbn [pretty pimpl praw]. rewrite TK_PT, TK_app, TK_join_comma. f_equal. f_equal.
    f_equal. rewrite !map_map. apply map_ext_in. intros e He.
    rewrite <- (OP e (Hp e He) (IH e He (Hp e He) (Hl e He)) depth 0%nat). reflexivity.
  - intros ss IH Hp Hl depth. change (noparb (Code ss)) with (forallb noparb_stmt ss) in Hp.
    change (levels_ok (Code ss)) with (forallb levels_ok_stmt ss) in Hl.
    rewrite forallb_forall in Hp, Hl. rewrite Forall_forall in IH.
    rewrite pretty_code. change (pimpl (Code ss)) with (Code (map pimpl_stmt ss)). cbn [praw].
    destruct ss as [|s0 r].
    + rewrite TK_PT, TK_indent. reflexivity.
    + rewrite TK_PT, TK_nl, TK_app, TK_flat, TK_indent, TK_PT. f_equal.
      rewrite GB_semi by discriminate. rewrite flat_map_concat_map, flat_map_concat_map, map_map.
      change (TK []) with (@nil A). f_equal. f_equal. apply map_ext_in. intros s Hs.
      rewrite (IH s Hs (Hp s Hs) (Hl s Hs)). reflexivity.
  - discriminate.
  - intros e IH Hp Hl depth. cbn [noparb_stmt levels_ok_stmt] in *.
    rewrite pretty_stmt_unfold, pimpl_stmt_unfold, prg_stmt_unfold. rewrite <- (OP e Hp (IH Hp Hl) depth 0%nat). reflexivity.
  - intros x e _ IH Hp Hl depth. cbn [noparb_stmt levels_ok_stmt] in *.
    rewrite pretty_stmt_unfold, pimpl_stmt_unfold, prg_stmt_unfold.
    apply andb_prop in Hp. destruct Hp as [_ Hp]. apply andb_prop in Hl. destruct Hl as [Hx Hl].
    destruct x as [|v| | | | | |]; try discriminate.
    rewrite TK_PT, TK_sp, TK_PT, TK_sp. rewrite <- (OP e Hp (IH Hp Hl) depth 0%nat). reflexivity.
  - intros x e IH Hp Hl depth. cbn [noparb_stmt levels_ok_stmt] in *.
    rewrite pretty_stmt_unfold, pimpl_stmt_unfold, prg_stmt_unfold.
    rewrite TK_PT, TK_sp, TK_PT, TK_sp, TK_PT, TK_sp. rewrite <- (OP e Hp (IH Hp Hl) depth 0%nat). reflexivity.
Qed.

Lemma pretty_program_toks ss : forallb noparb_stmt ss = true -> forallb levels_ok_stmt ss = true ->
  TK (pretty_program ss) = GB (map pimpl_stmt ss).
Proof.
  intros Hp Hl. rewrite forallb_forall in Hp, Hl. destruct ss as [|s0 r]; [reflexivity|].
  rewrite GB_semi by discriminate. unfold pretty_program.
  change (fun s => pretty_stmt 0 s ++ [PT RSemi; nl]) with (fun s => indent 0 ++ pretty_stmt 0 s ++ [PT RSemi; nl]).
  rewrite TK_flat. rewrite flat_map_concat_map, flat_map_concat_map, map_map. f_equal. apply map_ext_in. intros s Hs.
  rewrite (proj2 pretty_toks s (Hp s Hs) (Hl s Hs)). reflexivity.
Qed.
End Toks.

Lemma all_ws_repeat n : all_ws (repeat 32%Z n).
Proof. unfold all_ws. induction n; [reflexivity|]. cbn [repeat forallb]. rewrite IHn. reflexivity. Qed.
Lemma spaced_indent d ps b : spaced ps b -> spaced (indent d ++ ps) b.
Proof. destruct d; [auto|]. intros H. cbn [indent app spaced]. split; [apply all_ws_repeat|exact H]. Qed.
Lemma spaced_paren c ps b : dstart b -> (forall b', dstart b' -> spaced ps b') -> spaced (paren_if c ps) b.
Proof.
  intros Hb H. destruct c; [|apply H; exact Hb]. cbn [paren_if].
  apply spaced_free; [reflexivity|]. apply spaced_app; [apply H; reflexivity|apply spaced_single; exact Hb].
Qed.
Lemma spaced_stmts (pre:list piece) d ss b : (forall ps b', spaced ps b' -> spaced (pre ++ ps) b') ->
  (forall s, In s ss -> forall b', dstart b' -> spaced (pretty_stmt d s) b') ->
  spaced (flat_map (fun s => pre ++ pretty_stmt d s ++ [PT RSemi; nl]) ss) b.
Proof.
  intros Hpre H. induction ss as [|s r IH]; [exact I|]. cbn [flat_map].
  apply spaced_app.
  - apply Hpre. apply spaced_app; [apply H; [left; reflexivity|reflexivity]|].
    apply spaced_free; [reflexivity|]. split; [reflexivity|exact I].
  - apply IH. intros s' Hs'. apply H. right. exact Hs'.
Qed.

Theorem pretty_spaced :
  (forall t depth b, dstart b -> spaced (pretty depth t) b) /\
  (forall s depth b, dstart b -> spaced (pretty_stmt depth s) b).
Proof.
  apply tree_stmt_ind.
  - intros l depth b Hb. apply spaced_single. exact Hb.
  - intros v depth b Hb. apply spaced_single. exact Hb.
  - intros nm depth b Hb. apply spaced_single. exact Hb.
  - intros s a IH depth b Hb. cbn [pretty]. apply spaced_tok_sp, spaced_paren; [exact Hb|]. intros b' Hb'. apply IH. exact Hb'.
  - intros j s l r IHl IHr depth b Hb. cbn [pretty]. apply spaced_app.
    + apply spaced_paren; [reflexivity|]. intros b' Hb'. apply IHl. exact Hb'.
    + split; [reflexivity|]. apply spaced_tok_sp, spaced_paren; [exact Hb|]. intros b' Hb'. apply IHr. exact Hb'.
  - intros es IH depth b Hb. rewrite Forall_forall in IH.
    cbn [pretty]. apply spaced_free; [reflexivity|]. apply spaced_app; [|apply spaced_single; exact Hb].
    apply spaced_join; [reflexivity|reflexivity|reflexivity|].
    intros e He b' Hb'. apply in_map_iff in He. destruct He as (x & <- & Hx). apply (IH x Hx). exact Hb'.
  - intros ss IH depth b Hb. rewrite Forall_forall in IH.
    rewrite pretty_code. destruct ss as [|s0 r].
    + apply spaced_free; [reflexivity|]. apply spaced_indent, spaced_single. exact Hb.
    + apply spaced_free; [reflexivity|]. split; [reflexivity|].
      apply spaced_app; [|apply spaced_indent, spaced_single; exact Hb].
      apply spaced_stmts; [intros ps b'; apply spaced_indent|].
      intros s Hs b' Hb'. apply (IH s Hs). exact Hb'.
  - intros a IH depth b Hb. apply IH. exact Hb.
  - intros e IH depth b Hb. apply IH. exact Hb.
  - intros x e _ IH depth b Hb. rewrite pretty_stmt_unfold.
    destruct x; try (apply IH; exact Hb); apply spaced_tok_sp, spaced_tok_sp, IH; exact Hb.
  - intros x e IH depth b Hb. rewrite pretty_stmt_unfold. apply spaced_tok_sp, spaced_tok_sp, spaced_tok_sp, IH. exact Hb.
Qed.

Lemma pretty_program_lex ss : toks_ok (pretty_program ss) ->
  lex (pieces_text (pretty_program ss)) = LexOk (pieces_toks (pretty_program ss)).
Proof.
  intros Hok. apply lex_pieces. apply spaced_preads; [exact Hok|]. unfold pretty_program.
  change (fun s => pretty_stmt 0 s ++ [PT RSemi; nl]) with (fun s => [] ++ pretty_stmt 0 s ++ [PT RSemi; nl]).
  apply spaced_stmts; [intros ps b' H; exact H|].
  intros s Hs b' Hb'. apply pretty_spaced. exact Hb'.
Qed.

Section WfP.
Variable R : registry.

Theorem wf_pimpl :
  (forall t, wfb R t = true -> wfb R (pimpl t) = true) /\
  (forall s, wfb_stmt R s = true -> wfb_stmt R (pimpl_stmt s) = true).
Proof.
  apply tree_stmt_ind; try (intros; assumption).
  - intros s a IH Hwf. cbn [wfb] in Hwf. apply andb_prop in Hwf. destruct Hwf as [Hu Ha].
    cbn [pimpl wfb]. rewrite name_tok_lower.
    assert (Hop: wfb R (if forced (lower s) a && negb (is_bin a) then Par (pimpl a) else pimpl a) = true).
    { destruct (forced (lower s) a && negb (is_bin a)); cbn [wfb]; apply IH; exact Ha. }
    rewrite Hop, andb_true_r. destruct (name_tok R s); try discriminate; exact Hu.
  - intros j s l r IHl IHr Hwf. cbn [wfb] in Hwf. apply andb_prop in Hwf. destruct Hwf as [Hwf Hr]. apply andb_prop in Hwf. destruct Hwf as [Hwf Hl].
    apply andb_prop in Hwf. destruct Hwf as [Hj Hc].
    cbn [pimpl wfb]. rewrite Hj, name_tok_lower, (IHl Hl), (IHr Hr), !andb_true_r. cbn [andb].
    destruct (name_tok R s); try discriminate; exact Hc.
  - intros es IH Hwf. cbn [wfb pimpl] in *. rewrite forallb_map. exact (forallb_Forall_impl _ _ es IH Hwf).
  - intros ss IH Hwf. rewrite wfb_Code in Hwf. change (wfb R (pimpl (Code ss))) with (forallb (wfb_stmt R) (map pimpl_stmt ss)).
    rewrite forallb_map. exact (forallb_Forall_impl _ _ ss IH Hwf).
  - intros a IH Hwf. apply IH, Hwf.
  - intros e IH Hwf. apply IH, Hwf.
  - intros x e _ IH Hwf. rewrite pimpl_stmt_unfold. rewrite wfb_stmt_unfold in *.
    apply andb_prop in Hwf. destruct Hwf as [Hx He]. rewrite Hx, (IH He). reflexivity.
  - intros x e IH Hwf. rewrite pimpl_stmt_unfold. rewrite wfb_stmt_unfold in *.
    apply andb_prop in Hwf. destruct Hwf as [Hx He]. rewrite Hx, (IH He). reflexivity.
Qed.
End WfP.

Theorem strip_pimpl :
  (forall t, noparb t = true -> strip (pimpl t) = pnorm t) /\
  (forall s, noparb_stmt s = true -> strip_stmt (pimpl_stmt s) = pnorm_stmt s).
Proof.
  apply tree_stmt_ind; try reflexivity.
  - intros s a IH Hp. cbn [noparb] in Hp. cbn [pimpl pnorm strip].
    destruct (forced (lower s) a && negb (is_bin a)); cbn [strip]; rewrite (IH Hp); reflexivity.
  - intros j s l r IHl IHr Hp. cbn [noparb] in Hp. apply andb_prop in Hp. destruct Hp as [Hpl Hpr].
    cbn [pimpl pnorm strip]. rewrite (IHl Hpl), (IHr Hpr). reflexivity.
  - intros es IH Hp. cbn [noparb] in Hp. cbn [pimpl pnorm strip]. f_equal. rewrite map_map.
    exact (map_ext_forallb _ _ _ es IH Hp).
  - intros ss IH Hp. change (noparb (Code ss)) with (forallb noparb_stmt ss) in Hp.
    change (strip (pimpl (Code ss))) with (Code (map strip_stmt (map pimpl_stmt ss))).
    change (pnorm (Code ss)) with (Code (map pnorm_stmt ss)). f_equal. rewrite map_map.
    exact (map_ext_forallb _ _ _ ss IH Hp).
  - discriminate.
  - intros e IH Hp. rewrite pimpl_stmt_unfold, pnorm_stmt_unfold. cbn [strip_stmt]. rewrite (IH Hp). reflexivity.
  - intros x e _ IH Hp. rewrite pimpl_stmt_unfold, pnorm_stmt_unfold. cbn [noparb_stmt strip_stmt] in *.
    apply andb_prop in Hp. destruct Hp as [Hx He]. rewrite (IH He), (proj1 strip_nopar x Hx). reflexivity.
  - intros x e IH Hp. rewrite pimpl_stmt_unfold, pnorm_stmt_unfold. cbn [strip_stmt]. rewrite (IH Hp). reflexivity.
Qed.

Lemma hexnorm_kind l : ((exists s, l = LNum s) \/ (exists s, l = LHex s)) -> (exists s, hexnorm l = LNum s) \/ (exists s, hexnorm l = LHex s).
Proof.
  intros [[s ->]|[s ->]]; [left; eexists; reflexivity|right]. destruct s as [|c r]; cbn [hexnorm]; [eexists; reflexivity|].
  destruct (c =? 36)%Z; eexists; reflexivity.
Qed.
Lemma unsigned_pnorm a : unsigned_num (pnorm a) = option_map hexnorm (unsigned_num a).
Proof.
  induction a; cbn [pnorm unsigned_num option_map]; try reflexivity.
  - destruct l as [s|s|s|s|s]; try reflexivity. destruct s as [|c r]; [reflexivity|]. cbn [hexnorm option_map]. destruct (c =? 36)%Z; reflexivity.
  - rewrite lower_sym_plus. destruct (text_eqb s sym_plus); [exact IHa|reflexivity].
  - exact IHa.
Qed.

Theorem postorder_pnorm :
  (forall t, postorder (pnorm t) = map (mapl_i hexnorm) (postorder t)) /\
  (forall s, postorder_stmt (pnorm_stmt s) = map (mapl_i hexnorm) (postorder_stmt s)).
Proof.
  apply tree_stmt_ind; try reflexivity.
  - intros s a IH. cbn [pnorm postorder]. rewrite unsigned_pnorm, lower_sym_minus, lower_sym_plus, lower_idem.
    destruct (unsigned_num a) as [l|] eqn:Eu; cbn [option_map].
    + destruct (text_eqb s sym_minus); [reflexivity|]. destruct (text_eqb s sym_plus); [reflexivity|].
      rewrite IH, map_app. reflexivity.
    + rewrite IH, map_app. reflexivity.
  - intros j s l r IHl IHr. cbn [pnorm postorder]. rewrite IHl, IHr, lower_idem, !map_app. reflexivity.
  - intros es IH. cbn [pnorm postorder]. rewrite map_app, map_length. cbn [map mapl_i]. f_equal.
    induction IH as [|e es He _ IHes]; [reflexivity|]. cbn [map flat_map]. rewrite map_app, He, IHes. reflexivity.
  - intros ss IH.
    change (postorder (pnorm (Code ss))) with [IPush (PCode (join [IEndStatement] (map postorder_stmt (map pnorm_stmt ss))))].
    change (postorder (Code ss)) with [IPush (PCode (join [IEndStatement] (map postorder_stmt ss)))].
    cbn [map mapl_i]. f_equal. f_equal. f_equal. rewrite map_join. cbn [map mapl_i]. f_equal.
    rewrite !map_map. apply map_ext_Forall. exact IH.
  - intros a IH. exact IH.
  - intros e IH. exact IH.
  - intros x e _ IH. rewrite pnorm_stmt_unfold, !postorder_stmt_unfold, IH, map_app. reflexivity.
  - intros x e IH. rewrite pnorm_stmt_unfold, !postorder_stmt_unfold, IH, map_app. reflexivity.
Qed.
Lemma postorder_block_pnorm ss : postorder_block (map pnorm_stmt ss) = map (mapl_i hexnorm) (postorder_block ss).
Proof.
  unfold postorder_block. rewrite map_join. cbn [map mapl_i]. f_equal. rewrite !map_map. apply map_ext. intros s.
  apply postorder_pnorm.
Qed.

(* a program without `$` literals is compiled to the very same instructions *)
Fixpoint nodollar_i (i:instr) : bool :=
  match i with
  | IPush (PLit _ (LHex (c :: _))) => negb (c =? 36)%Z
  | IPush (PCode c) => forallb nodollar_i c
  | _ => true
  end.
Lemma mapl_hexnorm_id : forall n i, (isize i <= n)%nat -> nodollar_i i = true -> mapl_i hexnorm i = i.
Proof.
  induction n as [|n IH]; intros i Hsz Hnd.
  { pose proof (isize_pos i). lia. }
  destruct i as [[neg l|c]| | | | | | | |]; try reflexivity.
  - cbn [mapl_i]. destruct l as [s|s|s|s|s]; try reflexivity. destruct s as [|c r]; [reflexivity|].
    cbn [nodollar_i] in Hnd. cbn [hexnorm]. destruct (c =? 36)%Z; [discriminate|reflexivity].
  - cbn [mapl_i]. f_equal. f_equal. cbn [nodollar_i] in Hnd. rewrite forallb_forall in Hnd.
    rewrite <- (map_id c) at 2. apply map_ext_in. intros i Hi. apply IH; [|auto].
    cbn [isize] in Hsz. assert (isize i <= fold_right (fun i n => (isize i + n)%nat) 0%nat c)%nat; [|lia].
    clear -Hi. induction c as [|x c IHc]; [destruct Hi|]. cbn [fold_right]. destruct Hi as [->|Hi]; [lia|]. specialize (IHc Hi). lia.
Qed.
Lemma map_hexnorm_id c : forallb nodollar_i c = true -> map (mapl_i hexnorm) c = c.
Proof.
  intros H. rewrite forallb_forall in H. rewrite <- (map_id c) at 2. apply map_ext_in. intros i Hi.
  apply (mapl_hexnorm_id (isize i)); auto.
Qed.

(* For every registry and every well-formed program ss as the parser returns it (no Par nodes - the parser drops
   source parentheses, parser.y:299): if every token of the printed text is spelled so that it reads as itself
   (the formatter writes the tokens of the source, names in lower case and `$ff` as `0xff`), then for all
   sufficiently large fuel the printed text is parsed to the program itself up to that respelling (pnorm), and
   that program compiles to the instructions of ss with every `$` hex literal spelled `0x`. *)
Theorem pretty_roundtrip : forall (R:registry) (d:defects) (ss:list stmt),
  wf_block R ss -> forallb noparb_stmt ss = true -> toks_ok (pretty_program ss) ->
  exists f0, forall f, (f0 <= f)%nat ->
    parse_text d R f (pieces_text (pretty_program ss)) = FOk (map pnorm_stmt ss) /\
    exists c, compile_block ss = Some c /\ compile_block (map pnorm_stmt ss) = Some (map (mapl_i hexnorm) c).
Proof.
  intros R d ss Hwf Hnp Hok.
  assert (Hlev: forallb levels_ok_stmt ss = true).
  { unfold wf_block in Hwf. rewrite forallb_forall in *. intros s Hs. apply (wf_levels R); auto. }
  assert (Hwf': wf_block R (map pimpl_stmt ss)).
  { unfold wf_block in *. rewrite forallb_forall in *. intros x Hx. apply in_map_iff in Hx. destruct Hx as (s & <- & Hs).
    apply (wf_pimpl R); auto. }
  destruct (parse_printg_block R d pretty_layf _ Hwf') as [f0 Hp].
  exists f0. intros f Hf. split.
  - unfold parse_text. rewrite (pretty_program_lex ss Hok).
    fold (TK (classify R) (pretty_program ss)). rewrite (pretty_program_toks (classify R) ss Hnp Hlev).
    fold (printg_toks R pretty_layf (map pimpl_stmt ss)). rewrite (Hp f Hf). f_equal. rewrite map_map.
    apply map_ext_in. intros s Hs. apply strip_pimpl.
    rewrite forallb_forall in Hnp. auto.
  - exists (postorder_block ss). split; [apply compile_block_postorder|].
    rewrite compile_block_postorder, postorder_block_pnorm. reflexivity.
Qed.

(* the respelling keeps the number: sqf_parser.cpp:98-120 turns `$..` into `0x..` itself before std::stol
   (NumDefs.lit_hex, the literal conversion of the number half of C06) *)
Lemma hex_respelling_value (r:list Z) : NumDefs.lit_hex (48%Z :: 120%Z :: r) = NumDefs.lit_hex (36%Z :: r).
Proof. reflexivity. Qed.

Lemma toks_ok_Forall ps : Forall (fun p => match p with PT t => tok_ok t | PW _ => True end) ps -> toks_ok ps.
Proof. intros H t Ht. rewrite Forall_forall in H. exact (H (PT t) Ht). Qed.

Definition ex_R : registry := fun key =>
  if text_eqb key [43%Z] then {| oi_bin := Some 6%nat; oi_un := true; oi_nul := false |}
  else if text_eqb key [45%Z] then {| oi_bin := Some 6%nat; oi_un := true; oi_nul := false |}
  else if text_eqb key [42%Z] then {| oi_bin := Some 7%nat; oi_un := false; oi_nul := false |}
  else if text_eqb key [33%Z] then {| oi_bin := None; oi_un := true; oi_nul := false |}
  else if text_eqb key kw_if then {| oi_bin := None; oi_un := true; oi_nul := false |}
  else if text_eqb key (s2b "then"%string) then {| oi_bin := Some 4%nat; oi_un := false; oi_nul := false |}
  else if text_eqb key (s2b "count"%string) then {| oi_bin := Some 4%nat; oi_un := true; oi_nul := false |}
  else if text_eqb key (s2b "player"%string) then {| oi_bin := None; oi_un := false; oi_nul := true |}
  else no_op.
Definition ex_src : text := Eval compute in
  s2b "IF (a + b) THEN {x = $fF * (a + b) * (c * Player); private y = ! a; {}; Count (a + b)}; if ! a then {[a, + (a * b), {}, -5, ""s""]}"%string.
Definition ex_prog : list stmt := Eval vm_compute in match parse_text as_is ex_R 200 ex_src with FOk p => p | _ => [] end.
Definition ex_out : text := Eval vm_compute in pieces_text (pretty_program ex_prog).

Example ex_hyps : ex_prog <> [] /\ wf_block ex_R ex_prog /\ forallb noparb_stmt ex_prog = true /\ toks_ok (pretty_program ex_prog).
Proof.
  split; [discriminate|]. split; [vm_compute; reflexivity|]. split; [vm_compute; reflexivity|].
  apply toks_ok_Forall.
  let l := eval vm_compute in (pretty_program ex_prog) in change (pretty_program ex_prog) with l.
  repeat (apply Forall_cons; [cbv beta iota; first [exact I | split; [vm_compute; reflexivity|vm_compute; first [exact I|reflexivity]]]|]).
  apply Forall_nil.
Qed.
Definition NLs : String.string := String.String (Ascii.ascii_of_nat 10) String.EmptyString.
Example ex_roundtrip :
  parse_text as_is ex_R 200 ex_out = FOk (map pnorm_stmt ex_prog) /\
  compile_block (map pnorm_stmt ex_prog) = option_map (map (mapl_i hexnorm)) (compile_block ex_prog) /\
  compile_block (map pnorm_stmt ex_prog) <> compile_block ex_prog /\
  ex_out = s2b (String.concat NLs
    ["if (a + b) then {";
     "    x = 0xfF * (a + b) * (c * Player);";
     "    private y = ! (a);";
     "    {    };";
     "    count (a + b);";
     "};";
     "if ! (a) then {";
     "    [a, + (a * b), {    }, - 5, ""s""];";
     "};"; ""]%string).
Proof. split; [vm_compute; reflexivity|]. split; [vm_compute; reflexivity|]. split; [vm_compute; discriminate|vm_compute; reflexivity]. Qed.

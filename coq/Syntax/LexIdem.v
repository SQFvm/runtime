(* Token-level idempotence of the lexer model: every token lex1 produces from ANY text lexes back as itself
   (LexProofs.tok_ok), for every token kind - names, keywords, operators, brackets and separators, hexadecimal
   numbers, terminated strings - under an explicit decidable condition `well_term` on the token that only bites for
   an unterminated string (tokenizer.hpp:271-338 runs to the end of the input) and for a number token (the
   dangling-`e` shape `1e` `+` of tokenizer.hpp:369-395; for numbers the condition is the computed re-lex of the
   token text, it is not characterised by shape here). *)
From Coq Require Import ZArith List Bool Arith Lia.
Import ListNotations.
From SqfVerif Require Import Syntax.SyntaxDefs Syntax.LexProofs Syntax.CompileProofs Syntax.CodeRoundtrip
  Syntax.PrettyRoundtrip Syntax.PrettySpelling Syntax.ParseSound.
Local Open Scope Z_scope.

Definition num_relex (n:text) : bool :=
  match lex1 n with L1Tok (RNum a) [] => text_eqb a n | _ => false end.
Definition well_term (t:rtok) : bool :=
  match t with
  | RStr s => str_closed s
  | RNum n => num_relex n
  | _ => true
  end.

Lemma num_relex_ok n : num_relex n = true -> tok_ok (RNum n).
Proof.
  unfold num_relex. intros H. split; [|exact I]. cbn [rtok_text].
  destruct (lex1 n) as [t rest| | |]; try discriminate. destruct t; try discriminate. destruct rest; try discriminate.
  apply text_eqb_eq in H. subst. reflexivity.
Qed.

Lemma op_tok s n : op_len s = S n -> tok_ok (ROp (firstn (S n) s)).
Proof.
  destruct s as [|a [|b t]].
  - cbn. discriminate.
  - intros En. assert (Ha: In a one_char_ops) by (apply op_len_one; rewrite En; discriminate).
    replace (firstn (S n) [a]) with [a] by (destruct n; reflexivity).
    unfold one_char_ops in Ha. cbn [In] in Ha.
    repeat (destruct Ha as [<-|Ha]; [split; [reflexivity|exact I]|]). destruct Ha.
  - rewrite op_len_two. intros En.
    (* the chain of tests of op_len on two characters: each success fixes both, and that spelling reads as itself *)
    unfold op_len, starts2, starts1 in En.
    repeat match type of En with context[?x =? ?k] => destruct (Z.eqb_spec x k); [subst|] end;
      cbn in En; try congruence; try lia; injection En as <-; cbn [firstn]; (split; [reflexivity|exact I]).
Qed.
Lemma lex_op_tok_ok s t rest : lex_op s = L1Tok t rest -> tok_ok t.
Proof.
  unfold lex_op. destruct (op_len s) as [|n] eqn:En; [discriminate|]. intros H. injection H as <- _. apply op_tok. exact En.
Qed.

Theorem lex1_name_idem c r t rest : is_ident_start c = true -> lex1 (c :: r) = L1Tok t rest -> tok_ok t.
Proof.
  intros Hc H. rewrite lex1_name in H by exact Hc.
  pose proof (span_spec is_ident_char (c :: r)) as (_ & Hall & _).
  destruct (span is_ident_char (c :: r)) as [a b] eqn:Es. injection H as <- <-. cbn [fst] in Hall.
  cbn [span] in Es. rewrite (ident_start_char c Hc) in Es. destruct (span is_ident_char r) as [a' b']. injection Es as <- <-.
  split; [|unfold name_rtok; repeat destruct (text_eqb _ _); exact I].
  rewrite name_rtok_text, lex1_name, (span_all_id _ _ Hall) by exact Hc. reflexivity.
Qed.

Lemma hex_tok c r a b : lex_hex (c :: r) = Some (a, b) -> (c =? 48) = true \/ (c =? 36) = true -> tok_ok (RHex a).
Proof.
  intros H Hc. split; [|exact I]. cbn [rtok_text]. unfold lex_hex in H.
  destruct (Z.eqb_spec c 36) as [->|Hne].
  - pose proof (span_spec is_hexdigit r) as (_ & S2 & _). destruct (span is_hexdigit r) as [dg r'] eqn:Es. cbn [fst] in S2.
    destruct dg as [|d0 dg]; [discriminate|]. injection H as <- _.
    remember (d0 :: dg) as dd eqn:Ed. unfold lex1. cbn. rewrite (span_all_id _ _ S2). rewrite Ed. reflexivity.
  - destruct Hc as [Hc|Hc]; [|discriminate]. apply Z.eqb_eq in Hc. subst c.
    destruct r as [|x r2]; [discriminate|]. destruct (Z.eqb_spec x 120) as [->|]; [|discriminate].
    pose proof (span_spec is_hexdigit r2) as (_ & S2 & _). destruct (span is_hexdigit r2) as [dg r'] eqn:Es. cbn [fst] in S2.
    destruct dg as [|d0 dg]; [discriminate|]. injection H as <- _.
    remember (d0 :: dg) as dd eqn:Ed. unfold lex1. cbn. rewrite (span_all_id _ _ S2). rewrite Ed. reflexivity.
Qed.
Lemma scan_closed q a : closed q a = true -> scan_str q a = (a, []).
Proof. intros H. pose proof (scan_str_local q [] I (length a) a (le_n _) H) as E. rewrite app_nil_r in E. exact E. Qed.
Lemma str_tok c a : ((c =? 34) || (c =? 39)) = true -> closed c a = true -> tok_ok (RStr (c :: a)).
Proof.
  intros Hc Hcl. split; [|exact Hcl]. cbn [rtok_text].
  destruct (Z.eqb_spec c 34) as [->|]; [|destruct (Z.eqb_spec c 39) as [->|]; [|discriminate]];
    unfold lex1; cbn; rewrite (scan_closed _ _ Hcl); reflexivity.
Qed.

Theorem lex1_other_idem c r t rest : is_ident_start c = false -> lex1 (c :: r) = L1Tok t rest -> well_term t = true -> tok_ok t.
Proof.
  intros Hc H Hw. destruct (lex1_other_inv c r t rest Hc H) as [(a & -> & Eh & E)|[Hn|[Ho|[(a & -> & Eq & Es)|[_ Hp]]]]].
  - apply (hex_tok c r a rest Eh E).
  - destruct (lex_num_kind _ _ _ Hn) as [a ->]. apply num_relex_ok. exact Hw.
  - apply (lex_op_tok_ok _ _ _ Ho).
  - apply str_tok; [exact Eq|exact Hw].
  - unfold punct_toks in Hp. cbn [In] in Hp.
    repeat (destruct Hp as [E|Hp]; [injection E as _ <-; split; [reflexivity|exact I]|]). destruct Hp.
Qed.

Theorem lex1_idem s t rest : lex1 s = L1Tok t rest -> well_term t = true -> tok_ok t.
Proof.
  destruct s as [|c r]; [discriminate|]. intros H Hw. destruct (is_ident_start c) eqn:Hc.
  - eapply lex1_name_idem; eassumption.
  - eapply lex1_other_idem; eassumption.
Qed.

Lemma lex_f_idem : forall f s ts, lex_f f s = LexOk ts -> forallb well_term ts = true -> Forall tok_ok ts.
Proof.
  induction f as [|f IH]; intros s ts H Hw.
  - destruct s; cbn in H; [injection H as <-; constructor|discriminate].
  - destruct s as [|c r]; [cbn in H; injection H as <-; constructor|].
    cbn [lex_f] in H. destruct (lex1 (c :: r)) as [t rest|rest| |] eqn:E1; try discriminate.
    + unfold lex_cons in H. destruct (lex_f f rest) as [ts'| | |] eqn:E2; try discriminate. injection H as <-.
      cbn [forallb] in Hw. apply andb_prop in Hw. destruct Hw as [Hw1 Hw2].
      constructor; [eapply lex1_idem; eassumption|eapply IH; eassumption].
    + eapply IH; eassumption.
Qed.

(* a decidable condition on the text: it has no unterminated string and every number token re-lexes as itself *)
Definition text_well_terminated (s:text) : bool :=
  match lex s with LexOk ts => forallb well_term ts | _ => true end.
Example ex_src_well_terminated : text_well_terminated ex_src = true.
Proof. vm_compute. reflexivity. Qed.
Example witnesses_not_well_terminated : text_well_terminated w_string = false /\ text_well_terminated w_number = false /\ text_well_terminated w_target = true.
Proof. vm_compute. repeat split. Qed.

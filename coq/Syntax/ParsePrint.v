(* The parser side of parse o print = id: what p_exp / p_loop / p_stmts do on a token list of a given
   shape (an operand token, a bracketed group, a run of separators, an operator of a lower level ahead).
   Nothing here mentions a printer; Syntax/ParsePrintGen.v puts these steps together along a printed tree. *)
From Coq Require Import ZArith List Bool Arith Lia.
Import ListNotations.
From SqfVerif Require Import Syntax.SyntaxDefs Syntax.TreeFacts Syntax.ParseEqs Syntax.ParseMono.

Section PP.
Variable R : registry.
Variable d : defects.

Notation F := (classify R).

Lemma lvl_le_N t : wf_tree R t -> (lvl t <= NLEV)%nat.
Proof.
  destruct t; cbn [lvl]; unfold NLEV; try lia. unfold wf_tree. cbn [wfb]. intros H.
  apply andb_prop in H. destruct H as [H _]. apply andb_prop in H. destruct H as [H _].
  apply andb_prop in H. destruct H as [H _]. apply Nat.ltb_lt in H. unfold NLEV in H. lia.
Qed.

Lemma classify_name_cases b s :
  (exists c, classify_name R b s = TOp c s) \/ classify_name R b s = TIdent s \/ classify_name R b s = TInvalid.
Proof.
  unfold classify_name.
  destruct (oi_bin (R (lower s))) as [p|], (oi_un (R (lower s))), (oi_nul (R (lower s)));
    try (destruct ((1 <=? p)%nat && (p <=? 10)%nat)); try destruct b; eauto.
Qed.
Lemma name_tok_cases s :
  name_tok R s = TPrivate s \/ (exists c, name_tok R s = TOp c s) \/ name_tok R s = TIdent s \/ name_tok R s = TInvalid.
Proof.
  unfold name_tok, raw_of_name. destruct s as [|c s'].
  - cbn [classify]. destruct (classify_name_cases false []) as [H|[H|H]]; eauto.
  - destruct (is_ident_start c).
    + destruct (text_eqb (lower (c :: s')) kw_private); cbn [classify]; eauto.
      destruct (classify_name_cases true (c :: s')) as [H|[H|H]]; eauto.
    + cbn [classify]. destruct (classify_name_cases false (c :: s')) as [H|[H|H]]; eauto.
Qed.
Lemma name_tok_op s c s' : name_tok R s = TOp c s' -> s' = s.
Proof. destruct (name_tok_cases s) as [H|[[c' H]|[H|H]]]; rewrite H; congruence. Qed.
Lemma name_tok_private s s' : name_tok R s = TPrivate s' -> s' = s.
Proof. destruct (name_tok_cases s) as [H|[[c' H]|[H|H]]]; rewrite H; congruence. Qed.

Definition stops (k:nat) (X:list tok) : Prop :=
  match X with
  | o :: _ => match binlevel o with Some j => (j < k)%nat | None => True end
  | [] => True
  end.
Lemma stops_mono k j X : stops k X -> (k <= j)%nat -> stops j X.
Proof. destruct X as [|o X]; cbn; auto. destruct (binlevel o); auto. lia. Qed.

Lemma loop_stop k acc X f : stops k X -> p_loop d (S f) k acc X = POk (acc, X).
Proof.
  intros H. rewrite p_loop_S. destruct X as [|o r]; [reflexivity|].
  cbn [stops] in H. destruct (binlevel o) as [j|]; [|reflexivity].
  destruct (Nat.eqb_spec j k); [lia|reflexivity].
Qed.

Lemma p_exp_lt f k ts : (k < NLEV)%nat ->
  p_exp d (S f) k ts = match p_exp d f (S k) ts with POk (l, r) => p_loop d f k l r | PErr => PErr | POut => POut end.
Proof. intros H. rewrite p_exp_S. destruct (Nat.leb_spec NLEV k); [lia|reflexivity]. Qed.

Lemma climb f k ts a X : (k < NLEV)%nat -> stops k X ->
  p_exp d f (S k) ts = POk (a, X) -> p_exp d (S (S f)) k ts = POk (a, X).
Proof.
  intros Hk HX E. rewrite p_exp_lt by assumption.
  rewrite (mono_e d _ (S f) _ _ _ E) by lia. apply loop_stop; assumption.
Qed.

Definition unary_tok (t:tok) : bool :=
  match t with TPrivate _ | TOp CU _ | TOp (CBU _) _ | TOp (CBUN _) _ | TOp CUN _ => true | _ => false end.

Lemma p_exp_unary f t r a r' : unary_tok t = true -> next_starts_expu r = true ->
  p_exp d f NLEV r = POk (a, r') -> p_exp d (S f) NLEV (t :: r) = POk (Un (tok_name t) a, r').
Proof.
  intros Hu Hn E. rewrite p_exp_S. change (NLEV <=? NLEV)%nat with true. cbv iota.
  destruct t; try discriminate; try (rewrite E; reflexivity).
  destruct c; try discriminate; try rewrite Hn; rewrite E; reflexivity.
Qed.

Definition value_tok (t:tok) : option tree :=
  match t with
  | TOp CN s | TOp (CBN _) s => Some (Nul s)
  | TIdent s => Some (Var s)
  | TNumber s => Some (Lit (LNum s)) | THex s => Some (Lit (LHex s)) | TString s => Some (Lit (LStr s))
  | TTrue s => Some (Lit (LTrue s)) | TFalse s => Some (Lit (LFalse s))
  | _ => None
  end.
Lemma p_exp_value f t r v : value_tok t = Some v -> p_exp d (S f) NLEV (t :: r) = POk (v, r).
Proof.
  intros H. rewrite p_exp_S. change (NLEV <=? NLEV)%nat with true. cbv iota.
  destruct t; try discriminate; try (injection H as <-; reflexivity).
  destruct c; try discriminate; injection H as <-; reflexivity.
Qed.

Lemma p_exp_paren f r e r' : p_exp d f 0%nat r = POk (e, TRoundC :: r') ->
  p_exp d (S f) NLEV (TRoundO :: r) = POk (e, r').
Proof. intros E. rewrite p_exp_S. change (NLEV <=? NLEV)%nat with true. cbv iota. rewrite E. reflexivity. Qed.

Lemma p_exp_code f r ss r' : p_stmts d f r = POk (ss, TCurlyC :: r') ->
  p_exp d (S f) NLEV (TCurlyO :: r) = POk (Code ss, r').
Proof. intros E. rewrite p_exp_S. change (NLEV <=? NLEV)%nat with true. cbv iota. rewrite E. reflexivity. Qed.

Lemma p_exp_arr0 f r : p_exp d (S f) NLEV (TSquareO :: TSquareC :: r) = POk (Arr [], r).
Proof. rewrite p_exp_S. reflexivity. Qed.

Lemma p_exp_arr f t r es r' : t <> TSquareC -> p_items d f (t :: r) = POk (es, r') ->
  p_exp d (S f) NLEV (TSquareO :: t :: r) = POk (Arr es, r').
Proof.
  intros Ht E. rewrite p_exp_S. change (NLEV <=? NLEV)%nat with true. cbv iota.
  destruct t; try congruence; rewrite E; reflexivity.
Qed.

Definition head_ok (ts:list tok) : Prop := exists t0 r, ts = t0 :: r /\ starts_expu t0 = true.

Lemma head_ok_app ts X : head_ok ts -> head_ok (ts ++ X).
Proof. intros (t0 & r & -> & H). exists t0, (r ++ X). split; [reflexivity|assumption]. Qed.
Lemma head_ok_next ts : head_ok ts -> next_starts_expu ts = true.
Proof. intros (t0 & r & -> & H). exact H. Qed.

Lemma wf_un_tok s : (match name_tok R s with TOp c _ => is_unclass c | TPrivate _ => true | _ => false end) = true ->
  unary_tok (name_tok R s) = true /\ starts_expu (name_tok R s) = true /\ tok_name (name_tok R s) = s.
Proof.
  intros H. destruct (name_tok R s) eqn:E; try discriminate.
  - apply name_tok_private in E. subst. auto.
  - apply name_tok_op in E. subst. destruct c; try discriminate; auto.
Qed.

Definition stmt_end (X:list tok) : Prop :=
  match X with [] => True | t :: _ => is_sep t = true \/ t = TCurlyC end.
Lemma stmt_end_stops X : stmt_end X -> stops 0 X.
Proof. destruct X as [|t X]; cbn; auto. intros [H| ->]; [destruct t; try discriminate; exact I|exact I]. Qed.

Lemma skip_seps_seps l ts : skip_seps (seps F l ++ ts) = skip_seps ts.
Proof. induction l as [|s l IH]; [reflexivity|]. cbn. destruct s; cbn; exact IH. Qed.
Lemma skip_seps_head ts : head_ok ts -> skip_seps ts = ts.
Proof. intros (t0 & r & -> & H). cbn. destruct t0; try discriminate; reflexivity. Qed.

Lemma p_stmts_step f t r : starts_expu t = true ->
  p_stmts d (S f) (t :: r) =
  match p_stmt d f (t :: r) with
  | POk (s, r0) => match r0 with
                   | t' :: _ => if is_sep t' then match p_stmts d f r0 with
                                                  | POk (ss, r') => POk (s :: ss, r')
                                                  | PErr => PErr | POut => POut end
                                else POk ([s], r0)
                   | [] => POk ([s], r0)
                   end
  | PErr => PErr | POut => POut
  end.
Proof. intros H. rewrite p_stmts_S. destruct t; try discriminate; reflexivity. Qed.

Lemma p_stmts_skip f ts ts' : skip_seps ts = skip_seps ts' -> p_stmts d (S f) ts = p_stmts d (S f) ts'.
Proof. intros H. rewrite !p_stmts_S. rewrite H. reflexivity. Qed.

Lemma block_end_cases X : (X = [] \/ exists r, X = TCurlyC :: r) -> forall f l,
  p_stmts d (S f) (seps F l ++ X) = POk ([], X).
Proof.
  intros HX f l. rewrite p_stmts_S. rewrite skip_seps_seps.
  destruct HX as [->|[r ->]]; reflexivity.
Qed.

Lemma seps_cons_sep s l X : exists t r, seps F (s :: l) ++ X = t :: r /\ is_sep t = true.
Proof. destruct s; cbn; eauto. Qed.

Lemma wf_bin k s l r : wf_tree R (Bin k s l r) ->
  (k < NLEV)%nat /\ binlevel (name_tok R s) = Some k /\ tok_name (name_tok R s) = s /\ wf_tree R l /\ wf_tree R r.
Proof.
  unfold wf_tree. cbn [wfb]. intros H.
  apply andb_prop in H. destruct H as [H Hr]. apply andb_prop in H. destruct H as [H Hl].
  apply andb_prop in H. destruct H as [Hk Hc]. apply Nat.ltb_lt in Hk.
  destruct (name_tok R s) eqn:E; try discriminate. apply name_tok_op in E. subst.
  repeat split; auto.
  destruct c; cbn in Hc; try discriminate; apply Nat.eqb_eq in Hc; subst; reflexivity.
Qed.
End PP.

(* C09 - every operator is total and memory-safe on type-correct arguments.   PARTIAL by design.

   What is proved here:
   (a) the dispatcher (call_nular / call_unary / call_binary) over the registry of the built runtime
       (Gen/RegistryFull.v, regenerated on every run): it always ends in one of its outcomes, finds a registered
       signature exactly when one accepts the operand types, prefers the exact signature, tries the ANY fallbacks in
       the order of the code, never looks anything up for a nil operand; the registry has one callback per key.
   (b) for the operators whose index / size arithmetic the property names (the list is in Ops/Guards.v), the guard
       model of the REPAIRED code (proposed_fixes/C09-01..10 applied) never reaches undefined behaviour or an escaping
       C++ exception, refers only to existing elements, ends within its fuel, and allocates at most a constant times
       (size of the arguments + explicitly requested size) - for `format` the bound is (|format| + 1) * (1 + longest
       printed argument), because one placeholder can be repeated.  For the code AS IT IS the `_refuted` theorems exhibit
       arguments for which the faithful model reaches UB / Throw; the check replays them on the implementation.
       A second list (Ops/Guards2.v: matrices, vectors, IF then ARRAY, private, getVariable / setVariable with an
       array, markers, CONFIG select SCALAR, callExtension with an array) is proved for the code at the commit that
       file names: no defect switch, except that CONFIG select SCALAR converts a float the repaired way (370eb9e).
   What is NOT proved: anything about the ~2800 operator bodies outside those lists, about the C++ library, about
   memory exhaustion (std::bad_alloc) or about the part of the listed operators that is not argument validation
   (values are trees here: aliasing and the recursion test are C08's subject).  Those are only sampled under
   sanitizers by checks/C09.py (the registry-wide sweep is exploration, not proof). *)
From Coq Require Import ZArith List String Bool Lia.
From SqfVerif Require Import Gen.RegistryFull Ops.OpsBase Ops.Guards Ops.SortOrder Ops.GuardProofs Ops.Dispatch.
From SqfVerif Require Import Ops.Guards2 Ops.Guard2Proofs.
Import ListNotations.
Local Open Scope Z_scope.

Theorem C09_dispatch_total : forall n tl tr,
  (exists l' r', d_binary n (Val tl) (Val tr) = BFound l' r' /\ In (n, (l', r')) reg_binary /\
                 accepts l' tl /\ accepts r' tr)
  \/ (d_binary n (Val tl) (Val tr) = BUnknown /\ ~ type_correct_b reg_binary n tl tr).
Proof. exact (dispatch_binary_total reg_binary). Qed.
Print Assumptions C09_dispatch_total.

Theorem C09_dispatch_total_unary : forall n tr,
  (exists r', d_unary n (Val tr) = UFound r' /\ In (n, r') reg_unary /\ accepts r' tr)
  \/ (d_unary n (Val tr) = UUnknown /\ ~ type_correct_u reg_unary n tr).
Proof. exact (dispatch_unary_total reg_unary). Qed.
Print Assumptions C09_dispatch_total_unary.

Theorem C09_dispatch_total_nular : forall n,
  (d_nular n = NFound /\ In n reg_nular) \/ (d_nular n = NUnknown /\ ~ In n reg_nular).
Proof. exact (dispatch_nular_total reg_nular). Qed.
Print Assumptions C09_dispatch_total_nular.

Theorem C09_dispatch_rejects_nil : forall n l,
  d_unary n Nil = UNilRight /\ d_binary n l Nil = BNilRight /\ d_binary n Nil (Val "x"%string) = BNilLeft.
Proof. exact (dispatch_rejects_nil reg_unary reg_binary). Qed.
Print Assumptions C09_dispatch_rejects_nil.

Theorem C09_exact_before_any : forall n tl tr,
  In (n, (tl, tr)) reg_binary -> d_binary n (Val tl) (Val tr) = BFound tl tr.
Proof. exact (exact_before_any_b reg_binary). Qed.
Print Assumptions C09_exact_before_any.

Theorem C09_fallback_order : forall n tl tr,
  ~ In (n, (tl, tr)) reg_binary ->
  (In (n, (ANY, tr)) reg_binary -> d_binary n (Val tl) (Val tr) = BFound ANY tr) /\
  (~ In (n, (ANY, tr)) reg_binary -> In (n, (tl, ANY)) reg_binary -> d_binary n (Val tl) (Val tr) = BFound tl ANY) /\
  (~ In (n, (ANY, tr)) reg_binary -> ~ In (n, (tl, ANY)) reg_binary -> In (n, (ANY, ANY)) reg_binary ->
     d_binary n (Val tl) (Val tr) = BFound ANY ANY).
Proof. exact (fallback_order reg_binary). Qed.
Print Assumptions C09_fallback_order.

(* type-correct operands always reach a registered signature that accepts them *)
Theorem C09_type_correct_dispatched : forall n tl tr,
  type_correct_b reg_binary n tl tr ->
  exists l' r', d_binary n (Val tl) (Val tr) = BFound l' r' /\ In (n, (l', r')) reg_binary /\ accepts l' tl /\ accepts r' tr.
Proof. exact (type_correct_dispatched_b reg_binary). Qed.
Print Assumptions C09_type_correct_dispatched.

Theorem C09_type_correct_dispatched_unary : forall n tr,
  type_correct_u reg_unary n tr ->
  exists r', d_unary n (Val tr) = UFound r' /\ In (n, r') reg_unary /\ accepts r' tr.
Proof. exact (type_correct_dispatched_u reg_unary). Qed.
Print Assumptions C09_type_correct_dispatched_unary.

(* dispatch_deterministic: the dispatcher is a function of (name, operand types), and a found key names exactly one
   registered callback - finite-table fact, the bound is the generated table *)
Theorem C09_dispatch_deterministic : NoDup reg_nular /\ NoDup reg_unary /\ NoDup reg_binary.
Proof. exact registry_keys_unique. Qed.
Print Assumptions C09_dispatch_deterministic.

Theorem C09_registry_no_nothing :
  (forall k, In k reg_unary -> snd k <> "NOTHING"%string) /\
  (forall k, In k reg_binary -> fst (snd k) <> "NOTHING"%string /\ snd (snd k) <> "NOTHING"%string).
Proof. exact registry_no_nothing. Qed.
Print Assumptions C09_registry_no_nothing.

Theorem C09_registry_all_reachable :
  (forall n r, In (n, r) reg_unary -> d_unary n (Val r) = UFound r) /\
  (forall n l r, In (n, (l, r)) reg_binary -> d_binary n (Val l) (Val r) = BFound l r) /\
  (forall n, In n reg_nular -> d_nular n = NFound).
Proof. exact registry_all_reachable. Qed.
Print Assumptions C09_registry_all_reachable.

(* non-vacuity: the tables are the real ones *)
Example ex_dispatch_select : d_binary "select" (Val "ARRAY") (Val "SCALAR") = BFound "ARRAY"%string "SCALAR"%string.
Proof. vm_compute. reflexivity. Qed.
Example ex_dispatch_any : d_binary "isequalto" (Val "ARRAY") (Val "SCALAR") = BFound ANY ANY.
Proof. vm_compute. reflexivity. Qed.
Example ex_dispatch_unknown : d_binary "select" (Val "SCALAR") (Val "SCALAR") = BUnknown.
Proof. vm_compute. reflexivity. Qed.
Example ex_dispatch_param : d_binary "param" (Val "SCALAR") (Val "ARRAY") = BFound ANY "ARRAY"%string.
Proof. vm_compute. reflexivity. Qed.

(* (b) guard models.  n, len = size of the array / string operand; the hypothesis n <= INT_MAX is the modelling
   assumption about static_cast<int>(size) stated in Ops/OpsBase.v *)

Theorem C09_select_scalar_safe : forall n f, 0 <= n ->
  safe (select_scalar repaired n f) /\ res_ok n (select_scalar repaired n f) /\ alloc_of (select_scalar repaired n f) <= n.
Proof.
  intros n f Hn. apply within_def. unfold select_scalar. use_cast (ip_round f).
  destruct ((n <? z) || (z <? 0)) eqn:E1; [apply within_ret; cbn [res_ok]; lia|]. b2z.            (* :581 *)
  destruct (n =? z) eqn:E2; [apply within_ret; cbn [res_ok]; lia|]. b2z.                          (* :586 *)
  (* the two tests leave 0 <= index < size: arr[index] exists *)
  rewrite vec_ok_true by lia. apply within_ret; cbn [res_ok]; lia.
Qed.
Print Assumptions C09_select_scalar_safe.

Theorem C09_select_scalar_refuted : exists n f, select_scalar as_is n f = UB_CAST.
Proof.
  exists 3, (FFin (100000000000000000000 * SCALE)). vm_compute. reflexivity.
Qed.
Print Assumptions C09_select_scalar_refuted.

Theorem C09_select_bool_safe : forall n flag, 0 <= n ->
  safe (select_bool n flag) /\ res_ok n (select_bool n flag) /\ alloc_of (select_bool n flag) <= n.
Proof.
  intros n flag Hn. apply within_def. unfold select_bool.
  destruct ((negb flag && (n <? 2)) || (n <? 1)) eqn:E1; [apply within_ret; cbn [res_ok]; lia|].  (* :601 *)
  destruct (flag && (n <? 2)) eqn:E2; [apply within_ret; cbn [res_ok]; lia|].                     (* :606 *)
  (* true needs two elements, false one: the tests above have seen to it *)
  assert (0 <= (if flag then 1 else 0) < n) as Hi by (destruct flag; cbn in E1, E2; b2z; lia).
  rewrite vec_ok_true by exact Hi. apply within_ret; cbn [res_ok]; lia.
Qed.
Print Assumptions C09_select_bool_safe.

Theorem C09_select_range_safe : forall n args, 0 <= n ->
  safe (select_range repaired n args) /\ res_ok n (select_range repaired n args) /\
  alloc_of (select_range repaired n args) <= 2 * n + zlen args.
Proof. intros n args Hn. exact (within_def _ _ _ (select_range_safe n args Hn)). Qed.
Print Assumptions C09_select_range_safe.

Theorem C09_select_range_refuted :
  select_range as_is 200 [VNum (FFin (200 * SCALE)); VNum (FFin (2147483520 * SCALE))]
  = UB "signed integer overflow: start + length".
Proof. exact select_range_refuted. Qed.
Print Assumptions C09_select_range_refuted.

Theorem C09_select_string_safe : forall len args, 0 <= len ->
  safe (select_string repaired len args) /\ res_ok len (select_string repaired len args) /\
  alloc_of (select_string repaired len args) <= 2 * len + zlen args.
Proof.
  intros len args Hn. apply within_def. pose proof (zlen_nonneg args) as Hm. unfold select_string.
  destruct args as [|[f0| | | |] rest]; try (apply within_ret; cbn [res_ok]; lia).                 (* :44, :49 *)
  use_cast (ip_round f0).
  destruct (z <? 0) eqn:E1; [apply within_ret; cbn [res_ok]; lia|].                               (* :55 *)
  destruct (len <=? z) eqn:E2; [apply within_ret; cbn [res_ok]; lia|]. b2z.                       (* :61 *)
  (* start < length: substr does not throw *)
  replace (len <? z) with false by (symmetry; apply Z.ltb_ge; lia).
  destruct rest as [|[f1| | | |] rest']; try (apply within_ret; cbn [res_ok]; lia).                (* :69, :83 *)
  use_cast (ip_round f1).
  destruct (z0 <? 0) eqn:E3; b2z; apply within_ret; cbn [res_ok]; lia.                            (* :75, :81 *)
Qed.
Print Assumptions C09_select_string_safe.

(* the allocation of resize is the requested size (k * 2^-149 is the float), itself at most d_array::max_size() *)
Theorem C09_resize_safe : forall n f,
  safe (resize_model repaired n f) /\ alloc_of (resize_model repaired n f) <= ARR_MAX /\
  (forall k, f = FFin k -> alloc_of (resize_model repaired n f) * SCALE <= Z.max 0 k).
Proof. exact resize_safe. Qed.
Print Assumptions C09_resize_safe.

Theorem C09_resize_refuted :
  resize_model as_is 3 (FFin (1000000000000000019884624838656 * SCALE))
    = UB "float-cast-overflow: the value is not representable in size_t" /\
  resize_model as_is 3 (FFin (4611686018427387904 * SCALE)) = Throw "std::length_error (vector::resize)".
Proof. exact resize_refuted. Qed.
Print Assumptions C09_resize_refuted.

Theorem C09_delete_range_safe : forall n args, 0 <= n -> n <= INT_MAX ->
  safe (delete_range repaired n args) /\ res_ok n (delete_range repaired n args) /\
  alloc_of (delete_range repaired n args) <= zlen args.
Proof.
  intros n args Hn Hn2. apply within_def. unfold delete_range.
  destruct (check_type1 args TScalar 2 2) as [ds [|]] eqn:EC; [|apply within_ret; cbn [res_ok]; lia].
  pose proof (check_type1_true _ _ _ _ _ EC) as HT.
  unfold check_type1 in EC. destruct ((zlen args <? 2) || (2 <? zlen args)) eqn:E0; [inversion EC|]. b2z.
  destruct args as [|a0 [|a1 r]]; rewrite ?zlen_cons, ?zlen_nil in *; try lia.
  pose proof (HT a0 (or_introl eq_refl)) as T0. pose proof (HT a1 (or_intror (or_introl eq_refl))) as T1.
  destruct a0; cbn in T0; try discriminate. destruct a1; cbn in T1; try discriminate.
  use_cast (ip_round f). use_cast (ip_round f0). unfold INT_MAX in Hn2.
  (* :830 to < from is raised to from; :835 from < 0 refused; :841 to is cut to size - 1: so to + 1 does not overflow *)
  destruct (z0 <? z) eqn:E1; destruct (z <? 0) eqn:E2; try (apply within_ret; cbn [res_ok]; lia);
    destruct (n <=? _) eqn:E3; b2z; rewrite iadd_some by (unfold INT_MIN, INT_MAX; lia); cbv iota beta;
    (* :846 nothing to erase; otherwise 0 <= from <= to + 1 <= size: the iterator range lies in the vector *)
    (destruct (_ + 1 <? z) eqn:E4; [apply within_ret; cbn [res_ok]; lia|]); b2z;
    rewrite !it_ok_true by lia; (replace (z <=? _) with true by (symmetry; apply Z.leb_le; lia));
    apply within_ret; cbn [res_ok]; lia.
Qed.
Print Assumptions C09_delete_range_safe.

Theorem C09_delete_at_safe : forall n f, 0 <= n ->
  safe (delete_at repaired n f) /\ res_ok n (delete_at repaired n f) /\ alloc_of (delete_at repaired n f) <= 0.
Proof.
  intros n f Hn. apply within_def. unfold delete_at. use_cast (ip_trunc f).
  destruct (n <=? z) eqn:E1; [apply within_ret; cbn [res_ok]; lia|].                              (* :1340 *)
  destruct (z <? 0) eqn:E2; [apply within_ret; cbn [res_ok]; lia|]. b2z.                          (* :1345 *)
  (* 0 <= index < size: at(index) does not throw *)
  rewrite vec_ok_true by lia. apply within_ret; cbn [res_ok]; lia.
Qed.
Print Assumptions C09_delete_at_safe.

Theorem C09_delete_at_refuted : exists n f, delete_at as_is n f = UB_CAST.
Proof.
  exists 3, FNan. reflexivity.
Qed.
Print Assumptions C09_delete_at_refuted.

Theorem C09_set_safe : forall n args, 0 <= n -> n <= INT_MAX ->
  safe (set_model repaired n args) /\ res_ok n (set_model repaired n args) /\
  alloc_of (set_model repaired n args) <= zlen args + ARR_MAX.
Proof.
  intros n args Hn Hn2. apply within_def. unfold INT_MAX in Hn2. pose proof (zlen_nonneg args) as Hm.
  unfold set_model, ARR_MAX.
  destruct (zlen args =? 2) eqn:E0; cbn [negb]; [|apply within_ret; cbn [res_ok]; lia].           (* :1233 *)
  destruct args as [|[f0| | | |] rest]; try (apply within_ret; cbn [res_ok]; lia); [discriminate E0|].   (* :1238 *)
  use_cast (ip_trunc f0). cbn [df_nolimit df_cast repaired negb andb].
  destruct (z <? 0) eqn:E1; [apply within_ret; cbn [res_ok]; lia|].                               (* :1245 *)
  destruct (9999999 <=? z) eqn:E2; [apply within_ret; cbn [res_ok]; lia|]. b2z.                   (* the limit of the repaired code *)
  destruct (n <=? z) eqn:E3; b2z.                                    (* :1252 *)
  - (* beyond the end: resize(index + 1), at most the limit, then the slot exists *)
    destruct (VEC_MAX <? z + 1) eqn:E4; [unfold VEC_MAX in E4; b2z; lia|].
    rewrite vec_ok_true by lia. apply within_ret; cbn [res_ok]; lia.
  - rewrite vec_ok_true by lia. apply within_ret; cbn [res_ok]; lia.
Qed.
Print Assumptions C09_set_safe.

(* as is: NaN index is an undefined cast; with only the cast repaired, an index of 2e9 is still honoured with an
   allocation of 2000000001 elements (the missing limit, defect 08) *)
Theorem C09_set_refuted :
  set_model as_is 3 [VNum FNan; VNum FNan] = UB_CAST /\
  set_model (Build_defects false true true true true true true true true true) 3 [VNum (FFin (2000000000 * SCALE)); VNum FNan]
    = Ret [] (RStored 2000000000 2000000001) 2000000003.
Proof.
  split; vm_compute; reflexivity.
Qed.
Print Assumptions C09_set_refuted.

Theorem C09_push_append_safe : forall n m found, 0 <= n -> 0 <= m ->
  safe (push_back n) /\ alloc_of (push_back n) <= 2 * n + 1 /\
  safe (push_back_unique n found) /\ alloc_of (push_back_unique n found) <= 2 * n + 1 /\
  safe (append_model n m) /\ alloc_of (append_model n m) <= 3 * (n + m).
Proof.
  intros n m found.
  intros. unfold push_back, push_back_unique, append_model. destruct found; cbn [safe alloc_of]; split_all; auto; lia.
Qed.
Print Assumptions C09_push_append_safe.

(* sort: for every array and flag the repaired operator either refuses the array or hands std::sort a comparator that
   is a strict weak ordering on its elements (irreflexive, transitive, transitive incomparability), defined on them *)
Theorem C09_sort_safe : forall elems flag, safe (sort_model repaired elems flag).
Proof. exact sort_safe. Qed.
Print Assumptions C09_sort_safe.

(* sort_cmp_strict_weak for the three accepted shapes, stated on the comparator itself *)
Theorem C09_sort_cmp_strict_weak : forall flag l,
  ((forall v, In v l -> ty_of v = TString) \/ (forall v, In v l -> ty_of v = TScalar) \/
   (exists tys, forall v, In v l -> exists r, v = VArr r /\ map ty_of r = tys)) ->
  swo_check (sort_cmp repaired flag) l = true.
Proof.
  intros flag l [H | [H | [tys H]]];
    [apply swo_strings | apply swo_scalars | eapply swo_rows]; eauto.
Qed.
Print Assumptions C09_sort_cmp_strict_weak.

Theorem C09_sort_cmp_refuted :
  sort_cmp as_is false (VArr [VNum (FFin 0)]) (VArr [VNum (FFin 0)]) = Some true /\
  sort_model as_is [VArr [VNum (FFin 0)]; VArr [VNum (FFin SCALE)]] false
    = UB "std::sort: the comparator is not a strict weak ordering on the elements" /\
  sort_model as_is [VNum (FFin SCALE); VNum FNan; VNum (FFin (2 * SCALE))] true
    = UB "std::sort: the comparator is not a strict weak ordering on the elements".
Proof. destruct sort_cmp_refuted_rows as [A B]. split; [exact A | split; [exact B | exact sort_cmp_refuted_nan]]. Qed.
Print Assumptions C09_sort_cmp_refuted.

Theorem C09_check_type_safe : forall elems tys mn mx, mx <= zlen tys -> check_typeN elems tys mn mx <> None.
Proof. exact check_typeN_safe. Qed.
Print Assumptions C09_check_type_safe.

(* the hypothesis is needed: a type vector shorter than max is read behind its end (no caller does that) *)
Theorem C09_check_type_refuted : check_typeN [VNum FNan; VNum FNan] [TScalar] 0 5 = None.
Proof.
  reflexivity.
Qed.
Print Assumptions C09_check_type_refuted.

Theorem C09_param_safe : forall input d,
  safe (param_model repaired input d) /\ res_ok (zlen input) (param_model repaired input d) /\
  alloc_of (param_model repaired input d) <=
    zlen input + 2 * zlen d + fold_right (fun v a => a + match v with VArr l => zlen l | _ => 0 end) 0 d.
Proof.
  intros input d. apply (within_def _ (zlen input + 2 * zlen d + arr_sum d)).
  pose proof (zlen_nonneg input) as Hi. pose proof (zlen_nonneg d) as Hd. pose proof (arr_sum_nth d 2) as Hl2.
  unfold param_model. hide_messages.
  destruct d as [|[f0| | | |] dr]; try (apply within_ret; cbn [res_ok]; lia).
  use_cast (ip_trunc f0). cbn [df_param_cast repaired].
  assert (0 <= z mod SIZE_MOD) as Hmod by (apply Z.mod_pos_bound; unfold SIZE_MOD; lia).
  match type of Hl2 with _ <= zlen ?e <= _ => set (l2 := e) in * end.
  (* :1675 the index test is what makes input.at(i) defined *)
  (destruct (z mod SIZE_MOD <? zlen input) eqn:EI; b2z;
     [destruct (vec_at input (z mod SIZE_MOD)) as (cur & -> & _); [lia|]|]);
    (* :1651-1673 the 4th descriptor: only an array is walked as an array (repaired), so no cast to the wrong class *)
    destruct (nth_error (VNum f0 :: dr) 3) as [[| | |l3|]|]; cbn [is_arr is_num negb andb];
    (* what is left are the type tests on descriptors 3 and 4 and on the element: every branch is a Ret within the bound *)
    cases; apply within_ret; cbn [res_ok]; lia.
Qed.
Print Assumptions C09_param_safe.

(* as is: [x] param [0, d, [], 1] takes the scalar 1 for an array *)
Theorem C09_param_refuted :
  param_model as_is [VNum (FFin SCALE)] [VNum (FFin 0); VNum (FFin 0); VArr []; VNum (FFin SCALE)]
    = UB "static_pointer_cast<d_array> of a scalar, then size() and at() on it".
Proof.
  vm_compute. reflexivity.
Qed.
Print Assumptions C09_param_refuted.

Theorem C09_params_safe : forall elements fmt, safe (params_model elements fmt).
Proof.
  intros elements fmt.
  apply params_loop_safe. lia.
Qed.
Print Assumptions C09_params_safe.

(* format: the scanner ends within |format| + 2 rounds, never indexes behind the terminator, never throws; it
   writes at most (|format| + 1) * (1 + M) bytes, M = the longest printed argument *)
Theorem C09_format_safe : forall args plens M, 0 <= M -> (forall x, In x plens -> 0 <= x <= M) ->
  safe (format_model repaired args plens) /\
  (forall s r, args = VStr s :: r -> alloc_of (format_model repaired args plens) <= (zlen s + 1) + (zlen s + 1) * M) /\
  ((forall s r, args <> VStr s :: r) -> alloc_of (format_model repaired args plens) <= 0).
Proof.
  intros args plens M HM0 HM. unfold format_model.
  destruct args as [|[| s | | |] r]; cbn [safe alloc_of]; split_all; auto; try (intros; lia); try (intros s0 r0 H; discriminate).
  - apply (fmt_loop_safe plens M HM0 HM s); try lia; pose proof (zlen_nonneg s); unfold zlen in *; lia.
  - intros s0 r0 H. inversion H; subst. apply (fmt_loop_safe plens M HM0 HM s0); try lia; pose proof (zlen_nonneg s0); unfold zlen in *; lia.
  - intros H. exfalso. eapply H. reflexivity.
Qed.
Print Assumptions C09_format_safe.

Theorem C09_format_refuted :
  format_model as_is [VStr [37;57;57;57;57;57;57;57;57;57;57;57]] [14] = Throw "std::out_of_range (stoi)".
Proof. exact format_refuted. Qed.
Print Assumptions C09_format_refuted.

Theorem C09_to_string_safe : forall l, safe (to_string repaired l) /\ alloc_of (to_string repaired l) <= zlen l.
Proof.
  intros l. apply bounded_def.
  unfold to_string. exact (to_string_loop_safe l [] 0).
Qed.
Print Assumptions C09_to_string_safe.

Theorem C09_to_string_refuted : to_string as_is [VNum (FFin (10000000000 * SCALE))] = UB_CAST.
Proof.
  vm_compute. reflexivity.
Qed.
Print Assumptions C09_to_string_refuted.

Theorem C09_to_array_safe : forall len, safe (to_array len) /\ alloc_of (to_array len) <= len.
Proof.
  intros len. apply bounded_def.
  apply bounded_ret. lia.
Qed.
Print Assumptions C09_to_array_safe.

Theorem C09_split_string_safe : forall l delims,
  tokens_ok (zlen l) (split_string l delims) /\ alloc_of (split_string l delims) <= 3 * zlen l + 2.
Proof.
  intros l delims.
  pose proof (zlen_nonneg l) as Hl. unfold split_string. destruct delims as [|d ds].
  - cbn [alloc_of tokens_ok]. split; [|lia]. intros s c Hin. apply in_map_iff in Hin. destruct Hin as [k [Hk Hin]]. inversion Hk; subst.
    apply in_seq in Hin. unfold zlen. lia.
  - destruct (split_loop_safe (d :: ds) l 0 0 [] (zlen l) ltac:(lia) ltac:(lia)) as [I1 I2].
    { intros s c []. }
    split; auto. change (zlen (@nil (Z * Z))) with 0 in I2. lia.
Qed.
Print Assumptions C09_split_string_safe.

Theorem C09_select_minmax_safe : forall elems, zlen elems <= INT_MAX ->
  safe (select_minmax elems) /\ alloc_of (select_minmax elems) <= 0.
Proof.
  intros elems H. unfold INT_MAX in H. pose proof (zlen_nonneg elems) as H0. unfold select_minmax.
  apply minmax_loop_safe; [unfold SIZE_MOD; lia|].
  destruct (Z.eq_dec (zlen elems) 0) as [E | E].
  - left. rewrite E. split; [reflexivity | lia].
  - right. rewrite Z.mod_small by (unfold SIZE_MOD; lia). unfold zlen in *. lia.
Qed.
Print Assumptions C09_select_minmax_safe.

Theorem C09_select_random_safe : forall n r, 0 <= n -> 0 <= r ->
  safe (select_random repaired n r) /\ res_ok n (select_random repaired n r) /\ alloc_of (select_random repaired n r) <= 0.
Proof.
  intros n r Hn Hr. apply within_def. unfold select_random. cbn [df_rand0 repaired]. destruct (n =? 0) eqn:E; [apply within_ret; cbn [res_ok]; lia|]. b2z.
  pose proof (Z.mod_pos_bound r n ltac:(lia)) as Hm.
  rewrite vec_ok_true by lia. apply within_ret; cbn [res_ok]; lia.
Qed.
Print Assumptions C09_select_random_safe.

Theorem C09_select_random_refuted : forall r, select_random as_is 0 r = UB "integer division by zero: rand() % size()".
Proof.
  reflexivity.
Qed.
Print Assumptions C09_select_random_refuted.

Theorem C09_to_fixed_safe : forall f,
  (exists d, to_fixed_unary repaired f = Ret [] (RNum d) 0 /\ -1 <= d <= 20) /\
  (exists d, to_fixed_binary repaired f = Ret [] (RNum d) (64 + d) /\ 0 <= d <= 20).
Proof.
  intros f.
  unfold to_fixed_unary, to_fixed_binary. use_cast (ip_trunc f). split; eexists; split; try reflexivity.
  - destruct (20 <? z) eqn:E1; [lia|]. destruct (z <? 0) eqn:E2; b2z; lia.
  - destruct (20 <? z) eqn:E1; [lia|]. destruct (z <=? 0) eqn:E2; b2z; lia.
Qed.
Print Assumptions C09_to_fixed_safe.

Theorem C09_to_fixed_refuted : to_fixed_unary as_is FPInf = UB_CAST /\ to_fixed_binary as_is FNan = UB_CAST.
Proof.
  split; reflexivity.
Qed.
Print Assumptions C09_to_fixed_refuted.

(* config iterator: whatever entries were deleted (slots holding invalid_id) and however many remain - none included -
   the walk of configClasses / configProperties visits exactly the remaining entries in order and ends *)
Theorem C09_config_iter_safe : forall children ncont,
  (forall id, In id children -> id = INVALID \/ 0 <= id < ncont) ->
  cfg_iterate repaired children ncont = Ret [] (RWalk (filter cfg_valid children)) (zlen (filter cfg_valid children)).
Proof.
  intros children ncont Hwf. unfold cfg_iterate. cbn [df_cfg_iter repaired]. unfold cfg_settle_at. cbn [Z.to_nat skipn].
  exact (cfg_walk_settle children ncont Hwf children 0 [] (S (List.length children)) eq_refl (Nat.lt_succ_diag_r _)).
Qed.
Print Assumptions C09_config_iter_safe.

(* as is: a deleted entry is dereferenced; operator++ on an empty class steps to index 1 (size() - 1 wraps) - the
   latter is kept from the operators by their `size() == 0` test *)
Theorem C09_config_iter_refuted :
  cfg_iterate as_is [INVALID; 5] 10 = UB "m_containers[id] / container[m_index]: index out of range" /\
  cfg_next_asis [] 0 = Some 1.
Proof.
  split; vm_compute; reflexivity.
Qed.
Print Assumptions C09_config_iter_refuted.

Theorem C09_from_sqf_safe : forall v, safe (from_sqf repaired v) /\ alloc_of (from_sqf repaired v) <= 2 * zlen v.
Proof. intros v. exact (bounded_def _ _ (from_sqf_safe v)). Qed.
Print Assumptions C09_from_sqf_safe.

Theorem C09_from_sqf_refuted : from_sqf as_is [] = UB "string_view::operator[]: position out of range".
Proof.
  reflexivity.
Qed.
Print Assumptions C09_from_sqf_refuted.

Theorem C09_asm_make_array_safe : forall arg sf codesize,
  safe (asm_make_array repaired arg sf codesize) /\
  (forall n ds al, asm_make_array repaired arg sf codesize = Ret ds (RNum n) al -> 0 <= n <= codesize).
Proof. exact asm_make_array_safe. Qed.
Print Assumptions C09_asm_make_array_safe.

Theorem C09_asm_make_array_refuted :
  asm_make_array as_is [120] SInvalid 0 = Throw "std::invalid_argument (stof)" /\
  asm_make_array as_is [45;49] (SVal (FFin (- SCALE))) 0 = UB "float-cast-overflow: the value is not representable in size_t".
Proof.
  split; vm_compute; reflexivity.
Qed.
Print Assumptions C09_asm_make_array_refuted.

Theorem C09_asm_call_binary_safe : forall registered lower name,
  (forall x, lower (lower x) = lower x) -> safe (asm_call_binary repaired registered lower name).
Proof. exact asm_call_binary_safe. Qed.
Print Assumptions C09_asm_call_binary_safe.

(* as is: the name is registered in lower case only ("select"), the instruction spells it "SELECT" *)
Theorem C09_asm_call_binary_refuted :
  asm_call_binary as_is (fun n => match n with [115] => true | _ => false end) (fun n => [115]) [83]
    = Throw "std::out_of_range (unordered_map::at)".
Proof.
  reflexivity.
Qed.
Print Assumptions C09_asm_call_binary_refuted.

Theorem C09_asm_split_safe : forall full a b, asm_split full = Some (a, b) -> zlen a + zlen b <= zlen full.
Proof.
  intros full a b.
  unfold asm_split. destruct (find_from full 32 0) as [p|] eqn:E.
  - apply find_from_bounds in E; [|lia]. destruct (zlen full <? p + 1); [discriminate|].
    intro H; inversion H; subst. unfold zlen in *. rewrite firstn_length, skipn_length. lia.
  - intro H; inversion H; subst. rewrite zlen_nil. lia.
Qed.
Print Assumptions C09_asm_split_safe.

(* the whole decode loop of fromAssembly__ (push arguments excepted: they go to the SQF parser) *)
Theorem C09_from_assembly_safe : forall registered lower l sf,
  (forall x, lower (lower x) = lower x) -> safe (from_assembly repaired registered lower l sf).
Proof.
  intros registered lower l sf Hid. unfold from_assembly. generalize 0 as cs.
  induction l as [|v l IH]; intro cs; cbn [asm_loop]; [cbn; auto|].
  destruct v; try (cbn; auto; fail).
  pose proof (asm_instr_safe registered lower s sf cs Hid) as Hs.
  destruct (asm_instr repaired registered lower s sf cs) as [ds r al| | |]; cbn in Hs; try contradiction.
  destruct ds; [apply IH | cbn; auto].
Qed.
Print Assumptions C09_from_assembly_safe.

Theorem C09_from_assembly_refuted :
  from_assembly as_is (fun n => match n with [115] => true | _ => false end) (fun n => n)
                [VStr [109;97;107;101;97;114;114;97;121;32;120]] SInvalid
    = Throw "std::invalid_argument (stof)" /\
  from_assembly as_is (fun _ => false) (fun n => n) [VStr [97;115;115;105;103;110;116;111]] SInvalid
    = UB "string_view::operator[]: position out of range".
Proof.
  split; vm_compute; reflexivity.
Qed.
Print Assumptions C09_from_assembly_refuted.

(* BOM sniff of read_file_from_disk: no read behind the buffer and never more bytes skipped than the file has, for
   every file content *)
Theorem C09_bom_safe : forall b, exists k, bom_model repaired b = BSkip k /\ 0 <= k <= zlen b.
Proof.
  intros b.
  unfold bom_model. destruct (zlen b =? 0) eqn:E; [exists 0; split; auto; b2z; lia|].
  apply bom_chain_safe. apply bom_table_ok.
Qed.
Print Assumptions C09_bom_safe.

Theorem C09_bom_refuted :
  bom_model as_is [239] = BUB /\ bom_model as_is [0; 0] = BUB /\ bom_model as_is [251; 238; 40] = BUB.
Proof. exact bom_refuted. Qed.
Print Assumptions C09_bom_refuted.

(* (b), second list: Ops/Guards2.v.  These operators needed no repair of their own: the theorems are about the code as
   it is (cfg_select converts a float and so takes `repaired`, the conversion that code has).  Each says: for ALL arguments the guard model ends in Ret - no undefined behaviour (no out-of-range operator[], no
   downcast of an element to a class it is not), no exception leaving the operator (no vector::at out of range) -
   and names the result class and the allocation. *)

(* is_matrix never throws and never casts wrongly; when it says yes, the array is a rows x cols block of numbers *)
Theorem C09_is_matrix_safe : forall arr,
  is_matrix arr <> AThrow /\ is_matrix arr <> AUB /\ (is_matrix arr = AOk -> exists cols, matrix_shape arr cols).
Proof. intro arr. destruct (is_matrix_defined arr) as [A B]. split; [exact A | split; [exact B | exact (is_matrix_shape arr)]]. Qed.
Print Assumptions C09_is_matrix_safe.

(* matrixTranspose: [] or, for a rows x cols block of numbers, a cols x rows array; nothing else *)
Theorem C09_matrix_transpose_safe : forall l,
  matrix_transpose l = Ret [] (RShape 0 0) 0 \/
  exists cols, matrix_shape l cols /\ matrix_transpose l = Ret [] (RShape cols (zlen l)) (cols + cols * zlen l).
Proof.
  intros l.
  unfold matrix_transpose. destruct (is_matrix l) eqn:E.
  - destruct (is_matrix_shape l E) as [cols Hs]. right. exists cols. split; [exact Hs|]. apply transpose_body_shape; exact Hs.
  - left; reflexivity.
  - destruct (is_matrix_defined l) as [H _]. contradiction.
  - destruct (is_matrix_defined l) as [_ H]. contradiction.
Qed.
Print Assumptions C09_matrix_transpose_safe.

(* matrixMultiply: [] or, for n x k and k x m blocks of numbers, an n x m array *)
Theorem C09_matrix_multiply_safe : forall l r,
  matrix_multiply l r = Ret [] (RShape 0 0) 0 \/
  exists k m, matrix_shape l k /\ matrix_shape r m /\ k = zlen r /\
              matrix_multiply l r = Ret [] (RShape (zlen l) m) (zlen l + zlen l * m).
Proof.
  intros l r.
  unfold matrix_multiply. destruct (is_matrix l) eqn:El.
  - destruct (is_matrix r) eqn:Er.
    + destruct (is_matrix_shape l El) as [k Hl]. destruct (is_matrix_shape r Er) as [m Hr].
      rewrite (multiply_body_shape l r k m Hl Hr). destruct (k =? zlen r) eqn:E; [|left; reflexivity]. b2z.
      right. exists k, m. repeat split; auto; try apply Hl; try apply Hr.
    + left; reflexivity.
    + destruct (is_matrix_defined r) as [H _]. contradiction.
    + destruct (is_matrix_defined r) as [_ H]. contradiction.
  - left; reflexivity.
  - destruct (is_matrix_defined l) as [H _]. contradiction.
  - destruct (is_matrix_defined l) as [_ H]. contradiction.
Qed.
Print Assumptions C09_matrix_multiply_safe.

(* the is_matrix test is what keeps the bodies defined (the code before repair 46cfd3b had only a test of row 0) *)
Theorem C09_matrix_unguarded_refuted :
  transpose_body [VArr [VNum (FFin 0)]; VNum (FFin 0)]
    = UB "data<T>() of an element of another type (static_pointer_cast to the wrong class)" /\
  transpose_body [VArr [VStr []]]
    = UB "data<T>() of an element of another type (static_pointer_cast to the wrong class)" /\
  multiply_body [VArr [VNum (FFin 0)]] [VArr [VBool true]]
    = UB "data<T>() of an element of another type (static_pointer_cast to the wrong class)".
Proof. exact matrix_unguarded_refuted. Qed.
Print Assumptions C09_matrix_unguarded_refuted.

(* the vector operators: a value comes back only for three numbers (in both operands), without a diagnostic *)
Theorem C09_vec3_unary_safe : forall k l,
  safe (vec3_unary k l) /\ alloc_of (vec3_unary k l) <= 3 /\
  (forall ds v al, vec3_unary k l = Ret ds v al -> v <> RNil -> zlen l = 3 /\ all_num l /\ ds = []).
Proof.
  intros k l.
  unfold vec3_unary. destruct (check_type1 l TScalar 3 3) as [ds [|]] eqn:E.
  - destruct (ct1_scalar _ _ _ _ E) as [Hl Hn]. rewrite vec3_reads_ok by (auto; lia). cbn.
    split; [exact I|]. split; [lia|]. intros ds0 v al H _. inversion H. repeat split; auto; lia.
  - cbn. split; [exact I|]. split; [lia|]. intros ds0 v al H Hv. inversion H. subst. contradiction.
Qed.
Print Assumptions C09_vec3_unary_safe.

Theorem C09_vec3_binary_safe : forall k l r,
  safe (vec3_binary k l r) /\ alloc_of (vec3_binary k l r) <= 3 /\
  (forall ds v al, vec3_binary k l r = Ret ds v al -> v <> RNil -> zlen l = 3 /\ all_num l /\ zlen r = 3 /\ all_num r /\ ds = []).
Proof.
  intros k l r.
  unfold vec3_binary. destruct (check_type1 l TScalar 3 3) as [ds [|]] eqn:E.
  - destruct (ct1_scalar _ _ _ _ E) as [Hl Hn].
    destruct (check_type1 r TScalar 3 3) as [ds' [|]] eqn:E'.
    + destruct (ct1_scalar _ _ _ _ E') as [Hl' Hn']. rewrite !vec3_reads_ok by (auto; lia). cbn.
      split; [exact I|]. split; [lia|]. intros ds0 v al H _. inversion H. repeat split; auto; lia.
    + cbn. split; [exact I|]. split; [lia|]. intros ds0 v al H Hv. inversion H. subst. contradiction.
  - cbn. split; [exact I|]. split; [lia|]. intros ds0 v al H Hv. inversion H. subst. contradiction.
Qed.
Print Assumptions C09_vec3_binary_safe.

(* IF then ARRAY: the element that is run exists, is the one the condition selects, and is code *)
Theorem C09_then_if_array_safe : forall cond arr,
  safe (then_if_array cond arr) /\ res_ok (zlen arr) (then_if_array cond arr) /\ alloc_of (then_if_array cond arr) <= zlen arr /\
  (forall ds i al, then_if_array cond arr = Ret ds (RElem i) al ->
     i = (if cond then 0 else 1) /\ exists v, nth_error arr (Z.to_nat i) = Some v /\ is_code v = true).
Proof. exact then_if_array_safe. Qed.
Print Assumptions C09_then_if_array_safe.

Theorem C09_private_array_safe : forall arr, safe (private_array arr) /\ alloc_of (private_array arr) <= zlen arr.
Proof.
  intros arr. apply bounded_def.
  unfold private_array. rewrite loop_ok.
  - apply bounded_ret. lia.
  - intros x Hx. rewrite vec_ok_true by (unfold zlen; lia). reflexivity.
Qed.
Print Assumptions C09_private_array_safe.

Theorem C09_ns_getvar_safe : forall found r,
  safe (ns_getvar found r) /\ res_ok (zlen r) (ns_getvar found r) /\ alloc_of (ns_getvar found r) <= 0.
Proof.
  intros found r. apply within_def.
  unfold ns_getvar. destruct (negb (zlen r =? 2)) eqn:E; [apply within_ret; cbn; lia|]. b2z.
  destruct (at_some r 0 ltac:(lia)) as [v0 [-> _]]. destruct (at_some r 1 ltac:(lia)) as [v1 [-> _]].
  destruct v0; destruct found; apply within_ret; cbn; lia.
Qed.
Print Assumptions C09_ns_getvar_safe.

Theorem C09_ns_setvar_safe : forall r,
  safe (ns_setvar r) /\ res_ok (zlen r) (ns_setvar r) /\ alloc_of (ns_setvar r) <= 0.
Proof.
  intros r. apply within_def.
  unfold ns_setvar. destruct (negb (zlen r =? 2)) eqn:E; [apply within_ret; cbn; lia|]. b2z.
  destruct (at_some r 0 ltac:(lia)) as [v0 [-> _]]. destruct (at_some r 1 ltac:(lia)) as [v1 [-> _]].
  destruct v0; apply within_ret; cbn; lia.
Qed.
Print Assumptions C09_ns_setvar_safe.

(* markers: a position / size is stored only from two (three) numbers of an existing marker *)
Theorem C09_set_marker_pos_safe : forall ex arr,
  safe (set_marker_pos ex arr) /\ alloc_of (set_marker_pos ex arr) <= 0 /\
  (forall ds k n al, set_marker_pos ex arr = Ret ds (RStored k n) al -> ex = true /\ 2 <= zlen arr <= 3 /\ all_num arr /\ k = zlen arr - 1).
Proof.
  intros ex arr.
  unfold set_marker_pos. destruct ex; cbn [negb].
  - destruct (check_type1 arr TScalar 2 3) as [ds [|]] eqn:E.
    + destruct (ct1_scalar _ _ _ _ E) as [Hl Hn]. rewrite pos_reads_ok by auto. cbn.
      split; [exact I|]. split; [lia|]. intros ? ? ? ? H. inversion H. repeat split; auto; try lia.
      destruct (2 <? zlen arr) eqn:E2; b2z; lia.
    + cbn. split; [exact I|]. split; [lia|]. intros ? ? ? ? H; inversion H.
  - cbn. split; [exact I|]. split; [lia|]. intros ? ? ? ? H; inversion H.
Qed.
Print Assumptions C09_set_marker_pos_safe.

Theorem C09_set_marker_size_safe : forall ex arr,
  safe (set_marker_size ex arr) /\ alloc_of (set_marker_size ex arr) <= 0 /\
  (forall ds k n al, set_marker_size ex arr = Ret ds (RStored k n) al -> ex = true /\ zlen arr = 2 /\ all_num arr).
Proof.
  intros ex arr.
  unfold set_marker_size. destruct ex; cbn [negb].
  - destruct (check_type1 arr TScalar 2 2) as [ds [|]] eqn:E.
    + destruct (ct1_scalar _ _ _ _ E) as [Hl Hn]. rewrite !num_at_ok by (auto; lia). cbn.
      split; [exact I|]. split; [lia|]. intros ? ? ? ? H. repeat split; auto; lia.
    + cbn. split; [exact I|]. split; [lia|]. intros ? ? ? ? H; inversion H.
  - cbn. split; [exact I|]. split; [lia|]. intros ? ? ? ? H; inversion H.
Qed.
Print Assumptions C09_set_marker_size_safe.

Theorem C09_create_marker_safe : forall nullobj ex arr,
  safe (create_marker nullobj ex arr) /\ alloc_of (create_marker nullobj ex arr) <= zlen arr.
Proof. intros nullobj ex arr. exact (bounded_def _ _ (create_marker_safe nullobj ex arr)). Qed.
Print Assumptions C09_create_marker_safe.

(* CONFIG select SCALAR: for every float and every class (deleted entries included) the answer is configNull or one
   of the slots of the class *)
Theorem C09_cfg_select_safe : forall null children f,
  safe (cfg_select repaired null children f) /\ alloc_of (cfg_select repaired null children f) <= 0 /\
  (forall ds id al, cfg_select repaired null children f = Ret ds (RNum id) al -> null = false /\ ds = [] /\ In id children).
Proof.
  intros null children f.
  unfold cfg_select. use_cast (ip_trunc f). destruct null.
  - cbn. split_all; auto; try lia. intros ? ? ? HR; inversion HR.
  - destruct ((zlen children <=? z) || (z <? 0)) eqn:E.
    + cbn. split_all; auto; try lia. intros ? ? ? HR; inversion HR.
    + b2z. assert (z mod SIZE_MOD = z) as Hm by (apply Z.mod_small; unfold SIZE_MOD; lia). rewrite Hm.
      destruct (z <? zlen children) eqn:E2; [|b2z; lia].
      destruct (at_some children z ltac:(lia)) as [id [Hid Hin]]. unfold at_ in Hid. rewrite Hid.
      cbn. split_all; auto; try lia. intros ? ? ? HR; inversion HR; subst. auto.
Qed.
Print Assumptions C09_cfg_select_safe.

(* with plain casts (the code before repair 370eb9e) the index conversion is undefined for NaN *)
Theorem C09_cfg_select_refuted : cfg_select as_is false [1; 2] FNan = UB_CAST.
Proof. reflexivity. Qed.
Print Assumptions C09_cfg_select_refuted.

(* callExtension with an argument array: the extension is reached only with a string name and at most RVARGSLIMIT
   arguments of the four printable types; the buffers are bounded whatever the array holds *)
Theorem C09_callext_args_safe : forall hp ld rvec,
  safe (callext_args hp ld rvec) /\
  alloc_of (callext_args hp ld rvec) <= CALLEXTBUFFSIZE + 2 * RVARGSLIMIT + 2 /\
  (forall ds al, callext_args hp ld rvec = Ret ds ROther al -> hp = true \/
     (ld = true /\ exists name v1, at_ rvec 0 = Some (VStr name) /\ at_ rvec 1 = Some v1 /\
        forall a, In a (match v1 with VArr l => l | v => [v] end) -> ext_arg_ok a = true)).
Proof. exact callext_args_safe. Qed.
Print Assumptions C09_callext_args_safe.

(* non-vacuity: the repaired models do real work on the witnesses of the refutations and on ordinary arguments *)
Example ex_select_scalar : select_scalar repaired 3 (FFin (3 * SCALE / 2)) = Ret [] (RElem 2) 3.
Proof. vm_compute. reflexivity. Qed.
Example ex_select_scalar_huge : select_scalar repaired 3 (FFin (100000000000000000000 * SCALE)) = Ret [IndexOutOfRange] RNil 3.
Proof. vm_compute. reflexivity. Qed.
Example ex_select_range : select_range repaired 200 [VNum (FFin (200 * SCALE)); VNum (FFin (2147483520 * SCALE))]
                          = Ret [] (RSlice 200 0) 202.
Proof. vm_compute. reflexivity. Qed.
Example ex_select_range2 : select_range repaired 5 [VNum (FFin SCALE); VNum (FFin (2 * SCALE))] = Ret [] (RSlice 1 2) 9.
Proof. vm_compute. reflexivity. Qed.
Example ex_sort_rows : sort_model repaired [VArr [VNum (FFin 0)]; VArr [VNum (FFin SCALE)]] false = Ret [] ROther 3.
Proof. vm_compute. reflexivity. Qed.
Example ex_sort_nan : sort_model repaired [VNum (FFin SCALE); VNum FNan; VNum (FFin (2 * SCALE))] true = Ret [] ROther 0.
Proof. vm_compute. reflexivity. Qed.
Example ex_format : format_model repaired [VStr [97;37;49;98;37;50]; VNum (FFin (5 * SCALE))] [6; 1]
                    = Ret [IndexOutOfRangeWeak] ROther 3.
Proof. vm_compute. reflexivity. Qed.
Example ex_format_long : format_model repaired [VStr [37;57;57;57;57;57;57;57;57;57;57;57]] [14] = Ret [IndexOutOfRangeWeak] ROther 0.
Proof. vm_compute. reflexivity. Qed.
Example ex_param : param_model repaired [VNum (FFin SCALE)] [VNum (FFin 0); VNum (FFin 0); VArr []; VNum (FFin SCALE)]
                   = Ret [] (RElem 0) 5.
Proof. vm_compute. reflexivity. Qed.
Example ex_split : split_string [97;44;98;44;44;99] [44] = Ret [] (RTokens [(0,1); (2,1); (5,1)]) 12.
Proof. vm_compute. reflexivity. Qed.
Example ex_cfg : cfg_iterate repaired [INVALID; 5; INVALID; 7] 10 = Ret [] (RWalk [5; 7]) 2.
Proof. vm_compute. reflexivity. Qed.
Example ex_bom : bom_model repaired [239; 187; 191; 97] = BSkip 3 /\ bom_model repaired [239] = BSkip 0.
Proof. split; vm_compute; reflexivity. Qed.
Example ex_delete_range : delete_range repaired 3 [VNum (FFin SCALE); VNum (FFin (100000000000000000000 * SCALE))]
                          = Ret [IndexOutOfRangeWeak] (RErased 1 2) 2.
Proof. vm_compute. reflexivity. Qed.
Example ex_transpose : matrix_transpose [VArr [VNum (FFin 0); VNum (FFin SCALE)]; VArr [VNum FNan; VNum FPInf]; VArr [VNum (FFin 0); VNum (FFin 0)]]
                       = Ret [] (RShape 2 3) 8.
Proof. vm_compute. reflexivity. Qed.
Example ex_transpose_ragged : matrix_transpose [VArr [VNum (FFin 0); VNum (FFin SCALE)]; VArr [VNum FNan]] = Ret [] (RShape 0 0) 0.
Proof. vm_compute. reflexivity. Qed.
Example ex_multiply : matrix_multiply [VArr [VNum (FFin 0); VNum (FFin SCALE)]] [VArr [VNum (FFin 0)]; VArr [VNum (FFin 0)]] = Ret [] (RShape 1 1) 2.
Proof. vm_compute. reflexivity. Qed.
Example ex_multiply_unguarded_witness : matrix_multiply [VArr [VNum (FFin 0)]] [VArr [VBool true]] = Ret [] (RShape 0 0) 0.
Proof. vm_compute. reflexivity. Qed.
Example ex_vec3 : vec3_binary VkAt [VNum (FFin 0); VNum (FFin 0); VNum FNan] [VNum (FFin 0); VNum (FFin 0)] = Ret [ExpectedArraySizeMissmatch] RNil 0.
Proof. vm_compute. reflexivity. Qed.
Example ex_then_if : then_if_array false [VNum (FFin 0); VOther TCODE] = Ret [ExpectedArrayTypeMissmatchWeak] (RElem 1) 2.
Proof. vm_compute. reflexivity. Qed.
Example ex_create_marker : create_marker false false [VStr [109]; VArr [VNum (FFin 0); VNum (FFin 0)]] = Ret [ExpectedArrayTypeMissmatch] (RStored 0 1) 2.
Proof. vm_compute. reflexivity. Qed.
Example ex_cfg_select : cfg_select repaired false [5; INVALID; 7] (FFin (5 * SCALE / 2)) = Ret [] (RNum 7) 0.
Proof. vm_compute. reflexivity. Qed.
Example ex_callext : callext_args false false [VStr [102]; VArr [VNum (FFin 0); VOther TOBJECT]] = Ret [ExpectedArrayTypeMissmatch; ReturningErrorCode] (RNum 102) 10244.
Proof. vm_compute. reflexivity. Qed.

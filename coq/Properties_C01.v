(* C01 - Every SQF expression is compiled as its documented reading.
   The theorems; proofs of more than a few lines live in Syntax/*.v.  The model (Syntax/SyntaxDefs.v) is tied to
   src/parser/sqf/{tokenizer.hpp,parser.y,parser.tab.cc,sqf_parser.cpp} and src/opcodes/*.h by the
   correspondence run of checks/C01.py; Gen/Registry.v and Gen/Grammar.v are regenerated on every run. *)
From Coq Require Import ZArith List Bool Arith String.
Import ListNotations.
From SqfVerif Require Import Syntax.SyntaxDefs Syntax.TreeFacts Syntax.ParseMono Syntax.ParsePrint Syntax.ParsePrintGen Syntax.LexProofs Syntax.LexGlue Syntax.CompileProofs Syntax.Reading Syntax.GenProofs Syntax.Findings.
From SqfVerif Require Gen.Registry Gen.Grammar.

(* 1-2. The reading.  `print_toks R lay ss` is the documented reading written out: a binary operator of
   level k takes an exp_k on its left and an exp_(k+1) on its right (left association, tighter levels
   inside), a unary operator takes an operand of the tightest level, parentheses appear exactly where
   a subtree's level is below what its position asks for - and additionally wherever the tree carries a
   Par node (any redundant parenthesisation), with any layout of `;` / `,` separators.  For EVERY
   registry, every tree whose operator names are registered in the class and at the level the tree uses
   them, and every fuel above a bound, the parser returns exactly the tree (Par nodes erased). *)
Theorem C01_parse_print_any : forall (R:registry) (d:defects) (lay:layout) (ss:list stmt),
  wf_block R ss ->
  exists f0, forall f, (f0 <= f)%nat -> parse_toks d f (print_toks R lay ss) = POk (map strip_stmt ss).
Proof. exact parse_print_block_of_gen. Qed.
Print Assumptions C01_parse_print_any.

Theorem C01_parse_print_min : forall (R:registry) (d:defects) (lay:layout) (ss:list stmt),
  wf_block R ss -> forallb noparb_stmt ss = true ->
  exists f0, forall f, (f0 <= f)%nat -> parse_toks d f (print_toks R lay ss) = POk ss.
Proof.
  intros R d lay ss Hwf Hnp. destruct (parse_print_block_of_gen R d lay ss Hwf) as [f0 H]. exists f0. intros f Hf.
  rewrite (H f Hf). f_equal. rewrite <- (map_id ss) at 2. apply map_ext_in. intros s Hs.
  apply strip_nopar. rewrite forallb_forall in Hnp. apply Hnp. exact Hs.
Qed.
Print Assumptions C01_parse_print_min.

(* 3. Whitespace.  A token is well spelled (tok_ok) when its text alone is read as exactly that token.  Write
   well-spelled tokens with arbitrary whitespace (space, tab, CR, LF) before each and at the end - and with
   none at all wherever the next character is whitespace, a bracket or a separator, or the token itself is a
   bracket, a separator or a sign (sep_ok) - and the lexer returns exactly those tokens.  Letter case: names
   are classified by their lower-cased spelling (classify_name) and compiled in lower case (postorder), so
   theorems 1-2, which hold for trees with ANY spelling of the names, cover arbitrary letter case. *)
Theorem C01_lex_render : forall items trail, sep_ok items trail -> lex (render items trail) = LexOk (map snd items).
Proof. exact lex_render. Qed.
Print Assumptions C01_lex_render.

(* 3a. No whitespace at all wherever the token grammar allows it (sep_glued): a name, a keyword, a number may be followed
   directly by any character that cannot continue it (an operator character, a quote: `1--1`, `_a++_b`, `a*-b`), a string
   literal by anything but a quote (`"s"select 0`), an operator by anything that does not spell a longer operator, a
   comment or a #line directive with it (`a&&!b`, `a>=-1`, `a/-b`; not `> =`, `/ *`, `# line`), `=` by anything but `=`
   (`x=-1`).  sep_ok is the special case (sep_ok_glued). *)
Theorem C01_lex_render_glued : forall items trail, sep_glued items trail -> lex (render items trail) = LexOk (map snd items).
Proof. exact lex_render_glued. Qed.
Print Assumptions C01_lex_render_glued.

Theorem C01_compiled_reading_glued : forall (R:registry) (d:defects) (lay:layout) (ss:list stmt) items trail,
  wf_block R ss -> map snd items = print_raw lay ss -> sep_glued items trail ->
  exists f0, forall f, (f0 <= f)%nat ->
    match parse_text d R f (render items trail) with FOk p => compile_block p | _ => None end
    = Some (postorder_block (map strip_stmt ss)).
Proof. exact compiled_reading_glued. Qed.
Print Assumptions C01_compiled_reading_glued.

(* 1-3 composed: from the text of the documented reading to the tree, and to the compiled post-order *)
Theorem C01_reading_end_to_end : forall (R:registry) (d:defects) (lay:layout) (ss:list stmt) items trail,
  wf_block R ss -> map snd items = print_raw lay ss -> sep_ok items trail ->
  exists f0, forall f, (f0 <= f)%nat -> parse_text d R f (render items trail) = FOk (map strip_stmt ss).
Proof. exact reading_end_to_end. Qed.
Print Assumptions C01_reading_end_to_end.

Theorem C01_compiled_reading : forall (R:registry) (d:defects) (lay:layout) (ss:list stmt) items trail,
  wf_block R ss -> map snd items = print_raw lay ss -> sep_ok items trail ->
  exists f0, forall f, (f0 <= f)%nat ->
    match parse_text d R f (render items trail) with FOk p => compile_block p | _ => None end
    = Some (postorder_block (map strip_stmt ss)).
Proof.
  intros R d lay ss items trail Hwf Hit Hsep.
  destruct (reading_end_to_end R d lay ss items trail Hwf Hit Hsep) as [f0 H]. exists f0. intros f Hf.
  rewrite (H f Hf). apply compile_block_postorder.
Qed.
Print Assumptions C01_compiled_reading.

(* 4. The emitted instruction sequence is the post-order of the reading: the compiler model (which appends
   to a vector exactly as to_assembly does, including the cast applied by the sign fold) never reaches
   the undefined cast and produces postorder: left operand, right operand, operator; array elements
   left to right, then MAKEARRAY n; a signed number literal is one PUSH. *)
Theorem C01_compile_postorder : forall t set, comp t set = Some (set ++ postorder t).
Proof. exact compile_postorder. Qed.
Print Assumptions C01_compile_postorder.

Theorem C01_compile_block_postorder : forall ss, compile_block ss = Some (postorder_block ss).
Proof. exact compile_block_postorder. Qed.
Print Assumptions C01_compile_block_postorder.

(* 5. The value the stack machine computes is the value of the fully parenthesised expression, for every
   operator semantics (binary pops right, then left).  The only thing assumed of the operators is what
   the sign fold itself assumes: unary - / + on a number literal denote its negation / itself. *)
Theorem C01_stack_eval_correct : forall (V:Type) (m:sem V),
  (forall l, ((exists s, l = LNum s) \/ (exists s, l = LHex s)) -> s_un V m sym_minus (s_lit V m false l) = s_lit V m true l) ->
  (forall l, ((exists s, l = LNum s) \/ (exists s, l = LHex s)) -> s_un V m sym_plus (s_lit V m false l) = s_lit V m false l) ->
  forall t st, run_stack V m (postorder t) st = Some (eval_tree V m t :: st).
Proof. exact stack_eval_correct. Qed.
Print Assumptions C01_stack_eval_correct.

(* 6. The registry of the built runtime (Gen/Registry.v): all overloads of one name share one precedence,
   every precedence is in 1..10, names are distinct. *)
Theorem C01_registry_single_prec : forall name ps u n, In (name, (ps, u, n)) Registry.table ->
  forall p q, In p ps -> In q ps -> p = q.
Proof. exact registry_single_prec. Qed.
Print Assumptions C01_registry_single_prec.

Theorem C01_registry_prec_range : forall name ps u n, In (name, (ps, u, n)) Registry.table ->
  forall p, In p ps -> (1 <= p <= 10)%nat.
Proof. exact registry_prec_range. Qed.
Print Assumptions C01_registry_prec_range.

Theorem C01_registry_names_distinct : NoDup (map fst Registry.table).
Proof. exact registry_names_distinct. Qed.
Print Assumptions C01_registry_names_distinct.

(* 7. The grammar the tables were generated from (Gen/Grammar.v: yyr1_/yyr2_/yytname_ + actions, checked
   against parser.y by the translator) is exactly the 10-level layered grammar the parser model follows,
   and the yylex switch is exactly the model's classification. *)
Theorem C01_grammar_is_layered : forall r, In r Grammar.rules <-> In r (layered_rules 10).
Proof. exact grammar_is_layered. Qed.
Print Assumptions C01_grammar_is_layered.

Theorem C01_grammar_rule_count : List.length Grammar.rules = List.length (layered_rules 10).
Proof. vm_compute. reflexivity. Qed.
Print Assumptions C01_grammar_rule_count.

Theorem C01_lexmap_ok : forall b u nl p t s, In (b, u, nl, p, t) Grammar.lexmap ->
  exists c, classify_name (fun _ => info b u nl p) true s = TOp c s /\ class_name c = t.
Proof. exact lexmap_ok. Qed.
Print Assumptions C01_lexmap_ok.

Theorem C01_lexmap_complete : forall i s c, classify_name (fun _ => i) true s = TOp c s ->
  In (match oi_bin i with Some _ => true | None => false end, oi_un i, oi_nul i,
      match oi_bin i with Some p => p | None => 0%nat end, class_name c) Grammar.lexmap.
Proof.
  intros i s c H. apply lm_mem.
  unfold classify_name in H. destruct i as [ob u nl]. cbn [oi_bin oi_un oi_nul] in *.
  destruct ob as [p|], u, nl; try discriminate;
    try (injection H as <-; vm_compute; reflexivity);
    do 11 (destruct p as [|p]; [cbn in H; try discriminate; injection H as <-; vm_compute; reflexivity|]);
    cbn in H; discriminate.
Qed.
Print Assumptions C01_lexmap_complete.

(* The recorded defect (known_findings.txt un-nular-operand): with the parser as it stands a name that
   is unary and nular is not readable as an operand - `x = un` is never parsed as the assignment of the
   nular operator - whereas the repaired grammar reads it; as a unary operator the name works in both. *)
Theorem C01_nular_operand_UN_refuted : forall f, parse_text as_is R_un f un_src <> FOk un_reading.
Proof.
  intros f. unfold parse_text. rewrite un_tokens.
  assert (H0: parse_toks as_is 40 (map (classify R_un) [RIdent (s2b "x"%string); REqual; RIdent un_name]) = PErr)
    by (vm_compute; reflexivity).
  destruct (parse_stable as_is 40 _ ltac:(rewrite H0; discriminate) f) as [H|H]; rewrite H; [rewrite H0|]; discriminate.
Qed.
Print Assumptions C01_nular_operand_UN_refuted.

Theorem C01_nular_operand_UN_repaired : exists f0, forall f, (f0 <= f)%nat -> parse_text repaired R_un f un_src = FOk un_reading.
Proof.
  exists 40%nat. intros f Hf. unfold parse_text. rewrite un_tokens.
  assert (H0: parse_toks repaired 40 (map (classify R_un) [RIdent (s2b "x"%string); REqual; RIdent un_name]) = POk un_reading)
    by (vm_compute; reflexivity).
  rewrite (mono_parse repaired 40 f _ ltac:(rewrite H0; discriminate) Hf). rewrite H0. reflexivity.
Qed.
Print Assumptions C01_nular_operand_UN_repaired.

Local Open Scope Z_scope.
(* non-vacuity: a tree over four levels, a unary, an array, a code block and an assignment is well formed
   for a small registry, and its minimal rendering parses back *)
Definition ex_R : registry := fun key =>
  if text_eqb key [43] then {| oi_bin := Some 6%nat; oi_un := true; oi_nul := false |}            (* + *)
  else if text_eqb key [42] then {| oi_bin := Some 7%nat; oi_un := false; oi_nul := false |}       (* * *)
  else if text_eqb key [62] then {| oi_bin := Some 3%nat; oi_un := false; oi_nul := false |}       (* > *)
  else if text_eqb key [33] then {| oi_bin := None; oi_un := true; oi_nul := false |}              (* ! *)
  else if text_eqb key [112;105] then {| oi_bin := None; oi_un := false; oi_nul := true |}         (* pi *)
  else no_op.
Definition ex_prog : list stmt :=
  [ SAssign (Var [120]) (Bin 6%nat [42] (Par (Bin 5%nat [43] (Var [97]) (Nul [112;105]))) (Un [43] (Var [98])));
    SExpr (Bin 2%nat [62] (Arr [Lit (LNum [49]); Code [SExpr (Un [33] (Var [99]))]]) (Bin 5%nat [43] (Var [97]) (Bin 5%nat [43] (Var [98]) (Var [99])))) ].
Example ex_wf : wf_block ex_R ex_prog.
Proof. vm_compute. reflexivity. Qed.
(* the hypotheses of theorem 3 are met by a rendering with mixed gluing: `x =(a +pi)* \t+b ;\n` *)
Example ex_sep_ok : sep_ok [([], RIdent [120]); ([32], REqual); ([], RRoundO); ([], RIdent [97]); ([32], ROp [43]); ([], RIdent [112;105]);
                            ([], RRoundC); ([], ROp [42]); ([32; 9], ROp [43]); ([], RIdent [98]); ([32], RSemi)] [10].
Proof. cbn [sep_ok]. repeat split; try (left; reflexivity); try (right; reflexivity); try reflexivity. Qed.
(* the hypotheses of theorem 3a are met by `x=1--1;_a++_b*-2>=-.5&&!c "s"sel 0` - and not by `>` directly in front of `>=` *)
Example ex_sep_glued : sep_glued [([], RIdent [120]); ([], REqual); ([], RNum [49]); ([], ROp [45]); ([], ROp [45]); ([], RNum [49]); ([], RSemi);
   ([], RIdent [95;97]); ([], ROp [43]); ([], ROp [43]); ([], RIdent [95;98]); ([], ROp [42]); ([], ROp [45]); ([], RNum [50]); ([], ROp [62;61]); ([], ROp [45]); ([], RNum [46;53]);
   ([], ROp [38;38]); ([], ROp [33]); ([], RIdent [99]); ([32], RStr [34;115;34]); ([], RIdent [115;101;108]); ([32], RNum [48])] [].
Proof. cbn [sep_glued]. repeat split; try (right; right; reflexivity); try (right; left; reflexivity); try (left; reflexivity); try reflexivity. Qed.
Example ex_sep_glued_not : ~ sep_glued [([], ROp [62]); ([], ROp [62;61])] [].
Proof. cbn. intros (_ & _ & [H|[H|H]] & _); discriminate. Qed.
Example ex_parses : parse_toks as_is 200%nat (print_toks ex_R layout_min ex_prog) = POk (map strip_stmt ex_prog).
Proof. vm_compute. reflexivity. Qed.

(* C18 - C API contract: truthful return codes, complete tagged logging, reusable instances.
   About API/ApiDefs (model of src/export/sqfvm.cpp on top of the shared VM model) with the repairs proposed in
   /verif/proposed_fixes/C18-01..03; the ..._refuted theorems show the code without them.  The preprocessor and the
   parsers are parameters of a call (`front`). *)
From Coq Require Import String ZArith List Bool.
From SqfVerif Require Import Gen.ResultMap VM.VmDefs VM.VmExec VM.C04Defs API.CtlProofs API.ApiDefs API.ApiProofs.
Import ListNotations.
Local Open Scope list_scope.

(* which code a call returns, and what it means: -2 iff preprocessing failed; -3 iff it succeeded and the parser of the type
   failed; -5 iff the type is unknown; for 's' / 'a': 0 iff execute(start) reported empty (all scripts ran to their end) or ok
   (the script asked for exit) with the error flag down, -6 iff it reported runtime_error - and then the events of this very
   call contain the error and its stack trace, or the max-runtime diagnostic *)
Theorem C18_codes_truthful : forall i cd ty f code i' recs, inst_ok i -> api_call api_repaired i cd ty f = Ok (code, i', recs) ->
  match f with
  | FPpFail _ => code = preprocessing_failed
  | FParseFail _ _ =>
      if ty_parses ty then code = parsing_failed
      else if Z.eqb ty ty_p then code = result_ok else code = invalid_type
  | FOk _ _ c _ =>
      if ty_executes ty then
        exists x r1 s, execute AStart (load (a_rt i) c) = Ok (x, r1) /\ r_out r1 = s ++ r_out (a_rt i) /\
          ((code = result_ok /\ (x = REmpty \/ x = ROk) /\ r_err r1 = false) \/
           (code = result_failed /\ x = RRuntimeError /\ failure_explained s))
      else if orb (Z.eqb ty ty_1) (Z.eqb ty ty_p) then code = result_ok
      else code = invalid_type
  end.
Proof. exact codes_truthful. Qed.
Print Assumptions C18_codes_truthful.

(* every callback invocation of a call carries the user data of the instance and the call data of THIS call; the messages the
   run logged are all delivered, in order, after those of the front ends *)
Theorem C18_all_diagnostics_delivered_tagged : forall i cd ty f code i' recs, inst_ok i -> api_call api_repaired i cd ty f = Ok (code, i', recs) ->
  tagged i (CdVal cd) recs /\
  match f with
  | FOk d1 d2 c _ =>
      if ty_executes ty then
        exists x r1 s, execute AStart (load (a_rt i) c) = Ok (x, r1) /\ r_out r1 = s ++ r_out (a_rt i) /\
          map cb_sev recs = map fst d1 ++ map fst d2 ++ levels (rev s)
      else True
  | _ => True end.
Proof. exact all_diagnostics_delivered_tagged. Qed.
Print Assumptions C18_all_diagnostics_delivered_tagged.

(* whatever the API call was, every instance of the process is idle (status 0) when it returns, and the instances that were not
   addressed are untouched *)
Theorem C18_idle_after_every_call : forall w o ret recs w', world_ok w -> step api_repaired w o = Ok (ret, recs, w') ->
  world_ok w' /\
  (forall n i, nth_error (w_insts w') n = Some i -> api_status i = 0%Z) /\
  (forall h, (o = ODestroy h \/ o = OStatus h \/ (exists f, o = OLoad h f) \/ (exists cd ty f, o = OCall h cd ty f) \/ (exists cd c, o = OProbe h cd c)) ->
     forall n m, h = HInst n -> m <> n -> nth_error (w_insts w') m = nth_error (w_insts w) m).
Proof. exact idle_after_every_call. Qed.
Print Assumptions C18_idle_after_every_call.

(* a call leaves: no script (no context), the error flag down, state empty, the run flag free; config, user data and liveness as
   they were; the namespaces untouched unless a script ran.  The next run measures max_runtime from its own first clock
   reading and starts with the error flag, the recorded messages and the exit request cleared. *)
Theorem C18_only_globals_and_config_persist :
  (forall i cd ty f code i' recs, inst_ok i -> api_call api_repaired i cd ty f = Ok (code, i', recs) ->
     (r_state (a_rt i') = StEmpty /\ r_run (a_rt i') = false /\ r_ctxs (a_rt i') = [] /\ r_err (a_rt i') = false) /\ api_status i' = 0%Z /\
     a_cfg i' = a_cfg i /\ a_user i' = a_user i /\ a_live i' = a_live i /\
     (match f with FOk _ _ _ _ => if ty_executes ty then True else r_nss (a_rt i') = r_nss (a_rt i) | _ => r_nss (a_rt i') = r_nss (a_rt i) end)) /\
  (forall r c, rt_idle r ->
     let r0 := set_state (API.CtlDefs.enter (load r c)) StRunning in
     r_run_ts r0 = (r_clock r + r_tick r)%Z /\ r_err r0 = false /\ r_msgs r0 = [] /\ r_exit_req r0 = false).
Proof.
  split; [exact call_leaves_idle|].
  intros r c [Hs _]. cbn zeta. unfold API.CtlDefs.enter, begin_run_if_empty.
  change (r_state (set_run (load r c) true)) with (r_state r). rewrite Hs. cbn. auto.
Qed.
Print Assumptions C18_only_globals_and_config_persist.

Theorem C18_load_config_codes_and_tags : forall i f code i' recs, api_load api_repaired i f = Ok (code, i', recs) ->
  (match f with CPpFail _ => code = preprocessing_failed | CParseFail _ _ => code = parsing_failed | COk _ _ _ => code = result_ok end) /\
  tagged i CdNull recs /\ a_rt i' = a_rt i /\ a_user i' = a_user i /\ a_live i' = a_live i /\
  (match f with COk _ _ cl => a_cfg i' = a_cfg i ++ cl | _ => a_cfg i' = a_cfg i end).
Proof. exact load_codes_and_tags. Qed.
Print Assumptions C18_load_config_codes_and_tags.

Theorem C18_invalid_handle_codes : forall d w h, h = HNull \/ h = HBogus ->
  (forall cd ty f, step d w (OCall h cd ty f) = Ok (instance_invalid, [], w)) /\
  (forall f, step d w (OLoad h f) = Ok (instance_invalid, [], w)) /\
  step d w (OStatus h) = Ok (instance_invalid, [], w).
Proof. intros d w h [-> | ->]; repeat split; reflexivity. Qed.
Print Assumptions C18_invalid_handle_codes.

(* the constants, the type switch and the result switches of sqfvm.cpp (as extracted from the source on this run) are the ones
   of the model, and every code documented in sqfvm.h has the value the source uses *)
Theorem C18_code_table_documented : api_tables_ok = true /\ documented_ok = true.
Proof. split; vm_compute; reflexivity. Qed.
Print Assumptions C18_code_table_documented.

(* the source carries the repairs the model assumes: no dereference of the empty optional, load_config resets the call data *)
Theorem C18_source_carries_repairs : source_repaired = true.
Proof. vm_compute. reflexivity. Qed.
Print Assumptions C18_source_carries_repairs.

Theorem C18_pp_failure_dereferences_empty_optional_refuted : forall i cd ty d1, inst_ok i ->
  exists w, api_call api_as_is i cd ty (FPpFail d1) = UB w.
Proof. intros i cd ty d1 [Hs _]. unfold api_call. rewrite Hs. cbn. eexists. reflexivity. Qed.
Print Assumptions C18_pp_failure_dereferences_empty_optional_refuted.

Theorem C18_load_config_keeps_stale_call_data_refuted : forall i d2 cl, a_cd i <> CdNull ->
  exists code i' r rest, api_load api_as_is i (COk [] ((1, 40001) :: d2)%Z cl) = Ok (code, i', r :: rest) /\ cb_call r = a_cd i /\ cb_call r <> CdNull.
Proof. intros i d2 cl H. cbn. eexists. eexists. eexists. eexists. split; [reflexivity|]. cbn. auto. Qed.
Print Assumptions C18_load_config_keeps_stale_call_data_refuted.

Theorem C18_destroy_null_refuted : forall w, exists s, step api_as_is w (ODestroy HNull) = UB s.
Proof. intros w. eexists. reflexivity. Qed.
Print Assumptions C18_destroy_null_refuted.

(* non-vacuity *)
Definition w0 : world := {| w_insts := []; w_clock := 0; w_tick := 1000 |}.
Definition ok_prog : code := [IPush (VNum 5); IAssign "ga"; IEnd; IGet "ga"]%string.
Definition bad_prog : code := [IPush (VArr [VNum 1]); IPush (VNum 5); IBinary "select"]%string.
Example ex_history :
  map show_op (run_ops api_repaired w0
    [OCreate 7 0; OCall (HInst 0) 11 ty_s (FOk [] [] ok_prog ""); OStatus (HInst 0);
     OCall (HInst 0) 12 ty_s (FOk [] [] bad_prog ""); OStatus (HInst 0);
     OCall (HInst 0) 13 ty_s (FPpFail [(1, 10013)%Z]); OCall HNull 1 ty_s (FPpFail [])] [])
  = ["0{}"; "0{7:11:3:M<VALUE 5>}"; "0{}"; "-6{7:12:1,7:12:0}"; "0{}"; "-2{7:13:1}"; "-1{}"]%string.
Proof. vm_compute. reflexivity. Qed.
Example ex_world_ok : world_ok w0.
Proof. constructor. Qed.

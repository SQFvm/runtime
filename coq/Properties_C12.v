(* C12 - Scheduler is fair and isolating; sleep, scriptDone, terminate work as documented.
   The longer proofs live in VM/C12Proofs.v, VM/C12*.v (and VM/Sched*.v). The scheduler model is SchedDefs.start_pass2 /
   start_loop2 / execute_do2 / visit_ctx: the shared start_pass / start_loop / execute_do of VM/VmExec.v, VM/VmDefs.v
   with ghost instrumentation (visit log, instruction counters), see C12_scheduler_is_shared_model. It is tied to
   src/runtime/runtime.cpp (action::start), context.h and ops_generic.cpp by the correspondence runs of
   checks/C12.py. All theorems hold for every slice length (r_slice) and for both settings of the two time-limit
   switches b1 b2 of SchedDefs (b1 = b2 = false is the shared model, i.e. the runtime after repo commit f22674f). *)
From Coq Require Import String ZArith List Bool Lia Arith.
Import ListNotations.
Set Warnings "-abstract-large-number".
From SqfVerif Require Import Gen.DiagCodes Gen.Consts VM.VmDefs VM.VmExec VM.VmFacts VM.SchedDefs VM.SchedOps VM.SchedBase VM.SchedIter VM.SchedEquiv VM.C12Defs VM.C12Proofs VM.C12FrameOps VM.C12Frame VM.C12Commute VM.C12NsEq VM.C12Globals VM.C12GlobalsCommute VM.C12GlobalsAll.
Local Open Scope list_scope.

(* the instrumented scheduler (switches off) is the shared one *)
Theorem C12_scheduler_is_shared_model : forall fuel r x ps,
  map_res (fun '(x, r, _) => (x, r)) (start_loop2 false false fuel r x ps) = start_loop fuel r x.
Proof. exact start_loop2_shared. Qed.
Print Assumptions C12_scheduler_is_shared_model.

(* ------------------------------------------------------------------ round robin *)
(* round_robin, one pass: whatever the slices do (finish, sleep, spawn, terminate, go on), a pass that runs to its
   end gives exactly one turn to every script scheduled at its start, in list order, then to the scripts spawned
   during the pass, in spawn order (pass_order); nobody is skipped when a finished script is erased; afterwards
   exactly the scripts whose turn did not end with "finished" are scheduled, in the same order (pass_survivors).
   ids: the script ids in list order; wf_ids: they are unique and below the next id to hand out. *)
Theorem C12_round_robin_pass : forall b1 b2 fuel r x x' r' log,
  start_pass2 b1 b2 fuel r 0 x [] = Ok (PassDone2 x' r' log) -> wf_ids r ->
  pass_order (ids r) log /\ pass_survivors log (ids r') /\ wf_ids r' /\
  Forall (fun v => kept v = true \/ finished v = true) log.
Proof. exact round_robin_pass. Qed.
Print Assumptions C12_round_robin_pass.

(* a pass that is cut short (time limit, runtime error, last script gone): the turns taken are a prefix of that order *)
Theorem C12_round_robin_pass_cut : forall b1 b2 fuel r x x' r' log,
  start_pass2 b1 b2 fuel r 0 x [] = Ok (PassExit2 x' r' log) -> wf_ids r ->
  exists spawned later, ids r ++ spawned = map v_id log ++ later /\ NoDup (ids r ++ spawned).
Proof.
  intros b1 b2 fuel r x x' r' log H W. apply start_pass2_pass_run in H.
  destruct (pass_run_round _ _ _ _ _ _ _ H (ids r) W eq_refl eq_refl) as (new & spawned & P1 & P2 & P3 & later & Q).
  cbn in P1. subst new. exists spawned, later. auto.
Qed.
Print Assumptions C12_round_robin_pass_cut.

(* the whole run: every pass starts with the survivors of the pass before, in the same order - the turns of the
   run are the turns of a round-robin queue *)
Theorem C12_round_robin_run : forall b1 b2 fuel r x x' r' ps,
  start_loop2 b1 b2 fuel r x [] = Ok (x', r', ps) -> wf_ids r -> chained (ids r) ps.
Proof.
  intros b1 b2 fuel r x x' r' ps H W. apply start_loop2_loop_run in H. destruct (loop_run_chained _ _ _ _ _ _ _ _ H W) as (new & E & C).
  cbn in E. subst. auto.
Qed.
Print Assumptions C12_round_robin_run.

(* between two consecutive turns of one script every other script that stays scheduled gets exactly one:
   pass k has the turns a ++ v :: b, v's script stays; until its next turn (in pass k+1, which starts with the
   survivors of pass k) the turns are b, then the survivors of a; every other survivor t occurs there exactly once *)
Theorem C12_between_two_turns : forall (a b:list visit) (v:visit) (t:nat),
  NoDup (map v_id (a ++ v :: b)) -> kept v = true ->
  In t (map v_id (filter kept (a ++ v :: b))) -> t <> v_id v ->
  count_occ Nat.eq_dec (map v_id b ++ map v_id (filter kept a)) t = 1.
Proof. exact between_two_turns. Qed.
Print Assumptions C12_between_two_turns.

(* ------------------------------------------------------------------ slices *)
(* slice_bounded: execute_do performs at most exit_after units - executed instructions (ki) plus rounds of empty
   loop bodies (kr); the scheduler passes r_slice *)
Theorem C12_slice_bounded : forall b fuel r n ki kr x r' ki' kr',
  execute_do2 b fuel r n ki kr = Ok (x, r', (ki', kr')) -> ki <= ki' /\ kr <= kr' /\ (ki' - ki) + (kr' - kr) <= n.
Proof. exact slice_bounded. Qed.
Print Assumptions C12_slice_bounded.

(* ... so a turn of the scheduler executes at most r_slice units; with the slice of runtime.cpp (Gen.Consts): 150 *)
Theorem C12_turn_bounded : forall b1 b2 r i x r' v,
  visit_ctx b1 b2 r i = Ok (x, r', v) -> i < length (r_ctxs r) -> v_instr v + v_restarts v <= r_slice r.
Proof.
  intros b1 b2 r i x r' v V Hi. destruct (nth_error (r_ctxs r) i) as [c00|] eqn:Hc; [|apply nth_error_None in Hc; lia].
  destruct (visit_ctx_shape _ _ _ _ _ _ _ _ V Hc) as (_ & _ & Sh). eapply visit_shape_slice; eauto.
Qed.
Print Assumptions C12_turn_bounded.
Theorem C12_turn_bounded_150 : forall b1 b2 r i x r' v,
  r_slice r = slice_length ->
  visit_ctx b1 b2 r i = Ok (x, r', v) -> i < length (r_ctxs r) -> v_instr v + v_restarts v <= slice_length.
Proof. intros b1 b2 r i x r' v E V Hi. rewrite <- E. eapply C12_turn_bounded; eauto. Qed.
Print Assumptions C12_turn_bounded_150.

(* ------------------------------------------------------------------ sleep *)
Theorem C12_sleep_sets_wakeup : forall d r c, c_can_suspend c = true ->
  op_unary "sleep" (VNum d) r c =
    Ok (set_clock r (r_clock r + r_tick r)%Z, set_suspended c true (r_clock r + r_tick r + d * 1000000)%Z, VNil).
Proof.
  intros d r c H. cbn. rewrite H. reflexivity.
Qed.
Print Assumptions C12_sleep_sets_wakeup.

(* no_early_wake: the scheduler reads the clock once when it comes to a sleeping script; the script gets its slice
   only if that value is not before its wake-up time, otherwise nothing of it executes in this pass and it is left
   exactly as it is *)
Theorem C12_no_early_wake : forall b1 b2 r i c x r' v,
  visit_ctx b1 b2 r i = Ok (x, r', v) -> nth_error (r_ctxs r) i = Some c ->
  c_suspended c = true -> c_terminate c = false ->
  (v_entered v = true -> (c_wakeup c <= r_clock r + r_tick r)%Z) /\
  ((r_clock r + r_tick r < c_wakeup c)%Z ->
     v_entered v = false /\ v_instr v = 0 /\ v_restarts v = 0 /\ (x = ROk -> nth_error (r_ctxs r') i = Some c)).
Proof. exact no_early_wake. Qed.
Print Assumptions C12_no_early_wake.

(* ... and inside execute_do a suspended script executes nothing *)
Theorem C12_suspended_executes_nothing : forall b fuel r n ki kr i c,
  r_active r = Some i -> nth_error (r_ctxs r) i = Some c -> c_suspended c = true -> r_exit_req r = false ->
  execute_do2 b (S fuel) r (S n) ki kr = Ok (ROk, r, (ki, kr)).
Proof.
  intros b fuel r n ki kr i c Ha Hc Su Ex. cbn [execute_do2]. rewrite Ex. unfold do_iter2. rewrite Ex. unfold cur. rewrite Ha, Hc, Su. reflexivity.
Qed.
Print Assumptions C12_suspended_executes_nothing.

(* ------------------------------------------------------------------ scriptDone *)
(* scriptDone_spec: the answer is true exactly when no scheduled script has the handle's id *)
Theorem C12_scriptdone_spec : forall id r c,
  op_unary "scriptdone" (VScript id) r c = Ok (r, c, VBool true) <-> ~ In id (ids r).
Proof.
  intros id r c.
  rewrite scriptdone_spec. unfold ids. rewrite <- existsb_ids.
  destruct (existsb _ _); cbn; split; intro H; try congruence; try reflexivity;
  try (exfalso; apply H; reflexivity); try (intro; discriminate).
Qed.
Print Assumptions C12_scriptdone_spec.

(* false while instructions remain: a script is erased only after a turn that found it without frames ... *)
Theorem C12_retired_only_when_finished : forall b1 b2 r i c r2 v,
  visit_ctx b1 b2 r i = Ok (REmpty, r2, v) -> nth_error (r_ctxs r) i = Some c -> r_exit_req r = false ->
  exists c', nth_error (r_ctxs r2) i = Some c' /\ c_id c' = c_id c /\ c_frames c' = [] /\ c_suspended c' = false.
Proof.
  intros b1 b2 r i c r2 v V Hc Ex. destruct (visit_ctx_shape _ _ _ _ _ _ _ _ V Hc) as (_ & _ & Sh).
  destruct (visit_shape_exit _ _ _ _ _ _ _ _ Sh Hc Ex) as [_ E]. destruct (E eq_refl) as (_ & c' & N & F & S).
  exists c'. repeat split; auto.
  pose proof (vs_ctxs _ _ _ (visit_shape_vstep _ _ _ _ _ _ _ _ Sh Hc)) as (l1 & sp & E1 & F2 & _).
  destruct (Forall2_nth_ex _ _ _ _ _ F2 Hc) as (c1 & N1 & Ok1).
  rewrite E1, nth_error_app1 in N by (apply nth_error_Some; congruence). rewrite N1 in N. inversion N; subst.
  apply ctx_ok_id; auto.
Qed.
Print Assumptions C12_retired_only_when_finished.

(* ... true once retired: after the erase its id is not scheduled any more ... *)
Theorem C12_scriptdone_true_once_retired : forall b1 b2 r i c r2 v,
  visit_ctx b1 b2 r i = Ok (REmpty, r2, v) -> nth_error (r_ctxs r) i = Some c -> wf_ids r ->
  ~ In (c_id c) (ids (retire r2 i)) /\ wf_ids (retire r2 i) /\ c_id c < r_next_id (retire r2 i).
Proof.
  intros b1 b2 r i c r2 v V Hc W. destruct (visit_ids _ _ _ _ _ _ _ _ V Hc W) as (_ & _ & sp & E2 & Fr & Nd & Le & W2).
  assert (Q : nth_error (ids r2) i = Some (c_id c)).
  { rewrite E2, nth_error_app1 by (unfold ids; rewrite map_length; apply nth_error_Some; congruence).
    unfold ids. rewrite nth_error_map, Hc. reflexivity. }
  split; [|split; [apply wf_ids_retire; auto|]].
  - rewrite retire_ids. apply remove_nth_notin; auto. apply W2.
  - rewrite retire_next_id. destruct W as [_ Lt]. rewrite Forall_forall in Lt.
    assert (In (c_id c) (ids r)) by (unfold ids; apply in_map; eapply nth_error_In; eauto).
    specialize (Lt _ H). lia.
Qed.
Print Assumptions C12_scriptdone_true_once_retired.

(* ... and never again: ids are not reused *)
Theorem C12_retired_id_never_returns : forall b1 b2 r i x r2 v id,
  visit_ctx b1 b2 r i = Ok (x, r2, v) -> i < length (r_ctxs r) -> wf_ids r ->
  ~ In id (ids r) -> id < r_next_id r -> ~ In id (ids r2) /\ id < r_next_id r2.
Proof.
  intros b1 b2 r i x r2 v id V Hi W Nin Lt. destruct (nth_error (r_ctxs r) i) as [c00|] eqn:Hc; [|apply nth_error_None in Hc; lia].
  destruct (visit_ids _ _ _ _ _ _ _ _ V Hc W) as (_ & _ & sp & E2 & Fr & Nd & Le & W2).
  split; [|lia]. rewrite E2, in_app_iff. intros [H|H]; auto. rewrite Forall_forall in Fr. specialize (Fr _ H). lia.
Qed.
Print Assumptions C12_retired_id_never_returns.

(* ------------------------------------------------------------------ terminate *)
Theorem C12_terminate_sets_flag : forall id r c x,
  existsb (fun y => Nat.eqb (c_id y) id) (r_ctxs r) = true -> Nat.eqb id (c_id c) = false ->
  find (fun y => Nat.eqb (c_id y) id) (r_ctxs r) = Some x -> c_terminate x = false ->
  op_unary "terminate" (VScript id) r c =
    Ok (set_ctxs r (map (fun y => if Nat.eqb (c_id y) id then set_terminate y true else y) (r_ctxs r)), c, VNil).
Proof.
  intros id r c x A B C D. cbn. rewrite A, B, C, D. reflexivity.
Qed.
Print Assumptions C12_terminate_sets_flag.

(* the turn of a terminated script: nothing executes, it is reported as finished (and therefore erased) *)
Theorem C12_terminated_turn : forall b1 b2 r i c x r' v,
  visit_ctx b1 b2 r i = Ok (x, r', v) -> nth_error (r_ctxs r) i = Some c -> c_terminate c = true ->
  r_exit_req r = false -> 0 < r_slice r ->
  x = REmpty /\ v_instr v = 0 /\ v_restarts v = 0.
Proof. exact terminated_turn. Qed.
Print Assumptions C12_terminated_turn.

(* terminated_runs_nothing_after_next_point: from any state of the scheduler loop on (start of a pass), a script
   whose terminate flag is up - whatever the other scripts do meanwhile - executes no instruction in any turn it
   gets in this and all later passes ... *)
Theorem C12_terminated_runs_nothing : forall b1 b2 fuel r x x' r' ps,
  start_loop2 b1 b2 fuel r x [] = Ok (x', r', ps) -> r_exit_req r = false -> 0 < r_slice r -> wf_ids r ->
  Forall (Forall (fun v => flagged r (v_id v) -> v_instr v = 0 /\ v_restarts v = 0 /\ v_result v = REmpty)) ps.
Proof.
  intros b1 b2 fuel r x x' r' ps H Ex Sl W. apply start_loop2_loop_run in H.
  destruct (loop_run_terminated (flagged r) _ _ _ _ _ _ _ _ H Ex Sl (term_inv_flagged r W)) as (new & E & F).
  cbn in E. subst. auto.
Qed.
Print Assumptions C12_terminated_runs_nothing.

(* ... and is gone after the first complete pass that starts with the flag up *)
Theorem C12_terminated_removed_by_next_pass : forall b1 b2 fuel r x x' r' log id,
  start_pass2 b1 b2 fuel r 0 x [] = Ok (PassDone2 x' r' log) ->
  r_exit_req r = false -> 0 < r_slice r -> wf_ids r -> flagged r id -> ~ In id (ids r').
Proof.
  intros b1 b2 fuel r x x' r' log id H Ex Sl W Fl.
  destruct (round_robin_pass _ _ _ _ _ _ _ _ H W) as ((spawned & PO & Nd) & PS & _ & _).
  apply start_pass2_pass_run in H.
  destruct (pass_run_terminated (flagged r) _ _ _ _ _ _ _ H Ex Sl (term_inv_flagged r W)) as (new & E & F & _).
  cbn in E. subst new. rewrite PS. intro Hin. apply in_map_iff in Hin. destruct Hin as (v & Ev & Iv).
  apply filter_In in Iv. destruct Iv as [Iv K]. rewrite Forall_forall in F. specialize (F _ Iv).
  rewrite Ev in F. destruct (F Fl) as (_ & _ & R). unfold kept in K. rewrite R in K. discriminate.
Qed.
Print Assumptions C12_terminated_removed_by_next_pass.

(* ------------------------------------------------------------------ isolation *)
(* A turn of script i leaves every other scheduled script exactly as it was (frames, operand stack, local
   variables, suspension), except that its terminate flag may have been raised - whatever the turn executes.
   independent_scripts_commute - "each script's statement order and results are independent of the interleaving
   with scripts it shares no data with" - is proved in part, in the next section (footprints over the namespaces;
   no spawn / terminate / scriptDone, no advancing clock). Proved for every turn: this isolation of the per-script
   state, the fixed order of turns (round robin) and that a script's own instructions run in program order inside
   execute_do. *)
Theorem C12_other_scripts_untouched_partial : forall b1 b2 r i x r' v c0 j c,
  visit_ctx b1 b2 r i = Ok (x, r', v) -> nth_error (r_ctxs r) i = Some c0 ->
  j <> i -> nth_error (r_ctxs r) j = Some c ->
  exists c', nth_error (r_ctxs r') j = Some c' /\ (c' = c \/ c' = set_terminate c true).
Proof.
  intros b1 b2 r i x r' v c0 j c V Hc Hj Hn. destruct (visit_ctx_shape _ _ _ _ _ _ _ _ V Hc) as (_ & _ & Sh).
  pose proof (vs_ctxs _ _ _ (visit_shape_vstep _ _ _ _ _ _ _ _ Sh Hc)) as (l1 & sp & E1 & F2 & _ & O).
  destruct (Forall2_nth_ex _ _ _ _ _ F2 Hn) as (c1 & N1 & _).
  exists c1. split; [rewrite E1, nth_error_app1; auto; apply nth_error_Some; congruence|].
  apply (O j c c1 Hj Hn N1).
Qed.
Print Assumptions C12_other_scripts_untouched_partial.

(* ------------------------------------------------------------------ independent turns commute *)
(* FULL STATEMENT (isolation clause of C12): two scheduled scripts that touch disjoint state can have their turns swapped
   without changing either script's trace or the final machine.
   PROVED (C12_independent_turns_commute_partial): for the scheduler turn visit_ctx of the model, scripts i <> j, from a machine
   r, with the independence predicate spelled out as
     solo_turn .. r i Ri Wi xi ri vi : the turn of i taken ALONE from r returns (xi, ri, vi), where
        visit_ok b1 Ri Wi r i = true  (executable: it runs the turn and checks every instruction it executes) - globals are
           read only at keys of Ri and assigned only at keys of Wi (key = namespace, lower-cased name; GETVARIABLE, ASSIGNTO,
           getVariable, setVariable, isNil "name"), and no instruction is spawn, terminate or scriptDone;
        quiet r ri       - no exit request, no error state left, no script id handed out;
        nss_effect Wi r ri - the namespaces changed only by new values for EXISTING variables of Wi;
     the same for j, and independent Ri Wi Rj Wj = true: Wj is disjoint from Ri and Wi, Wi from Rj;
     r_tick r = 0 (no virtual time passes inside the turns) and the log of r is empty (the log is write-only:
     C12_log_is_write_only, so this is no restriction);
   then i after j does exactly what i does alone (same result, same visit record: instructions executed, restarts) and j after
   i does what j does alone, and the two final machines are equal in every field except r_active (the script that ran last)
   and the log, which holds i's lines and j's lines in the one or the other order (shared_state m1 = shared_state m2).
   MISSING for the full statement: (1) turns that CREATE a global are outside THIS theorem (the model's namespaces are association
   lists, the position of a new entry depends on the order of creation) - they are covered, up to the order of entries, by
   C12_independent_turns_commute_creating_partial / C12_round_order_irrelevant_creating_partial below; (2) turns that spawn (the
   children's position in the scheduler's list and their ids depend on the order:
   refuted as stated: C12_spawning_turns_commute_refuted); (3) a clock that advances during the turns (wake-up times of sleeping scripts
   then depend on the order); (4) C12_round_order_irrelevant_partial lifts the statement to any number of turns in any order, as a sequence of
   scheduler turns (visit_ctx); the pass loop start_pass2 additionally erases finished contexts, which shifts the indices of the
   later ones - that bookkeeping is not lifted. *)
Theorem C12_independent_turns_commute_partial : forall b1 b2 r i j Ri Wi Rj Wj xi ri vi xj rj vj,
  i <> j -> r_out r = [] -> r_tick r = 0%Z ->
  solo_turn b1 b2 r i Ri Wi xi ri vi -> solo_turn b1 b2 r j Rj Wj xj rj vj ->
  independent Ri Wi Rj Wj = true ->
  exists m1 m2,
    visit_ctx b1 b2 rj i = Ok (xi, m1, vi) /\
    visit_ctx b1 b2 ri j = Ok (xj, m2, vj) /\
    shared_state m1 = shared_state m2 /\
    r_out m1 = r_out ri ++ r_out rj /\ r_out m2 = r_out rj ++ r_out ri.
Proof. exact independent_turns_commute. Qed.
Print Assumptions C12_independent_turns_commute_partial.

(* the log is write-only: a turn from a machine whose log already holds `old` does what it does from the empty log, with
   `old` underneath (tr_log old appends at the old end of the log) *)
Theorem C12_log_is_write_only : forall b1 b2 R W r i old,
  i < length (r_ctxs r) -> visit_ok b1 R W r i = true ->
  visit_ctx b1 b2 (app (tr_log old) r) i = map_v (app (tr_log old)) (visit_ctx b1 b2 r i).
Proof. exact log_is_write_only. Qed.
Print Assumptions C12_log_is_write_only.

(* ... so the commutation holds from a machine with any log (the solo turns are taken from the machine with its log emptied):
   both orders exist, each script does what it does alone, the final machines agree up to r_active and the order of the two
   scripts' log lines on top of the old log *)
Theorem C12_independent_turns_commute_any_log_partial : forall b1 b2 r i j Ri Wi Rj Wj xi ri vi xj rj vj,
  i <> j -> r_tick r = 0%Z ->
  solo_turn b1 b2 (set_out r []) i Ri Wi xi ri vi -> solo_turn b1 b2 (set_out r []) j Rj Wj xj rj vj ->
  independent Ri Wi Rj Wj = true ->
  exists ri' rj' m1 m2,
    visit_ctx b1 b2 r i = Ok (xi, ri', vi) /\ visit_ctx b1 b2 r j = Ok (xj, rj', vj) /\
    visit_ctx b1 b2 rj' i = Ok (xi, m1, vi) /\ visit_ctx b1 b2 ri' j = Ok (xj, m2, vj) /\
    shared_state m1 = shared_state m2 /\
    r_out m1 = r_out ri ++ r_out rj ++ r_out r /\ r_out m2 = r_out rj ++ r_out ri ++ r_out r.
Proof. exact independent_turns_commute_any_log. Qed.
Print Assumptions C12_independent_turns_commute_any_log_partial.

(* Whole rounds: any number of turns of different scripts that are pairwise independent (all_independent: different indices,
   independent footprints), each a solo_turn from r, can be taken in ANY order (Permutation): every order runs through, every
   script does in it exactly what it does alone (runs: same result and visit record), and the final machines agree on everything
   but the order of the log lines and r_active. *)
Theorem C12_round_order_irrelevant_partial : forall b1 b2 r us us',
  r_out r = [] -> r_tick r = 0%Z ->
  Forall (solo b1 b2 r) us -> all_independent us -> Permutation.Permutation us us' ->
  exists m m', runs b1 b2 r us m /\ runs b1 b2 r us' m' /\ shared_state m = shared_state m'.
Proof.
  intros b1 b2 r us us' O0 T0 So AI P.
  assert (AI' : all_independent us') by (eapply all_independent_perm; eauto).
  assert (So' : Forall (solo b1 b2 r) us') by (eapply Permutation.Permutation_Forall; eauto).
  assert (E0 : set_active r None = set_active (app tr_none r) None) by (rewrite app_tr_none; reflexivity).
  destruct (runs_effs b1 b2 r O0 T0 us tr_none r E0 So AI (fun u _ => tr_none_ok _ _ _)) as (m & Rm & Em).
  destruct (runs_effs b1 b2 r O0 T0 us' tr_none r E0 So' AI' (fun u _ => tr_none_ok _ _ _)) as (m' & Rm' & Em').
  exists m, m'. split; [exact Rm|]. split; [exact Rm'|].
  rewrite (shared_state_active _ _ Em), (shared_state_active _ _ Em'). apply effs_perm; auto.
Qed.
Print Assumptions C12_round_order_irrelevant_partial.
Example ex_round_hypotheses : Forall (solo false false ex_machine) [ex_ta; ex_tb] /\ all_independent [ex_ta; ex_tb].
Proof. exact ex_round. Qed.

(* the restriction "no spawn" is necessary: two scripts that each spawn a child - the children's places in the scheduler's
   list follow the order of the parents' turns, so the final machines differ (as in runtime.cpp: spawn appends to m_contexts;
   the children's turns in the next pass come in that order) *)
Theorem C12_spawning_turns_commute_refuted :
  exists m1 m2, two_turns sp_machine 0 1 = Some m1 /\ two_turns sp_machine 1 0 = Some m2 /\
                shared_state m1 <> shared_state m2.
Proof.
  destruct (two_turns sp_machine 0 1) as [m1|] eqn:E1; [|vm_compute in E1; discriminate].
  destruct (two_turns sp_machine 1 0) as [m2|] eqn:E2; [|vm_compute in E2; discriminate].
  exists m1, m2. repeat split. intro H.
  assert (C : child_codes (shared_state m1) = child_codes (shared_state m2)) by (rewrite H; reflexivity).
  assert (C1 : option_map (fun m => child_codes (shared_state m)) (two_turns sp_machine 0 1) =
               option_map (fun m => child_codes (shared_state m)) (two_turns sp_machine 1 0)) by (rewrite E1, E2; cbn [option_map]; rewrite C; reflexivity).
  vm_compute in C1. discriminate.
Qed.
Print Assumptions C12_spawning_turns_commute_refuted.

(* the frame property behind it: a change of the machine that the turn of script i does not look at - another script's
   context, log lines at the old end of the log, globals outside its footprints (tr_ok) - commutes with the whole turn *)
Theorem C12_frame_turn : forall T i R W b1 b2 r,
  tr_ok T i R W -> i < length (r_ctxs r) -> visit_ok b1 R W r i = true ->
  visit_ctx b1 b2 (app T r) i = map_v (app T) (visit_ctx b1 b2 r i).
Proof. exact app_visit_ctx. Qed.
Print Assumptions C12_frame_turn.

(* ... in particular a turn without spawn / terminate / scriptDone leaves every other script EXACTLY as it is *)
Theorem C12_turn_leaves_others : forall b1 b2 R W r i x ri v k ck,
  visit_ctx b1 b2 r i = Ok (x, ri, v) -> i < length (r_ctxs r) -> visit_ok b1 R W r i = true ->
  k <> i -> nth_error (r_ctxs r) k = Some ck -> nth_error (r_ctxs ri) k = Some ck.
Proof. exact turn_leaves_others. Qed.
Print Assumptions C12_turn_leaves_others.

(* non-vacuity: two spawned scripts `ga = ga + 1; diag_log ga` and `gb = gb + 2; diag_log gb` on a machine where both globals
   exist satisfy every hypothesis (ex_solo_a, ex_solo_b, ex_independent_turns), both log and both change the namespaces *)
Example ex_commute :
  exists m1 m2,
    visit_ctx false false (snd (fst (ex_turn 1))) 0 = Ok (fst (fst (ex_turn 0)), m1, snd (ex_turn 0)) /\
    visit_ctx false false (snd (fst (ex_turn 0))) 1 = Ok (fst (fst (ex_turn 1)), m2, snd (ex_turn 1)) /\
    shared_state m1 = shared_state m2 /\
    r_out m1 = r_out (snd (fst (ex_turn 0))) ++ r_out (snd (fst (ex_turn 1))) /\
    r_out m2 = r_out (snd (fst (ex_turn 1))) ++ r_out (snd (fst (ex_turn 0))).
Proof.
  apply (independent_turns_commute false false ex_machine 0 1 ex_Ka ex_Ka ex_Kb ex_Kb);
    [discriminate | reflexivity | reflexivity | exact ex_solo_a | exact ex_solo_b | reflexivity].
Qed.
Example ex_hypotheses_hold :
  independent ex_Ka ex_Ka ex_Kb ex_Kb = true /\ r_out ex_machine = [] /\ r_tick ex_machine = 0%Z /\
  r_out (snd (fst (ex_turn 0))) <> [] /\ r_out (snd (fst (ex_turn 1))) <> [] /\
  r_nss (snd (fst (ex_turn 0))) <> r_nss ex_machine /\ r_nss (snd (fst (ex_turn 1))) <> r_nss ex_machine.
Proof. exact ex_independent_turns. Qed.

(* ------------------------------------------------------------------ independent turns commute: turns that CREATE globals *)
(* The model keeps the namespaces as association lists: a global that does not exist yet is appended, so the position of an
   entry records the order of creation - an artefact of the model (the implementation's map has no such order, and no modelled
   operator enumerates a namespace: r_nss is read by ns_get and written by ns_set only). nss_eq identifies two namespace lists that
   are the same finite map: every (namespace, variable) has the same value or is undefined in both, and the same namespaces are
   defined; req is nss_eq on r_nss and equality on every other field of the machine. *)

(* nss_eq / req are equivalence relations, an assignment respects nss_eq ... *)
Theorem C12_req_is_equivalence :
  (forall r, req r r) /\ (forall r r', req r r' -> req r' r) /\ (forall a b c, req a b -> req b c -> req a c) /\
  (forall a b ns n v, nss_eq a b -> nss_eq (raw_set a ns n v) (raw_set b ns n v)).
Proof. exact (conj req_refl (conj req_sym (conj req_trans nss_eq_set))). Qed.
Print Assumptions C12_req_is_equivalence.

(* ... and the order of the entries is the only freedom it leaves: association lists without repeated keys (all that assoc_set builds
   from the empty list) with the same lookups are permutations of each other *)
Theorem C12_same_lookups_is_reordering : forall (l l':list (string * value)),
  NoDup (map fst l) -> NoDup (map fst l') -> (forall k, assoc k l = assoc k l') -> Permutation.Permutation l l'.
Proof. exact (@same_lookups_permutation value). Qed.
Print Assumptions C12_same_lookups_is_reordering.

(* (1) req is a congruence for a scheduler turn: equivalent machines take equivalent turns - the same result, the same visit record
   (instructions executed, restarts), and machines afterwards that are again equal in every field (contexts, log, clock, error
   state, ids) except the order of namespace entries. The turn may read, assign and CREATE any globals: R and W only have to list
   them (any lists with visit_ok .. = true).
   FULL STATEMENT: the same without the hypothesis visit_ok (which also excludes turns that execute spawn, terminate or scriptDone):
   proved as C12_equivalent_machines_take_equivalent_turns below, of which this is a special case. *)
Theorem C12_equivalent_machines_take_equivalent_turns_partial : forall b1 b2 R W r r' i x r1 v,
  req r r' -> i < length (r_ctxs r) -> visit_ok b1 R W r i = true ->
  visit_ctx b1 b2 r i = Ok (x, r1, v) ->
  exists r1', visit_ctx b1 b2 r' i = Ok (x, r1', v) /\ req r1 r1'.
Proof. intros b1 b2 R W r r' i x r1 v Q Hi _. exact (req_turn_congruence_all b1 b2 r r' i x r1 v Q Hi). Qed.
Print Assumptions C12_equivalent_machines_take_equivalent_turns_partial.

(* (1) at full strength: req is a congruence for EVERY scheduler turn - whatever the turn executes (globals read, assigned or
   created, spawn, terminate, scriptDone, sleep, errors and their handlers, the time limit): equivalent machines take equivalent
   turns, with the same result and the same visit record, and the machines afterwards are again equal in every field (contexts
   including spawned ones and raised terminate flags, next script id, log, clock, error state) except the order of namespace
   entries. Every instruction that touches a global has a one-key footprint (VM/C12GlobalsAll.v: keyof_u, keyof_b); spawn,
   terminate and scriptDone do not touch the namespaces and are proved directly. *)
Theorem C12_equivalent_machines_take_equivalent_turns : forall b1 b2 r r' i x r1 v,
  req r r' -> i < length (r_ctxs r) ->
  visit_ctx b1 b2 r i = Ok (x, r1, v) ->
  exists r1', visit_ctx b1 b2 r' i = Ok (x, r1', v) /\ req r1 r1'.
Proof. exact req_turn_congruence_all. Qed.
Print Assumptions C12_equivalent_machines_take_equivalent_turns.

(* ... and a turn that leaves the modelled fragment, hangs or hits undefined behaviour does exactly the same from the equivalent machine *)
Theorem C12_equivalent_machines_fail_alike : forall b1 b2 r r' i,
  req r r' -> i < length (r_ctxs r) ->
  match visit_ctx b1 b2 r i with Ok _ => True | x => visit_ctx b1 b2 r' i = x end.
Proof. exact req_turn_congruence_fail. Qed.
Print Assumptions C12_equivalent_machines_fail_alike.

(* non-vacuity: the spawning machine of C12_spawning_turns_commute_refuted with two globals, entered in the one and in the other order:
   the machines are req and not equal, the turn of script 0 (which spawns) comes back with Ok from both *)
Definition ab_nss : list (string * list (string * value)) := [(default_ns, [("a"%string, VNum 1); ("b"%string, VNum 2)])].
Definition ba_nss : list (string * list (string * value)) := [(default_ns, [("b"%string, VNum 2); ("a"%string, VNum 1)])].
Example ex_req_reordered : req (set_nss sp_machine ab_nss) (set_nss sp_machine ba_nss) /\ set_nss sp_machine ab_nss <> set_nss sp_machine ba_nss /\
  0 < length (r_ctxs (set_nss sp_machine ab_nss)) /\
  match visit_ctx false false (set_nss sp_machine ab_nss) 0 with Ok (_, r1, _) => length (r_ctxs r1) = 3 | _ => False end.
Proof.
  split; [|split; [|split]].
  - split; [reflexivity|]. split.
    + intros ns n. unfold raw_get, ab_nss, ba_nss. cbn [assoc r_nss set_nss rt_with].
      destruct (String.eqb ns default_ns); [|reflexivity]. cbn [assoc].
      destruct (String.eqb n "a") eqn:A; destruct (String.eqb n "b") eqn:B; try reflexivity.
      apply String.eqb_eq in A. apply String.eqb_eq in B. subst n. discriminate.
    + intro ns. unfold ns_def, ab_nss, ba_nss. cbn [assoc r_nss set_nss rt_with]. destruct (String.eqb ns default_ns); reflexivity.
  - intro H. apply (f_equal r_nss) in H. vm_compute in H. discriminate.
  - vm_compute. repeat constructor.
  - vm_compute. reflexivity.
Qed.

(* the frame property up to the order of entries: a change G of the namespaces that the script cannot observe (sem_ok G R W: globals
   of R read the same after G, an assignment to a global of W commutes with G up to nss_eq - it may CREATE the global -, G respects
   nss_eq) commutes with the whole turn: from r with namespaces a' ~ G (r_nss r) the turn returns the same result and visit record
   as from r, and the machine it returns from r with its namespaces replaced by some a1 ~ G (the namespaces it leaves from r)
   (rres_v; cst a = "replace the namespaces by a"). The replayed writes of another script (wr Wj ..) are such a G when Wj is disjoint
   from R and W (sem_ok_wr). *)
Theorem C12_frame_turn_up_to_order : forall G R W i b1 b2 r a',
  sem_ok G R W -> relN G r a' -> i < length (r_ctxs r) -> visit_ok b1 R W r i = true ->
  rres_v G (visit_ctx b1 b2 (app (cst a') r) i) (visit_ctx b1 b2 r i).
Proof. exact turn_up_to_order. Qed.
Print Assumptions C12_frame_turn_up_to_order.

(* (2) two turns of different scripts with independent footprints commute up to req - each may CREATE globals (of its own W).
   solo_turn_c is solo_turn with nss_effect_c in place of nss_effect: up to the order of entries, the namespaces after the turn
   taken alone are those before it with the turn's final values written at the keys of W (wr: overwritten where the variable
   exists, created where it does not). Conclusion as in C12_independent_turns_commute_partial with req (shared_state m1)
   (shared_state m2) in place of equality: i after j does exactly what i does alone, j after i what j does alone, the final machines
   are equal in every field except r_active, the order of the two scripts' log lines and the ORDER of the namespace entries.
   Still MISSING for the full isolation clause: spawn (refuted as stated: C12_spawning_turns_commute_refuted - the children's places in the
   scheduler's list and their ids follow the order of the parents' turns; a statement up to a renaming of script ids and a permutation
   of the scheduler's list behind the two scripts is not attempted), a clock that advances during the turns, the erase bookkeeping
   of start_pass2. *)
Theorem C12_independent_turns_commute_creating_partial : forall b1 b2 r i j Ri Wi Rj Wj xi ri vi xj rj vj,
  i <> j -> r_out r = [] -> r_tick r = 0%Z ->
  solo_turn_c b1 b2 r i Ri Wi xi ri vi -> solo_turn_c b1 b2 r j Rj Wj xj rj vj ->
  independent Ri Wi Rj Wj = true ->
  exists m1 m2,
    visit_ctx b1 b2 rj i = Ok (xi, m1, vi) /\
    visit_ctx b1 b2 ri j = Ok (xj, m2, vj) /\
    req (shared_state m1) (shared_state m2) /\
    r_out m1 = r_out ri ++ r_out rj /\ r_out m2 = r_out rj ++ r_out ri.
Proof. exact independent_turns_commute_c. Qed.
Print Assumptions C12_independent_turns_commute_creating_partial.

(* whole rounds: any number of pairwise independent turns, each a solo_turn_c from r (each may create globals), can be taken in ANY
   order: every order runs through, every script does in it exactly what it does alone, the final machines agree up to req on
   everything but the order of the log lines and r_active *)
Theorem C12_round_order_irrelevant_creating_partial : forall b1 b2 r us us',
  r_out r = [] -> r_tick r = 0%Z ->
  Forall (solo_c b1 b2 r) us -> all_independent us -> Permutation.Permutation us us' ->
  exists m m', runs b1 b2 r us m /\ runs b1 b2 r us' m' /\ req (shared_state m) (shared_state m').
Proof. exact round_order_irrelevant_c. Qed.
Print Assumptions C12_round_order_irrelevant_creating_partial.

(* non-vacuity: two spawned scripts `ga = 1; diag_log ga` and `gb = 2; diag_log gb` on a machine WITHOUT any global (cr_machine):
   each creates its variable; the hypotheses hold (cr_solo_a, cr_solo_b, cr_facts), and the two orders end with namespaces that
   differ in the order of their entries ([ga; gb] against [gb; ga]) - the equality of C12_independent_turns_commute_partial fails
   for this pair, req holds *)
Example ex_commute_creating :
  exists m1 m2,
    visit_ctx false false (snd (fst (cr_turn 1))) 0 = Ok (fst (fst (cr_turn 0)), m1, snd (cr_turn 0)) /\
    visit_ctx false false (snd (fst (cr_turn 0))) 1 = Ok (fst (fst (cr_turn 1)), m2, snd (cr_turn 1)) /\
    req (shared_state m1) (shared_state m2) /\
    r_out m1 = r_out (snd (fst (cr_turn 0))) ++ r_out (snd (fst (cr_turn 1))) /\
    r_out m2 = r_out (snd (fst (cr_turn 1))) ++ r_out (snd (fst (cr_turn 0))).
Proof.
  apply (independent_turns_commute_c false false cr_machine 0 1 ex_Ka ex_Ka ex_Kb ex_Kb);
    [discriminate | reflexivity | reflexivity | exact cr_solo_a | exact cr_solo_b | reflexivity].
Qed.
Example ex_creating_hypotheses_hold :
  independent ex_Ka ex_Ka ex_Kb ex_Kb = true /\ r_out cr_machine = [] /\ r_tick cr_machine = 0%Z /\ r_nss cr_machine = [] /\
  r_out (snd (fst (cr_turn 0))) <> [] /\ r_out (snd (fst (cr_turn 1))) <> [] /\
  r_nss (snd (fst (cr_turn 0))) = [(default_ns, [("ga"%string, VNum 1)])] /\
  r_nss (snd (fst (cr_turn 1))) = [(default_ns, [("gb"%string, VNum 2)])] /\
  cr_both 0 1 = [(default_ns, [("ga"%string, VNum 1); ("gb"%string, VNum 2)])] /\
  cr_both 1 0 = [(default_ns, [("gb"%string, VNum 2); ("ga"%string, VNum 1)])].
Proof. exact cr_facts. Qed.
Example ex_creating_round_hypotheses : Forall (solo_c false false cr_machine) [cr_ta; cr_tb] /\ all_independent [cr_ta; cr_tb].
Proof. exact cr_round. Qed.

(* ------------------------------------------------------------------ non-vacuity *)
(* three spawned scripts of 2, 5 and 3 statements under a slice of 4 instructions: the passes of the model *)
Definition marks (s:string) (n:nat) : list stmt :=
  map (fun k => SExpr (EUnary "diag_log" (EStr (append s (show_nat k))))) (seq 1 n).
Definition prog_three : list stmt :=
  [SExpr (EBinary "spawn" (ENum 0) (ECode (marks "a" 2)));
   SExpr (EBinary "spawn" (ENum 0) (ECode (marks "b" 5)));
   SExpr (EBinary "spawn" (ENum 0) (ECode (marks "c" 3)));
   SExpr (ENum 0)].
Definition machine3 : rt := load (create_rt [] 0 0 10000 4) (compile_block prog_three).
Example ex_wf : wf_ids machine3.
Proof. split; vm_compute; repeat constructor; intros []. Qed.
Example ex_passes :
  match execute2 AStart machine3 with
  | Ok (x, r', ps) => show_passes ps = "0:4+0,1:4+0;0:4+0,1:1+0,2:4+0;0:4+0,2:4+0,3:4+0;0:1+0,2:4+0,3:4+0;2:2+0,3:0+0"%string
  | _ => False end.
Proof. vm_compute. reflexivity. Qed.
(* the slice of the implementation (Gen.Consts, read from runtime.cpp) is a legal slice *)
Example ex_slice_pos : 0 < slice_length.
Proof. vm_compute. repeat constructor. Qed.

(* C05 - the operand stack is partitioned per scope; a scope yields exactly one value.
   The longer proofs are in VM/C05Proofs.v and VM/C05Regions.v. The theorems are about the VM model
   VM/VmDefs.v + VM/VmExec.v, tied to src/runtime/{runtime.cpp,frame.h,context.h}, src/opcodes/*.h and the
   control-structure operators by the step-level correspondence of checks/C05.py. *)
From Coq Require Import String Ascii.
From Coq Require Import ZArith List Bool.
From SqfVerif Require Import Gen.DiagCodes Gen.Overloads VM.VmDefs VM.VmExec VM.VmFacts VM.OpEffect VM.C05Proofs VM.C05Regions VM.C05ExitValue.
Import ListNotations.
Local Open Scope string_scope.
Local Open Scope list_scope.

(* The partition invariant: along every context's frame list (top first) the bases never increase and the top
   base is at most the stack height.  It holds initially, after loading a script, and is preserved by EVERY
   action of the runtime - every instruction, operator, exit behaviour, frame completion, exitWith, breakOut,
   throw, error unwinding, the scheduler's context switches, spawn, terminate, the time limit. *)
Theorem C05_invariant_initial : forall d m t l s code, RInv (load (create_rt d m t l s) code).
Proof. intros. apply load_inv, create_inv. Qed.
Print Assumptions C05_invariant_initial.

Theorem C05_invariant_preserved : forall a r x r', execute a r = Ok (x, r') -> RInv r -> RInv r'.
Proof. exact execute_inv. Qed.
Print Assumptions C05_invariant_preserved.

Theorem C05_invariant_one_pass : forall r it, do_iter r = Ok it -> RInv r -> RInv (rt_of it).
Proof. exact do_iter_inv. Qed.
Print Assumptions C05_invariant_one_pass.

(* hence for every history of loads and actions *)
Inductive op := OLoad (c:code) | OAct (a:action).
Fixpoint run_ops (ops:list op) (r:rt) : res rt :=
  match ops with
  | [] => Ok r
  | OLoad c :: rest => run_ops rest (load r c)
  | OAct a :: rest => match execute a r with Ok (_, r') => run_ops rest r' | Unsupported w => Unsupported w | Hang w => Hang w | UB w => UB w end
  end.
Theorem C05_invariant_reachable : forall ops d m t l s r, run_ops ops (create_rt d m t l s) = Ok r -> RInv r.
Proof.
  intros ops d m t l s. generalize (create_inv d m t l s). generalize (create_rt d m t l s).
  induction ops as [|o ops IH]; intros r0 R0 r H; cbn in H.
  - inversion H; subst; exact R0.
  - destruct o as [c|a].
    + eapply IH; [|exact H]. apply load_inv; exact R0.
    + destruct (execute a r0) as [[x r1]| | |] eqn:E; try discriminate. eapply IH; [|exact H]. eapply execute_inv; eauto.
Qed.
Print Assumptions C05_invariant_reachable.

(* A scope can only consume operands it produced itself: in one pass of the interpreter loop - whatever it does:
   an instruction with any operator, an exit behaviour, completion of the scope, exitWith, breakOut, throw,
   unwinding to an error handler - every operand below the protected height survives, the protected height
   being the base of the current scope before and after the pass (m <= both). *)
Theorem C05_lower_regions_intact : forall r c it c' m, RInv r -> cur r = Some c -> do_iter r = Ok it ->
  cur (rt_of it) = Some c' -> m <= top_base c -> m <= top_base c' -> keep m c c'.
Proof. exact do_iter_regions. Qed.
Print Assumptions C05_lower_regions_intact.

(* A finished scope hands exactly one value to its caller: the top of its region, or nil when the region is
   empty; its own region is gone and the caller's operands are untouched. *)
Theorem C05_completion_exactly_one : forall c1 f g rest, Inv c1 -> c_frames c1 = f :: g :: rest ->
  let c4 := complete false c1 in
  c_frames c4 = g :: rest /\ height c4 = f_base f + 1 /\ below c4 (f_base f) = below c1 (f_base f) /\
  (exists v, c_values c4 = v :: below c1 (f_base f) /\ v = match pop_value c1 with Some (x, _) => x | None => VNil end).
Proof. exact complete_spec. Qed.
Print Assumptions C05_completion_exactly_one.

Theorem C05_completion_is_what_runs : forall r c r1 c1, cur r = Some c -> r_exit_req r = false -> c_suspended c = false ->
  r_state r = StRunning -> c_frames c <> [] -> frame_next frame_fuel r c = Ok (FDone, r1, c1) -> r_err r1 = false ->
  length (c_frames c1) = length (c_frames c) ->
  do_iter r = Ok (Continue (upd_cur r1 (complete (defect r "block_value_dropped") c1))).
Proof.
  intros r c r1 c1 C X S St NE FN ER LEN. unfold do_iter. rewrite X, C, S, St.
  destruct (c_frames c) as [|f0 fs0] eqn:EF; [contradiction|]. rewrite FN. cbn [bindr]. rewrite ER.
  rewrite LEN, Nat.eqb_refl. unfold complete. reflexivity.
Qed.
Print Assumptions C05_completion_is_what_runs.

(* After a statement separator no operand of the finished statement remains. *)
Theorem C05_end_statement_empties_region : forall r c, Inv c -> c_frames c <> [] ->
  exec_instr IEnd r c = Ok (r, clear_values c) /\ height (clear_values c) = top_base (clear_values c).
Proof.
  intros r c I NE. split; [reflexivity|]. destruct (clear_values_spec c I) as (F & L & _). unfold height, top_base. rewrite F, L.
  destruct (c_frames c); [contradiction|reflexivity].
Qed.
Print Assumptions C05_end_statement_empties_region.

(* Loops do not accumulate operands: every restart of an iteration begins with an empty region. *)
Theorem C05_loops_do_not_accumulate : forall b r c br b' r' c', enact b r c = Ok (br, b', r', c') -> Inv c -> c_frames c <> [] ->
  (br = BrSeekStart \/ (exists code, br = BrExchange code /\ exists l m cd bd, b = BWhile l m cd bd)) ->
  height c' = top_base c'.
Proof.
  intros b r c br b' r' c' H I NE Hbr. apply enact_inv in H. destruct H as (c0 & P & _ & C).
  assert (G : C03Defs.restarts br b = true) by (destruct Hbr as [->|(code & -> & l & m & cd & bd & ->)]; reflexivity).
  assert (I0 : Inv c0) by exact (inv_pops _ _ P I).
  assert (NE0 : c_frames c0 <> []) by (rewrite (pops_frames _ _ P); exact NE).
  rewrite G in C. inversion C; subst; apply height_restart_with; auto with inv.
Qed.
Print Assumptions C05_loops_do_not_accumulate.

(* A finished scope yields exactly one value also to the exit behaviour that ends it (count, select, apply, findIf, isNil, the
   condition of while, waitUntil): when the scope's own part of the operand stack is empty - the last statement left no value and a
   separator or the restart of the round had removed everything - the behaviour does exactly what it does on a part that holds nil.
   The value of a block does not depend on how many statements precede its value-less last statement. *)
Theorem C05_exit_behaviour_finds_nil : forall b r c, exit_value_missing r = false -> takes_value b = true ->
  c_frames c <> [] -> height c = top_base c ->
  pop_value c = None /\ pop_value (push_value c VNil) = Some (VNil, c) /\ enact b r c = enact b r (push_value c VNil).
Proof.
  intros b r c SW TV NE H. split; [apply pop_none_of_empty; split; assumption|].
  split; [apply pop_push_of_empty; split; assumption|apply enact_empty_is_nil; [assumption|assumption|split; assumption]].
Qed.
Print Assumptions C05_exit_behaviour_finds_nil.

(* ... and no exit behaviour, on any stack, reports a missing value: what enact adds to the log is at most one diagnostic, and never
   CallstackFoundNoValue (the error that ended the script). *)
Theorem C05_exit_behaviour_never_misses_a_value : forall b r c br b' r' c', exit_value_missing r = false ->
  enact b r c = Ok (br, b', r', c') ->
  exists added, r_out r' = added ++ r_out r /\ ~ In (EDiag (fst d_CallstackFoundNoValue) (snd d_CallstackFoundNoValue)) added.
Proof.
  intros b r c br b' r' c' SW H. apply enact_inv in H. destruct H as (_ & _ & L & _).
  assert (D : forall d, enact_diag r d -> ~ In no_value_event [EDiag (fst d) (snd d)]).
  { intros d [[_ X]|[->|[->|[->| ->]]]] [Q|[]]; [congruence|vm_compute in Q; discriminate Q ..]. }
  destruct L as [|d E|d t r2 E N].
  - exists []. split; [reflexivity|intros []].
  - exists [EDiag (fst d) (snd d)]. split; [apply out_logmsg|exact (D d E)].
  - exists [EDiag (fst d) (snd d)]. split; [|exact (D d E)]. injection N as _ <-. exact (out_logmsg r d).
Qed.
Print Assumptions C05_exit_behaviour_never_misses_a_value.

(* What was wrong before the repairs (defect switches on): a block ending in an assignment yielded no value ... *)
Definition prog_block_value : list stmt :=
  [SAssign "x" (EUnary "call" (ECode [SAssign "a" (ENum 1); SAssign "b" (ENum 2)]))].
Definition final_of (defects:list string) (p:list stmt) : string :=
  run_final (load (create_rt defects 0 0 (100 * 100) 150) (compile_block p)).
Theorem C05_completion_exactly_one_refuted_before_repair :
  final_of ["block_value_dropped"] prog_block_value = "2:3:1:60079,0:60001," /\
  final_of [] prog_block_value = "-1:0:2:60091,".
Proof. split; vm_compute; reflexivity. Qed.
Print Assumptions C05_completion_exactly_one_refuted_before_repair.

(* ... and breakOut left the operands of the abandoned scopes to the enclosing expression:
   diag_log [1, call { scopeName "s"; [2, 7 breakOut "s"] }, 3] *)
Definition prog_breakout : list stmt :=
  [SExpr (EUnary "diag_log" (EArr [ENum 1;
     EUnary "call" (ECode [SExpr (EUnary "scopeName" (EStr "s")); SExpr (EArr [ENum 2; EBinary "breakOut" (ENum 7) (EStr "s")])]);
     ENum 3]))].
Theorem C05_breakout_clears_regions_refuted_before_repair :
  final_of ["breakout_leaks_regions"] prog_breakout <> final_of [] prog_breakout /\
  final_of [] prog_breakout = "-1:0:3:60019,M<[1,7,3]>,3:60095,M<VALUE nil>,".
Proof. split; [vm_compute; discriminate|vm_compute; reflexivity]. Qed.
Print Assumptions C05_breakout_clears_regions_refuted_before_repair.

(* ... and a block of two assignments had no value for the exit behaviour that ends it (switch exit_value_missing = the code before
   context::pop_value_or_nil): on an empty part of the stack every value-taking behaviour except waitUntil - which then looked at
   its round counter first - logged the error-level CallstackFoundNoValue, which ended the script.
   diag_log str (isNil {a = 1; b = 2})   and   diag_log [1, [1, 2] apply {_y = _x}, 3]  (the second round starts on an empty part) *)
Theorem C05_exit_value_missing_before_repair : forall b r c br b' r' c', exit_value_missing r = true -> takes_value b = true ->
  c_frames c <> [] -> height c = top_base c -> (forall n, b <> BWaitUntil n) -> enact b r c = Ok (br, b', r', c') ->
  r_out r' = EDiag (fst d_CallstackFoundNoValue) (snd d_CallstackFoundNoValue) :: r_out r /\ r_err r' = true.
Proof. intros b r c br b' r' c' SW TV NE H NW E. eapply exit_value_missing_logs; try eassumption. split; assumption. Qed.
Print Assumptions C05_exit_value_missing_before_repair.

Definition prog_isnil_two : list stmt :=
  [SExpr (EUnary "diag_log" (EUnary "str" (EUnary "isNil" (ECode [SAssign "a" (ENum 1); SAssign "b" (ENum 2)]))))].
Definition prog_apply_second_round : list stmt :=
  [SExpr (EUnary "diag_log" (EArr [ENum 1; EBinary "apply" (EArr [ENum 1; ENum 2]) (ECode [SAssign "_y" (EVar "_x")]); ENum 3]))].
Theorem C05_exit_behaviour_finds_nil_refuted_before_repair :
  final_of ["exit_value_missing"] prog_isnil_two = "2:3:1:60081,0:60001," /\
  final_of [] prog_isnil_two = "-1:0:3:60019,M<true>,3:60095,M<VALUE nil>," /\
  final_of ["exit_value_missing"] prog_apply_second_round = "2:3:1:60081,0:60001," /\
  final_of [] prog_apply_second_round = "-1:0:3:60019,M<[1,[,],3]>,3:60095,M<VALUE nil>,".
Proof. repeat split; vm_compute; reflexivity. Qed.
Print Assumptions C05_exit_behaviour_finds_nil_refuted_before_repair.

(* non-vacuity: a machine in the middle of [1, call {2; 3}, 4] satisfies the hypotheses *)
Example ex_invariant_nontrivial :
  exists r, run_ops [OLoad (compile_block [SExpr (EArr [ENum 1; EUnary "call" (ECode [SExpr (ENum 2); SExpr (ENum 3)]); ENum 4])]);
                     OAct AAssemblyStep; OAct AAssemblyStep; OAct AAssemblyStep; OAct AAssemblyStep]
                    (create_rt [] 0 0 (100 * 100) 150) = Ok r /\
            match r_ctxs r with c :: _ => length (c_frames c) = 2 /\ top_base c = 1 | [] => False end.
Proof. eexists. split; [vm_compute; reflexivity|vm_compute; auto]. Qed.

(* non-vacuity of C05_exit_behaviour_finds_nil: an isNil scope above two pending operands, its own part of the stack empty *)
Example ex_exit_value_nontrivial :
  let f := {| f_code := []; f_pos := 1; f_exit := Some BIsNil; f_err := None; f_vars := []; f_ns := "missionnamespace";
              f_bubble := true; f_die := false; f_base := 2; f_scope := "" |} in
  let c := {| c_frames := [f]; c_values := [VNum 1; VNum 2]; c_can_suspend := false; c_suspended := false; c_wakeup := 0%Z;
              c_weak := false; c_terminate := false; c_id := 0 |} in
  let r := create_rt [] 0 0 (100 * 100) 150 in
  exit_value_missing r = false /\ takes_value BIsNil = true /\ c_frames c <> [] /\ height c = top_base c /\
  enact BIsNil r c = Ok (BrOk, BIsNil, r, push_value c (VBool true)).
Proof. cbv zeta. repeat split; try (vm_compute; reflexivity). discriminate. Qed.
